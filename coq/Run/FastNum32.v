(** * FastNum32: the binary32 instance with the rounding step done by primitive operations.

    [NumF32] (Model/NumF32.v) rounds every result to binary32 through Flocq's [binary_normalize] at (24, 128):
    under [vm_compute] about 1000 times the cost of the operation itself.  [r32fast] computes the same rounding with five
    primitive operations:

      for |x| < 2^128 - 2^103, with  2^(e-1) <= |x| < 2^e  and  k = max (e - 24, -149)  (the binary32 quantum at x):
        M = 1.5 * 2^(k + 52);   r = (x + M) - M
      [x + M] lies in the binade [2^(k+52), 2^(k+53)) whose binary64 quantum is exactly 2^k, so the binary64 addition
      (round to nearest, ties to even; M / 2^k is even) IS the rounding of x to a multiple of 2^k, ties to even, and the
      subtraction is exact;  r = 0 keeps the sign of x ([x * 0]);  |x| >= 2^128 - 2^103 (the midpoint above the largest
      binary32 number, which ties to the even 2^128) overflows to the infinity of the sign of x;  NaN stays NaN.

    [r32fast = r32] is PROVED for every argument in Run/FastNum32Proof.v ([r32fast_eq], through Flocq's view of primitive
    floats), hence [NumF32fast = NumF32] ([NumF32fast_eq] there; here [NumF32fast_eq_of_r32] reduces the instance equality
    to that one hypothesis): what the f32 runners execute IS the [NumF32] model.  This file is what the generated case files
    load (no proof scripts, no real numbers); it also keeps the kernel-checked regression [r32fast_agrees_on_sample]:
    bit-for-bit agreement of the two roundings on 105 605 structured arguments -- every binary exponent from 2^-1080 to 2^1031
    (binary64 subnormals, the binary32 subnormal range, the overflow threshold, beyond), times 25 significands built around the
    24-bit rounding boundary (exact binary32 values, exact ties with even / odd lower neighbour, ties +- one binary64 ulp,
    all-ones, alternating patterns), both signs, plus the two zeros, the two infinities and NaN.
    [next_up] / [next_down] stay the reference ones (Flocq's [Bsucc] / [Bpred]); the integer literals are [NumF32]'s,
    memoised like those of Run/FastNum.v ([FofZ32_fast_eq]).  [NumF32memo] is the reference instance with the memoised
    literals only (slow rounding), for cross-checks (module [Meshf32ref] of Run/Mesh.v). *)
From Coq Require Import ZArith Floats Bool List Uint63 FunctionalExtensionality.
From G3 Require Import Model.Num Model.NumF Model.NumF32 Run.FastNum.
Import ListNotations.
Local Open Scope float_scope.
Local Open Scope bool_scope.

Definition r32fast (x : float) : float :=
  if 0x1.ffffffp127 <=? abs x then (if x <? 0 then neg_infinity else infinity) else
  let e := snd (frshiftexp x) in                                      (* mag x + 2101 *)
  let ee := if (e <? 1976)%uint63 then 1976%uint63 else e in            (* max (mag x) (-125) + 2101 *)
  let M := ldshiftexp 0x1.8p0 (ee + 28)%uint63 in                      (* 1.5 * 2^(max (mag x) (-125) + 28) *)
  let r := (x + M) - M in
  if r =? 0 then x * 0 else r.

(** bit-level equality of two primitive floats *)
Definition same_bits (a b : float) : bool :=
  match Prim2SF a, Prim2SF b with
  | S754_zero s, S754_zero t => Bool.eqb s t
  | S754_infinity s, S754_infinity t => Bool.eqb s t
  | S754_nan, S754_nan => true
  | S754_finite s m e, S754_finite t n f => Bool.eqb s t && Pos.eqb m n && Z.eqb e f
  | _, _ => false
  end.

Definition sample_significands : list float :=
  [1; 0x1.000001p0; 0x1.000002p0; 0x1.000003p0; 0x1.0000010000001p0; 0x1.0000030000001p0; 0x1.000000fffffffp0;
   0x1.000002fffffffp0; 0x1.fffffep0; 0x1.ffffffp0; 0x1.fffffefffffffp0; 0x1.ffffff0000001p0; 0x1.fffffffffffffp0;
   0x1.5555555555555p0; 0x1.aaaaaaaaaaaaap0; 0x1.234567p0; 0x1.2345678p0; 0x1.23456789abcdep0; 0x1.8p0; 0x1.c000008p0;
   0x1.000001fffffffp0; 0x1.0000020000001p0; 0x1.7ffffffffffffp0; 0x1.0000008p0; 0x1.0000018000001p0].
Definition sample_exponents : list Z := map (fun i => (Z.of_nat i - 1080)%Z) (seq 0 2112).
Definition agrees (x : float) : bool := same_bits (r32fast x) (r32 x).
Definition r32fast_sample_check : bool :=
  forallb (fun e => forallb (fun m => let v := m * Z.ldexp 1 e in agrees v && agrees (- v)) sample_significands) sample_exponents
  && forallb agrees [0; -0; infinity; neg_infinity; nan].

Example r32fast_agrees_on_sample : r32fast_sample_check = true.
Proof. vm_compute. reflexivity. Qed.

(** the integer literals of [NumF32], memoised: EQUAL to [fun z => r32 (FofZ z)] *)
Definition FofZ32_fast (z : Z) : float :=
  if Z.eqb z 100000 then 100000 else
  if Z.eqb z 100 then 100 else
  if Z.eqb z 1 then 1 else
  if Z.eqb z 0 then 0 else
  if Z.eqb z 2 then 2 else
  if Z.eqb z 1000 then 1000 else
  if Z.eqb z 3 then 3 else
  if Z.eqb z 4 then 4 else
  if Z.eqb z 10 then 10 else
  if Z.eqb z 180 then 180 else
  if Z.eqb z 360 then 360 else
  if Z.eqb z 10000000 then 10000000 else
  if Z.eqb z 1000000 then 1000000 else
  if Z.eqb z 100000000 then 100000000 else
  if Z.eqb z 1000000000 then 1000000000 else
  if Z.eqb z 10000000000 then 10000000000 else
  r32 (FofZ z).

Lemma FofZ32_fast_eq : forall z, FofZ32_fast z = r32 (FofZ z).
Proof.
  intros z. unfold FofZ32_fast.
  repeat match goal with
         | |- (if Z.eqb z ?k then _ else _) = _ =>
           destruct (Z.eqb_spec z k) as [->|_]; [vm_compute; reflexivity|]
         end.
  reflexivity.
Qed.

(** [NumF32] with the memoised literals only: EQUAL to [NumF32] (the reference instance, faster constants) *)
Definition NumF32memo : Num float := {|
  nadd := fun a b => r32 (a + b); nsub := fun a b => r32 (a - b);
  nmul := fun a b => r32 (a * b); ndiv := fun a b => r32 (a / b);
  nneg := PrimFloat.opp; nabs := PrimFloat.abs; nsqrt := fun a => r32 (PrimFloat.sqrt a);
  nltb := PrimFloat.ltb; nleb := PrimFloat.leb; neqb := PrimFloat.eqb;
  nofZ := FofZ32_fast; neps := 0x1p-23; nmaxf := 0x1.fffffep127; ninf := infinity;
  nnext_up := next_up32; nnext_dn := next_dn32; nis_nan := PrimFloat.is_nan;
  nsin := fun x => r32 (Fsin x); ncos := fun x => r32 (Fcos x); ntan := fun x => r32 (Ftan x);
  nacos := fun x => r32 (Facos x); natan2 := fun y x => r32 (Fatan2 y x); npi := r32 Fpi
|}.
Lemma NumF32memo_eq : NumF32memo = NumF32.
Proof.
  unfold NumF32memo, NumF32. f_equal. apply functional_extensionality. exact FofZ32_fast_eq.
Qed.

(** the executed instance: [NumF32] with [r32fast] in the place of [r32] *)
Definition NumF32fast : Num float := {|
  nadd := fun a b => r32fast (a + b); nsub := fun a b => r32fast (a - b);
  nmul := fun a b => r32fast (a * b); ndiv := fun a b => r32fast (a / b);
  nneg := PrimFloat.opp; nabs := PrimFloat.abs; nsqrt := fun a => r32fast (PrimFloat.sqrt a);
  nltb := PrimFloat.ltb; nleb := PrimFloat.leb; neqb := PrimFloat.eqb;
  nofZ := FofZ32_fast; neps := 0x1p-23; nmaxf := 0x1.fffffep127; ninf := infinity;
  nnext_up := next_up32; nnext_dn := next_dn32; nis_nan := PrimFloat.is_nan;
  nsin := fun x => r32fast (Fsin x); ncos := fun x => r32fast (Fcos x); ntan := fun x => r32fast (Ftan x);
  nacos := fun x => r32fast (Facos x); natan2 := fun y x => r32fast (Fatan2 y x); npi := r32 Fpi
|}.

(** the one hypothesis that separates the executed instance from the reference one *)
Lemma NumF32fast_eq_of_r32 : (forall x, r32fast x = r32 x) -> NumF32fast = NumF32.
Proof.
  intros H. rewrite <- NumF32memo_eq. unfold NumF32fast, NumF32memo.
  assert (E : r32fast = r32) by (apply functional_extensionality; exact H).
  rewrite E. reflexivity.
Qed.
