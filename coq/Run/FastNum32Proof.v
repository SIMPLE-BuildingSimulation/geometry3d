(** * FastNum32Proof: [r32fast = r32], hence [NumF32fast = NumF32].

    [r32] (Model/NumF32.v) rounds a binary64 number to binary32 through Flocq's [binary_normalize] at (24, 128) and comes
    back through [SF2Prim]; [r32fast] (Run/FastNum32.v) does it with primitive operations:
      overflow test against 2^128 - 2^103; exponent by [frshiftexp]; M = 1.5 * 2^(k+52) by [ldshiftexp] where
      k = max (mag x) (-125) - 24 is the binary32 quantum exponent at x; r = (x + M) - M; [x * 0] when r is zero.
    The proof goes through Flocq's view of primitive floats ([Flocq.IEEE754.PrimFloat]: [Prim2B], [add_equiv],
    [sub_equiv], [mul_equiv], [frshiftexp_equiv], [ldshiftexp_equiv], comparisons) and the correctness theorems of
    [Bplus], [Bminus], [Bmult], [Bldexp], [Bfrexp], [binary_normalize]:
    - [round_via_magic] (reals): x + 3 * 2^(k+51) lies in the binade [2^(k+52), 2^(k+53)) whose binary64 quantum is 2^k, and
      3 * 2^51 is even, so the binary64 rounding of the sum is the binary32 rounding of x plus the constant;
    - [round_T32], [round32_overflow], [round32_no_overflow]: 2^128 - 2^103 is the tie that rounds (to even) to 2^128;
      at or above it the reference overflows to the infinity of the sign of x, below it the rounded value is < 2^128;
    - [Prim2B_SF2Prim_b32]: [SF2Prim] on the mantissa / exponent pair of a finite binary32 number (not canonical for
      binary64) yields the binary64 number of the same value and sign;
    - [ref_side]: what [B32ofSF] returns; section [Finite]: what each primitive operation of [r32fast] returns;
    - [r32fast_eq]: zeros, infinities and NaN by computation, finite numbers by [B2R_Bsign_inj].
    Axioms: the specification axioms of primitive floats and integers, the classical reals, functional extensionality
    (for the instance equality only). *)
From Coq Require Import ZArith Reals Lia Lra Psatz Bool Floats Uint63.
From Flocq Require Import Core BinarySingleNaN.
Require Flocq.IEEE754.PrimFloat.
From G3 Require Import Model.Num Model.NumF Model.NumF32 Run.FastNum32 Theory.PrimBase.
Module FP := Flocq.IEEE754.PrimFloat.
Open Scope R_scope.

Notation b64 := (binary_float 53 1024).
Notation b32 := (binary_float 24 128).
#[local] Instance prec_gt_0_24 : Prec_gt_0 24. Proof. reflexivity. Qed.
#[local] Instance prec_gt_0_53 : Prec_gt_0 53. Proof. reflexivity. Qed.

Lemma Zfloor_plus_IZR u n : Zfloor (u + IZR n) = (Zfloor u + n)%Z.
Proof.
apply Zfloor_imp. rewrite !plus_IZR.
generalize (Zfloor_lb u) (Zfloor_ub u). simpl. lra.
Qed.
Lemma Zceil_plus_IZR u n : Zceil (u + IZR n) = (Zceil u + n)%Z.
Proof.
unfold Zceil.
replace (- (u + IZR n)) with (- u + IZR (- n)) by (rewrite opp_IZR; ring).
rewrite Zfloor_plus_IZR. ring.
Qed.
Lemma ZnearestE_plus_even u n : Z.even n = true -> ZnearestE (u + IZR n) = (ZnearestE u + n)%Z.
Proof.
intros En. unfold ZnearestE, Znearest.
rewrite Zfloor_plus_IZR, Zceil_plus_IZR.
replace (u + IZR n - IZR (Zfloor u + n)) with (u - IZR (Zfloor u)) by (rewrite plus_IZR; ring).
rewrite Z.even_add, En.
assert (Hb : forall b, Bool.eqb b true = b) by (intros []; reflexivity). rewrite Hb.
destruct Rcompare; try reflexivity. destruct (negb _); reflexivity.
Qed.

Lemma bpow_S k : bpow radix2 (k + 1) = 2 * bpow radix2 k.
Proof. rewrite bpow_plus. change (bpow radix2 1) with 2. ring. Qed.

Lemma three_bpow_lt k : 3 * bpow radix2 (k + 51) < bpow radix2 (k + 53).
Proof.
replace (k + 53)%Z with (k + 51 + 1 + 1)%Z by ring. rewrite !bpow_S. generalize (bpow_gt_0 radix2 (k + 51)). lra.
Qed.

Lemma round_via_magic (rx : R) (k : Z) :
  k = cexp radix2 f32exp rx ->
  Rabs rx < bpow radix2 (k + 24) ->
  round radix2 f64exp ZnearestE (rx + 3 * bpow radix2 (k + 51)) = round radix2 f32exp ZnearestE rx + 3 * bpow radix2 (k + 51).
Proof.
intros Hk Hrx.
assert (Hk149 : (-149 <= k)%Z). { rewrite Hk. unfold cexp, FLT_exp. lia. }
set (P := bpow radix2 (k + 51)).
assert (HP : 0 < P) by apply bpow_gt_0.
assert (H24 : bpow radix2 (k + 24) <= P) by (apply bpow_le; lia).
assert (H52 : bpow radix2 (k + 52) = 2 * P).
{ replace (k + 52)%Z with (k + 51 + 1)%Z by ring. apply bpow_S. }
assert (H53 : bpow radix2 (k + 53) = 4 * P).
{ replace (k + 53)%Z with (k + 52 + 1)%Z by ring. rewrite bpow_S, H52. ring. }
assert (Hy : bpow radix2 (k + 53 - 1) <= rx + 3 * P < bpow radix2 (k + 53)).
{ replace (k + 53 - 1)%Z with (k + 52)%Z by ring. rewrite H52, H53.
  apply Rabs_lt_inv in Hrx. lra. }
assert (Hmag : mag radix2 (rx + 3 * P) = (k + 53)%Z :> Z).
{ apply mag_unique_pos. exact Hy. }
assert (Hc64 : cexp radix2 f64exp (rx + 3 * P) = k).
{ unfold cexp. rewrite Hmag. unfold FLT_exp. lia. }
unfold round, scaled_mantissa. rewrite Hc64, <- Hk.
replace ((rx + 3 * P) * bpow radix2 (- k)) with (rx * bpow radix2 (- k) + IZR (3 * 2 ^ 51)).
2:{ unfold P. rewrite Rmult_plus_distr_r. f_equal.
    rewrite Rmult_assoc, <- bpow_plus. replace (k + 51 + - k)%Z with 51%Z by ring.
    exact (mult_IZR 3 (2 ^ 51)). }
rewrite ZnearestE_plus_even by reflexivity.
unfold F2R; cbn [Fnum Fexp]. rewrite plus_IZR, Rmult_plus_distr_r. f_equal.
unfold P. rewrite mult_IZR.
replace (k + 51)%Z with (51 + k)%Z by ring. rewrite bpow_plus.
change (bpow radix2 51) with (IZR (2 ^ 51)). ring.
Qed.

Lemma f32_in_f64 x : generic_format radix2 f32exp x -> generic_format radix2 f64exp x.
Proof.
apply generic_inclusion_mag. intros _. unfold FLT_exp. lia.
Qed.

Lemma cexp32_mag rx : cexp radix2 f32exp rx = (Z.max (mag radix2 rx) (-125) - 24)%Z.
Proof. unfold cexp, FLT_exp. lia. Qed.

Lemma abs_lt_cexp32 rx : rx <> 0 -> Rabs rx < bpow radix2 (cexp radix2 f32exp rx + 24).
Proof.
intros Hx. rewrite cexp32_mag.
apply Rlt_le_trans with (bpow radix2 (mag radix2 rx)).
- destruct (mag radix2 rx) as [e He]. simpl. apply He. exact Hx.
- apply bpow_le. lia.
Qed.

Definition T32 : R := bpow radix2 128 - bpow radix2 103.

Lemma T32_bounds : bpow radix2 127 <= T32 < bpow radix2 128.
Proof.
unfold T32.
assert (H : bpow radix2 103 <= bpow radix2 127) by (apply bpow_le; lia).
assert (H1 : bpow radix2 128 = 2 * bpow radix2 127) by (apply (bpow_S 127)).
generalize (bpow_gt_0 radix2 103). lra.
Qed.

(* the midpoint above the largest binary32 number rounds (ties to even) to 2^128 *)
Lemma round_T32 : round radix2 f32exp ZnearestE T32 = bpow radix2 128.
Proof.
assert (Hm : mag radix2 T32 = 128%Z :> Z).
{ apply mag_unique_pos. exact T32_bounds. }
assert (Hc : cexp radix2 f32exp T32 = 104%Z).
{ unfold cexp. rewrite Hm. reflexivity. }
unfold round, scaled_mantissa. rewrite Hc.
assert (Hs : T32 * bpow radix2 (- (104)) = IZR (2 ^ 24 - 1) + / 2).
{ unfold T32. rewrite Rmult_minus_distr_r, <- !bpow_plus.
  change (bpow radix2 (128 + - (104))) with (IZR (2 ^ 24)).
  change (bpow radix2 (103 + - (104))) with (/ IZR 2).
  rewrite minus_IZR. lra. }
rewrite Hs.
assert (Hn : ZnearestE (IZR (2 ^ 24 - 1) + / 2) = (2 ^ 24)%Z).
{ unfold ZnearestE, Znearest.
  assert (Hf : Zfloor (IZR (2 ^ 24 - 1) + / 2) = (2 ^ 24 - 1)%Z).
  { apply Zfloor_imp. rewrite plus_IZR. simpl (IZR 1). lra. }
  assert (Hcl : Zceil (IZR (2 ^ 24 - 1) + / 2) = (2 ^ 24)%Z).
  { apply Zceil_imp. replace (2 ^ 24 - 1)%Z with (2 ^ 24 - 1)%Z by reflexivity.
    rewrite !minus_IZR. simpl (IZR 1). lra. }
  rewrite Hf, Hcl.
  replace (IZR (2 ^ 24 - 1) + / 2 - IZR (2 ^ 24 - 1)) with (/ 2) by ring.
  rewrite Rcompare_Eq by reflexivity. reflexivity. }
rewrite Hn. unfold F2R; cbn [Fnum Fexp].
change (IZR (2 ^ 24)) with (bpow radix2 24). rewrite <- bpow_plus. reflexivity.
Qed.

Lemma round32_overflow rx : T32 <= Rabs rx -> bpow radix2 128 <= Rabs (round radix2 f32exp ZnearestE rx).
Proof.
intros H. rewrite <- round_NE_abs by typeclasses eauto.
rewrite <- round_T32. apply round_le; try typeclasses eauto. exact H.
Qed.

Lemma round32_no_overflow rx : rx <> 0 -> Rabs rx < T32 -> Rabs (round radix2 f32exp ZnearestE rx) < bpow radix2 128.
Proof.
intros Hx H.
assert (Hmag : (mag radix2 rx <= 128)%Z).
{ apply mag_le_bpow. exact Hx. apply Rlt_trans with (1 := H). apply T32_bounds. }
assert (Hc : (cexp radix2 f32exp rx <= 104)%Z) by (rewrite cexp32_mag; lia).
assert (He := error_le_half_ulp radix2 f32exp (fun x => negb (Z.even x)) rx).
rewrite ulp_neq_0 in He by exact Hx.
assert (Hu : bpow radix2 (cexp radix2 f32exp rx) <= bpow radix2 104) by (apply bpow_le; exact Hc).
assert (H104 : bpow radix2 104 = 2 * bpow radix2 103) by (apply (bpow_S 103)).
unfold T32 in H.
replace (round radix2 f32exp ZnearestE rx) with (rx + (round radix2 f32exp ZnearestE rx - rx)) by ring.
apply Rle_lt_trans with (1 := Rabs_triang _ _).
fold (ZnearestE) in He. lra.
Qed.

Lemma fexp64_eq : SpecFloat.fexp 53 1024 = f64exp. Proof. reflexivity. Qed.
Lemma fexp32_eq : SpecFloat.fexp 24 128 = f32exp. Proof. reflexivity. Qed.

Lemma format64_F2R (m e : Z) : (Z.abs m < 2 ^ 53)%Z -> (-1074 <= e)%Z -> generic_format radix2 f64exp (F2R (Float radix2 m e)).
Proof.
intros Hm He. apply generic_format_FLT.
exists (Float radix2 m e); [reflexivity| |exact He].
cbn [Fnum]. exact Hm.
Qed.

Lemma bounded32 m e : SpecFloat.bounded 24 128 m e = true -> (Zpos m < 2 ^ 24)%Z /\ (-149 <= e)%Z /\ (e <= 104)%Z.
Proof.
intros H. apply andb_prop in H. destruct H as [H1 H2].
apply Zle_bool_imp_le in H2.
unfold SpecFloat.canonical_mantissa in H1. apply Zeq_bool_eq in H1.
unfold SpecFloat.fexp, SpecFloat.emin in H1.
assert (Hd := Zpos_digits2_pos m). 
split; [|split; lia].
change (SpecFloat.digits2_pos m) with (Digits.digits2_pos m) in H1. rewrite Hd in H1.
assert (Hdig : (Zdigits radix2 (Zpos m) <= 24)%Z) by lia.
apply (Zpower_gt_Zdigits radix2 24 (Zpos m)) in Hdig. simpl in Hdig. lia.
Qed.

Lemma bpow_lt_1024 e : (e <= 1024)%Z -> forall x, Rabs x < bpow radix2 e -> Rabs x < bpow radix2 1024.
Proof. intros He x Hx. apply Rlt_le_trans with (1 := Hx). apply bpow_le. exact He. Qed.

Lemma IZR_pos_lt_bpow (m : positive) n : (Zpos m < 2 ^ n)%Z -> (0 <= n)%Z -> Rabs (IZR (Zpos m)) < bpow radix2 n.
Proof.
intros Hm Hn. rewrite Rabs_pos_eq by (apply IZR_le; lia).
rewrite <- IZR_Zpower by exact Hn. apply IZR_lt. exact Hm.
Qed.

Lemma Prim2B_of_pos (m : positive) : (Zpos m < 2 ^ 53)%Z ->
  let f := of_uint63 (of_Z (Zpos m)) in
  is_finite (FP.Prim2B f) = true /\ B2R (FP.Prim2B f) = IZR (Zpos m) /\ Bsign (FP.Prim2B f) = false.
Proof.
intros Hm f. unfold f. rewrite FP.of_int63_equiv.
rewrite of_Z_spec, Z.mod_small by (change wB with (2 ^ 63)%Z; lia).
generalize (binary_normalize_correct prec emax FP.Hprec FP.Hmax mode_NE (Zpos m) 0 false).
cbv zeta. change (SpecFloat.fexp prec emax) with f64exp. change (bpow radix2 emax) with (bpow radix2 1024). cbn [round_mode].
rewrite round_generic; try typeclasses eauto.
2:{ apply format64_F2R; lia. }
rewrite F2R_exp0.
rewrite Rlt_bool_true.
2:{ apply (bpow_lt_1024 53); [lia|]. apply IZR_pos_lt_bpow; lia. }
intros (H1 & H2 & H3). split; [exact H2|split; [exact H1|]].
rewrite H3. rewrite Rcompare_Gt; [reflexivity|]. apply IZR_lt. lia.
Qed.

(* SF2Prim on the (non-canonical, for binary64) mantissa / exponent pair of a finite binary32 number *)
Lemma Prim2B_SF2Prim_b32 (b : b32) : is_finite b = true ->
  let p := SF2Prim (B2SF b) in
  is_finite (FP.Prim2B p) = true /\ B2R (FP.Prim2B p) = B2R b /\ Bsign (FP.Prim2B p) = Bsign b.
Proof.
destruct b as [s|s| |s m e Hb]; try discriminate; intros _ p.
- (* zero *)
  unfold p. destruct s; cbn [B2SF SF2Prim].
  + rewrite FP.neg_zero_equiv, FP.Prim2B_B2Prim. repeat split.
  + rewrite FP.zero_equiv, FP.Prim2B_B2Prim. repeat split.
- (* finite *)
  destruct (bounded32 m e Hb) as (Hm & He1 & He2).
  destruct (Prim2B_of_pos m ltac:(lia)) as (F1 & R1 & S1).
  set (pm := of_uint63 (of_Z (Zpos m))) in *.
  assert (HL : is_finite (FP.Prim2B (Z.ldexp pm e)) = true /\ B2R (FP.Prim2B (Z.ldexp pm e)) = F2R (Float radix2 (Zpos m) e)
               /\ Bsign (FP.Prim2B (Z.ldexp pm e)) = false).
  { rewrite FP.ldexp_equiv.
    generalize (Bldexp_correct prec emax FP.Hprec FP.Hmax mode_NE (FP.Prim2B pm) e).
    change (SpecFloat.fexp prec emax) with f64exp. change (bpow radix2 emax) with (bpow radix2 1024). cbn [round_mode]. rewrite R1.
    change (IZR (Zpos m) * bpow radix2 e) with (F2R (Float radix2 (Zpos m) e)).
    rewrite round_generic; try typeclasses eauto.
    2:{ apply format64_F2R; lia. }
    rewrite Rlt_bool_true.
    2:{ apply (bpow_lt_1024 128); [lia|].
        rewrite <- F2R_Zabs. cbn [Z.abs]. apply (bounded_lt_emax 24 128 _ _ Hb). }
    intros (H1 & H2 & H3). rewrite H1, H2, H3, F1, S1. repeat split. }
  destruct HL as (F2 & R2 & S2).
  unfold p. cbn [B2SF SF2Prim]. fold pm.
  destruct s.
  + rewrite FP.opp_equiv, is_finite_Bopp, B2R_Bopp, R2.
    split; [exact F2|split].
    * cbn [B2R cond_Zopp]. rewrite <- F2R_Zopp. reflexivity.
    * rewrite Bsign_Bopp. rewrite S2. reflexivity.
      destruct (FP.Prim2B (Z.ldexp pm e)); try discriminate; reflexivity.
  + split; [exact F2|split]. exact R2. exact S2.
Qed.

Lemma F2R_sign_neq0 s m e : F2R (Float radix2 (cond_Zopp s (Zpos m)) e) <> 0.
Proof.
destruct s; cbn [cond_Zopp].
- apply Rlt_not_eq. apply F2R_lt_0. reflexivity.
- apply Rgt_not_eq. apply F2R_gt_0. reflexivity.
Qed.
Lemma Rcompare_F2R_sign s m e :
  match Rcompare (F2R (Float radix2 (cond_Zopp s (Zpos m)) e)) 0 with Lt => true | _ => false end = s.
Proof.
destruct s; cbn [cond_Zopp].
- rewrite Rcompare_Lt; [reflexivity|]. apply F2R_lt_0. reflexivity.
- rewrite Rcompare_Gt; [reflexivity|]. apply F2R_gt_0. reflexivity.
Qed.
Lemma Rlt_bool_F2R_sign s m e : Rlt_bool (F2R (Float radix2 (cond_Zopp s (Zpos m)) e)) 0 = s.
Proof.
destruct s; cbn [cond_Zopp].
- apply Rlt_bool_true. apply F2R_lt_0. reflexivity.
- apply Rlt_bool_false. apply Rlt_le. apply F2R_gt_0. reflexivity.
Qed.

(* the reference rounding: Flocq's binary_normalize at (24, 128) *)
Lemma ref_side s m e (Hb : SpecFloat.bounded 53 1024 m e = true) :
  let rx := F2R (Float radix2 (cond_Zopp s (Zpos m)) e) in
  let c := B32ofSF (S754_finite s m e) in
  (Rabs rx < T32 -> is_finite c = true /\ B2R c = round radix2 f32exp ZnearestE rx /\ Bsign c = s) /\
  (T32 <= Rabs rx -> B2SF c = S754_infinity s).
Proof.
intros rx c.
assert (Hc : c = binary_normalize 24 128 Hprec24 Hmax128 mode_NE (cond_Zopp s (Zpos m)) e false).
{ unfold c, B32ofSF, BofSF. destruct s; reflexivity. }
generalize (binary_normalize_correct 24 128 Hprec24 Hmax128 mode_NE (cond_Zopp s (Zpos m)) e false).
cbv zeta. rewrite <- Hc. fold rx.
change (SpecFloat.fexp 24 128) with f32exp. cbn [round_mode].
assert (Hx : rx <> 0) by apply F2R_sign_neq0.
intros Hn. split.
- intros Hlt. revert Hn. rewrite Rlt_bool_true by (apply round32_no_overflow; assumption).
  intros (H1 & H2 & H3). split; [exact H2|split; [exact H1|]].
  rewrite H3. apply Rcompare_F2R_sign.
- intros Hge. revert Hn. rewrite Rlt_bool_false by (apply round32_overflow; assumption).
  intros H. rewrite H. unfold binary_overflow. cbn [overflow_to_inf].
  unfold rx. rewrite Rlt_bool_F2R_sign. reflexivity.
Qed.

Lemma Prim2B_T : is_finite (FP.Prim2B 0x1.ffffffp127) = true /\ B2R (FP.Prim2B 0x1.ffffffp127) = T32.
Proof.
unfold FP.Prim2B. rewrite is_finite_SF2B, B2R_SF2B.
assert (E : Prim2SF 0x1.ffffffp127 = S754_finite false 9007198986305536 75) by (vm_compute; reflexivity).
rewrite E. split; [reflexivity|].
unfold SF2R, T32, F2R. cbn [cond_Zopp Fnum Fexp].
change (bpow radix2 75) with (IZR (2 ^ 75)). change (bpow radix2 128) with (IZR (2 ^ 128)). change (bpow radix2 103) with (IZR (2 ^ 103)).
rewrite <- mult_IZR, <- minus_IZR. f_equal.
Qed.

Lemma Prim2B_15 : is_finite (FP.Prim2B 0x1.8p0) = true /\ B2R (FP.Prim2B 0x1.8p0) = 3 * bpow radix2 (-1) /\ Bsign (FP.Prim2B 0x1.8p0) = false.
Proof.
unfold FP.Prim2B. rewrite is_finite_SF2B, B2R_SF2B, Bsign_SF2B.
assert (E : Prim2SF 0x1.8p0 = S754_finite false 6755399441055744 (-52)) by (vm_compute; reflexivity).
rewrite E. split; [reflexivity|split; [|reflexivity]].
unfold SF2R, F2R. cbn [cond_Zopp Fnum Fexp].
replace 6755399441055744%Z with (3 * 2 ^ 51)%Z by reflexivity.
rewrite mult_IZR. change (IZR (2 ^ 51)) with (bpow radix2 51).
rewrite Rmult_assoc, <- bpow_plus. reflexivity.
Qed.

Section Finite.
Variable x : Coq.Floats.PrimFloat.float.
Variables (s : bool) (m : positive) (e : Z) (Hb : SpecFloat.bounded prec emax m e = true).
Hypothesis Hx : FP.Prim2B x = B754_finite s m e Hb.
Let rx := F2R (Float radix2 (cond_Zopp s (Zpos m)) e).

Lemma B2R_x : B2R (FP.Prim2B x) = rx. Proof. rewrite Hx. reflexivity. Qed.
Lemma fin_x : is_finite (FP.Prim2B x) = true. Proof. rewrite Hx. reflexivity. Qed.
Lemma rx_neq0 : rx <> 0. Proof. apply F2R_sign_neq0. Qed.

Lemma leb_T : (0x1.ffffffp127 <=? abs x)%float = Rle_bool T32 (Rabs rx).
Proof.
rewrite FP.leb_equiv, FP.abs_equiv.
destruct Prim2B_T as [F R].
rewrite Bleb_correct; [ | exact F | rewrite is_finite_Babs; exact fin_x ].
rewrite R, B2R_Babs, B2R_x. reflexivity.
Qed.

Lemma ltb_0 : (x <? 0)%float = s.
Proof.
rewrite FP.ltb_equiv, Prim2B_zero.
rewrite Bltb_correct; [ | exact fin_x | reflexivity ].
rewrite B2R_x. cbn [B2R]. apply Rlt_bool_F2R_sign.
Qed.

Lemma frshiftexp_mag : (to_Z (snd (frshiftexp x)) - FloatOps.shift)%Z = mag radix2 rx.
Proof.
generalize (FP.frshiftexp_equiv x). destruct (frshiftexp x) as [m' e']. cbn [snd].
generalize (Bfrexp_correct prec emax FP.Hprec (FP.Prim2B x)).
rewrite Hx at 1. intros H. specialize (H eq_refl).
destruct (Bfrexp (FP.Prim2B x)) as [z g]. intros E. injection E as _ Eg.
destruct H as [_ H]. destruct H as [_ H]. reflexivity.
rewrite Eg, H, B2R_x. reflexivity.
Qed.

Hypothesis Hlt : Rabs rx < T32.
Let g : Z := mag radix2 rx.
Let k : Z := cexp radix2 f32exp rx.

Lemma g_le_128 : (g <= 128)%Z.
Proof. apply mag_le_bpow. exact rx_neq0. apply Rlt_trans with (1 := Hlt). apply T32_bounds. Qed.
Lemma k_eq : k = (Z.max g (-125) - 24)%Z. Proof. apply cexp32_mag. Qed.

Definition ee (x : Coq.Floats.PrimFloat.float) : int :=
  let e := snd (frshiftexp x) in if (e <? 1976)%uint63 then 1976%uint63 else e.

Lemma ee_spec : (to_Z (ee x + 28)%uint63 - FloatOps.shift)%Z = (k + 52)%Z.
Proof.
unfold ee. generalize frshiftexp_mag. fold g. intros Hm.
generalize g_le_128. intros Hg.
assert (Hb0 := to_Z_bounded (snd (frshiftexp x))).
rewrite k_eq. rewrite add_spec. change (to_Z 28) with 28%Z. change FloatOps.shift with 2101%Z in *.
destruct (ltb_spec (snd (frshiftexp x)) 1976) as [H1 H2].
destruct (snd (frshiftexp x) <? 1976)%uint63.
- specialize (H1 eq_refl). change (to_Z 1976) with 1976%Z in *.
  rewrite Z.mod_small by (change wB with (2 ^ 63)%Z; lia). lia.
- assert (H3 : ~ (to_Z (snd (frshiftexp x)) < to_Z 1976)%Z) by (intros H; apply H2 in H; discriminate).
  change (to_Z 1976) with 1976%Z in *.
  rewrite Z.mod_small by (change wB with (2 ^ 63)%Z; lia). lia.
Qed.

Definition Mof (x : Coq.Floats.PrimFloat.float) := ldshiftexp 0x1.8p0 (ee x + 28)%uint63.

Lemma k_bounds : (-149 <= k <= 104)%Z.
Proof. rewrite k_eq. generalize g_le_128. lia. Qed.

Lemma M_correct : is_finite (FP.Prim2B (Mof x)) = true /\ B2R (FP.Prim2B (Mof x)) = 3 * bpow radix2 (k + 51) /\ Bsign (FP.Prim2B (Mof x)) = false.
Proof.
unfold Mof. rewrite FP.ldshiftexp_equiv, ee_spec.
destruct Prim2B_15 as (F & R & S).
generalize (Bldexp_correct prec emax FP.Hprec FP.Hmax mode_NE (FP.Prim2B 0x1.8p0) (k + 52)).
norm3264. rewrite R.
assert (HV : 3 * bpow radix2 (-1) * bpow radix2 (k + 52) = F2R (Float radix2 3 (k + 51))).
{ unfold F2R; cbn [Fnum Fexp]. rewrite Rmult_assoc, <- bpow_plus. f_equal. f_equal. ring. }
rewrite HV.
generalize k_bounds; intros Hk.
rewrite round_generic; try typeclasses eauto.
2:{ apply format64_F2R; [reflexivity|lia]. }
rewrite Rlt_bool_true.
2:{ unfold F2R; cbn [Fnum Fexp]. rewrite Rabs_pos_eq by (generalize (bpow_gt_0 radix2 (k + 51)); lra).
    apply Rlt_le_trans with (1 := three_bpow_lt k). apply bpow_le. lia. }
intros (H1 & H2 & H3). rewrite H1, H2, H3, F, S. repeat split.
Qed.

Let rho : R := round radix2 f32exp ZnearestE rx.

Lemma rho_abs : Rabs rho < bpow radix2 128.
Proof. apply round32_no_overflow. exact rx_neq0. exact Hlt. Qed.

Lemma P_lt : 3 * bpow radix2 (k + 51) < bpow radix2 158.
Proof.
apply Rlt_le_trans with (1 := three_bpow_lt k). apply bpow_le. generalize k_bounds. lia.
Qed.

(* x + M *)
Lemma S_correct : is_finite (FP.Prim2B (x + Mof x)%float) = true /\ B2R (FP.Prim2B (x + Mof x)%float) = rho + 3 * bpow radix2 (k + 51).
Proof.
rewrite FP.add_equiv.
destruct M_correct as (FM & RM & SM).
generalize (Bplus_correct prec emax FP.Hprec FP.Hmax mode_NE (FP.Prim2B x) (FP.Prim2B (Mof x)) fin_x FM).
norm3264. rewrite RM, B2R_x.
rewrite (round_via_magic rx k eq_refl).
2:{ apply abs_lt_cexp32. exact rx_neq0. }
fold rho.
rewrite Rlt_bool_true.
2:{ apply Rle_lt_trans with (1 := Rabs_triang _ _).
    rewrite (Rabs_pos_eq (3 * _)) by (generalize (bpow_gt_0 radix2 (k + 51)); lra).
    apply Rlt_trans with (bpow radix2 128 + bpow radix2 158).
    - generalize rho_abs P_lt. lra.
    - apply Rlt_trans with (bpow radix2 159).
      + replace 159%Z with (158 + 1)%Z by ring. rewrite bpow_S.
        assert (bpow radix2 128 < bpow radix2 158) by (apply bpow_lt; lia). lra.
      + apply bpow_lt. lia. }
intros (H1 & H2 & _). split; [exact H2|exact H1].
Qed.

Lemma rho_format64 : generic_format radix2 f64exp rho.
Proof. apply f32_in_f64. apply generic_format_round; typeclasses eauto. Qed.

(* (x + M) - M *)
Definition Rof (x : Coq.Floats.PrimFloat.float) := ((x + Mof x) - Mof x)%float.
Lemma R_correct : is_finite (FP.Prim2B (Rof x)) = true /\ B2R (FP.Prim2B (Rof x)) = rho /\
  (rho <> 0 -> Bsign (FP.Prim2B (Rof x)) = Rlt_bool rho 0).
Proof.
unfold Rof. rewrite FP.sub_equiv.
destruct M_correct as (FM & RM & SM). destruct S_correct as (FS & RS).
generalize (Bminus_correct prec emax FP.Hprec FP.Hmax mode_NE (FP.Prim2B (x + Mof x)%float) (FP.Prim2B (Mof x)) FS FM).
norm3264. rewrite RM, RS.
replace (rho + 3 * bpow radix2 (k + 51) - 3 * bpow radix2 (k + 51)) with rho by ring.
rewrite round_generic; try typeclasses eauto. 2: exact rho_format64.
rewrite Rlt_bool_true.
2:{ apply Rlt_trans with (1 := rho_abs). apply bpow_lt. lia. }
intros (H1 & H2 & H3). split; [exact H2|split; [exact H1|]].
intros Hn. rewrite H3.
destruct (Rcompare_spec rho 0) as [H|H|H].
- symmetry. apply Rlt_bool_true. exact H.
- contradiction.
- symmetry. apply Rlt_bool_false. lra.
Qed.

Lemma eqb_R0 : (Rof x =? 0)%float = Req_bool rho 0.
Proof.
rewrite FP.eqb_equiv, Prim2B_zero.
destruct R_correct as (F & R & _).
rewrite Beqb_correct; [ | exact F | reflexivity ].
rewrite R. reflexivity.
Qed.

(* x * 0 : the zero of the sign of x *)
Lemma mul0_correct : FP.Prim2B (x * 0)%float = B754_zero s.
Proof.
rewrite FP.mul_equiv, Prim2B_zero, Hx. simpl. rewrite xorb_false_r. reflexivity.
Qed.
End Finite.

Lemma round32_sign s m e :
  let rx := F2R (Float radix2 (cond_Zopp s (Zpos m)) e) in
  round radix2 f32exp ZnearestE rx <> 0 -> Rlt_bool (round radix2 f32exp ZnearestE rx) 0 = s.
Proof.
intros rx Hn. destruct s; unfold rx in *; cbn [cond_Zopp] in *.
- apply Rlt_bool_true.
  assert (H : round radix2 f32exp ZnearestE (F2R (Float radix2 (- Z.pos m) e)) <= 0).
  { apply round_le_generic; try typeclasses eauto. apply generic_format_0. apply Rlt_le. apply F2R_lt_0. reflexivity. }
  lra.
- apply Rlt_bool_false.
  apply round_ge_generic; try typeclasses eauto. apply generic_format_0. apply Rlt_le. apply F2R_gt_0. reflexivity.
Qed.

Theorem r32fast_eq : forall x, r32fast x = r32 x.
Proof.
intros x. unfold r32, to_b32, of_b32. rewrite <- (FP.B2SF_Prim2B x).
assert (Ex : x = FP.B2Prim (FP.Prim2B x)) by (symmetry; apply FP.B2Prim_Prim2B).
destruct (FP.Prim2B x) as [s|s| |s m e Hb] eqn:Hx.
- rewrite Ex. destruct s; vm_compute; reflexivity.
- rewrite Ex. destruct s; vm_compute; reflexivity.
- rewrite Ex. vm_compute; reflexivity.
- clear Ex. cbn [B2SF].
  destruct (ref_side s m e Hb) as [Hsmall Hbig].
  set (rx := F2R (Float radix2 (cond_Zopp s (Zpos m)) e)) in *.
  unfold r32fast. rewrite (leb_T x s m e Hb Hx). fold rx.
  destruct (Rle_bool_spec T32 (Rabs rx)) as [Hge|Hlt].
  + rewrite (ltb_0 x s m e Hb Hx). rewrite (Hbig Hge). destruct s; reflexivity.
  + destruct (Hsmall Hlt) as (Fc & Rc & Sc).
    set (c := B32ofSF (S754_finite s m e)) in *.
    change ((if (Rof x =? 0)%float then (x * 0)%float else Rof x) = SF2Prim (B2SF c)).
    rewrite (eqb_R0 x s m e Hb Hx Hlt). fold rx.
    destruct (R_correct x s m e Hb Hx Hlt) as (FR & RR & SR). fold rx in RR, SR.
    destruct (Prim2B_SF2Prim_b32 c Fc) as (F2 & R2 & S2).
    destruct (Req_bool_spec (round radix2 f32exp ZnearestE rx) 0) as [H0|Hn].
    * (* the rounded value is zero: the zero of the sign of x *)
      assert (Ec : c = B754_zero s).
      { apply B2R_Bsign_inj; [exact Fc|reflexivity| |exact Sc]. rewrite Rc, H0. reflexivity. }
      rewrite Ec. apply FP.Prim2B_inj. rewrite (mul0_correct x s m e Hb Hx).
      destruct s; cbn [B2SF SF2Prim].
      -- rewrite FP.neg_zero_equiv, FP.Prim2B_B2Prim. reflexivity.
      -- rewrite FP.zero_equiv, FP.Prim2B_B2Prim. reflexivity.
    * apply FP.Prim2B_inj. apply B2R_Bsign_inj; [exact FR|exact F2| |].
      -- rewrite RR, R2, Rc. reflexivity.
      -- rewrite (SR Hn), S2, Sc. apply round32_sign. exact Hn.
Qed.

Theorem NumF32fast_eq : NumF32fast = NumF32.
Proof. apply NumF32fast_eq_of_r32. exact r32fast_eq. Qed.

