(** * FastNum: the primitive-float instance with memoised integer literals.
    [NumF]'s [nofZ] goes through [SF2Prim] (a software normalisation, ~5 us under vm_compute); the model
    re-evaluates its constants (1e-5 = nofZ 1 / nofZ 100000, 100*EPSILON, ...) at every use, so literal
    construction dominates cheap functions such as [Point3D::compare].  [NumFfast] answers the literals
    that occur in the model from a table and falls back to [FofZ]; it is EQUAL to [NumF]
    ([NumFfast_eq], by functional extensionality), so what is executed IS the [NumF] model. *)
From Coq Require Import ZArith Floats Bool List FunctionalExtensionality.
From G3 Require Import Model.Num Model.NumF.
Local Open Scope float_scope.

Definition FofZ_fast (z : Z) : float :=
  if Z.eqb z 100000 then 100000 else
  if Z.eqb z 100 then 100 else
  if Z.eqb z 1 then 1 else
  if Z.eqb z 0 then 0 else
  if Z.eqb z 2 then 2 else
  if Z.eqb z 1000 then 1000 else
  if Z.eqb z 3 then 3 else
  if Z.eqb z 10000000 then 10000000 else
  if Z.eqb z 1000000 then 1000000 else
  if Z.eqb z 100000000 then 100000000 else
  if Z.eqb z 1000000000 then 1000000000 else
  if Z.eqb z 10000000000 then 10000000000 else
  if Z.eqb z 900000000000000 then 900000000000000 else
  FofZ z.

Lemma FofZ_fast_eq : forall z, FofZ_fast z = FofZ z.
Proof.
  intros z. unfold FofZ_fast.
  repeat match goal with
         | |- (if Z.eqb z ?k then _ else _) = _ =>
           destruct (Z.eqb_spec z k) as [->|_]; [vm_compute; reflexivity|]
         end.
  reflexivity.
Qed.

Definition NumFfast : Num float := {|
  nadd := PrimFloat.add; nsub := PrimFloat.sub; nmul := PrimFloat.mul; ndiv := PrimFloat.div;
  nneg := PrimFloat.opp; nabs := PrimFloat.abs; nsqrt := PrimFloat.sqrt;
  nltb := PrimFloat.ltb; nleb := PrimFloat.leb; neqb := PrimFloat.eqb;
  nofZ := FofZ_fast; neps := 0x1p-52; nmaxf := 0x1.fffffffffffffp1023; ninf := infinity;
  nnext_up := Fnext_up; nnext_dn := Fnext_dn; nis_nan := PrimFloat.is_nan;
  nsin := Fsin; ncos := Fcos; ntan := Ftan; nacos := Facos; natan2 := Fatan2; npi := Fpi
|}.

Lemma NumFfast_eq : NumFfast = NumF.
Proof.
  unfold NumFfast, NumF. f_equal. apply functional_extensionality. exact FofZ_fast_eq.
Qed.
