(** * Quadric_base: the interval arithmetic and the quadratic solver on the real instance.
    On [NumR] the outward-rounding steps [nnext_up]/[nnext_dn] are the identity, so every [af_*] operation
    applied to point intervals [pt x = [x,x]] is the real operation; [af_solve_quadratic] then returns the
    two real roots in increasing order; and the shared root selection [select_hit] picks the first root
    that is positive and not clipped away. *)
From Coq Require Import ZArith Reals Lra Bool List Psatz.
From G3 Require Import Model.Num Model.Base Model.Vec Model.BBox Model.RoundError Model.Transform Model.Hit Model.Sphere.
From G3 Require Import Theory.RInst.
Local Open Scope R_scope.

Notation V := (V3 R).
Definition pt (x : R) : AF R := mkAF x x.

Lemma nnext_up_R (x : R) : nnext_up x = x. Proof. reflexivity. Qed.
Lemma nnext_dn_R (x : R) : nnext_dn x = x. Proof. reflexivity. Qed.

Lemma Rltb_irrefl x : Rltb x x = false.
Proof. apply Rltb_false. lra. Qed.

Lemma af_from_ve_0 (v : R) : af_from_value_and_error v 0 = pt v.
Proof. unfold af_from_value_and_error, pt. rnumg. f_equal; ring. Qed.
Lemma af_from_pt (v : R) : af_from v = pt v.
Proof. unfold af_from, n0. rnumg. apply af_from_ve_0. Qed.
Lemma af_add_pt (a b : R) : af_add (pt a) (pt b) = pt (a + b).
Proof. reflexivity. Qed.
Lemma af_sub_pt (a b : R) : af_sub (pt a) (pt b) = pt (a - b).
Proof. reflexivity. Qed.
Lemma af_neg_pt (a : R) : af_neg (pt a) = pt (- a).
Proof. reflexivity. Qed.
Lemma af_sqrt_pt (a : R) : af_sqrt (pt a) = pt (sqrt a).
Proof. reflexivity. Qed.
Lemma max_min4_same (p : R) : max_min4 p p p p = (p, p).
Proof. unfold max_min4. rnumg. rewrite !Rltb_irrefl. reflexivity. Qed.
Lemma af_mul_pt (a b : R) : af_mul (pt a) (pt b) = pt (a * b).
Proof. unfold af_mul, pt. cbn [low high]. rnumg. rewrite max_min4_same. reflexivity. Qed.
Lemma af_div_pt (a b : R) : af_div (pt a) (pt b) = pt (a / b).
Proof. unfold af_div, pt. cbn [low high]. rnumg. rewrite max_min4_same. reflexivity. Qed.
Lemma af_mul_f_pt (a f : R) : af_mul_f (pt a) f = pt (a * f).
Proof. unfold af_mul_f, pt. cbn [low high]. rnumg. rewrite Rltb_irrefl. reflexivity. Qed.
Lemma af_sub_f_pt (a f : R) : af_sub_f (pt a) f = pt (a - f).
Proof. unfold af_sub_f. rewrite af_from_pt. reflexivity. Qed.
Lemma af_mul_assign_pt (a b : R) : af_mul_assign (pt a) (pt b) = pt (a * b).
Proof. unfold af_mul_assign, pt. cbn [low high]. rnumg. rewrite max_min4_same. reflexivity. Qed.
Lemma af_div_assign_pt (a b : R) : af_div_assign (pt a) (pt b) = pt (a / b).
Proof. unfold af_div_assign, pt. cbn [low high]. rnumg. rewrite max_min4_same. reflexivity. Qed.
Lemma af_as_float_pt (a : R) : af_as_float (pt a) = a.
Proof. unfold af_as_float, af_midpoint, pt. cbn [low high]. rnumg. field. Qed.
Lemma low_pt (a : R) : low (pt a) = a. Proof. reflexivity. Qed.
Lemma high_pt (a : R) : high (pt a) = a. Proof. reflexivity. Qed.

Definition disc (a b c : R) : R := b * b - a * c * 4.
Definition root0 (a b c : R) : R := (- b - sqrt (disc a b c)) / (2 * a).
Definition root1 (a b c : R) : R := (- b + sqrt (disc a b c)) / (2 * a).

Lemma solve_pt_raw (a b c : R) :
  af_solve_quadratic (pt a) (pt b) (pt c) =
  if Rltb (disc a b c) 0 then None else
  let q := if Rltb b 0 then - (b - sqrt (disc a b c)) * (1 / 2) else - (b + sqrt (disc a b c)) * (1 / 2) in
  if Rltb (c / q) (q / a) then Some (pt (c / q), pt (q / a)) else Some (pt (q / a), pt (c / q)).
Proof.
  unfold af_solve_quadratic. rewrite !af_mul_pt, af_mul_f_pt, af_sub_pt, af_as_float_pt. cbn [low].
  unfold n0, nhalf, nofQ. rnumg. fold (disc a b c). rewrite low_pt.
  destruct (Rltb (disc a b c) 0); [reflexivity|].
  rewrite af_sqrt_pt.
  destruct (Rltb b 0).
  - rewrite af_sub_pt, af_neg_pt, af_mul_f_pt, !af_div_pt, !low_pt. reflexivity.
  - rewrite af_add_pt, af_neg_pt, af_mul_f_pt, !af_div_pt, !low_pt. reflexivity.
Qed.

(** the guard under which the float code divides by a non-zero [q]: [b = 0 /\ c = 0] is a ray that starts
    on the quadric and is tangent to it (then [q = 0] and the code computes [0/0]) *)
Definition solvable (a b c : R) : Prop := 0 < a /\ ~ (b = 0 /\ c = 0).

Lemma sqrt_disc_sq a b c : 0 <= disc a b c -> sqrt (disc a b c) * sqrt (disc a b c) = disc a b c.
Proof. intros. apply sqrt_sqrt. assumption. Qed.

Lemma div_eq_cross (x y z w : R) : y <> 0 -> w <> 0 -> x * w = z * y -> x / y = z / w.
Proof.
  intros Hy Hw E. apply (Rmult_eq_reg_r (y * w)); [|apply Rmult_integral_contrapositive_currified; assumption].
  replace (x / y * (y * w)) with (x * w) by (field; assumption).
  replace (z / w * (y * w)) with (z * y) by (field; assumption). exact E.
Qed.

Lemma solve_pt (a b c : R) : solvable a b c ->
  af_solve_quadratic (pt a) (pt b) (pt c) =
  if Rltb (disc a b c) 0 then None else Some (pt (root0 a b c), pt (root1 a b c)).
Proof.
  intros [Ha Hq]. rewrite solve_pt_raw. rcase (disc a b c) 0 HD; [reflexivity|].
  pose proof (sqrt_disc_sq a b c HD) as Hs. pose proof (sqrt_pos (disc a b c)) as Hp.
  set (s := sqrt (disc a b c)) in *.
  assert (Hprod : (- b - s) * (- b + s) = 4 * a * c) by (unfold disc in Hs; nra).
  cbv zeta. rcase b 0 Hb.
  - (* b < 0: q > 0, q/a is the larger root *)
    assert (Hq0 : - (b - s) * (1 / 2) <> 0) by nra.
    assert (E1 : - (b - s) * (1 / 2) / a = root1 a b c) by (unfold root1; fold s; field; lra).
    assert (E0 : c / (- (b - s) * (1 / 2)) = root0 a b c).
    { unfold root0; fold s. apply div_eq_cross; nra. }
    rewrite E1, E0.
    assert (Hle : root0 a b c <= root1 a b c).
    { unfold root0, root1; fold s. apply Rmult_le_compat_r; [left; apply Rinv_0_lt_compat; lra | lra]. }
    rcase (root0 a b c) (root1 a b c) Hlt; [reflexivity|].
    assert (root0 a b c = root1 a b c) as -> by lra. reflexivity.
  - (* 0 <= b: q <= 0, q/a is the smaller root *)
    assert (E0 : - (b + s) * (1 / 2) / a = root0 a b c) by (unfold root0; fold s; field; lra).
    assert (Hq0 : - (b + s) * (1 / 2) <> 0).
    { intros E. apply Hq. assert (b = 0) by nra. assert (s = 0) by nra. split; [assumption|]. subst b. nra. }
    assert (E1 : c / (- (b + s) * (1 / 2)) = root1 a b c).
    { unfold root1; fold s. apply div_eq_cross; nra. }
    rewrite E1, E0.
    assert (Hle : root0 a b c <= root1 a b c).
    { unfold root0, root1; fold s. apply Rmult_le_compat_r; [left; apply Rinv_0_lt_compat; lra | lra]. }
    rcase (root1 a b c) (root0 a b c) Hlt; [lra | reflexivity].
Qed.

Lemma root_le a b c : 0 < a -> 0 <= disc a b c -> root0 a b c <= root1 a b c.
Proof.
  intros Ha HD. pose proof (sqrt_pos (disc a b c)). unfold root0, root1.
  apply Rmult_le_compat_r; [left; apply Rinv_0_lt_compat; lra | lra].
Qed.

Lemma eq_div (x y z : R) : z <> 0 -> x * z = y -> x = y / z.
Proof. intros Hz E. subst y. field. assumption. Qed.
Lemma root0_eq a b c : 0 < a -> root0 a b c * (2 * a) = - b - sqrt (disc a b c).
Proof. intros. unfold root0. field. lra. Qed.
Lemma root1_eq a b c : 0 < a -> root1 a b c * (2 * a) = - b + sqrt (disc a b c).
Proof. intros. unfold root1. field. lra. Qed.
Lemma roots_complete (a b c t : R) : 0 < a ->
  (a * t * t + b * t + c = 0 <-> 0 <= disc a b c /\ (t = root0 a b c \/ t = root1 a b c)).
Proof.
  intros Ha. split.
  - intros E. assert (HD : 0 <= disc a b c).
    { unfold disc. assert (b * b - a * c * 4 = (2 * a * t + b) * (2 * a * t + b)) as -> by nra.
      pose proof (Rle_0_sqr (2 * a * t + b)) as Q. unfold Rsqr in Q. exact Q. }
    split; [exact HD|]. pose proof (sqrt_disc_sq a b c HD) as Hs. set (s := sqrt (disc a b c)) in *.
    assert (F : (2 * a * t + b - s) * (2 * a * t + b + s) = 0) by (unfold disc in Hs; nra).
    apply Rmult_integral in F. destruct F as [F|F]; [right | left]; unfold root0, root1; fold s; apply eq_div; lra.
  - intros [HD Ht]. pose proof (sqrt_disc_sq a b c HD) as Hs.
    pose proof (root0_eq a b c Ha) as R0. pose proof (root1_eq a b c Ha) as R1.
    set (s := sqrt (disc a b c)) in *. unfold disc in Hs.
    assert (G : 4 * a * (a * t * t + b * t + c) = 0) by (destruct Ht as [-> | ->]; nra).
    apply Rmult_integral in G. destruct G as [G|G]; [lra | exact G].
Qed.

Lemma select_hit_pt (t0 t1 : R) (calc : AF R -> V * R) (miss : V * R -> bool) :
  fst (select_hit (pt t0) (pt t1) calc miss) =
  if Rleb t1 0 then None else
  if Rltb 0 t0 then
    (if miss (calc (pt t0)) then (if miss (calc (pt t1)) then None else Some (calc (pt t1))) else Some (calc (pt t0)))
  else (if miss (calc (pt t1)) then None else Some (calc (pt t1))).
Proof.
  unfold select_hit. cbn [low pt]. unfold n0. rnumg.
  destruct (Rleb t1 0); [reflexivity|].
  destruct (Rltb 0 t0).
  - destruct (miss (calc (pt t0))); [|reflexivity]. destruct (miss (calc (pt t1))); reflexivity.
  - destruct (miss (calc (pt t1))); reflexivity.
Qed.

(** what "the first valid crossing" means: [res] is the hit at the smallest positive parameter among [t0], [t1]
    that is not clipped away, and [None] when there is none *)
Definition first_valid (hit : R -> V * R) (miss : V * R -> bool) (t0 t1 : R) (res : option (V * R)) : Prop :=
  match res with
  | Some h => exists t, (t = t0 \/ t = t1) /\ 0 < t /\ h = hit t /\ miss (hit t) = false /\
                        forall t', (t' = t0 \/ t' = t1) -> 0 < t' -> miss (hit t') = false -> t <= t'
  | None => forall t', (t' = t0 \/ t' = t1) -> 0 < t' -> miss (hit t') = true
  end.

Lemma select_first_valid (t0 t1 : R) (calc : AF R -> V * R) (miss : V * R -> bool) (hit : R -> V * R) :
  t0 <= t1 -> calc (pt t0) = hit t0 -> calc (pt t1) = hit t1 ->
  first_valid hit miss t0 t1 (fst (select_hit (pt t0) (pt t1) calc miss)).
Proof.
  intros Hle E0 E1. rewrite select_hit_pt, E0, E1. unfold first_valid.
  destruct (Rleb t1 0) eqn:L1.
  { apply Rleb_true in L1. intros t' [->| ->] Hp; lra. }
  apply Rleb_false in L1.
  rcase 0 t0 L0.
  - destruct (miss (hit t0)) eqn:M0.
    + destruct (miss (hit t1)) eqn:M1.
      * intros t' [->| ->] _; assumption.
      * exists t1. repeat split; try tauto; try lra. intros t' [->| ->] Hp Hm; [congruence | lra].
    + exists t0. repeat split; try tauto; try lra. intros t' [->| ->] Hp Hm; lra.
  - destruct (miss (hit t1)) eqn:M1.
    + intros t' [->| ->] Hp; [lra | assumption].
    + exists t1. repeat split; try tauto; try lra. intros t' [->| ->] Hp Hm; lra.
Qed.

Lemma select_hit_some (t0 t1 : AF R) (calc : AF R -> V * R) (miss : V * R -> bool) (h : V * R) :
  fst (select_hit t0 t1 calc miss) = Some h ->
  0 < low t1 /\ miss h = false /\ ((0 < low t0 /\ h = calc t0) \/ h = calc t1).
Proof.
  unfold select_hit. rnumg. rcase_le (low t1) 0 L1; [discriminate|].
  rcase 0 (low t0) L0.
  - destruct (miss (calc t0)) eqn:M0.
    + destruct (miss (calc t1)) eqn:M1; [discriminate|]. cbn [fst]. intros [= <-]. tauto.
    + cbn [fst]. intros [= <-]. tauto.
  - destruct (miss (calc t1)) eqn:M1; [discriminate|]. cbn [fst]. intros [= <-]. tauto.
Qed.

(** the common shape of [Sphere3D::basic_intersection] and [Cylinder3D::basic_intersection] *)
Definition quadric_basic (abc : AF R * AF R * AF R) (calc : AF R -> V * R) (miss : V * R -> bool) : option (V * R) :=
  let '(a, b, c) := abc in
  match af_solve_quadratic a b c with None => None | Some (t0, t1) => fst (select_hit t0 t1 calc miss) end.

Lemma quadric_basic_some (abc : AF R * AF R * AF R) (calc : AF R -> V * R) (miss : V * R -> bool) (h : V * R) :
  quadric_basic abc calc miss = Some h -> exists th : AF R, 0 < low th /\ h = calc th /\ miss h = false.
Proof.
  unfold quadric_basic. destruct abc as [[a b] c]. destruct (af_solve_quadratic a b c) as [[t0 t1]|]; [|discriminate].
  intros E. apply select_hit_some in E. destruct E as (L1 & M & [[L0 E] | E]); eauto.
Qed.

(** zero-width boxes: the coefficients are points, [cross t] says that the ray meets the surface at parameter t,
    and there the closure [calc] yields [hit t] *)
Section Exact.
  Variables (a b c : R) (calc : AF R -> V * R) (miss : V * R -> bool) (hit : R -> V * R) (cross : R -> Prop).
  Hypothesis Hs : solvable a b c.
  Hypothesis Hcross : forall t, cross t <-> a * t * t + b * t + c = 0.
  Hypothesis Hcalc : forall t, cross t -> calc (pt t) = hit t.

  Lemma root_crossing : 0 <= disc a b c -> cross (root0 a b c) /\ cross (root1 a b c).
  Proof. intros HD. split; apply Hcross, roots_complete; try apply Hs; auto. Qed.

  Lemma quadric_basic_spec :
    quadric_basic (pt a, pt b, pt c) calc miss =
    if Rltb (disc a b c) 0 then None else
    if Rleb (root1 a b c) 0 then None else
    if Rltb 0 (root0 a b c) then
      (if miss (hit (root0 a b c))
       then (if miss (hit (root1 a b c)) then None else Some (hit (root1 a b c)))
       else Some (hit (root0 a b c)))
    else (if miss (hit (root1 a b c)) then None else Some (hit (root1 a b c))).
  Proof.
    unfold quadric_basic. rewrite (solve_pt _ _ _ Hs). rcase (disc a b c) 0 HD; [reflexivity|].
    destruct (root_crossing HD) as [C0 C1]. rewrite select_hit_pt, (Hcalc _ C0), (Hcalc _ C1). reflexivity.
  Qed.

  Definition quadric_valid (t : R) : Prop := 0 < t /\ cross t /\ miss (hit t) = false.
  Theorem quadric_first_valid :
    match quadric_basic (pt a, pt b, pt c) calc miss with
    | Some h => exists t, quadric_valid t /\ h = hit t /\ forall t', quadric_valid t' -> t <= t'
    | None => forall t', ~ quadric_valid t'
    end.
  Proof.
    pose proof Hs as [Ha _]. unfold quadric_basic. rewrite (solve_pt _ _ _ Hs).
    assert (Hroots : forall t', cross t' -> 0 <= disc a b c /\ (t' = root0 a b c \/ t' = root1 a b c)).
    { intros t' C. apply Hcross, roots_complete in C; assumption. }
    rcase (disc a b c) 0 HD.
    - intros t' (_ & C & _). apply Hroots in C. lra.
    - destruct (root_crossing HD) as [C0 C1].
      pose proof (select_first_valid _ _ calc miss hit (root_le _ _ _ Ha HD) (Hcalc _ C0) (Hcalc _ C1)) as F.
      destruct (fst (select_hit _ _ _ _)) as [h|]; cbn [first_valid] in F.
      + destruct F as (t & Ht & Hp & -> & Hm & Hmin). exists t. split; [|split; [reflexivity|]].
        * split; [exact Hp|]. split; [destruct Ht as [-> | ->]; assumption | exact Hm].
        * intros t' (Hp' & C' & M'). apply Hmin; auto. apply Hroots, C'.
      + intros t' (Hp' & C' & M'). rewrite (F t' (proj2 (Hroots t' C')) Hp') in M'. discriminate.
  Qed.
End Exact.
