(** * C01 in terms of the POLYGON (outer outline and holes), not of the merged outline.

    Proofs/C01_tiling.v: for a sanitize-stable successful [from_polygon] the triangles are an ear decomposition of the closed
    MERGED outline L, every ear is counter-clockwise for the polygon's normal (fix 4bb2ed8), hence the winding number of L
    about a point counts the triangles containing it, and the absolute triangle areas add up to the shoelace area of L.
    Proofs/C12_region.v: under the decidable side conditions [closed_loop_clean false P] and [closed_loop_wf P] the merged
    outline satisfies  wn merged = wn outer - sum_holes wn (hole oriented like the outer),  the same for area2 and Newell.

    Here the two are composed, over the reals, in the plane coordinates [plane2 o e1 e2] of any frame whose normal
    e1 x e2 is (a positive multiple of) the polygon's normal:
    - [polygon_count]:         #triangles containing q = wn outer q - sum_holes wn (oriented hole) q;
    - [polygon_tile_exactly]:  with the Jordan hypotheses on the INPUT loops at q (outer winds 0 or 1 times, every
                               oriented hole winds >= 0 times, the holes together at most as often as the outer): a point of
                               the region is in exactly one triangle, a point outside the outer outline or in a hole in none,
                               no two triangles overlap;
    - [polygon_area_sum]:      sum |area2 T| = area2 outer - sum_holes area2 (oriented hole);
    - [polygon_area_parea]:    ... = parea P  (loops in one plane with unit normal e1 x e2, stored areas signed, the
                               polygon's own accounting area = outer - holes: the hypotheses of C12_region_net_area).

    Hypotheses (all stated in Properties/C01_tiling.v): C12's two side conditions; [stable_run P M]; [loop_close] keeps the
    vertex list of the merged loop; [frame_normal e1 e2 P]; the ray generic for the polygon's vertices; q on no triangle
    edge; Jordan on the input, pointwise.  Exact tier only. *)
From Coq Require Import ZArith Reals Lra Lia Bool List Arith Psatz Floats.
From G3 Require Import Model.Num Model.NumF Model.Base Model.Vec Model.Segment Model.Triangle Model.Loop Model.Polygon Model.PolyAux Model.Triangulation
  Theory.RInst Theory.LoopGeom Proofs.C05_pointtest Proofs.C12_merge Proofs.C12_region Proofs.C01_tiling Proofs.Mesh_witness.
From G3 Require Theory.Cyclic Theory.Winding Theory.Shoelace.
Import ListNotations.
Local Open Scope R_scope.

Notation PP := Winding.P2.
Notation T2 := (PP * PP * PP)%type.

(** ** the polygon's loops in plane coordinates *)
Definition poly_outer2 (o e1 e2 : V) (P : Poly R) : list PP := map (plane2 o e1 e2) (verts (pouter P)).
(** every hole oriented like the outer outline ([oriented] of Proofs/C12_region.v: the stored list when the stored normals
    have the same direction, its reverse otherwise) *)
Definition poly_holes2 (o e1 e2 : V) (P : Poly R) : list (list PP) :=
  map (fun h => map (plane2 o e1 e2) (oriented (lnormal (pouter P)) h)) (pinner P).
Definition holes_wn (d q : PP) (hs : list (list PP)) : Z := zsum (map (fun l => Winding.wn d l q) hs).
Definition holes_area2 (hs : list (list PP)) : R := rsum (map Shoelace.area2 hs).
(** the ray is generic for the polygon: its line through q meets no vertex of the outer outline or of a hole *)
Definition poly_generic (o e1 e2 : V) (P : Poly R) (d q : PP) : Prop :=
  forall v, In v (poly_verts P) -> Winding.hgt d q (plane2 o e1 e2 v) <> 0.
(** [close] keeps the vertex list of the merged loop (it drops a vertex only when the closing corner is collinear) *)
Definition close_keeps (P : Poly R) : Prop :=
  forall Lm : Loop R, poly_get_closed_loop P = Ok Lm -> verts (fst (loop_close Lm)) = verts Lm.

Section Polygon.
  Variables (o e1 e2 : V).
  Notation pr := (plane2 o e1 e2).
  Variables (P : Poly R) (M : Mesh R).
  Hypothesis Hclean : closed_loop_clean false P = true.
  Hypothesis Hwf : closed_loop_wf P = true.
  Hypothesis Hrun : stable_run P M.
  Hypothesis Hkeep : close_keeps P.
  Hypothesis Hn : frame_normal e1 e2 P.
  Notation Ts := (proj_tris o e1 e2 M).
  Notation O2 := (poly_outer2 o e1 e2 P).
  Notation H2 := (poly_holes2 o e1 e2 P).

  (** the closed merged outline: its projection is that of the merged loop, its vertices are vertices of the polygon *)
  Lemma merged_outline :
    exists L Lm : Loop R, outline_of P L /\ poly_get_closed_loop P = Ok Lm /\ proj_outline o e1 e2 L = map pr (verts Lm) /\
      forall v, In v (verts Lm) -> In v (poly_verts P).
  Proof.
    destruct (stable_run_outline P M Hrun) as (L & Lm & E1 & E2 & EL). exists L, Lm. split; [exists Lm; repeat split; assumption|].
    split; [exact E1|]. split.
    - unfold proj_outline. subst L. rewrite (Hkeep Lm E1). reflexivity.
    - destruct (merged_no_new_vertex P Hclean) as (L' & E' & H'). rewrite E1 in E'. injection E' as <-. exact H'.
  Qed.
  Lemma merged_wn (d q : PP) :
    exists L : Loop R, outline_of P L /\ Winding.wn d (proj_outline o e1 e2 L) q = (Winding.wn d O2 q - holes_wn d q H2)%Z /\
      (poly_generic o e1 e2 P d q -> Winding.generic d q (proj_outline o e1 e2 L)).
  Proof.
    destruct merged_outline as (L & Lm & Ho & E1 & EP & Hv). exists L. split; [exact Ho|]. rewrite EP. split.
    - destruct (wn_merged pr P d q Hclean Hwf) as (L' & E' & H'). rewrite E1 in E'. injection E' as <-. etransitivity; [exact H'|].
      unfold holes_wn, poly_holes2, poly_outer2. rewrite map_map. reflexivity.
    - intros Hg x Hx. apply in_map_iff in Hx. destruct Hx as (v & <- & Hin). apply Hg. apply Hv. exact Hin.
  Qed.

  (** *** 1. the count *)
  Theorem polygon_count (d q : PP) : poly_generic o e1 e2 P d q ->
    (forall a b c, In (a, b, c) Ts -> Winding.off_segs a b c q) ->
    Z.of_nat (Winding.count_inside Ts q) = (Winding.wn d O2 q - holes_wn d q H2)%Z.
  Proof.
    intros Hg Hoff. destruct (merged_wn d q) as (L & Ho & Ew & HG). rewrite <- Ew. symmetry.
    exact (ears_tiling_count_proved o e1 e2 P M L Hrun Ho Hn d q (HG Hg) Hoff).
  Qed.

  (** *** 2. the exact tiling, Jordan hypotheses on the input loops at q *)
  Theorem polygon_tile_exactly (d q : PP) : poly_generic o e1 e2 P d q ->
    (forall a b c, In (a, b, c) Ts -> Winding.off_segs a b c q) ->
    (0 <= Winding.wn d O2 q <= 1)%Z -> (forall l, In l H2 -> (0 <= Winding.wn d l q)%Z) -> (holes_wn d q H2 <= Winding.wn d O2 q)%Z ->
    (* a point of the region: in exactly one triangle *)
    (Winding.wn d O2 q = 1%Z -> (forall l, In l H2 -> Winding.wn d l q = 0%Z) ->
       Winding.count_inside Ts q = 1%nat /\ exists a b c, In (a, b, c) Ts /\ Winding.inside_tri a b c q) /\
    (* a point outside the outer outline, or in a hole: in no triangle *)
    (Winding.wn d O2 q = 0%Z \/ (exists l, In l H2 /\ (0 < Winding.wn d l q)%Z) ->
       Winding.count_inside Ts q = 0%nat /\ forall a b c, In (a, b, c) Ts -> ~ Winding.inside_tri a b c q) /\
    (* no two triangles overlap *)
    (forall (l1 l2 l3 : list T2) (a b c a' b' c' : PP), Ts = l1 ++ (a, b, c) :: l2 ++ (a', b', c') :: l3 ->
       Winding.inside_tri a b c q -> Winding.inside_tri a' b' c' q -> False) /\
    (* in general *)
    Winding.count_inside Ts q = Z.to_nat (Winding.wn d O2 q - holes_wn d q H2).
  Proof.
    intros Hg Hoff Ho Hh Hle. pose proof (polygon_count d q Hg Hoff) as Ec.
    assert (Hh0 : (0 <= holes_wn d q H2)%Z).
    { unfold holes_wn. apply zsum_nonneg. intros x Hx. apply in_map_iff in Hx. destruct Hx as (l & <- & Hl). apply Hh. exact Hl. }
    split; [|split; [|split]].
    - intros H1 Hz. assert (E0 : holes_wn d q H2 = 0%Z).
      { unfold holes_wn. apply zsum_zero. exact Hz. }
      assert (C1 : Winding.count_inside Ts q = 1%nat) by lia. split; [exact C1|]. apply count_pos_cover. lia.
    - intros Hout. assert (C0 : Winding.count_inside Ts q = 0%nat).
      { destruct Hout as [H0|(l & Hl & Hpos)]; [lia|].
        assert (Winding.wn d l q <= holes_wn d q H2)%Z.
        { unfold holes_wn. apply zsum_member_le; [|apply (in_map (fun l0 : list PP => Winding.wn d l0 q)); exact Hl].
          intros y Hy. apply in_map_iff in Hy. destruct Hy as (l' & <- & Hl'). apply Hh. exact Hl'. }
        lia. }
      split; [exact C0 | apply count_zero_none; exact C0].
    - intros l1 l2 l3 a b c a' b' c' E. apply (count_le1_no_overlap q l1 l2 l3). rewrite <- E. lia.
    - lia.
  Qed.

  (** *** 3. the areas *)
  Theorem polygon_area_sum :
    Cyclic.tsum 0 Rplus (fun a b c => Rabs (Shoelace.area2 [a; b; c])) Ts = Shoelace.area2 O2 - holes_area2 H2.
  Proof.
    destruct merged_outline as (L & Lm & Ho & E1 & EP & _).
    rewrite <- (ears_area_sum_proved o e1 e2 P M L Hrun Ho Hn). rewrite EP.
    destruct (area2_merged pr P Hclean Hwf) as (L' & E' & H'). rewrite E1 in E'. injection E' as <-. etransitivity; [exact H'|].
    unfold holes_area2, poly_holes2, poly_outer2. rewrite map_map. reflexivity.
  Qed.
  (** for loops in one plane with the unit normal n = e1 x e2 = the outer loop's stored normal, stored areas = n_loop . S_loop / 2
      (true of every loop closed by Loop3D::close) and the polygon's own accounting (true of every polygon built by new/cut_hole):
      the triangle areas sum to the polygon's area *)
  Theorem polygon_area_parea :
    lnormal (pouter P) = vcross e1 e2 -> vdot (vcross e1 e2) (vcross e1 e2) = 1 -> planar_normals P -> signed_areas P ->
    parea P = larea (pouter P) - rsum (map larea (pinner P)) ->
    Cyclic.tsum 0 Rplus (fun a b c => Rabs (Shoelace.area2 [a; b; c])) Ts = parea P.
  Proof.
    intros En Hu Hpl Hsa Hacc. destruct merged_outline as (L & Lm & Ho & E1 & EP & _).
    rewrite <- (ears_area_sum_proved o e1 e2 P M L Hrun Ho Hn). rewrite EP.
    assert (Hu' : vdot (lnormal (pouter P)) (lnormal (pouter P)) = 1) by (rewrite En; exact Hu).
    destruct (net_area_merged P Hclean Hwf Hu' Hpl Hsa) as (L' & E' & H'). rewrite E1 in E'. injection E' as <-.
    rewrite Hacc, <- H', En. pose proof (area2_plane2_newell o e1 e2 (verts Lm)) as HA. lra.
  Qed.
End Polygon.

(** * Non-vacuity: the unit square with the triangular hole (0.3,0.3) (0.45,0.6) (0.6,0.3) ([w1_poly]) *)
(** Binary64 instance (vm_compute): both side conditions of C12 hold, [close] keeps the 9 vertices of the merged loop, the
    run is sanitize-stable with 7 triangles, the polygon's normal is the outer loop's normal (0,0,1) = e1 x e2 for the
    frame e1 = (1,0,0), e2 = (0,1,0); the hole is stored clockwise, so "oriented like the outer" is its reverse.
    Over the reals, in units of 1/20 as in Proofs/C01_tiling.v: the outer square and the oriented hole meet the Jordan
    hypotheses at both sample points; a point of the region has wn outer - wn hole = 1 - 0 and is in exactly one
    triangle, a point in the hole has 1 - 1 = 0 and is in none; areas 400 - 18 = 382 = the sum of the triangle areas. *)
Definition ex2_outer : list (Z * Z) := [(0,0);(20,0);(20,20);(0,20)]%Z.
Definition ex2_hole : list (Z * Z) := [(12,6);(9,12);(6,6)]%Z.
Lemma ex2_polygon_float :
  closed_loop_clean false w1_poly = true /\ closed_loop_wf w1_poly = true /\ closed_loop_hits w1_poly = true /\
  pnormal w1_poly = lnormal (pouter w1_poly) /\ map fzp20 [pnormal w1_poly] = [(0, 0)%Z] /\ fz20 (vz (pnormal w1_poly)) = 20%Z /\
  map fzp20 (verts (pouter w1_poly)) = ex2_outer /\
  map (fun h => map fzp20 (oriented (lnormal (pouter w1_poly)) h)) (pinner w1_poly) = [ex2_hole] /\
  (exists Lm : Loop float, poly_get_closed_loop w1_poly = Ok Lm /\ snd (loop_close Lm) = Ok tt /\
     verts (fst (loop_close Lm)) = verts Lm /\ llen Lm = 9%nat) /\
  (exists M : Mesh float, stable_run w1_poly M /\ length (tris M) = 7%nat).
Proof.
  split; [vm_compute; reflexivity|]. split; [vm_compute; reflexivity|]. split; [vm_compute; reflexivity|].
  split; [vm_compute; reflexivity|]. split; [vm_compute; reflexivity|]. split; [vm_compute; reflexivity|].
  split; [vm_compute; reflexivity|]. split; [vm_compute; reflexivity|]. split.
  - eexists. split; [vm_compute; reflexivity|]. repeat split; vm_compute; reflexivity.
  - destruct ex2_run as (M & tr & Lm & H1 & Hs & _ & _ & _ & _ & _ & _ & H7 & _). exists M. split; [exists tr; split; assumption | exact H7].
Qed.
Lemma ex2_polygon_real :
  let O2 := map zr ex2_outer in let H2 := [map zr ex2_hole] in let Ts := map (map3 zr) ex2_ears in
  (* Jordan data of the input loops at the two sample points *)
  Winding.wn ex_d O2 ex2_q = 1%Z /\ holes_wn ex_d ex2_q H2 = 0%Z /\
  Winding.wn ex_d O2 ex2_qhole = 1%Z /\ holes_wn ex_d ex2_qhole H2 = 1%Z /\
  (* the conclusions of the polygon theorems hold of the triangles *)
  Z.of_nat (Winding.count_inside Ts ex2_q) = (Winding.wn ex_d O2 ex2_q - holes_wn ex_d ex2_q H2)%Z /\
  Z.of_nat (Winding.count_inside Ts ex2_qhole) = (Winding.wn ex_d O2 ex2_qhole - holes_wn ex_d ex2_qhole H2)%Z /\
  Shoelace.area2 O2 = 400 /\ holes_area2 H2 = 18 /\
  Cyclic.tsum 0 Rplus (fun a b c => Rabs (Shoelace.area2 [a; b; c])) Ts = Shoelace.area2 O2 - holes_area2 H2.
Proof.
  cbn zeta.
  assert (W1 : Winding.wn ex_d (map zr ex2_outer) ex2_q = 1%Z) by (unfold ex2_outer, zr, ex_d, ex2_q; cbn [map fst snd]; Winding.wn_eval).
  assert (W2 : holes_wn ex_d ex2_q [map zr ex2_hole] = 0%Z) by (unfold holes_wn, zsum, ex2_hole, zr, ex_d, ex2_q; cbn [map fst snd fold_right]; Winding.wn_eval).
  assert (W3 : Winding.wn ex_d (map zr ex2_outer) ex2_qhole = 1%Z) by (unfold ex2_outer, zr, ex_d, ex2_qhole; cbn [map fst snd]; Winding.wn_eval).
  assert (W4 : holes_wn ex_d ex2_qhole [map zr ex2_hole] = 1%Z) by (unfold holes_wn, zsum, ex2_hole, zr, ex_d, ex2_qhole; cbn [map fst snd fold_right]; Winding.wn_eval).
  destruct ex2_hypotheses as (D & Hpos & _ & _ & _ & C1 & _ & _ & _ & Hnone & HA). cbn zeta in *.
  assert (C0 : Winding.count_inside (map (map3 zr) ex2_ears) ex2_qhole = 0%nat).
  { destruct (Nat.eq_dec (Winding.count_inside (map (map3 zr) ex2_ears) ex2_qhole) 0) as [E|E]; [exact E|].
    destruct (count_pos_cover (map (map3 zr) ex2_ears) ex2_qhole) as (a & b & c & Hin & Hins); [lia|]. exfalso. exact (Hnone a b c Hin Hins). }
  assert (A1 : Shoelace.area2 (map zr ex2_outer) = 400).
  { unfold Shoelace.area2, Cyclic.csum, Cyclic.esum, Cyclic.edges_closed, Shoelace.cross2, ex2_outer, zr. cbn [map Cyclic.edges_to fold_right fst snd hd]. lra. }
  assert (A2 : holes_area2 [map zr ex2_hole] = 18).
  { unfold holes_area2, rsum, Shoelace.area2, Cyclic.csum, Cyclic.esum, Cyclic.edges_closed, Shoelace.cross2, ex2_hole, zr. cbn [map Cyclic.edges_to fold_right fst snd hd]. lra. }
  rewrite W1, W2, W3, W4, C1, C0, A1, A2. repeat split; try reflexivity.
  rewrite <- (ed2_area2_abs _ _ D) by (intros a b c Hin; apply Rlt_le, Hpos, Hin). rewrite HA. lra.
Qed.
