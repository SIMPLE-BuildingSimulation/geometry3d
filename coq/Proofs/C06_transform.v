From Coq Require Import ZArith Reals Lra Bool List Psatz.
From G3 Require Import Model.Num Model.Base Model.Vec Model.BBox Model.Transform Theory.RInst Theory.VecR.
Import ListNotations.
Local Open Scope R_scope.

Notation M := (M4 R).
Notation T := (Tr R).
Notation V := (V3 R).

Definition affine (m : M) : Prop := m30 m = 0 /\ m31 m = 0 /\ m32 m = 0 /\ m33 m = 1.
Definition Inv (t : T) : Prop :=
  mul4x4 (elements t) (inv_elements t) = m4_id /\ mul4x4 (inv_elements t) (elements t) = m4_id /\
  affine (elements t) /\ affine (inv_elements t).

(** one [cbn] step: an intermediate goal showing a projection of a whole matrix product is slow to check *)
Ltac unf := unfold affine; cbn [tr_mul_assign tr_new tr_translate tr_scale tr_rotate_x_sc tr_rotate_y_sc tr_rotate_z_sc
  tr_pt tr_inv_pt tr_vec tr_inv_vec tr_normal tr_inv_normal normal_by mul4x4point mul4x4vec mul4x4 m4_id
  vdivs vdot vadd vsub vscale vneg det3
  elements inv_elements m00 m01 m02 m03 m10 m11 m12 m13 m20 m21 m22 m23 m30 m31 m32 m33 vx vy vz
  tr_rotate_x tr_rotate_y tr_rotate_z nadd nsub nmul ndiv nneg nsin ncos nofZ n0 n1 NumR].

Lemma m4_eq (a b : M) :
  m00 a = m00 b -> m01 a = m01 b -> m02 a = m02 b -> m03 a = m03 b ->
  m10 a = m10 b -> m11 a = m11 b -> m12 a = m12 b -> m13 a = m13 b ->
  m20 a = m20 b -> m21 a = m21 b -> m22 a = m22 b -> m23 a = m23 b ->
  m30 a = m30 b -> m31 a = m31 b -> m32 a = m32 b -> m33 a = m33 b -> a = b.
Proof. destruct a, b; simpl; intros; subst; reflexivity. Qed.

(** one entry of (AB)C against the same entry of A(BC): row [a] of A, all of B, column [c] of C *)
Lemma entry_assoc (a0 a1 a2 a3 b00 b01 b02 b03 b10 b11 b12 b13 b20 b21 b22 b23 b30 b31 b32 b33 c0 c1 c2 c3 : R) :
  (a0 * b00 + a1 * b10 + a2 * b20 + a3 * b30) * c0 + (a0 * b01 + a1 * b11 + a2 * b21 + a3 * b31) * c1 +
  (a0 * b02 + a1 * b12 + a2 * b22 + a3 * b32) * c2 + (a0 * b03 + a1 * b13 + a2 * b23 + a3 * b33) * c3 =
  a0 * (b00 * c0 + b01 * c1 + b02 * c2 + b03 * c3) + a1 * (b10 * c0 + b11 * c1 + b12 * c2 + b13 * c3) +
  a2 * (b20 * c0 + b21 * c1 + b22 * c2 + b23 * c3) + a3 * (b30 * c0 + b31 * c1 + b32 * c2 + b33 * c3).
Proof. ring. Qed.
Lemma mul4x4_assoc (a b c : M) : mul4x4 (mul4x4 a b) c = mul4x4 a (mul4x4 b c).
Proof. apply m4_eq; unf; apply entry_assoc. Qed.
Lemma mul4x4_id_l (a : M) : mul4x4 m4_id a = a.
Proof. apply m4_eq; unf; ring. Qed.
Lemma mul4x4_id_r (a : M) : mul4x4 a m4_id = a.
Proof. apply m4_eq; unf; ring. Qed.
Lemma mul4x4_affine (a b : M) : affine a -> affine b -> affine (mul4x4 a b).
Proof.
  intros (A0 & A1 & A2 & A3) (B0 & B1 & B2 & B3). unf.
  rewrite A0, A1, A2, A3, B0, B1, B2, B3. repeat split; ring.
Qed.
Lemma affine_mk (a b c d e f g h i j k l : R) : affine (mkM4 a b c d e f g h i j k l n0 n0 n0 n1).
Proof. repeat split. Qed.
Lemma affine_id : affine m4_id.
Proof. apply affine_mk. Qed.

Lemma Inv_new : Inv tr_new.
Proof. unfold Inv. cbn [tr_new elements inv_elements]. rewrite mul4x4_id_l. repeat split; reflexivity. Qed.
Lemma Inv_translate x y z : Inv (tr_translate x y z).
Proof. split; [|split]; [apply m4_eq; unf; ring .. | split; apply affine_mk]. Qed.
Lemma Inv_scale x y z : x <> 0 -> y <> 0 -> z <> 0 -> Inv (tr_scale x y z).
Proof. intros. split; [|split]; [apply m4_eq; unf; field; assumption .. | split; apply affine_mk]. Qed.
Lemma Inv_rotate_sc s c : s * s + c * c = 1 ->
  Inv (tr_rotate_x_sc s c) /\ Inv (tr_rotate_y_sc s c) /\ Inv (tr_rotate_z_sc s c).
Proof. intros H. repeat apply conj; try apply affine_mk; apply m4_eq; unf; lra. Qed.
Lemma sc1 r : sin r * sin r + cos r * cos r = 1.
Proof. exact (sin2_cos2 r). Qed.
Lemma Inv_rotate_x d : Inv (tr_rotate_x d).
Proof. exact (proj1 (Inv_rotate_sc _ _ (sc1 (to_radians d)))). Qed.
Lemma Inv_rotate_y d : Inv (tr_rotate_y d).
Proof. exact (proj1 (proj2 (Inv_rotate_sc _ _ (sc1 (to_radians d))))). Qed.
Lemma Inv_rotate_z d : Inv (tr_rotate_z d).
Proof. exact (proj2 (proj2 (Inv_rotate_sc _ _ (sc1 (to_radians d))))). Qed.

Lemma Inv_mul_assign (a b : T) : Inv a -> Inv b -> Inv (tr_mul_assign a b).
Proof.
  intros (A1 & A2 & A3 & A4) (B1 & B2 & B3 & B4). unfold Inv, tr_mul_assign. cbn [elements inv_elements].
  split; [|split; [|split]].
  - rewrite mul4x4_assoc, <- (mul4x4_assoc (elements b)), B1, mul4x4_id_l. exact A1.
  - rewrite mul4x4_assoc, <- (mul4x4_assoc (inv_elements a)), A2, mul4x4_id_l. exact B2.
  - apply mul4x4_affine; assumption.
  - apply mul4x4_affine; assumption.
Qed.

Definition chain (l : list T) : T := fold_left tr_mul_assign l tr_new.
Lemma Inv_fold l : forall t, Inv t -> Forall Inv l -> Inv (fold_left tr_mul_assign l t).
Proof.
  induction l as [|b l IH]; intros t Ht Hl; cbn [fold_left]; [exact Ht|].
  inversion Hl as [|? ? Hb Hl']; subst. apply IH; [apply Inv_mul_assign; assumption | assumption].
Qed.
Lemma Inv_chain l : Forall Inv l -> Inv (chain l).
Proof. intros. apply Inv_fold; [apply Inv_new | assumption]. Qed.

(** under an affine matrix the division by w disappears: linear part plus translation column *)
Lemma pt_affine (m : M) (p : V) : affine m ->
  mul4x4point m p = vadd (mul4x4vec m p) (mkV3 (m03 m) (m13 m) (m23 m)).
Proof. intros (A0 & A1 & A2 & A3). apply v3_eq; unf; rewrite A0, A1, A2, A3; field. Qed.
Lemma pt_mul (a b : M) (p : V) : affine a -> affine b ->
  mul4x4point (mul4x4 a b) p = mul4x4point a (mul4x4point b p).
Proof.
  intros Ha Hb. rewrite !pt_affine by auto using mul4x4_affine. destruct Hb as (B0 & B1 & B2 & B3).
  apply v3_eq; unf; rewrite B0, B1, B2, B3; ring.
Qed.
Lemma pt_id (p : V) : mul4x4point m4_id p = p.
Proof. rewrite pt_affine by apply affine_id. apply v3_eq; unf; ring. Qed.
Lemma vec_mul (a b : M) (v : V) : affine b -> mul4x4vec (mul4x4 a b) v = mul4x4vec a (mul4x4vec b v).
Proof. intros (B0 & B1 & B2 & _). apply v3_eq; unf; rewrite B0, B1, B2; ring. Qed.
Lemma vec_id (v : V) : mul4x4vec m4_id v = v.
Proof. apply v3_eq; unf; ring. Qed.
Lemma normal_mul (a b : M) (v : V) : affine b -> normal_by (mul4x4 a b) v = normal_by b (normal_by a v).
Proof. intros (B0 & B1 & B2 & _). apply v3_eq; unf; rewrite ?B0, ?B1, ?B2; ring. Qed.
Lemma normal_id (v : V) : normal_by m4_id v = v.
Proof. apply v3_eq; unf; ring. Qed.

Lemma inv_pt_pt (t : T) (p : V) : Inv t -> tr_inv_pt t (tr_pt t p) = p.
Proof. intros (A1 & A2 & A3 & A4). unfold tr_inv_pt, tr_pt. rewrite <- pt_mul, A2 by assumption. apply pt_id. Qed.
Lemma pt_inv_pt (t : T) (p : V) : Inv t -> tr_pt t (tr_inv_pt t p) = p.
Proof. intros (A1 & A2 & A3 & A4). unfold tr_inv_pt, tr_pt. rewrite <- pt_mul, A1 by assumption. apply pt_id. Qed.
Lemma inv_vec_vec (t : T) (v : V) : Inv t -> tr_inv_vec t (tr_vec t v) = v.
Proof. intros (A1 & A2 & A3 & A4). unfold tr_inv_vec, tr_vec. rewrite <- vec_mul, A2 by assumption. apply vec_id. Qed.
Lemma vec_inv_vec (t : T) (v : V) : Inv t -> tr_vec t (tr_inv_vec t v) = v.
Proof. intros (A1 & A2 & A3 & A4). unfold tr_inv_vec, tr_vec. rewrite <- vec_mul, A1 by assumption. apply vec_id. Qed.
Lemma inv_normal_normal (t : T) (n : V) : Inv t -> tr_inv_normal t (tr_normal t n) = n.
Proof. intros (A1 & A2 & A3 & A4). unfold tr_inv_normal, tr_normal. rewrite <- normal_mul, A2 by assumption. apply normal_id. Qed.
Lemma normal_inv_normal (t : T) (n : V) : Inv t -> tr_normal t (tr_inv_normal t n) = n.
Proof. intros (A1 & A2 & A3 & A4). unfold tr_inv_normal, tr_normal. rewrite <- normal_mul, A1 by assumption. apply normal_id. Qed.

(** composing A with B acts as "apply B, then A" *)
Lemma mul_assign_acts_pt (a b : T) (p : V) : Inv a -> Inv b -> tr_pt (tr_mul_assign a b) p = tr_pt a (tr_pt b p).
Proof. intros (_&_&A3&_) (_&_&B3&_). unfold tr_pt, tr_mul_assign. cbn [elements]. apply pt_mul; assumption. Qed.
Lemma mul_assign_acts_vec (a b : T) (v : V) : Inv a -> Inv b -> tr_vec (tr_mul_assign a b) v = tr_vec a (tr_vec b v).
Proof. intros (_&_&A3&_) (_&_&B3&_). unfold tr_vec, tr_mul_assign. cbn [elements]. apply vec_mul; assumption. Qed.
Lemma mul_assign_acts_inv_pt (a b : T) (p : V) : Inv a -> Inv b -> tr_inv_pt (tr_mul_assign a b) p = tr_inv_pt b (tr_inv_pt a p).
Proof. intros (_&_&_&A4) (_&_&_&B4). unfold tr_inv_pt, tr_mul_assign. cbn [inv_elements]. apply pt_mul; assumption. Qed.

(** a normal transformed alongside a surface stays perpendicular: n'.v' = n.v *)
Lemma dot_transpose (a : M) (n v : V) : vdot (normal_by a n) v = vdot n (mul4x4vec a v).
Proof. unf. ring. Qed.
Lemma normal_dot_vec (t : T) (n v : V) : Inv t -> vdot (tr_normal t n) (tr_vec t v) = vdot n v.
Proof.
  intros (A1 & A2 & A3 & A4). unfold tr_normal, tr_vec. rewrite dot_transpose, <- vec_mul, A2, vec_id by assumption. reflexivity.
Qed.

Lemma det3_mul (a b : M) : affine b -> det3 (mul4x4 a b) = det3 a * det3 b.
Proof. intros (B0 & B1 & B2 & _). unf. rewrite B0, B1, B2. ring. Qed.
Lemma changes_hands_spec (t : T) : tr_changes_hands t = true <-> det3 (elements t) < 0.
Proof. unfold tr_changes_hands. rnum. apply Rltb_true. Qed.
Lemma changes_hands_mul (a b : T) : Inv a -> Inv b -> det3 (elements a) <> 0 -> det3 (elements b) <> 0 ->
  tr_changes_hands (tr_mul_assign a b) = xorb (tr_changes_hands a) (tr_changes_hands b).
Proof.
  intros (_&_&A3&_) (_&_&B3&_) Ha Hb. unfold tr_changes_hands, tr_mul_assign. cbn [elements]. rnum.
  rewrite det3_mul by assumption.
  rcase (det3 (elements a)) 0 H1; rcase (det3 (elements b)) 0 H2; cbn [xorb];
    [apply Rltb_false | apply Rltb_true | apply Rltb_true | apply Rltb_false]; nra.
Qed.
Lemma det_translate x y z : det3 (elements (tr_translate x y z)) = 1.
Proof. unf. ring. Qed.
Lemma det_scale x y z : det3 (elements (tr_scale x y z)) = x * y * z.
Proof. unf. ring. Qed.
Lemma det_rotate_sc s c : s * s + c * c = 1 ->
  det3 (elements (tr_rotate_x_sc s c)) = 1 /\ det3 (elements (tr_rotate_y_sc s c)) = 1 /\ det3 (elements (tr_rotate_z_sc s c)) = 1.
Proof. intros H. repeat split; unf; lra. Qed.
Lemma Inv_det_nonzero (t : T) : Inv t -> det3 (elements t) <> 0.
Proof.
  intros (A1 & _ & A3 & A4). assert (H : det3 (mul4x4 (elements t) (inv_elements t)) = 1) by (rewrite A1; unf; ring).
  rewrite det3_mul in H by assumption. intros E. rewrite E in H. lra.
Qed.
Lemma scale_mirrors x y z : tr_changes_hands (tr_scale x y z) = true <-> x * y * z < 0.
Proof. rewrite changes_hands_spec, det_scale. reflexivity. Qed.

(** ** rays: direction comes back exactly; the origin comes back on the same line, nudged forward *)
Lemma gamma_pos n : (0 < n <= 100)%Z -> 0 < @ngamma R _ n.
Proof.
  intros Hn. unfold ngamma. rnum. pose proof neps_pos as H1. pose proof neps_small as H2. rnum.
  assert (Hn1 : 1 <= IZR n) by (apply IZR_le; lia). assert (Hn2 : IZR n <= 100) by (apply IZR_le; lia).
  apply Rdiv_lt_0_compat; nra.
Qed.

Lemma pt_affine_comb (m : M) (p v : V) (t : R) : affine m ->
  mul4x4point m (vadd p (vscale v t)) = vadd (mul4x4point m p) (vscale (mul4x4vec m v) t).
Proof. intros Ha. rewrite !pt_affine by exact Ha. apply v3_eq; unf; ring. Qed.

Lemma abs_err_nonneg (m : M) (x y z g : R) : 0 <= g ->
  (let e := vscale (mul4x4_abs m x y z) g in 0 <= vx e /\ 0 <= vy e /\ 0 <= vz e) /\
  (let e := vscale (mul3x3_abs m x y z) g in 0 <= vx e /\ 0 <= vy e /\ 0 <= vz e).
Proof.
  intros Hg. unfold mul4x4_abs, mul3x3_abs, vscale. cbn [vx vy vz]. rnum.
  repeat split; apply Rmult_le_pos; try assumption;
    repeat apply Rplus_le_le_0_compat; apply Rabs_pos.
Qed.

Lemma nudge_spec (o d e : V) : 0 <= vx e -> 0 <= vy e -> 0 <= vz e ->
  exists dt, 0 <= dt /\ nudge o d e = vadd o (vscale d dt).
Proof.
  intros Hx Hy Hz. unfold nudge. rnum. destruct (Rltb 0 (vlen2 d)) eqn:E.
  - apply Rltb_true in E. eexists; split; [|reflexivity].
    apply Rmult_le_pos; [|left; apply Rinv_0_lt_compat; exact E].
    unfold vdot, vabs. cbn [vx vy vz]. rnum.
    repeat apply Rplus_le_le_0_compat; apply Rmult_le_pos; try assumption; apply Rabs_pos.
  - exists 0. split; [lra|]. apply v3_eq; unf; ring.
Qed.

Lemma ray_by_spec (m : M) (r : Ray R) : affine m ->
  let '(r', oe, de) := ray_by m r in
  rdir r' = mul4x4vec m (rdir r) /\
  exists dt, 0 <= dt /\ rorigin r' = vadd (mul4x4point m (rorigin r)) (vscale (mul4x4vec m (rdir r)) dt).
Proof.
  intros Ha. unfold ray_by, pt_with_error, vec_with_error. cbn [rdir rorigin]. split; [reflexivity|].
  pose proof (gamma_pos 4 ltac:(lia)) as Hg.
  destruct (abs_err_nonneg m (vx (rorigin r)) (vy (rorigin r)) (vz (rorigin r)) (ngamma 4) (Rlt_le _ _ Hg)) as ((E1 & E2 & E3) & _).
  apply nudge_spec; assumption.
Qed.

Lemma ray_by_project (m : M) (r : Ray R) : affine m ->
  exists dt, 0 <= dt /\ rdir (fst (fst (ray_by m r))) = mul4x4vec m (rdir r) /\
    forall s, ray_project (fst (fst (ray_by m r))) s = mul4x4point m (ray_project r (dt + s)).
Proof.
  intros Ha. pose proof (ray_by_spec m r Ha) as H. destruct (ray_by m r) as [[r' oe] de]. cbn [fst].
  destruct H as (D & dt & P & O). exists dt. split; [exact P|]. split; [exact D|]. intros s.
  unfold ray_project. rewrite O, D, vadd_assoc_scale. symmetry. apply pt_affine_comb, Ha.
Qed.

Lemma ray_round_trip (t : T) (r : Ray R) : Inv t ->
  let '(r1, _, _) := tr_ray t r in
  let '(r2, _, _) := tr_inv_ray t r1 in
  rdir r2 = rdir r /\ exists dt, 0 <= dt /\ rorigin r2 = vadd (rorigin r) (vscale (rdir r) dt).
Proof.
  intros Hi. pose proof Hi as (_ & _ & A3 & A4). unfold tr_ray, tr_inv_ray.
  destruct (ray_by_project (elements t) r A3) as (dt1 & P1 & D1 & O1). destruct (ray_by (elements t) r) as [[r1 oe1] de1].
  destruct (ray_by_project (inv_elements t) r1 A4) as (dt2 & P2 & D2 & O2). destruct (ray_by (inv_elements t) r1) as [[r2 oe2] de2].
  cbn [fst] in *. split.
  - rewrite D2, D1. apply (inv_vec_vec t (rdir r) Hi).
  - exists (dt1 + (dt2 + 0)). split; [lra|]. replace (rorigin r2) with (ray_project r2 0) by vring.
    rewrite O2, O1. apply (inv_pt_pt t _ Hi).
Qed.

(** the local ray of the generic wrapper [intersect = transform . local . inv_transform_ray] *)
Lemma inv_ray_world (t : T) (ray : Ray R) : Inv t ->
  exists dt, 0 <= dt /\ rdir (fst (fst (tr_inv_ray t ray))) = tr_inv_vec t (rdir ray) /\
    forall u, tr_pt t (ray_project (fst (fst (tr_inv_ray t ray))) u) = ray_project ray (dt + u).
Proof.
  intros Hi. destruct (ray_by_project (inv_elements t) ray (proj2 (proj2 (proj2 Hi)))) as (dt & P & D & O).
  exists dt. split; [exact P|]. split; [exact D|]. intros u. unfold tr_inv_ray. rewrite O. apply (pt_inv_pt t _ Hi).
Qed.
(** without a transform [simple_intersect] still goes through [Transform::new().inv_transform_ray] *)
Lemma id_ray_world (ray : Ray R) :
  exists dt, 0 <= dt /\ rdir (fst (fst (tr_inv_ray tr_new ray))) = rdir ray /\
    forall u, ray_project (fst (fst (tr_inv_ray tr_new ray))) u = ray_project ray (dt + u).
Proof.
  destruct (ray_by_project m4_id ray affine_id) as (dt & P & D & O). exists dt. split; [exact P|].
  rewrite vec_id in D. split; [exact D|]. intros u. rewrite <- pt_id. apply O.
Qed.

(** elementary transforms and their chains, as the property quantifies over them *)
Inductive elem : Type :=
| ETranslate (x y z : R) | EScale (x y z : R) | ERotX (deg : R) | ERotY (deg : R) | ERotZ (deg : R).
Definition elem_ok (e : elem) : Prop :=
  match e with EScale x y z => x <> 0 /\ y <> 0 /\ z <> 0 | _ => True end.
Definition elem_tr (e : elem) : T :=
  match e with
  | ETranslate x y z => tr_translate x y z | EScale x y z => tr_scale x y z
  | ERotX d => tr_rotate_x d | ERotY d => tr_rotate_y d | ERotZ d => tr_rotate_z d
  end.
Lemma Inv_elem e : elem_ok e -> Inv (elem_tr e).
Proof.
  destruct e; cbn [elem_ok elem_tr]; intros H;
    [apply Inv_translate | destruct H as (?&?&?); apply Inv_scale; assumption | apply Inv_rotate_x | apply Inv_rotate_y | apply Inv_rotate_z].
Qed.
Lemma Inv_elem_chain (l : list elem) : Forall elem_ok l -> Inv (chain (map elem_tr l)).
Proof.
  intros H. apply Inv_chain. induction H as [|e l He Hl IH]; cbn [map]; constructor; [apply Inv_elem; exact He | exact IH].
Qed.
(** the chain acts as the composition, first element outermost *)
Fixpoint act (l : list T) (p : V) : V := match l with [] => p | t :: l' => tr_pt t (act l' p) end.
Lemma fold_acts (l : list T) : forall t p, Inv t -> Forall Inv l ->
  tr_pt (fold_left tr_mul_assign l t) p = tr_pt t (act l p).
Proof.
  induction l as [|b l IH]; intros t p Ht Hl; cbn [fold_left act]; [reflexivity|].
  inversion Hl as [|? ? Hb Hl']; subst.
  rewrite IH by (try apply Inv_mul_assign; assumption). apply mul_assign_acts_pt; assumption.
Qed.
Lemma chain_acts (l : list T) (p : V) : Forall Inv l -> tr_pt (chain l) p = act l p.
Proof. intros H. unfold chain. rewrite fold_acts by (try apply Inv_new; assumption). unfold tr_pt, tr_new. cbn [elements]. apply pt_id. Qed.

Lemma rot_dot (s c a b a' b' : R) : s * s + c * c = 1 ->
  (c * a - s * b) * (c * a' - s * b') + (s * a + c * b) * (s * a' + c * b') = a * a' + b * b'.
Proof. intros H. transitivity ((s * s + c * c) * (a * a' + b * b')); [ring | rewrite H; ring]. Qed.
Lemma rotations_rigid_sc (s c : R) (u v : V) : s * s + c * c = 1 ->
  vdot (tr_vec (tr_rotate_x_sc s c) u) (tr_vec (tr_rotate_x_sc s c) v) = vdot u v /\
  vdot (tr_vec (tr_rotate_y_sc s c) u) (tr_vec (tr_rotate_y_sc s c) v) = vdot u v /\
  vdot (tr_vec (tr_rotate_z_sc s c) u) (tr_vec (tr_rotate_z_sc s c) v) = vdot u v.
Proof.
  intros H. pose proof (rot_dot _ _ (vy u) (vz u) (vy v) (vz v) H). pose proof (rot_dot _ _ (vz u) (vx u) (vz v) (vx v) H).
  pose proof (rot_dot _ _ (vx u) (vy u) (vx v) (vy v) H). repeat split; unf; lra.
Qed.
Lemma rotations_rigid (d : R) (u v : V) :
  vdot (tr_vec (tr_rotate_x d) u) (tr_vec (tr_rotate_x d) v) = vdot u v /\
  vdot (tr_vec (tr_rotate_y d) u) (tr_vec (tr_rotate_y d) v) = vdot u v /\
  vdot (tr_vec (tr_rotate_z d) u) (tr_vec (tr_rotate_z d) v) = vdot u v.
Proof. exact (rotations_rigid_sc _ _ u v (sc1 (to_radians d))). Qed.
(** counter-clockwise about the axis for a positive angle: y-hat -> (0, cos, sin) about x; z-hat -> (sin, 0, cos) about y;
    x-hat -> (cos, sin, 0) about z; the axis is fixed *)
Lemma rotations_ccw_sc (s c : R) :
  (tr_vec (tr_rotate_x_sc s c) (mkV3 0 1 0) = mkV3 0 c s /\ tr_vec (tr_rotate_x_sc s c) (mkV3 1 0 0) = mkV3 1 0 0) /\
  (tr_vec (tr_rotate_y_sc s c) (mkV3 0 0 1) = mkV3 s 0 c /\ tr_vec (tr_rotate_y_sc s c) (mkV3 0 1 0) = mkV3 0 1 0) /\
  (tr_vec (tr_rotate_z_sc s c) (mkV3 1 0 0) = mkV3 c s 0 /\ tr_vec (tr_rotate_z_sc s c) (mkV3 0 0 1) = mkV3 0 0 1).
Proof. repeat split; apply v3_eq; unf; ring. Qed.
Lemma rotations_ccw (d : R) : let r := to_radians d in
  tr_vec (tr_rotate_x d) (mkV3 0 1 0) = mkV3 0 (cos r) (sin r) /\
  tr_vec (tr_rotate_y d) (mkV3 0 0 1) = mkV3 (sin r) 0 (cos r) /\
  tr_vec (tr_rotate_z d) (mkV3 1 0 0) = mkV3 (cos r) (sin r) 0.
Proof.
  cbv zeta. destruct (rotations_ccw_sc (sin (to_radians d)) (cos (to_radians d))) as ((X & _) & (Y & _) & (Z & _)). auto.
Qed.
Lemma rigid_keep_hands (x y z d : R) :
  tr_changes_hands (tr_translate x y z) = false /\ tr_changes_hands (tr_rotate_x d) = false /\
  tr_changes_hands (tr_rotate_y d) = false /\ tr_changes_hands (tr_rotate_z d) = false.
Proof.
  destruct (det_rotate_sc _ _ (sc1 (to_radians d))) as (Dx & Dy & Dz). pose proof (det_translate x y z) as Dt.
  unfold tr_changes_hands, tr_rotate_x, tr_rotate_y, tr_rotate_z. rnumg. rewrite Dt, Dx, Dy, Dz.
  repeat split; apply Rltb_ge; lra.
Qed.
Lemma C06_nonvacuous_proof : Forall elem_ok [ETranslate 1 2 3; EScale 2 (-1) (1/2); ERotZ 90].
Proof. repeat constructor; cbn [elem_ok]; lra. Qed.
From G3 Require Import Model.Pinned.
Lemma pinned_mul_assign_breaks_Inv : exists a b : T, Inv a /\ Inv b /\ ~ Inv (tr_mul_assign_pinned a b).
Proof.
  exists (tr_translate 1 0 0), (tr_rotate_z_sc 1 0). split; [apply Inv_translate|]. split; [apply Inv_rotate_sc; lra|].
  intros (H & _). apply (f_equal m13) in H. revert H. unfold tr_mul_assign_pinned. unf. lra.
Qed.
