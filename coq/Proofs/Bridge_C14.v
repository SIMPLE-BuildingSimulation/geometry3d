(** * Bridge_C14: the float-tier theorems of C14, transferred to the primitive-float run.
    [bbox_intersect] on [NumF] (what Run/C14.v executes against the f64 build) returns what [bbox_intersect] on
    [NumB64] returns on the [P2B]-images of the inputs ([Bridge_model.hom_bbox_intersect] at [P2B_hom]); through that
    equality the theorems of Proofs/C14_special.v and Proofs/C14_margin.v at binary64 speak of the primitive run.
    The real value of a primitive float [x] is [FR x = B2R (P2B x)]. *)
From Coq Require Import ZArith Reals Bool Floats.
From Flocq Require Import Core BinarySingleNaN.
From G3 Require Import Model.Num Model.NumF Model.Base Model.Vec Model.BBox Theory.PrimBridge Proofs.Bridge_model.
From G3 Require Import Proofs.C14_real Proofs.C14_special Proofs.C14_float Proofs.C14_margin.
Local Open Scope R_scope.

Notation prim := Coq.Floats.PrimFloat.float (only parsing).

Definition boxRF (b : BBox prim) : BBox R := mkBBox (FV (bmin b)) (FV (bmax b)).
Definition rayRF (r : Ray prim) : Ray R := mkRay (FV (rorigin r)) (FV (rdir r)).
Lemma boxRF_eq (b : BBox prim) : boxRF b = boxR 53 1024 (pB b). Proof. reflexivity. Qed.
Lemma rayRF_eq (r : Ray prim) : rayRF r = rayR 53 1024 (pR r). Proof. reflexivity. Qed.
Lemma Ffin3_eq (v : V3 prim) : Ffin3 v = fin3 53 1024 (pV v). Proof. reflexivity. Qed.

(** the caller's reciprocal direction [1.0 / d], for every instance *)
Definition inv_dirN {K} {NK : Num K} (d : V3 K) : V3 K := mkV3 (n1 / vx d)%num (n1 / vy d)%num (n1 / vz d)%num.
Lemma inv_dirN_B64 (d : V3 b64) : inv_dirN d = inv64 d. Proof. reflexivity. Qed.
Lemma hom_inv_dirN {K1 K2} {N1 : Num K1} {N2 : Num K2} (h : K1 -> K2) {H : NumHom N1 N2 h} (d : V3 K1) :
  inv_dirN (mapV3 h d) = mapV3 h (inv_dirN d).
Proof. unfold inv_dirN. bridge h. Qed.

(** the recorded class F10 as a predicate of any instance (the text of [known_x_slab_nan]) *)
Definition known_x_slab_nanN {K} {NK : Num K} (b : BBox K) (r : Ray K) : bool :=
  ((vx (rdir r) =? n0) && ((vx (rorigin r) =? vx (bmin b)) || (vx (rorigin r) =? vx (bmax b))))%num.
Lemma hom_known_x_slab_nanN {K1 K2} {N1 : Num K1} {N2 : Num K2} (h : K1 -> K2) {H : NumHom N1 N2 h} (b : BBox K1) (r : Ray K1) :
  known_x_slab_nanN (mapBBox h b) (mapRay h r) = known_x_slab_nanN b r.
Proof. unfold known_x_slab_nanN. hom_norm. hom_pull h. reflexivity. Qed.

(** ** the run on primitive floats is the run on Flocq binary64 *)
Theorem prim_bbox_intersect (b : BBox prim) (r : Ray prim) (i : V3 prim) :
  @bbox_intersect _ NumF b r i = @bbox_intersect _ NumB64 (pB b) (pR r) (pV i).
Proof. symmetry. apply (hom_bbox_intersect P2B). Qed.
Theorem prim_inv_dir (d : V3 prim) : pV (@inv_dirN _ NumF d) = inv64 (pV d).
Proof. rewrite <- inv_dirN_B64. symmetry. apply (hom_inv_dirN P2B). Qed.
Theorem prim_bbox_point_inside (b : BBox prim) (p : V3 prim) :
  @bbox_point_inside _ NumF b p = @bbox_point_inside _ NumB64 (pB b) (pV p).
Proof. symmetry. apply (hom_bbox_point_inside P2B). Qed.
Theorem prim_ray_project (r : Ray prim) (t : prim) : pV (@ray_project _ NumF r t) = @ray_project _ NumB64 (pR r) (P2B t).
Proof. symmetry. apply (hom_ray_project P2B). Qed.

(** the run with the caller's reciprocal.  Thm 2 and Thm 3 of C14 conclude with the value of the Flocq run: composed
    with these equalities (Properties/C14_prim.v) they are about the primitive run. *)
Lemma prim_run_recip (b : BBox prim) (r : Ray prim) :
  @bbox_intersect _ NumF b r (inv_dirN (rdir r)) = @bbox_intersect _ NumB64 (pB b) (pR r) (inv64 (rdir (pR r))).
Proof. rewrite prim_bbox_intersect, prim_inv_dir. reflexivity. Qed.

(** ** witnesses and non-vacuity, on primitive floats (evaluated by [vm_compute] on the hardware instance) *)
Local Open Scope float_scope.
Definition pP (x y z : prim) : V3 prim := mkV3 x y z.
Definition wF_flat : BBox prim := @bbox_new _ NumF (pP 0 0 0) (pP 0 1 1).
Definition wF_cube : BBox prim := @bbox_new _ NumF (pP 0 0 0) (pP 1 1 1).
Definition wF_ray : Ray prim := mkRay (pP 0 0.5 (-1)) (pP 0 0 1).
Definition wF_ray_y : Ray prim := mkRay (pP 0.5 0 (-1)) (pP 0 (-0) 1).
Definition wF_ray_z : Ray prim := mkRay (pP (-1) 0.5 1) (pP 1 0 (-0)).
Definition wF_t : prim := 1.5.

Lemma prim_x_slab_nan_witness :
  (@known_x_slab_nanN _ NumF wF_flat wF_ray = true /\ (@nltb _ NumF n0 wF_t) = true /\
   @bbox_point_inside _ NumF wF_flat (ray_project wF_ray wF_t) = true /\
   @bbox_intersect _ NumF wF_flat wF_ray (inv_dirN (rdir wF_ray)) = false) /\
  (@known_x_slab_nanN _ NumF wF_cube wF_ray = true /\
   @bbox_point_inside _ NumF wF_cube (ray_project wF_ray wF_t) = true /\
   @bbox_intersect _ NumF wF_cube wF_ray (inv_dirN (rdir wF_ray)) = false).
Proof. vm_compute. repeat split; reflexivity. Qed.

Lemma prim_neg_zero_face_witness :
  (known_neg_zero_face 53 1024 Hprec53 Hmax1024 (pB wF_cube) (pR wF_ray_y) = true /\
   @known_x_slab_nanN _ NumF wF_cube wF_ray_y = false /\
   @bbox_point_inside _ NumF wF_cube (ray_project wF_ray_y wF_t) = true /\
   @bbox_intersect _ NumF wF_cube wF_ray_y (inv_dirN (rdir wF_ray_y)) = false) /\
  (known_neg_zero_face 53 1024 Hprec53 Hmax1024 (pB wF_cube) (pR wF_ray_z) = true /\
   @known_x_slab_nanN _ NumF wF_cube wF_ray_z = false /\
   @bbox_point_inside _ NumF wF_cube (ray_project wF_ray_z wF_t) = true /\
   @bbox_intersect _ NumF wF_cube wF_ray_z (inv_dirN (rdir wF_ray_z)) = false).
Proof. vm_compute. repeat split; reflexivity. Qed.

(** unit cube, origin (-1, 1/4, 1/2), direction (3, 1/2, -1/4): the primitive-float images are the Flocq witnesses
    [m_box], [m_ray] of Proofs/C14_margin.v *)
Definition mF_box : BBox prim := mkBBox (pP 0 0 0) (pP 1 1 1).
Definition mF_ray : Ray prim := mkRay (pP (-1) 0.25 0.5) (pP 3 0.5 (-0.25)).
Lemma mF_box_eq : pB mF_box = m_box.
Proof.
  unfold mF_box, m_box, mapBBox, mapV3, pP, P. cbn [bmin bmax vx vy vz].
  rewrite (P2B_const 0 zero64), (P2B_const 1 one64) by (vm_compute; reflexivity). reflexivity.
Qed.
Lemma mF_ray_eq : pR mF_ray = m_ray.
Proof.
  unfold mF_ray, m_ray, mapRay, mapV3, pP, P. cbn [rorigin rdir vx vy vz].
  rewrite (P2B_const (-1) mone64), (P2B_const 0.25 (q 1 (-2))), (P2B_const 0.5 half64), (P2B_const 3 (q 3 0)),
    (P2B_const (-0.25) (q (-1) (-2))) by (vm_compute; reflexivity).
  reflexivity.
Qed.
Lemma prim_margin_nonvacuous :
  margin_okb 53 1024 Hprec53 Hmax1024 (pB mF_box) (pR mF_ray) = true /\ clear_by 53 2 (boxRF mF_box) (rayRF mF_ray) /\
  @bbox_intersect _ NumF mF_box mF_ray (inv_dirN (rdir mF_ray)) = true.
Proof.
  rewrite boxRF_eq, rayRF_eq, mF_box_eq, mF_ray_eq.
  destruct margin_nonvacuous as (_ & H1 & H2 & _).
  split; [exact H1|]. split; [exact H2|]. vm_compute. reflexivity.
Qed.
