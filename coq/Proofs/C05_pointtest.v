(** * C05 proofs: Loop3D::test_point / Polygon3D::test_point on the real-number instance.
    Chain:  (1) gates (open loop, off-plane point, polygon = outer and not hole);
            (2) [seg_get_intersection_pt] solves the two-segment system exactly for coplanar segments;
            (3) for a generic cast segment, [test_point] = parity of the number of edges properly crossed
                by the cast segment (a geometric, sign-based predicate [crossb3]);
            (4) when the cast segment is long enough to pass every vertex, that is the crossing number of the RAY
                -- which the live code (fix 6f318c4) guarantees; the code before the fix (Model/PinnedLoop.v) did not;
            (5) in 2-D coordinates of the plane the crossing tests are the planar ones (Binet-Cauchy);
            (6) planar: the ray's crossing parity equals the parity of the number of fan triangles (any apex in
                general position) containing the point -- hence it does not depend on the ray's direction. *)
From Coq Require Import ZArith Reals Lra Lia Bool List Arith Psatz.
From G3 Require Import Model.Num Model.Base Model.Vec Model.Segment Model.Loop Model.Polygon Model.PinnedLoop Theory.RInst Theory.LoopGeom.
From G3 Require Proofs.C19_segment.
Import ListNotations.
Local Open Scope R_scope.

(** ** (1) the gates *)
Theorem test_point_open (L : Loop R) (q : V) : lclosed L = false -> loop_test_point L q = Err 34%N.
Proof. intros H. unfold loop_test_point. rewrite H. reflexivity. Qed.

Theorem test_point_off_plane (L : Loop R) (q v0 : V) (rest : list V) :
  lclosed L = true -> verts L = v0 :: rest -> vis_zero (lnormal L) = false ->
  / 10000000 <= Rabs (vdot (lnormal L) (vsub v0 q)) -> loop_test_point L q = Ok false.
Proof.
  intros Hc Hv Hz Hh. unfold loop_test_point, loop_is_coplanar. rewrite Hc, Hv, Hz. cbn [negb rbind].
  replace (nabs (vdot (lnormal L) (vsub v0 q)) <? c1em7)%num with false; [reflexivity|].
  symmetry. unfold c1em7. rnum. apply Rltb_false. lra.
Qed.

Theorem poly_test_point_spec (P : Poly R) (q : V) :
  poly_test_point P q =
  match loop_test_point (pouter P) q with
  | Ok true => match in_any_hole (pinner P) q with Ok h => Ok (negb h) | Err c => Err c | Panic s => Panic s end
  | Ok false => Ok false
  | Err c => Err c | Panic s => Panic s
  end.
Proof. unfold poly_test_point. destruct (loop_test_point (pouter P) q) as [[|]| |]; reflexivity. Qed.
(** when every individual loop test answers: inside the outer loop and inside no hole *)
Lemma in_any_hole_spec (hs : list (Loop R)) (q : V) (bs : list bool) :
  Forall2 (fun h b => loop_test_point h q = Ok b) hs bs -> in_any_hole hs q = Ok (existsb (fun b => b) bs).
Proof.
  induction 1 as [|h b hs bs Hh _ IH]; [reflexivity|]. cbn [in_any_hole existsb]. rewrite Hh. cbn [rbind]. destruct b; [reflexivity | exact IH].
Qed.
Theorem poly_test_point_outer_and_not_hole (P : Poly R) (q : V) (o : bool) (bs : list bool) :
  loop_test_point (pouter P) q = Ok o -> Forall2 (fun h b => loop_test_point h q = Ok b) (pinner P) bs ->
  poly_test_point P q = Ok (o && negb (existsb (fun b => b) bs)).
Proof.
  intros Ho Hh. unfold poly_test_point. rewrite Ho. cbn [rbind]. destruct o; [|reflexivity]. cbn [negb andb].
  rewrite (in_any_hole_spec _ _ _ Hh). reflexivity.
Qed.

(** ** (2) the two-segment solve *)
(** the intersection parameters returned for the segments (a,b) and (q,e) satisfy  a + ta (b - a) = q + tb (e - q)
    whenever the four points are coplanar (triple product (a - q) . ((b - a) x (e - q)) = 0) *)
Theorem gip_solves (a b q e : V) (ta tb : R) :
  seg_get_intersection_pt (seg_new a b) (seg_new q e) = Some (ta, tb) ->
  vdot (vsub a q) (vcross (vsub b a) (vsub e q)) = 0 ->
  vadd a (vscale (vsub b a) ta) = vadd q (vscale (vsub e q) tb).
Proof. exact (C19_segment.gip_coplanar_3d (seg_new a b) (seg_new q e) ta tb). Qed.

(** under the library's own non-degeneracy thresholds the solve does return parameters *)
Theorem gip_some (a b q e : V) :
  / 100000 <= vlen2 (vcross (vsub b a) (vsub e q)) ->
  vdot (vsub a q) (vcross (vsub b a) (vsub e q)) = 0 ->      (* coplanar: what the code tests since fix ec384e6 (within 1e-5 |n|) *)
  exists ta tb, seg_get_intersection_pt (seg_new a b) (seg_new q e) = Some (ta, tb).
Proof.
  intros Hc Hz. unfold seg_get_intersection_pt, seg_get_intersection_pt_tag. cbn [sstart send seg_new].
  assert (Hsd : vis_same_direction (vsub b a) (vsub e q) = false).
  { unfold vis_same_direction, vis_parallel. destruct (vis_zero (vsub e q) || vis_zero (vsub b a)); [reflexivity|].
    replace (nabs (vdot (vsub b a) (vsub e q) * vdot (vsub b a) (vsub e q) - vlen2 (vsub b a) * vlen2 (vsub e q)) <? c1em5)%num with false; [reflexivity|].
    symmetry. unfold c1em5. rnum. apply Rltb_false.
    pose proof (lagrange (vsub b a) (vsub e q)) as Lg. rewrite Rabs_left1; lra. }
  rewrite Hsd.
  replace (nabs (vdot (vsub a q) (vcross (vsub b a) (vsub e q))) >? c1em5 * vlen (vcross (vsub b a) (vsub e q)))%num with false.
  2:{ symmetry. rewrite Hz. unfold c1em5, vlen. rnum. apply Rltb_false. rewrite Rabs_R0. apply Rmult_le_pos; [lra | apply sqrt_pos]. }
  revert Hc. generalize (vsub b a) (vsub e q) (vsub a q). intros [A1 A2 A3] [B1 B2 B3] [D1 D2 D3]. unfold vlen2, vcross, c1em5. cbn [vx vy vz fst]. rnum. intros Hc.
  destruct (Rltb (1 / 100000) (Rabs (A1 * B2 - A2 * B1))) eqn:Cz; [eexists; eexists; reflexivity|].
  destruct (Rltb (1 / 100000) (Rabs (A2 * B3 - A3 * B2))) eqn:Cx; [eexists; eexists; reflexivity|].
  destruct (Rltb (1 / 100000) (Rabs (A3 * B1 - A1 * B3))) eqn:Cy; [eexists; eexists; reflexivity|].
  exfalso. apply Rltb_false in Cz, Cx, Cy.
  assert (Sq : forall x, Rabs x <= 1 / 100000 -> (x * x <= 1 / 10000000000)%R).
  { intros x Hx. pose proof (Rabs_pos x). replace (x * x)%R with (Rabs x * Rabs x)%R by (rewrite <- Rabs_mult; apply Rabs_pos_eq; nra). nra. }
  pose proof (Sq _ Cz). pose proof (Sq _ Cx). pose proof (Sq _ Cy). lra.
Qed.

(** ** (3) crossings of the cast segment, as sign conditions *)
(** which side of the line through q with direction d the point p lies on (times |d|, in the plane with normal n) *)
Definition sideof (n q d p : V) : R := vdot n (vcross d (vsub p q)).
(** which side of the line through a and b the point p lies on *)
Definition orient3 (n a b p : V) : R := vdot n (vcross (vsub b a) (vsub p a)).
(** the edge (a,b) is properly crossed by the segment from q to q + d: a and b strictly on opposite sides of the
    segment's line, q and q + d on opposite sides of (or on) the edge's line *)
Definition crossb3 (n q d a b : V) : bool :=
  Rltb (sideof n q d a * sideof n q d b) 0 && Rleb (orient3 n a b q * orient3 n a b (vadd q d)) 0.
(** ... by the RAY from q in direction d *)
Definition rayb3 (n q d a b : V) : bool :=
  Rltb (sideof n q d a * sideof n q d b) 0 && Rleb (orient3 n a b q * vdot n (vcross (vsub b a) d)) 0.
(** parameter along the edge (a,b) of the point where its line meets the line of the ray *)
Definition edge_param (n q d a b : V) : R := sideof n q d a / (sideof n q d a - sideof n q d b).

(** three vectors perpendicular to a non-zero n have a vanishing triple product *)
Lemma triple_expand (n D A B : V) :
  (vdot n n * vdot D (vcross A B) =
   vdot n D * vdot n (vcross A B) + vdot n A * vdot n (vcross B D) + vdot n B * vdot n (vcross D A))%R.
Proof. vunf. rnum. ring. Qed.
Lemma triple_in_plane (n D A B : V) :
  0 < vdot n n -> vdot n D = 0 -> vdot n A = 0 -> vdot n B = 0 -> vdot D (vcross A B) = 0.
Proof.
  intros Hn HD HA HB. pose proof (triple_expand n D A B) as K. rewrite HD, HA, HB in K.
  apply (Rmult_eq_reg_l (vdot n n)); [rewrite K; ring | lra].
Qed.
(** ... and the cross product of two of them is a multiple of n:  (n . (A x B))^2 = |n|^2 |A x B|^2 *)
Lemma cross_parallel_normal (n A B : V) :
  vdot n A = 0 -> vdot n B = 0 -> (vdot n (vcross A B) * vdot n (vcross A B) = vdot n n * vlen2 (vcross A B))%R.
Proof. intros HA HB. exact (parallel_dot n _ (cross_in_plane_parallel n A B HA HB)). Qed.

(** the geometric data of one edge against the cast segment, from the solved parameters *)
Lemma cross_values (n q d a b : V) (ta tb : R) :
  vadd a (vscale (vsub b a) ta) = vadd q (vscale d tb) ->
  let W := vdot n (vcross (vsub b a) d) in
  sideof n q d a = (ta * W)%R /\ sideof n q d b = ((ta - 1) * W)%R /\
  orient3 n a b q = (- tb * W)%R /\ orient3 n a b (vadd q d) = ((1 - tb) * W)%R.
Proof.
  intros E W. assert (Q : q = vsub (vadd a (vscale (vsub b a) ta)) (vscale d tb)) by (rewrite E; vring).
  unfold sideof, orient3, W. rewrite Q. repeat split; vring.
Qed.

Lemma sideof_diff (n q d a b : V) : (sideof n q d a - sideof n q d b = vdot n (vcross (vsub b a) d))%R.
Proof. unfold sideof. vunf. rnum. ring. Qed.
Lemma orient3_far (n q d a b : V) : orient3 n a b (vadd q d) = (orient3 n a b q + vdot n (vcross (vsub b a) d))%R.
Proof. unfold orient3. vunf. rnum. ring. Qed.
(* with u = a - q, v = b - q:  (v.d) u - (u.d) v = d x (u x v), and  d x (d x w) = (d.w) d - (d.d) w *)
Lemma side_orient (n q d a b : V) :
  (vdot (vsub b q) d * sideof n q d a - vdot (vsub a q) d * sideof n q d b =
   - orient3 n a b q * vdot d d + vdot n d * vdot d (vcross (vsub a q) (vsub b q)))%R.
Proof. unfold sideof, orient3. vunf. rnum. ring. Qed.

(** sign of the products in [crossb3], in terms of the solved parameters *)
Lemma between_sign (t W : R) : W <> 0 -> Rleb (- t * W * ((1 - t) * W)) 0 = Rleb 0 t && Rleb t 1.
Proof.
  intros HW. assert (0 < W * W)%R by nra.
  replace (- t * W * ((1 - t) * W))%R with (- (t * (1 - t)) * (W * W))%R by ring.
  destruct (Rlt_or_le t 0); [|destruct (Rle_or_lt t 1)].
  - assert (t * (1 - t) < 0)%R by nra. rewrite (Rleb_gt _ 0) by nra. rdec. reflexivity.
  - assert (0 <= t * (1 - t))%R by nra. rewrite (Rleb_le _ 0) by nra. rdec. reflexivity.
  - assert (t * (1 - t) < 0)%R by nra. rewrite (Rleb_gt _ 0) by nra. rdec. reflexivity.
Qed.
Lemma strict_between_sign (t W : R) : W <> 0 -> Rltb (t * W * ((t - 1) * W)) 0 = Rltb 0 t && Rltb t 1.
Proof.
  intros HW. assert (0 < W * W)%R by nra.
  replace (t * W * ((t - 1) * W))%R with (t * (t - 1) * (W * W))%R by ring.
  destruct (Rle_or_lt t 0); [|destruct (Rlt_or_le t 1)].
  - assert (0 <= t * (t - 1))%R by nra. rewrite (Rltb_ge _ 0) by nra. rdec. reflexivity.
  - assert (t * (t - 1) < 0)%R by nra. rewrite (Rltb_lt _ 0) by nra. rdec. reflexivity.
  - assert (0 <= t * (t - 1))%R by nra. rewrite (Rltb_ge _ 0) by nra. rdec. reflexivity.
Qed.

Lemma crossb3_params (n q d a b : V) (ta tb : R) :
  let W := vdot n (vcross (vsub b a) d) in W <> 0 -> sideof n q d a = (ta * W)%R -> orient3 n a b q = (- tb * W)%R ->
  crossb3 n q d a b = (Rltb 0 ta && Rltb ta 1) && (Rleb 0 tb && Rleb tb 1).
Proof.
  intros W HW Sa Oq. unfold crossb3. rewrite orient3_far, Oq. fold W.
  replace (sideof n q d b) with ((ta - 1) * W)%R by (pose proof (sideof_diff n q d a b) as D; fold W in D; lra).
  rewrite Sa. replace (- tb * W + W)%R with ((1 - tb) * W)%R by ring.
  rewrite strict_between_sign, between_sign by exact HW. reflexivity.
Qed.

(** the hypotheses on one edge (a,b) for the cast segment q -> q + d in the plane with normal n *)
Definition edge_generic (n q d a b : V) : Prop :=
  vdot n (vsub b a) = 0 /\ vdot n (vsub a q) = 0 /\                      (* a and b lie in the plane of q *)
  / 100000 <= vlen2 (vcross (vsub b a) d) /\                             (* edge and segment not parallel within the library's tolerance *)
  sideof n q d b <> 0 /\                                                 (* the line of the segment does not pass through b ... *)
  ~ (0 <= edge_param n q d a b < neps).                                  (* ... nor within EPSILON (edge parameter) of a *)

(** the solve of [edge_cross_count] in closed form: the edge parameter is [edge_param], and the four sign
    quantities are multiples of W = n . ((b - a) x d) *)
Lemma edge_solved (n q d a b : V) :
  0 < vdot n n -> vdot n d = 0 -> vdot n (vsub b a) = 0 -> vdot n (vsub a q) = 0 ->
  / 100000 <= vlen2 (vcross (vsub b a) d) ->
  let W := vdot n (vcross (vsub b a) d) in let ta := edge_param n q d a b in
  W <> 0 /\ exists tb,
    seg_get_intersection_pt (seg_new a b) (seg_new q (vadd q d)) = Some (ta, tb) /\
    sideof n q d a = (ta * W)%R /\ sideof n q d b = ((ta - 1) * W)%R /\
    orient3 n a b q = (- tb * W)%R /\ orient3 n a b (vadd q d) = ((1 - tb) * W)%R.
Proof.
  intros Hnn Hnd Hab Haq Hpar W ta.
  assert (HW : W <> 0).
  { intros E0. pose proof (cross_parallel_normal n (vsub b a) d Hab Hnd) as C. fold W in C. rewrite E0 in C. nra. }
  split; [exact HW|].
  assert (T : vdot (vsub a q) (vcross (vsub b a) (vsub (vadd q d) q)) = 0).
  { rewrite vsub_vadd. apply (triple_in_plane n); assumption. }
  destruct (gip_some a b q (vadd q d)) as [ta' [tb G]]; [rewrite vsub_vadd; exact Hpar | exact T|].
  pose proof (gip_solves a b q (vadd q d) ta' tb G T) as E. rewrite vsub_vadd in E.
  destruct (cross_values n q d a b ta' tb E) as [Sa [Sb S]]. fold W in Sa, Sb, S.
  assert (Hp : ta = ta') by (unfold ta, edge_param; rewrite Sa, Sb; replace (ta' * W - (ta' - 1) * W)%R with W by ring; field; exact HW).
  exists tb. rewrite Hp. split; [exact G|]. split; [exact Sa|]. split; [exact Sb | exact S].
Qed.

Theorem edge_cross_count_generic (L : Loop R) (q d a b : V) :
  let n := lnormal L in
  0 < vdot n n -> vdot n d = 0 ->
  seg_contains_point (seg_new a b) q = Ok false ->
  edge_generic n q d a b ->
  edge_cross_count L q d (seg_new q (vadd q d)) a b = Ok (false, if crossb3 n q d a b then 1%nat else 0%nat).
Proof.
  cbn zeta. intros Hnn Hnd Hon [Hab [Haq [Hpar [Hsb Hband]]]].
  destruct (edge_solved _ q d a b Hnn Hnd Hab Haq Hpar) as [HW [tb [G [Sa [Sb [Oq Oe]]]]]].
  unfold edge_cross_count. rewrite Hon, G. cbn [rbind].
  rewrite (crossb3_params _ q d a b _ tb HW Sa Oq).
  assert (Hta1 : edge_param (lnormal L) q d a b <> 1) by (intros E1; apply Hsb; rewrite Sb, E1; ring).
  revert Hband Hta1. generalize (edge_param (lnormal L) q d a b). intros ta Hband Hta1.
  pose proof neps_pos as He. revert He Hband. generalize (@neps R NumR). intros eps He Hband.
  unfold in01. rnum. destruct (Rleb 0 tb && Rleb tb 1); [|rewrite andb_false_r; reflexivity].
  destruct (Rlt_or_le ta 0); [|destruct (Rlt_or_le ta 1)].
  - rdec. reflexivity.
  - assert (eps <= ta) by (destruct (Rle_or_lt eps ta); [assumption | exfalso; apply Hband; lra]). rdec. reflexivity.
  - assert (1 < ta) by lra. rdec. reflexivity.
Qed.

(** ** the whole loop *)
(** the edges of the closed outline, in stored order (the last one returns to the first vertex) *)
Definition cyc_edges (vs : list V) : list (V * V) := edges_from vs (vnth vs O).
(** the cast segment of the live code: direction q - (midpoint of the first stored edge), length
    max (2 * distance to the farthest vertex, 1000)  ([loop_ray], Model/Loop.v).  Before fix 6f318c4 it was
    1000 (q - midpoint)  ([pinned_ray], Model/PinnedLoop.v). *)
Definition test_ray (L : Loop R) (q : V) : V := loop_ray L q.

Lemma count_crossings_spec (L : Loop R) (q d : V) (ray : Seg R) (g : V -> V -> bool) (vs : list V) (first : V) :
  forall acc,
  (forall a b, In (a, b) (edges_from vs first) -> edge_cross_count L q d ray a b = Ok (false, if g a b then 1%nat else 0%nat)) ->
  count_crossings L q d ray vs first acc = Ok (false, (acc + countb g (edges_from vs first))%nat).
Proof.
  induction vs as [|a tl IH]; intros acc H.
  - cbn [count_crossings edges_from countb filter length]. rewrite Nat.add_0_r. reflexivity.
  - cbn [count_crossings edges_from]. rewrite (H a _ (or_introl eq_refl)). cbn [rbind fst snd].
    rewrite IH by (intros a' b' Hin; apply H; right; exact Hin).
    unfold countb. cbn [filter fst snd]. destruct (g a _); cbn [length]; f_equal; f_equal; lia.
Qed.

Lemma odd_rule (c : nat) : negb (Nat.eqb c 0) && Nat.odd c = Nat.odd c.
Proof. destruct c; reflexivity. Qed.

(** [test_point] is the generic point test with the ray of the code *)
Lemma test_point_is_gen (L : Loop R) (q : V) : loop_test_point L q = loop_test_point_gen loop_ray L q.
Proof. reflexivity. Qed.
Lemma test_point_pinned_is_gen (L : Loop R) (q : V) : loop_test_point_pinned L q = loop_test_point_gen pinned_ray L q.
Proof. reflexivity. Qed.

Lemma test_point_gen_counts (g : V -> V -> bool) (rayf : Loop R -> V -> V) (L : Loop R) (q : V) :
  lclosed L = true -> (1 <= llen L)%nat -> vis_zero (lnormal L) = false ->
  (forall a b, In (a, b) (cyc_edges (verts L)) -> vdot (lnormal L) (vsub a q) = 0 /\
     edge_cross_count L q (rayf L q) (seg_new q (vadd q (rayf L q))) a b = Ok (false, if g a b then 1%nat else 0%nat)) ->
  loop_test_point_gen rayf L q = Ok (Nat.odd (countb g (cyc_edges (verts L)))).
Proof.
  intros Hc Hlen Hz He.
  destruct (verts L) as [|v0 rest] eqn:Hv; unfold llen in Hlen; rewrite Hv in Hlen; cbn [length] in Hlen; try lia.
  destruct (He v0 _ (or_introl eq_refl)) as [Haq _].
  unfold loop_test_point_gen. rewrite Hc. cbn [negb]. unfold loop_is_coplanar. rewrite Hv, Hz. cbn [rbind].
  replace (nabs (vdot (lnormal L) (vsub v0 q)) <? c1em7)%num with true
    by (symmetry; unfold c1em7; rnum; rewrite Haq, Rabs_R0; apply Rltb_true; lra).
  cbn [negb]. rewrite <- Hv.
  rewrite (count_crossings_spec L q (rayf L q) _ g) by (intros a b Hin; apply He; rewrite <- Hv; exact Hin).
  cbn [rbind fst snd]. rewrite odd_rule. reflexivity.
Qed.

(** CORE: for a closed, exactly planar loop and a point q of its plane that no edge "contains" (the on-edge
    shortcut of [contains_point] does not fire), with a generic cast segment (see [edge_generic]),
    the point test answers the parity of the number of edges properly crossed by the cast segment.
    Stated for any in-plane choice of the cast segment ([rayf]); the live code's choice is [loop_ray], the former one [pinned_ray]. *)
Theorem test_point_gen_counts_crossings (rayf : Loop R -> V -> V) (L : Loop R) (q : V) :
  lclosed L = true -> (1 <= llen L)%nat ->
  let n := lnormal L in let d := rayf L q in
  vis_zero n = false -> 0 < vdot n n -> vdot n d = 0 ->
  (forall a b, In (a, b) (cyc_edges (verts L)) -> seg_contains_point (seg_new a b) q = Ok false /\ edge_generic n q d a b) ->
  loop_test_point_gen rayf L q = Ok (Nat.odd (countb (crossb3 n q d) (cyc_edges (verts L)))).
Proof.
  cbn zeta. intros Hc Hlen Hz Hnn Hd He. apply test_point_gen_counts; try assumption.
  intros a b Hin. destruct (He a b Hin) as [Hon Hg]. split; [exact (proj1 (proj2 Hg))|].
  apply edge_cross_count_generic; assumption.
Qed.

(** the ray of the code lies in the plane of the loop *)
Lemma test_ray_in_plane (L : Loop R) (q : V) :
  (2 <= llen L)%nat ->
  (forall a b, In (a, b) (cyc_edges (verts L)) -> vdot (lnormal L) (vsub b a) = 0 /\ vdot (lnormal L) (vsub a q) = 0) ->
  forall k : R, vdot (lnormal L) (vscale (vsub q (vscale (vadd (vnth (verts L) O) (vnth (verts L) (S O))) nhalf)) k) = 0.
Proof.
  intros Hlen He k.
  destruct (verts L) as [|v0 [|v1 rest]] eqn:Ev; unfold llen in Hlen; rewrite Ev in Hlen; cbn [length] in Hlen; try lia.
  assert (E0 : In (v0, v1) (cyc_edges (v0 :: v1 :: rest))) by (left; reflexivity).
  destruct (He _ _ E0) as [Hab Haq].
  unfold vnth; cbn [List.nth]. revert Hab Haq. generalize (lnormal L). intros [n1 n2 n3].
  destruct v0 as [a1 a2 a3], v1 as [b1 b2 b3], q as [q1 q2 q3]. unfold vdot, vsub, vadd, vscale. cbn [vx vy vz]. rnum. intros Hab Haq.
  assert (S0 : (n1 * (q1 - (a1 + b1) * (1 / 2)) + n2 * (q2 - (a2 + b2) * (1 / 2)) + n3 * (q3 - (a3 + b3) * (1 / 2)) = 0)%R) by lra.
  replace (n1 * ((q1 - (a1 + b1) * (1 / 2)) * k) + n2 * ((q2 - (a2 + b2) * (1 / 2)) * k) + n3 * ((q3 - (a3 + b3) * (1 / 2)) * k))%R
    with ((n1 * (q1 - (a1 + b1) * (1 / 2)) + n2 * (q2 - (a2 + b2) * (1 / 2)) + n3 * (q3 - (a3 + b3) * (1 / 2))) * k)%R by ring.
  rewrite S0. ring.
Qed.

(** ** (3b) what [crossb3] means: the edge and the cast segment meet at a point interior to the edge *)
Definition meets (q d a b : V) : Prop :=
  exists ta tb, 0 < ta < 1 /\ 0 <= tb <= 1 /\ vadd a (vscale (vsub b a) ta) = vadd q (vscale d tb).

Lemma cramer3 (n A d r : V) :
  vscale r (vdot n (vcross A d)) =
  vadd (vadd (vscale A (- vdot n (vcross d r))) (vscale d (vdot n (vcross A r)))) (vscale n (vdot r (vcross A d))).
Proof. vring. Qed.
Lemma in_plane_zero (n A d r : V) :
  vdot n A = 0 -> vdot n d = 0 -> vdot n r = 0 -> 0 < vdot n n ->
  vdot n (vcross A d) <> 0 -> vdot n (vcross d r) = 0 -> vdot n (vcross A r) = 0 -> r = vzero.
Proof.
  intros HA Hd Hr Hn HW H1 H2. pose proof (cramer3 n A d r) as C.
  rewrite H1, H2, (triple_in_plane n r A d Hn Hr HA Hd) in C.
  assert (Z : vscale r (vdot n (vcross A d)) = vzero) by (rewrite C; vring).
  revert HW Z. generalize (vdot n (vcross A d)). intros W HW Z. destruct r as [r1 r2 r3].
  unfold vscale, vzero in *. cbn [vx vy vz] in Z. rnum. injection Z as Z1 Z2 Z3.
  f_equal; apply (Rmult_eq_reg_r W); lra.
Qed.


Theorem crossb3_meets (n q d a b : V) :
  0 < vdot n n -> vdot n d = 0 -> vdot n (vsub b a) = 0 -> vdot n (vsub a q) = 0 ->
  vdot n (vcross (vsub b a) d) <> 0 ->
  (crossb3 n q d a b = true <-> meets q d a b).
Proof.
  intros Hn Hd Hab Haq HW. split.
  - intros C. set (W := vdot n (vcross (vsub b a) d)) in *.
    set (ta := (sideof n q d a / W)%R). set (tb := (- orient3 n a b q / W)%R).
    assert (Sa : sideof n q d a = (ta * W)%R) by (unfold ta; field; exact HW).
    assert (Oq : orient3 n a b q = (- tb * W)%R) by (unfold tb; field; exact HW).
    rewrite (crossb3_params n q d a b ta tb HW Sa Oq) in C.
    apply andb_prop in C. destruct C as [C1 C2]. apply andb_prop in C1, C2. destruct C1 as [A1 A2], C2 as [B1 B2].
    apply Rltb_true in A1, A2. apply Rleb_true in B1, B2.
    exists ta, tb. split; [lra|]. split; [lra|].
    (* the difference vector is in the plane and parallel to both directions: zero *)
    apply vsub_zero_eq, (in_plane_zero n (vsub b a) d _ Hab Hd); [| exact Hn | exact HW | |].
    + transitivity (vdot n (vsub a q) + ta * vdot n (vsub b a) - tb * vdot n d)%R; [vring | rewrite Hd, Hab, Haq; ring].
    + transitivity (sideof n q d a - ta * W)%R; [|lra]. unfold sideof, W. vring.
    + transitivity (- orient3 n a b q - tb * W)%R; [|lra]. unfold orient3, W. vring.
  - intros [ta [tb [Ha [Hb E]]]]. destruct (cross_values n q d a b ta tb E) as [Sa [_ [Oq _]]].
    rewrite (crossb3_params n q d a b ta tb HW Sa Oq). rdec. reflexivity.
Qed.

(** ** (4) a segment long enough to pass every vertex crosses exactly the edges its ray crosses *)
Lemma long_ray_half (sa sb oq W la lb dd : R) :
  W = (sa - sb)%R -> (lb * sa - la * sb = - oq * dd)%R -> 0 < dd -> la <= dd -> lb <= dd ->
  (0 < sa /\ sb <= 0) \/ (0 < sb /\ sa <= 0) ->
  (oq * W <= 0 <-> oq * (oq + W) <= 0)%R.
Proof.
  intros HW HI Hdd Hla Hlb Hs. split; [|intros; destruct Hs as [[S1 S2]|[S1 S2]]; nra].
  intros H. destruct Hs as [[S1 S2]|[S1 S2]].
  - assert (0 < W) by lra. assert (oq <= 0) by nra.
    assert ((- oq) * dd <= dd * W)%R by (rewrite <- HI; subst W; nra).
    assert (- oq <= W) by nra. nra.
  - assert (W < 0) by lra. assert (0 <= oq) by nra.
    assert (dd * W <= (- oq) * dd)%R by (rewrite <- HI; subst W; nra).
    assert (W <= - oq) by nra. nra.
Qed.

Theorem long_segment_is_ray (n q d a b : V) :
  vdot n d = 0 -> 0 < vdot d d ->
  vdot (vsub a q) d <= vdot d d -> vdot (vsub b q) d <= vdot d d ->
  crossb3 n q d a b = rayb3 n q d a b.
Proof.
  intros Hd Hdd Hla Hlb. unfold crossb3, rayb3.
  rcase (sideof n q d a * sideof n q d b) 0 S1; [|reflexivity]. cbn [andb].
  set (sa := sideof n q d a) in *. set (sb := sideof n q d b) in *. set (oq := orient3 n a b q) in *.
  set (W := vdot n (vcross (vsub b a) d)).
  assert (EW : W = (sa - sb)%R) by (symmetry; apply sideof_diff).
  assert (EO : (orient3 n a b (vadd q d) = oq + W)%R) by apply orient3_far.
  assert (EI : (vdot (vsub b q) d * sa - vdot (vsub a q) d * sb = - oq * vdot d d)%R) by (unfold sa, sb, oq; rewrite side_orient, Hd; ring).
  assert (Hs : (0 < sa /\ sb <= 0) \/ (0 < sb /\ sa <= 0)) by (destruct (Rlt_or_le 0 sa); [left | right]; nra).
  rewrite EO. pose proof (long_ray_half sa sb oq W _ _ _ EW EI Hdd Hla Hlb Hs) as [L1 L2].
  rcase_le (oq * W) 0 C2; [apply Rleb_true; exact (L1 C2)|].
  apply Rleb_false. destruct (Rlt_or_le 0 (oq * (oq + W))) as [K|K]; [exact K | exfalso; pose proof (L2 K); lra].
Qed.

Lemma in_cyc_edges (vs : list V) (a b : V) : In (a, b) (cyc_edges vs) -> In a vs /\ In b vs.
Proof.
  unfold cyc_edges. intros H. destruct (in_edges_from _ _ _ _ H) as [I1 I2]. split; [exact I1|].
  destruct I2 as [I2|I2]; [exact I2|]. subst b. destruct vs as [|v tl]; [destruct I1 | left; reflexivity].
Qed.

(** the segment q -> q + d passes every vertex: (v - q) . d <= d . d (what F7 (i) violated for d = 1000 (q - m)) *)
Definition long_enough (q d : V) (vs : list V) : Prop := forall v, In v vs -> vdot (vsub v q) d <= vdot d d.

Theorem count_long_segment_is_ray (n q d : V) (vs : list V) :
  vdot n d = 0 -> 0 < vdot d d -> long_enough q d vs ->
  countb (crossb3 n q d) (cyc_edges vs) = countb (rayb3 n q d) (cyc_edges vs).
Proof.
  intros Hd Hdd Hl. apply countb_ext. intros a b Hin. destruct (in_cyc_edges _ _ _ Hin) as [Ia Ib].
  apply long_segment_is_ray; [exact Hd | exact Hdd | apply Hl; exact Ia | apply Hl; exact Ib].
Qed.

(** ** (5) 2-D coordinates of the plane: p |-> (e1 . (p - o), e2 . (p - o)) with e1 x e2 = n *)
Definition plane2 (o e1 e2 p : V) : P2 := (vdot e1 (vsub p o), vdot e2 (vsub p o)).
Definition planev (e1 e2 d : V) : P2 := (vdot e1 d, vdot e2 d).
(** Binet-Cauchy:  (e1 x e2) . (x x y) = (e1.x)(e2.y) - (e1.y)(e2.x) *)
Lemma binet_cauchy (e1 e2 x y : V) : vdot (vcross e1 e2) (vcross x y) = det2 (planev e1 e2 x) (planev e1 e2 y).
Proof.
  destruct e1 as [u1 u2 u3], e2 as [w1 w2 w3], x as [x1 x2 x3], y as [y1 y2 y3].
  unfold det2, planev, vdot, vcross. cbn [vx vy vz fst snd]. rnum. ring.
Qed.
Lemma planev_sub (o e1 e2 p r : V) : planev e1 e2 (vsub p r) = sub2 (plane2 o e1 e2 p) (plane2 o e1 e2 r).
Proof.
  destruct e1 as [u1 u2 u3], e2 as [w1 w2 w3], p as [p1 p2 p3], r as [r1 r2 r3], o as [o1 o2 o3].
  unfold planev, plane2, sub2, vdot, vsub. cbn [vx vy vz fst snd]. rnum. f_equal; ring.
Qed.
Theorem rayb3_plane (o e1 e2 q d a b : V) :
  rayb3 (vcross e1 e2) q d a b = ray_cross2 (plane2 o e1 e2 q) (planev e1 e2 d) (plane2 o e1 e2 a) (plane2 o e1 e2 b).
Proof.
  unfold rayb3, ray_cross2, sideof, orient3, hgt2, orient2. rewrite !binet_cauchy. rewrite !(planev_sub o). reflexivity.
Qed.

Lemma cyc_edges_map (g : V -> P2) (vs : list V) :
  cyc_edges2 (map g vs) = map (fun e => (g (fst e), g (snd e))) (cyc_edges vs).
Proof.
  unfold cyc_edges2, cyc_edges. destruct vs as [|v tl]; [reflexivity|]. cbn [map hd vnth List.nth].
  change (g v :: map g tl) with (map g (v :: tl)). apply edges_from_map.
Qed.

Lemma cyc_edges2_map_forall (g : V -> P2) (vs : list V) (Q : P2 -> P2 -> Prop) :
  (forall a b, In (a, b) (cyc_edges vs) -> Q (g a) (g b)) -> forall a b, In (a, b) (cyc_edges2 (map g vs)) -> Q a b.
Proof.
  intros H a b Iab. rewrite cyc_edges_map in Iab. apply in_map_iff in Iab. destruct Iab as [[u w] [E Iu]]. injection E as <- <-.
  exact (H u w Iu).
Qed.

(** ** (3)-(6) assembled, for any in-plane cast segment [rayf L q] that is long enough to pass every vertex: the point
    test answers the parity of the number of fan triangles (apex in general position) that contain the point, in 2-D
    coordinates of the plane -- a quantity independent of the ray *)
Theorem test_point_gen_counts_ray_crossings (rayf : Loop R -> V -> V) (L : Loop R) (q : V) :
  lclosed L = true -> (1 <= llen L)%nat ->
  let n := lnormal L in let d := rayf L q in
  vis_zero n = false -> 0 < vdot n n -> vdot n d = 0 ->
  (forall a b, In (a, b) (cyc_edges (verts L)) -> seg_contains_point (seg_new a b) q = Ok false /\ edge_generic n q d a b) ->
  0 < vdot d d -> long_enough q d (verts L) ->
  loop_test_point_gen rayf L q = Ok (Nat.odd (countb (rayb3 n q d) (cyc_edges (verts L)))).
Proof.
  cbn zeta. intros Hc Hlen Hz Hnn Hnd He Hdd Hlong.
  rewrite (test_point_gen_counts_crossings rayf L q Hc Hlen Hz Hnn Hnd He). f_equal. f_equal.
  apply count_long_segment_is_ray; assumption.
Qed.
Theorem test_point_gen_fan_parity (rayf : Loop R -> V -> V) (L : Loop R) (q o e1 e2 : V) (apex : P2) :
  lclosed L = true -> (1 <= llen L)%nat ->
  let n := lnormal L in let d := rayf L q in
  let pr := plane2 o e1 e2 in let q' := pr q in let d' := planev e1 e2 d in
  vis_zero n = false -> 0 < vdot n n -> n = vcross e1 e2 -> vdot n d = 0 ->
  (forall a b, In (a, b) (cyc_edges (verts L)) -> seg_contains_point (seg_new a b) q = Ok false /\ edge_generic n q d a b) ->
  0 < vdot d d -> long_enough q d (verts L) ->
  hgt2 q' d' apex <> 0 ->
  (forall v, In v (verts L) -> hgt2 q' d' (pr v) <> 0 /\ orient2 apex (pr v) q' <> 0) ->
  (forall a b, In (a, b) (cyc_edges (verts L)) -> orient2 (pr a) (pr b) q' <> 0) ->
  loop_test_point_gen rayf L q = Ok (xpar (in_tri2 q' apex) (cyc_edges2 (map pr (verts L)))).
Proof.
  cbn zeta. intros Hc Hlen Hz Hnn Hn Hnd He Hdd Hlong Hap Hv Hed.
  rewrite (test_point_gen_counts_ray_crossings rayf L q Hc Hlen Hz Hnn Hnd He Hdd Hlong). f_equal. rewrite odd_countb.
  rewrite <- (ray_parity_fan (plane2 o e1 e2 q) (planev e1 e2 (rayf L q)) apex).
  - rewrite cyc_edges_map, xpar_map. apply xpar_ext. intros a b _. rewrite Hn. apply rayb3_plane.
  - exact Hap.
  - intros v Iv. apply in_map_iff in Iv. destruct Iv as [u [Eu Iu]]. subst v. apply Hv. exact Iu.
  - apply cyc_edges2_map_forall. exact Hed.
Qed.

(** ** the cast segment of the live code (fix 6f318c4) always passes every vertex *)
Lemma fmax_R (a b : R) : fmax a b = Rmax a b.
Proof.
  unfold fmax. cbn [nis_nan NumR]. rnum. unfold Rmax. rcase a b E; destruct (Rle_dec a b); try reflexivity; lra.
Qed.
Lemma reach_fold (g : V -> R) (l : list V) : forall acc,
  acc <= fold_left (fun acc v => fmax acc (g v)) l acc /\ (forall v, In v l -> g v <= fold_left (fun acc v => fmax acc (g v)) l acc).
Proof.
  induction l as [|a l IH]; intros acc; cbn [fold_left]; [split; [lra | intros v []]|].
  destruct (IH (fmax acc (g a))) as [I1 I2]. rewrite fmax_R in *. split.
  - pose proof (Rmax_l acc (g a)). lra.
  - intros v [E|Hin]; [subst v; pose proof (Rmax_r acc (g a)); lra | apply I2; exact Hin].
Qed.
Lemma cauchy_schwarz_vlen (u w : V) : vdot u w <= vlen u * vlen w.
Proof.
  unfold vlen. rnum. rewrite <- sqrt_mult by apply vlen2_nonneg.
  destruct (Rle_or_lt (vdot u w) 0) as [K|K]; [pose proof (sqrt_pos (vlen2 u * vlen2 w)); lra|].
  rewrite <- (sqrt_square (vdot u w)) by lra. apply sqrt_le_1_alt, VecR.cauchy_schwarz.
Qed.

Theorem loop_ray_long_enough (L : Loop R) (q : V) :
  let dir := vsub q (vscale (vadd (vnth (verts L) O) (vnth (verts L) (S O))) nhalf) in
  0 < vlen2 dir ->
  long_enough q (loop_ray L q) (verts L) /\ 1000 * 1000 <= vdot (loop_ray L q) (loop_ray L q).
Proof.
  cbn zeta. intros Hdir. unfold loop_ray. set (dir := vsub q _) in *. set (rch := loop_reach L q).
  assert (Hs : 0 < vlen dir) by (unfold vlen; rnum; apply sqrt_lt_R0; exact Hdir).
  assert (Hq : (vlen dir * vlen dir = vlen2 dir)%R) by (unfold vlen; rnum; apply sqrt_sqrt; lra).
  destruct (reach_fold (fun v => vlen (vsub v q)) (verts L) n0) as [R0 Rv]. fold (loop_reach L q) in R0, Rv. fold rch in R0, Rv.
  rewrite fmax_R. rnum. set (len := Rmax (2 * rch) 1000).
  assert (Hl1 : 2 * rch <= len) by apply Rmax_l. assert (Hl2 : 1000 <= len) by apply Rmax_r.
  set (k := (len / vlen dir)%R).
  assert (Hk : 0 <= k) by (unfold k; apply Rmult_le_pos; [lra | left; apply Rinv_0_lt_compat; exact Hs]).
  assert (Hkl : (k * vlen dir = len)%R) by (unfold k; field; lra).
  assert (Edd : vdot (vscale dir k) (vscale dir k) = (k * k * vlen2 dir)%R) by (destruct dir as [d1 d2 d3]; unfold vdot, vscale, vlen2; cbn [vx vy vz]; rnum; ring).
  assert (Edd' : vdot (vscale dir k) (vscale dir k) = (len * len)%R).
  { rewrite Edd, <- Hq. replace (k * k * (vlen dir * vlen dir))%R with ((k * vlen dir) * (k * vlen dir))%R by ring. rewrite Hkl. ring. }
  split; [|rewrite Edd'; nra].
  intros v Iv. rewrite Edd'.
  assert (E1 : vdot (vsub v q) (vscale dir k) = (k * vdot (vsub v q) dir)%R) by (destruct (vsub v q) as [w1 w2 w3], dir as [d1 d2 d3]; unfold vdot, vscale; cbn [vx vy vz]; rnum; ring).
  rewrite E1. pose proof (cauchy_schwarz_vlen (vsub v q) dir) as CS. pose proof (Rv v Iv) as Rvv. cbn beta in Rvv.
  assert (Hvl : 0 <= vlen (vsub v q)) by (unfold vlen; rnum; apply sqrt_pos).
  assert (B1 : (k * vdot (vsub v q) dir <= k * (vlen (vsub v q) * vlen dir))%R) by (apply Rmult_le_compat_l; assumption).
  assert (B2 : (k * (vlen (vsub v q) * vlen dir) = len * vlen (vsub v q))%R) by (rewrite <- Hkl; ring).
  nra.
Qed.

Lemma vlen2_nonpos (d : V) : vlen2 d <= 0 -> d = mkV3 0 0 0.
Proof. intros K. apply vlen2_zero. pose proof (vlen2_nonneg d). lra. Qed.

(** what the hypotheses on the edges give about the live ray: it lies in the plane, is not zero (the point is not the
    midpoint of the first edge: a zero ray would be parallel to every edge and have every vertex on its line), and passes
    every vertex *)
Lemma loop_ray_facts_gen (L : Loop R) (q : V) :
  (2 <= llen L)%nat ->
  (forall a b, In (a, b) (cyc_edges (verts L)) -> vdot (lnormal L) (vsub b a) = 0 /\ vdot (lnormal L) (vsub a q) = 0 /\
     (/ 100000 <= vlen2 (vcross (vsub b a) (loop_ray L q)) \/ sideof (lnormal L) q (loop_ray L q) a <> 0)) ->
  vdot (lnormal L) (loop_ray L q) = 0 /\ 0 < vdot (loop_ray L q) (loop_ray L q) /\ long_enough q (loop_ray L q) (verts L).
Proof.
  intros Hlen He.
  assert (Hnd : vdot (lnormal L) (loop_ray L q) = 0).
  { unfold loop_ray. apply (test_ray_in_plane L q Hlen). intros a b Hin. destruct (He a b Hin) as [Hab [Haq _]]. split; assumption. }
  assert (Hdir : 0 < vlen2 (vsub q (vscale (vadd (vnth (verts L) O) (vnth (verts L) (S O))) nhalf))).
  { destruct (verts L) as [|v0 [|v1 rest]] eqn:Ev; unfold llen in Hlen; rewrite Ev in Hlen; cbn [length] in Hlen; try lia.
    assert (E0 : In (v0, v1) (cyc_edges (v0 :: v1 :: rest))) by (left; reflexivity).
    destruct (He _ _ E0) as [_ [_ Hcase]]. unfold loop_ray in Hcase. rewrite Ev in Hcase.
    match goal with |- 0 < ?x => destruct (Rle_or_lt x 0) as [K|K]; [exfalso | exact K] end.
    apply vlen2_nonpos in K. rewrite K in Hcase.
    destruct Hcase as [Hpar|Hoff]; [replace (vlen2 _) with 0 in Hpar by vring; lra | apply Hoff; unfold sideof; vring]. }
  destruct (loop_ray_long_enough L q Hdir) as [Hl Hdd]. split; [exact Hnd|]. split; [lra | exact Hl].
Qed.
Lemma loop_ray_facts (L : Loop R) (q : V) :
  (2 <= llen L)%nat ->
  (forall a b, In (a, b) (cyc_edges (verts L)) -> edge_generic (lnormal L) q (loop_ray L q) a b) ->
  vdot (lnormal L) (loop_ray L q) = 0 /\ 0 < vdot (loop_ray L q) (loop_ray L q) /\ long_enough q (loop_ray L q) (verts L).
Proof. intros Hlen He. apply loop_ray_facts_gen; [exact Hlen|]. intros a b Hin. destruct (He a b Hin) as [Hab [Haq [Hpar _]]]. auto. Qed.

(** ** the live code *)
(** CORE for the live code: parity of the edges properly crossed by the cast segment ... *)
Theorem test_point_counts_crossings (L : Loop R) (q : V) :
  lclosed L = true -> (2 <= llen L)%nat ->
  let n := lnormal L in let d := test_ray L q in
  vis_zero n = false -> 0 < vdot n n ->
  (forall a b, In (a, b) (cyc_edges (verts L)) -> seg_contains_point (seg_new a b) q = Ok false /\ edge_generic n q d a b) ->
  loop_test_point L q = Ok (Nat.odd (countb (crossb3 n q d) (cyc_edges (verts L)))).
Proof.
  cbn zeta. intros Hc Hlen Hz Hnn He. rewrite test_point_is_gen. unfold test_ray in *.
  destruct (loop_ray_facts L q Hlen (fun a b Hin => proj2 (He a b Hin))) as [Hnd _].
  apply (test_point_gen_counts_crossings loop_ray); try assumption. lia.
Qed.
(** ... which is the parity of the edges crossed by the RAY: no length hypothesis *)
Theorem test_point_counts_ray_crossings (L : Loop R) (q : V) :
  lclosed L = true -> (2 <= llen L)%nat ->
  let n := lnormal L in let d := test_ray L q in
  vis_zero n = false -> 0 < vdot n n ->
  (forall a b, In (a, b) (cyc_edges (verts L)) -> seg_contains_point (seg_new a b) q = Ok false /\ edge_generic n q d a b) ->
  loop_test_point L q = Ok (Nat.odd (countb (rayb3 n q d) (cyc_edges (verts L)))).
Proof.
  cbn zeta. intros Hc Hlen Hz Hnn He. rewrite test_point_is_gen. unfold test_ray in *.
  destruct (loop_ray_facts L q Hlen (fun a b Hin => proj2 (He a b Hin))) as [Hnd [Hdd Hl]].
  apply (test_point_gen_counts_ray_crossings loop_ray); try assumption. lia.
Qed.
Theorem test_point_fan_parity (L : Loop R) (q o e1 e2 : V) (apex : P2) :
  lclosed L = true -> (2 <= llen L)%nat ->
  let n := lnormal L in let d := test_ray L q in
  let pr := plane2 o e1 e2 in let q' := pr q in let d' := planev e1 e2 d in
  vis_zero n = false -> 0 < vdot n n -> n = vcross e1 e2 ->
  (forall a b, In (a, b) (cyc_edges (verts L)) -> seg_contains_point (seg_new a b) q = Ok false /\ edge_generic n q d a b) ->
  hgt2 q' d' apex <> 0 ->
  (forall v, In v (verts L) -> hgt2 q' d' (pr v) <> 0 /\ orient2 apex (pr v) q' <> 0) ->
  (forall a b, In (a, b) (cyc_edges (verts L)) -> orient2 (pr a) (pr b) q' <> 0) ->
  loop_test_point L q = Ok (xpar (in_tri2 q' apex) (cyc_edges2 (map pr (verts L)))).
Proof.
  cbn zeta. intros Hc Hlen Hz Hnn Hn He Hap Hv Hed. rewrite test_point_is_gen. unfold test_ray in *.
  destruct (loop_ray_facts L q Hlen (fun a b Hin => proj2 (He a b Hin))) as [Hnd [Hdd Hl]].
  apply (test_point_gen_fan_parity loop_ray); try assumption. lia.
Qed.

(** ** the code before fix 6f318c4 ([loop_test_point_pinned], cast segment 1000 (q - m)): the same statements need the
    length hypothesis, which fails near the midpoint of the first edge (Proofs/C05_examples.v) *)
Lemma pinned_ray_in_plane (L : Loop R) (q : V) :
  (2 <= llen L)%nat ->
  (forall a b, In (a, b) (cyc_edges (verts L)) -> edge_generic (lnormal L) q (pinned_ray L q) a b) ->
  vdot (lnormal L) (pinned_ray L q) = 0.
Proof.
  intros Hlen He. unfold pinned_ray. apply (test_ray_in_plane L q Hlen). intros a b Hin. destruct (He a b Hin) as [Hab [Haq _]]. split; assumption.
Qed.
Theorem pinned_test_point_counts_crossings (L : Loop R) (q : V) :
  lclosed L = true -> (2 <= llen L)%nat ->
  let n := lnormal L in let d := pinned_ray L q in
  vis_zero n = false -> 0 < vdot n n ->
  (forall a b, In (a, b) (cyc_edges (verts L)) -> seg_contains_point (seg_new a b) q = Ok false /\ edge_generic n q d a b) ->
  loop_test_point_pinned L q = Ok (Nat.odd (countb (crossb3 n q d) (cyc_edges (verts L)))).
Proof.
  cbn zeta. intros Hc Hlen Hz Hnn He. rewrite test_point_pinned_is_gen.
  apply (test_point_gen_counts_crossings pinned_ray); try assumption; [lia|].
  apply (pinned_ray_in_plane L q Hlen). intros a b Hin. exact (proj2 (He a b Hin)).
Qed.
Theorem pinned_test_point_counts_ray_crossings (L : Loop R) (q : V) :
  lclosed L = true -> (2 <= llen L)%nat ->
  let n := lnormal L in let d := pinned_ray L q in
  vis_zero n = false -> 0 < vdot n n ->
  (forall a b, In (a, b) (cyc_edges (verts L)) -> seg_contains_point (seg_new a b) q = Ok false /\ edge_generic n q d a b) ->
  0 < vdot d d -> long_enough q d (verts L) ->
  loop_test_point_pinned L q = Ok (Nat.odd (countb (rayb3 n q d) (cyc_edges (verts L)))).
Proof.
  cbn zeta. intros Hc Hlen Hz Hnn He Hdd Hl. rewrite test_point_pinned_is_gen.
  apply (test_point_gen_counts_ray_crossings pinned_ray); try assumption; [lia|].
  apply (pinned_ray_in_plane L q Hlen). intros a b Hin. exact (proj2 (He a b Hin)).
Qed.
