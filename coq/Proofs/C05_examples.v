(** * C05 proofs: non-vacuity on the unit square (rational data, real-number instance) and the
    witnesses of the recorded findings on the binary64 instance (vm_compute on the model that is run
    against the crate bit for bit). *)
From Coq Require Import ZArith Reals Lra Lia Bool List Arith Psatz Floats.
From G3 Require Import Model.Num Model.NumF Model.Base Model.Vec Model.Segment Model.Loop Model.Polygon Model.PinnedLoop
  Theory.RInst Theory.LoopGeom Proofs.C05_pointtest.
Import ListNotations.
Local Open Scope R_scope.

Lemma neps_lt_quarter : (neps : R) < / 4.
Proof. cbn [neps NumR]. apply Rinv_lt_contravar; [|apply IZR_lt; reflexivity]. apply Rmult_lt_0_compat; [lra | apply IZR_lt; reflexivity]. Qed.
Lemma vlen_ge (v : V) (c : R) : 0 <= c -> (c * c <= vlen2 v)%R -> c <= vlen v.
Proof. intros Hc H. unfold vlen. rnum. rewrite <- (sqrt_square c) by exact Hc. apply sqrt_le_1_alt. exact H. Qed.

(** a point clearly off the line of an edge is not "contained" *)
Lemma contains_point_false (a b q : V) :
  vcompare q a = false -> vcompare q b = false -> vcompare a b = false ->
  (/ 100000 * / 100000 <= vlen2 (vcross (vsub a q) (vsub b a)))%R ->
  seg_contains_point (seg_new a b) q = Ok false.
Proof.
  intros C1 C2 C3 H. unfold seg_contains_point, is_collinear. cbn [sstart send seg_new]. rewrite C1, C2, C3. cbn [andb orb rbind].
  replace (vlen (vcross (vsub a q) (vsub b a)) <? c1em5)%num with false; [reflexivity|].
  symmetry. unfold c1em5. rnum. apply Rltb_false. replace (1 / 100000)%R with (/ 100000)%R by lra.
  apply vlen_ge; [lra | exact H].
Qed.

(** ** the unit square and a query point with a generic cast segment *)
Definition usq : Loop R := mkLoop [mkV3 0 0 0; mkV3 1 0 0; mkV3 1 1 0; mkV3 0 1 0] (mkV3 0 0 1) true 1 4.
Definition uq : V := mkV3 (4 / 5) (2 / 5) 0.

(** the live ray of (4/5, 2/5, 0): direction (3/10, 2/5, 0) of length 1/2, every vertex within 2, hence length
    max (2 reach, 1000) = 1000 and d = (600, 800, 0) *)
Lemma reach_upper (g : V -> R) (l : list V) (c : R) : forall acc,
  acc <= c -> (forall v, In v l -> g v <= c) -> fold_left (fun acc v => fmax acc (g v)) l acc <= c.
Proof.
  induction l as [|a l IH]; intros acc Ha Hl; cbn [fold_left]; [exact Ha|].
  apply IH; [rewrite fmax_R; apply Rmax_lub; [exact Ha | apply Hl; left; reflexivity] | intros v Hv; apply Hl; right; exact Hv].
Qed.
Lemma vlen_le (v : V) (c : R) : 0 <= c -> (vlen2 v <= c * c)%R -> vlen v <= c.
Proof. intros Hc H. unfold vlen. rnum. rewrite <- (sqrt_square c) by exact Hc. apply sqrt_le_1_alt. exact H. Qed.
(** a query within 500 of every vertex: the ray is the direction away from the midpoint of the first edge, of length 1000 *)
Lemma loop_ray_near (L : Loop R) (q : V) (c len : R) :
  0 <= c <= 500 -> (forall v, In v (verts L) -> (vlen2 (vsub v q) <= c * c)%R) ->
  0 <= len -> vlen2 (vsub q (vscale (vadd (vnth (verts L) O) (vnth (verts L) (S O))) nhalf)) = (len * len)%R ->
  loop_ray L q = vscale (vsub q (vscale (vadd (vnth (verts L) O) (vnth (verts L) (S O))) nhalf)) (1000 / len).
Proof.
  intros Hc Hv Hlen Hd. unfold loop_ray.
  assert (Hr : loop_reach L q <= c) by (unfold loop_reach; apply reach_upper; [rnum; lra | intros v Iv; apply vlen_le; [lra | exact (Hv v Iv)]]).
  assert (H0 : 0 <= loop_reach L q) by (unfold loop_reach; destruct (reach_fold (fun v => vlen (vsub v q)) (verts L) n0) as [R0 _]; rnum; exact R0).
  rewrite fmax_R. rnum. rewrite Rmax_right by lra. unfold vlen. rnum. rewrite Hd, sqrt_square by exact Hlen. reflexivity.
Qed.
Lemma test_ray_usq : test_ray usq uq = mkV3 600 800 0.
Proof.
  unfold test_ray. rewrite (loop_ray_near usq uq 2 (1 / 2)); [| lra | | lra |]; unfold usq, uq, vnth; cbn [verts List.nth].
  - unfold vscale, vsub, vadd. cbn [vx vy vz]. rnum. apply v3_eq; cbn [vx vy vz]; lra.
  - intros v [E|[E|[E|[E|[]]]]]; subst v; unfold vlen2, vsub; cbn [vx vy vz]; rnum; lra.
  - unfold vlen2, vsub, vscale, vadd. cbn [vx vy vz]. rnum. lra.
Qed.

(* evaluate the vector expressions of concrete data by value ([unfold] would copy each argument once per coordinate) *)
Ltac conc := cbv [edge_param sideof orient3 vlen2 vdot vcross vsub vadd vscale vx vy vz] in *; rnum.

Lemma usq_edges (a b : V) : In (a, b) (cyc_edges (verts usq)) ->
  seg_contains_point (seg_new a b) uq = Ok false /\ edge_generic (lnormal usq) uq (test_ray usq uq) a b.
Proof.
  rewrite test_ray_usq. unfold usq, cyc_edges, vnth. cbn [verts lnormal List.nth edges_from]. pose proof neps_lt_quarter as HE. pose proof neps_pos as HP.
  intros [E|[E|[E|[E|[]]]]]; injection E as Ea Eb; subst a b; unfold uq.
  all: split;
    [ apply contains_point_false;
      try (apply vcompare_false_intro; cbn [vx vy vz]; first [left; first [apply Rabs_ge_l; lra | apply Rabs_ge_r; lra] | right; left; first [apply Rabs_ge_l; lra | apply Rabs_ge_r; lra]]);
      conc; lra
    | unfold edge_generic; repeat split; conc; lra ].
Qed.

Lemma usq_gates : lclosed usq = true /\ (2 <= llen usq)%nat /\ vis_zero (lnormal usq) = false /\ 0 < vdot (lnormal usq) (lnormal usq).
Proof.
  repeat split; [cbn; lia | | unfold usq; cbn [lnormal]; conc; lra].
  apply vis_zero_false. right. right. unfold usq. cbn [lnormal vz]. apply Rabs_ge_l. lra.
Qed.

(** the hypotheses of the core theorem hold for the unit square and (4/5, 2/5, 0); the theorem then gives the
    answer [true]: exactly one edge, (1,0)-(1,1), is crossed *)
Theorem usq_inside : loop_test_point usq uq = Ok true.
Proof.
  destruct usq_gates as [G1 [G2 [G3 G4]]].
  rewrite (test_point_counts_crossings usq uq G1 G2 G3 G4 usq_edges). rewrite test_ray_usq. f_equal.
  unfold usq, cyc_edges, vnth, uq. cbn [verts lnormal List.nth edges_from]. unfold countb. cbn [filter fst snd].
  unfold crossb3. conc. rdec.
  reflexivity.
Qed.

(** the cast segment of the code BEFORE fix 6f318c4 for (1/2, 1/10000, 0) -- the witness of finding F7 (i) -- does not
    pass the vertex (1,1,0): the length hypothesis that the pinned theorems need fails there *)
Lemma usq_f7_not_long_enough : ~ long_enough (mkV3 (1 / 2) (1 / 10000) 0) (pinned_ray usq (mkV3 (1 / 2) (1 / 10000) 0)) (verts usq).
Proof.
  intros H. specialize (H (mkV3 1 1 0)). unfold usq, pinned_ray, vnth in H. cbn [verts List.nth] in H.
  assert (I : In (mkV3 1 1 0 : V) [mkV3 0 0 0; mkV3 1 0 0; mkV3 1 1 0; mkV3 0 1 0]) by (right; right; left; reflexivity).
  specialize (H I). conc. lra.
Qed.

(** ** witnesses of the findings on the binary64 instance of the model (the instance run against the crate) *)
Local Open Scope float_scope.
(** the binary64 instance is named explicitly (other instances on [float] exist, e.g. the f32 emulation) *)
Definition ftest := @loop_test_point float NumF.
Definition ftest_pinned := @loop_test_point_pinned float NumF.
Definition fsq (s : float) : Loop float := mkLoop [mkV3 0 0 0; mkV3 s 0 0; mkV3 s s 0; mkV3 0 s 0] (mkV3 0 0 1) true (s * s) (4 * s).
(** F7 (i), ray too short (FIXED by 6f318c4): (0.5, 1e-4, 0) is inside the unit square, 1e-4 away from the midpoint of the first
    edge; the code before the fix answered [false], the live code answers [true] (and [false] for the mirror point outside) *)
Lemma f7_ray_too_short_pinned : ftest_pinned (fsq 1) (mkV3 0.5 1e-4 0) = Ok false /\ ftest_pinned (fsq 1) (mkV3 0.5 0.5 0) = Ok true.
Proof. vm_compute. split; reflexivity. Qed.
Lemma f7_ray_too_short_live : ftest (fsq 1) (mkV3 0.5 1e-4 0) = Ok true /\ ftest (fsq 1) (mkV3 0.5 (-1e-4) 0) = Ok false.
Proof. vm_compute. split; reflexivity. Qed.
(** F7 (ii), on-edge tolerance 1e-5 / |edge|: square of side 0.1, a point 5e-5 OUTSIDE is reported inside *)
Lemma f7_on_edge_tolerance : ftest (fsq 0.1) (mkV3 0.05 (-5e-5) 0) = Ok true /\ ftest (fsq 0.1) (mkV3 0.05 (-2e-4) 0) = Ok false.
Proof. vm_compute. split; reflexivity. Qed.
(** the parameter test of F7 (ii): on-edge parameter from the first coordinate with extent > EPSILON: (1.001, 1.009, 0) is 0.009 above the top edge *)
Definition fquad : Loop float := mkLoop [mkV3 0 0 0; mkV3 1 0 0; mkV3 1.001 1 0; mkV3 0 1 0] (mkV3 0 0 1) true 1 4.
Lemma f7_on_edge_parameter : ftest fquad (mkV3 1.001 1.009 0) = Ok true /\ ftest fquad (mkV3 1.001 1.02 0) = Ok false.
Proof. vm_compute. split; reflexivity. Qed.
(** F7 (iii), vertex grazing: rectangle 0.7 x 0.3, the ray of the interior point (0.175, 0.15, 0) is aimed at the vertex (0, 0.3, 0) *)
Definition frect : Loop float := mkLoop [mkV3 0 0 0; mkV3 0.7 0 0; mkV3 0.7 0.3 0; mkV3 0 0.3 0] (mkV3 0 0 1) true 0.21 2.
Lemma f7_vertex_grazing : ftest frect (mkV3 0.175 0.15 0) = Ok false /\ ftest frect (mkV3 0.175 0.16 0) = Ok true.
Proof. vm_compute. split; reflexivity. Qed.
