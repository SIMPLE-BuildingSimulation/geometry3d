(** * Bridge_C17: the enclosure theorems of C17 (binary64 instance) read on the primitive-float run of
    [ApproxFloat::solve_quadratic] ([Bridge_interval.hom_af_solve_quadratic] at [P2B]).  [pI] = [P2B] on both bounds. *)
From Coq Require Import ZArith Reals Floats.
From Flocq Require Import Core BinarySingleNaN.
From G3 Require Import Model.Num Model.NumF Model.Base Model.RoundError Model.Quadratic Theory.PrimBridge
  Theory.IntervalSpec Theory.QuadraticSpec Proofs.C07_interval Proofs.C17_quadratic Proofs.Bridge_interval.
Local Open Scope R_scope.
Notation prim := Coq.Floats.PrimFloat.float (only parsing).

Lemma prim_solve_some (A B C X1 X2 : AF prim) :
  @af_solve_quadratic _ NumF A B C = Some (X1, X2) ->
  @af_solve_quadratic _ NumB64 (pI A) (pI B) (pI C) = Some (pI X1, pI X2).
Proof. intros E. rewrite (hom_af_solve_quadratic P2B), E. reflexivity. Qed.

Theorem prim_roots_enclosed (A B C X1 X2 : AF prim) (a b c : R) :
  wf (pI A) -> wf (pI B) -> wf (pI C) -> no_zero (pI A) -> inter_ok 53 1024 Hprec53 Hmax1024 (pI A) (pI B) (pI C) ->
  @af_solve_quadratic _ NumF A B C = Some (X1, X2) ->
  contains (pI A) a -> contains (pI B) b -> contains (pI C) c ->
  0 <= qdisc a b c /\
  contains (pI X1) (root_lo a b c) /\
  (not_nested (pI X1) (pI X2) -> contains (pI X2) (root_hi a b c)) /\
  ext_wf (pI X1) /\ ext_wf (pI X2) /\ ext_le (low (pI X1)) (low (pI X2)).
Proof.
  intros WA WB WC NA IO E CA CB CC.
  exact (roots_enclosed_af 53 1024 Hprec53 Hmax1024 (pI A) (pI B) (pI C) (pI X1) (pI X2) a b c WA WB WC NA IO
           (prim_solve_some A B C X1 X2 E) CA CB CC).
Qed.

Theorem prim_each_root_enclosed (A B C X1 X2 : AF prim) (a b c : R) :
  wf (pI A) -> wf (pI B) -> wf (pI C) -> no_zero (pI A) -> inter_ok 53 1024 Hprec53 Hmax1024 (pI A) (pI B) (pI C) ->
  @af_solve_quadratic _ NumF A B C = Some (X1, X2) ->
  contains (pI A) a -> contains (pI B) b -> contains (pI C) c ->
  (contains (pI X1) (root_minus a b c) /\ contains (pI X2) (root_plus a b c)) \/
  (contains (pI X1) (root_plus a b c) /\ contains (pI X2) (root_minus a b c)).
Proof.
  intros WA WB WC NA IO E CA CB CC.
  exact (each_root_enclosed_af 53 1024 Hprec53 Hmax1024 (pI A) (pI B) (pI C) (pI X1) (pI X2) a b c WA WB WC NA IO
           (prim_solve_some A B C X1 X2 E) CA CB CC).
Qed.

(** non-vacuity: the coefficient intervals of [C17_nonvacuous] as primitive floats *)
Definition fA : AF prim := mkAF (pS false 4503599627370496 (-52)) (pS false 4503604130970123 (-52)).
Definition fB : AF prim := mkAF (pS true 6755406196455185 (-51)) (pS true 6755399441055744 (-51)).
Definition fC : AF prim := mkAF (pS false 4503599627370496 (-51)) (pS false 4503604130970123 (-51)).
Lemma fA_eq : pI fA = pA. Proof. unfold fA, pA, mk64, mapAF. cbn [low high]. p2b_consts. reflexivity. Qed.
Lemma fB_eq : pI fB = pB. Proof. unfold fB, pB, mk64, mapAF. cbn [low high]. p2b_consts. reflexivity. Qed.
Lemma fC_eq : pI fC = pC. Proof. unfold fC, pC, mk64, mapAF. cbn [low high]. p2b_consts. reflexivity. Qed.
Lemma prim_C17_nonvacuous :
  wf (pI fA) /\ wf (pI fB) /\ wf (pI fC) /\ no_zero (pI fA) /\ inter_ok 53 1024 Hprec53 Hmax1024 (pI fA) (pI fB) (pI fC) /\
  (exists X1 X2 : AF prim, @af_solve_quadratic _ NumF fA fB fC = Some (X1, X2)) /\
  contains (pI fA) 1 /\ contains (pI fB) (- 6755406196455185 / 2251799813685248) /\ contains (pI fC) 2.
Proof.
  rewrite fA_eq, fB_eq, fC_eq.
  destruct nonvacuous_proof as (H1 & H2 & H3 & H4 & H5 & _ & H7 & H8 & H9).
  split; [exact H1|]. split; [exact H2|]. split; [exact H3|]. split; [exact H4|]. split; [exact H5|].
  split; [|split; [exact H7|split; [exact H8|exact H9]]].
  destruct (@af_solve_quadratic _ NumF fA fB fC) as [[X1 X2]|] eqn:E; [exists X1, X2; reflexivity|].
  exfalso. revert E. vm_compute. discriminate.
Qed.
