(** * C14, float tier, Thm 3: completeness of [intersect] with a relative margin on the EXACT
    slab parameters, for every Flocq binary format.

    [raw face o i = RN (RN (face - o) * i)] with [i = RN (1 / d)]: three roundings.  Outside the
    underflow range the exact parameter [T = (face - o) / d] and the computed one [X] satisfy
    [T = X * theta], [(1-u)^3 <= theta <= (1+u)^3], [u = 2^-prec] ([raw_rel], [raw_error]).  The
    test compares near ends with far ends multiplied by [w = RN (1 + 2 gamma3) >= 1 + 6u] (one more
    rounding), so a near end [A > 0] and a far end [B] of DIFFERENT axes with [A (1 + 2u) <= B]
    are compared the right way round; near and far end of the SAME axis are sorted by the code
    (no margin; a flat slab has bit-equal ends), and a near end [A <= 0] is computed [<= 0]
    (signs survive the roundings) so it needs no margin at all. *)
From Coq Require Import ZArith Reals Bool Lra Lia Psatz.
From Coq Require Import Floats.SpecFloat.
From Flocq Require Import Core BinarySingleNaN Relative Plus_error.
From G3 Require Import Model.Num Model.Base Model.Vec Model.BBox Theory.RInst
  Proofs.C14_real Proofs.C14_special Proofs.C14_float.
From G3 Require Proofs.C07_interval.
Local Open Scope R_scope.

Definition lo3 (u : R) : R := (1 - u) * (1 - u) * (1 - u).
Definition hi3 (u : R) : R := (1 + u) * (1 + u) * (1 + u).

Lemma lo3_pos u : 0 <= u < 1 -> 0 < lo3 u <= 1.
Proof.
  intros Hu. unfold lo3.
  assert (0 < (1 - u) * (1 - u) <= 1) by nra. nra.
Qed.
Lemma hi3_ge1 u : 0 <= u -> 1 <= hi3 u.
Proof. intros Hu. unfold hi3. assert (1 <= (1 + u) * (1 + u)) by nra. nra. Qed.

Lemma prod3_bounds u e1 e2 e3 : 0 <= u < 1 -> Rabs e1 <= u -> Rabs e2 <= u -> Rabs e3 <= u ->
  lo3 u <= (1 + e1) * (1 + e2) * (1 + e3) <= hi3 u.
Proof.
  intros Hu H1 H2 H3. apply Rabs_le_inv in H1, H2, H3. unfold lo3, hi3.
  set (a := 1 + e1). set (b := 1 + e2). set (c := 1 + e3).
  assert (Ha : 1 - u <= a <= 1 + u) by (unfold a; lra).
  assert (Hb : 1 - u <= b <= 1 + u) by (unfold b; lra).
  assert (Hc : 1 - u <= c <= 1 + u) by (unfold c; lra).
  clearbody a b c.
  assert (Hab : (1 - u) * (1 - u) <= a * b <= (1 + u) * (1 + u)) by (split; nra).
  assert (0 <= (1 - u) * (1 - u)) by nra.
  split; nra.
Qed.

(** the polynomial inequality behind the constant 2: three roundings on each side, one more in the
    widening product, against the margin [1 + 2u] and the widening factor [1 + 6u] *)
Lemma poly_margin u : 0 < u <= / 32 -> hi3 u * (1 + u) < lo3 u * ((1 + 2 * u) * (1 + 6 * u)).
Proof.
  intros Hu. unfold hi3, lo3.
  assert (E : (1 - u) * (1 - u) * (1 - u) * ((1 + 2 * u) * (1 + 6 * u)) - (1 + u) * (1 + u) * (1 + u) * (1 + u)
              = u * (1 - 15 * u - 17 * (u * u) + 27 * (u * u * u) - 12 * (u * u * u * u))) by ring.
  assert (U2 : 0 < u * u <= / 32 * u) by nra.
  assert (U3 : 0 < u * u * u) by nra.
  assert (U4 : u * u * u * u <= / 32 * / 32 * (u * u)) by nra.
  assert (0 < 1 - 15 * u - 17 * (u * u) + 27 * (u * u * u) - 12 * (u * u * u * u)) by nra.
  assert (0 < u * (1 - 15 * u - 17 * (u * u) + 27 * (u * u * u) - 12 * (u * u * u * u))) by (apply Rmult_lt_0_compat; lra).
  lra.
Qed.

(** near end [a] (computed) / [A] (exact) of one axis, far end [b] / [B] of another; [W] the widened
    computed far end *)
Lemma margin_chain u a A B b W w : 0 < u <= / 32 ->
  (0 < A -> a * lo3 u <= A) -> (A <= 0 -> a <= 0) ->
  0 < B -> B <= b * hi3 u -> 0 < b ->
  b * w <= W * (1 + u) -> 1 + 6 * u <= w ->
  (0 < A -> A * (1 + 2 * u) <= B) -> a < W.
Proof.
  intros Hu Ha Ha0 HB HBb Hb HW Hw HM.
  assert (WP : 0 < W) by nra.
  destruct (Rle_or_lt A 0) as [A0|A0]; [specialize (Ha0 A0); lra|].
  specialize (Ha A0). specialize (HM A0).
  destruct (Rle_or_lt a 0) as [a0|a0]; [lra|].
  pose proof (poly_margin u Hu) as P.
  assert (L3 : 0 < lo3 u <= 1) by (apply lo3_pos; lra).
  assert (H3 : 1 <= hi3 u) by (apply hi3_ge1; lra).
  set (K := lo3 u * ((1 + 2 * u) * (1 + 6 * u))) in *.
  assert (KP : 0 < K) by (unfold K; apply Rmult_lt_0_compat; [lra | nra]).
  (* a K <= hi3 (1+u) W < K W *)
  assert (S1 : a * K <= A * ((1 + 2 * u) * (1 + 6 * u))).
  { unfold K. replace (a * (lo3 u * ((1 + 2 * u) * (1 + 6 * u)))) with (a * lo3 u * ((1 + 2 * u) * (1 + 6 * u))) by ring.
    apply Rmult_le_compat_r; [nra | exact Ha]. }
  assert (S2 : A * ((1 + 2 * u) * (1 + 6 * u)) <= B * (1 + 6 * u)).
  { replace (A * ((1 + 2 * u) * (1 + 6 * u))) with (A * (1 + 2 * u) * (1 + 6 * u)) by ring.
    apply Rmult_le_compat_r; [lra | exact HM]. }
  assert (S3 : B * (1 + 6 * u) <= b * hi3 u * w).
  { apply Rmult_le_compat; try lra. }
  assert (S4 : b * hi3 u * w <= hi3 u * (W * (1 + u))).
  { replace (b * hi3 u * w) with (hi3 u * (b * w)) by ring. apply Rmult_le_compat_l; lra. }
  assert (S5 : hi3 u * (W * (1 + u)) < K * W).
  { replace (hi3 u * (W * (1 + u))) with (hi3 u * (1 + u) * W) by ring. apply Rmult_lt_compat_r; assumption. }
  apply Rmult_lt_reg_l with K; [exact KP|]. lra.
Qed.

(** the two computed ends of a slab against the two exact ones *)
Lemma slab_bounds u x1 x2 T1 T2 th1 th2 : 0 <= u < 1 ->
  lo3 u <= th1 <= hi3 u -> lo3 u <= th2 <= hi3 u -> T1 = x1 * th1 -> T2 = x2 * th2 ->
  let a := Rmin x1 x2 in let b := Rmax x1 x2 in let A := Rmin T1 T2 in let B := Rmax T1 T2 in
  (0 < A -> a * lo3 u <= A) /\ (A <= 0 -> a <= 0) /\ (0 < B -> 0 < b /\ B <= b * hi3 u).
Proof.
  intros Hu H1 H2 E1 E2 a b A B.
  pose proof (lo3_pos u Hu) as L3.
  assert (P1 : 0 < th1) by lra. assert (P2 : 0 < th2) by lra.
  assert (Q : forall x th, lo3 u <= th <= hi3 u -> 0 < th ->
            (0 < x * th -> x * lo3 u <= x * th /\ 0 < x /\ x * th <= x * hi3 u) /\ (x * th <= 0 -> x <= 0)).
  { intros x th Hth Pth. split.
    - intros Hp. assert (0 < x) by nra. repeat split; try assumption; apply Rmult_le_compat_l; lra.
    - intros Hp. nra. }
  destruct (Q x1 th1 H1 P1) as [Q1 Q1']. destruct (Q x2 th2 H2 P2) as [Q2 Q2']. rewrite <- E1 in Q1, Q1'. rewrite <- E2 in Q2, Q2'.
  clear Q.
  assert (Ha1 : a <= x1) by apply Rmin_l. assert (Ha2 : a <= x2) by apply Rmin_r.
  assert (Hb1 : x1 <= b) by apply Rmax_l. assert (Hb2 : x2 <= b) by apply Rmax_r.
  clearbody a b.
  split; [|split].
  - intros HA. unfold A, Rmin in *. destruct (Rle_dec T1 T2).
    + destruct (Q1 HA) as (q1 & q2 & q3). apply Rle_trans with (x1 * lo3 u); [apply Rmult_le_compat_r; lra | exact q1].
    + destruct (Q2 HA) as (q1 & q2 & q3). apply Rle_trans with (x2 * lo3 u); [apply Rmult_le_compat_r; lra | exact q1].
  - intros HA. unfold A, Rmin in *. destruct (Rle_dec T1 T2).
    + specialize (Q1' HA). lra.
    + specialize (Q2' HA). lra.
  - intros HB. assert (H3 : 1 <= hi3 u) by (apply hi3_ge1; lra). unfold B, Rmax in *. destruct (Rle_dec T1 T2).
    + destruct (Q2 HB) as (q1 & q2 & q3). split; [lra|]. apply Rle_trans with (1 := q3). apply Rmult_le_compat_r; lra.
    + destruct (Q1 HB) as (q1 & q2 & q3). split; [lra|]. apply Rle_trans with (1 := q3). apply Rmult_le_compat_r; lra.
Qed.

Section Margin.
  Variable prec emax : Z.
  Context (Hprec : FLX.Prec_gt_0 prec) (Hmax : Prec_lt_emax prec emax).
  Notation bf := (binary_float prec emax).
  Notation emin := (3 - emax - prec)%Z.
  Notation fexp := (FLT_exp emin prec).
  Notation format := (generic_format radix2 fexp).
  Local Instance NBm : Num bf := NumB prec emax Hprec Hmax.
  Notation fin x := (is_finite x = true).
  Notation RN := (C14_float.RN prec emax).
  (** smallest positive normal number *)
  Notation kmin := (bpow radix2 (emin + prec - 1)).
  Definition uR : R := bpow radix2 (- prec).

  Lemma uR_pos : 0 < uR.
  Proof. apply bpow_gt_0. Qed.
  Lemma uR_eq : / 2 * bpow radix2 (- prec + 1) = uR.
  Proof. unfold uR. rewrite bpow_plus. simpl (bpow radix2 1). lra. Qed.
  Lemma uR_half : uR <= / 2.
  Proof.
    unfold uR. apply Rle_trans with (bpow radix2 (-1)). apply bpow_le. pose proof Hprec as Hp. unfold FLX.Prec_gt_0 in Hp. lia. simpl. lra.
  Qed.
  Lemma uR_small : (5 <= prec)%Z -> uR <= / 32.
  Proof. intros H. unfold uR. apply Rle_trans with (bpow radix2 (-5)). apply bpow_le. lia. simpl. lra. Qed.
  Lemma kmin_pos : 0 < kmin.
  Proof. apply bpow_gt_0. Qed.

  Lemma RN_le x y : x <= y -> RN x <= RN y.
  Proof. exact (C07_interval.RN_le prec emax Hprec x y). Qed.

  (** subtraction of two floats: relative error [u] even in the subnormal range *)
  Lemma err_sub x y : format x -> format y -> exists e, Rabs e <= uR /\ x - y = RN (x - y) * (1 + e).
  Proof.
    intros Fx Fy.
    destruct (FLT_plus_error_N_round_ex radix2 emin prec (fun z => negb (Z.even z)) x (- y) Fx (generic_format_opp _ _ _ Fy)) as (e & He & Hs).
    exists e. split.
    - unfold u_ro in He. rewrite uR_eq in He. exact He.
    - exact Hs.
  Qed.

  (** a rounding whose RESULT is a normal number *)
  Lemma err_normal p : kmin <= Rabs (RN p) -> exists e, Rabs e <= uR /\ p = RN p * (1 + e).
  Proof.
    intros Hn.
    assert (Hb : Rabs (RN p - p) <= uR * Rabs (RN p)).
    { destruct (Rle_or_lt kmin (Rabs p)) as [Hp|Hp].
      - rewrite <- uR_eq. apply relative_error_N_FLT_round. exact Hprec. exact Hp.
      - apply Rle_trans with (/ 2 * ulp radix2 fexp p).
        + apply error_le_half_ulp. apply FLT_exp_valid. exact Hprec.
        + rewrite ulp_FLT_small.
          * apply Rle_trans with (uR * kmin).
            -- apply Req_le. unfold uR. rewrite <- bpow_plus.
               replace (- prec + (emin + prec - 1))%Z with (emin + (-1))%Z by ring.
               rewrite bpow_plus. change (bpow radix2 (-1)) with (/ 2). lra.
            -- apply Rmult_le_compat_l. apply Rlt_le, uR_pos. exact Hn.
          * exact Hprec.
          * apply Rlt_trans with (1 := Hp). apply bpow_lt. lia. }
    assert (Hz : RN p <> 0).
    { intros E. rewrite E, Rabs_R0 in Hn. pose proof kmin_pos. lra. }
    exists ((p - RN p) / RN p). split.
    - unfold Rdiv. rewrite Rabs_mult, Rabs_inv.
      apply Rmult_le_reg_r with (Rabs (RN p)). apply Rabs_pos_lt, Hz.
      rewrite Rmult_assoc, Rinv_l by (apply Rabs_no_R0, Hz). rewrite Rmult_1_r.
      rewrite <- Rabs_Ropp. replace (- (p - RN p)) with (RN p - p) by ring. exact Hb.
    - field. exact Hz.
  Qed.

  (** the reciprocal the caller supplies: [1/d = i (1 + e)], [|e| <= u] (error relative to the computed value) *)
  Definition recip_ok (d i : bf) : Prop := exists e, Rabs e <= uR /\ / B2R d = B2R i * (1 + e).
  (** true of the correctly rounded quotient [1.0 / d] whenever it is a normal number *)
  Lemma recip_of_div (d : bf) : B2R d <> 0 -> fin (Bdiv mode_NE n1 d) ->
    kmin <= Rabs (B2R (Bdiv mode_NE n1 d)) -> recip_ok d (Bdiv mode_NE n1 d).
  Proof.
    intros Hd F Hn. destruct (n1_one prec emax Hprec Hmax : fin (@n1 bf NBm) /\ B2R (@n1 bf NBm) = 1) as (F1 & V1).
    assert (Fd : fin d) by (destruct d; try reflexivity; contradiction Hd; reflexivity).
    unfold recip_ok. rewrite (C07_interval.rnd_inv _ _ (C07_interval.is_rnd_div prec emax Hprec Hmax _ _ F1 Fd Hd) F : _ = RN _), V1 in *.
    unfold Rdiv in *. rewrite Rmult_1_l in *. apply err_normal. exact Hn.
  Qed.

  (** *** the error analysis of one plane parameter [raw face o i = (face - o) * i] *)
  Lemma raw_rel (f o d i : bf) : fin f -> fin o -> recip_ok d i ->
    fin (raw f o i) -> (kmin <= Rabs (B2R (raw f o i)) \/ B2R f = B2R o) ->
    (exists th, lo3 uR <= th <= hi3 uR /\ (B2R f - B2R o) / B2R d = B2R (raw f o i) * th) /\
    (kmin <= Rabs (B2R (raw f o i)) \/ B2R (raw f o i) = 0).
  Proof.
    intros Ff Fo (e2 & He2 & E2) Fx Hn.
    assert (Hu : 0 <= uR < 1) by (pose proof uR_pos; pose proof uR_half; lra).
    change (raw f o i) with (Bmult mode_NE (Bminus mode_NE f o) i) in *.
    destruct (C07_interval.Bmult_fin _ _ Fx : _ /\ _ /\ _ = RN _) as (Fs & Fi & EX).
    pose proof (C07_interval.rnd_inv _ _ (C07_interval.is_rnd_minus prec emax Hprec Hmax f o Ff Fo) Fs : _ = RN _) as ES.
    destruct (err_sub (B2R f) (B2R o) (generic_format_B2R _ _ f) (generic_format_B2R _ _ o)) as (e1 & He1 & E1).
    rewrite <- ES in E1.
    set (S := B2R (Bminus mode_NE f o)) in *. set (X := B2R (Bmult mode_NE (Bminus mode_NE f o) i)) in *.
    destruct Hn as [Hn|Heq].
    - split; [|left; exact Hn]. rewrite EX in Hn. destruct (err_normal _ Hn) as (e3 & He3 & E3). rewrite <- EX in E3.
      exists ((1 + e1) * (1 + e2) * (1 + e3)). split. apply prod3_bounds; assumption.
      unfold Rdiv. rewrite E1, E2.
      replace (S * (1 + e1) * (B2R i * (1 + e2))) with (S * B2R i * ((1 + e1) * (1 + e2))) by ring.
      rewrite E3. ring.
    - assert (S0 : S = 0). { rewrite ES. replace (B2R f - B2R o) with 0 by lra. apply (C07_interval.RN_0 prec emax). }
      assert (X0 : X = 0). { rewrite EX, S0, Rmult_0_l. apply (C07_interval.RN_0 prec emax). }
      split; [|right; exact X0]. exists 1. split.
      + pose proof (lo3_pos uR Hu). pose proof (hi3_ge1 uR (proj1 Hu)). lra.
      + rewrite X0. replace (B2R f - B2R o) with 0 by lra. unfold Rdiv. ring.
  Qed.

  (** the same as a bound: signs agree and the magnitudes are within [(1 +- u)^3] of each other *)
  Corollary raw_error (f o d i : bf) : fin f -> fin o -> recip_ok d i ->
    fin (raw f o i) -> (kmin <= Rabs (B2R (raw f o i)) \/ B2R f = B2R o) ->
    let T := (B2R f - B2R o) / B2R d in let X := B2R (raw f o i) in
    Rabs (T - X) <= (hi3 uR - 1) * Rabs X /\ lo3 uR * Rabs X <= Rabs T <= hi3 uR * Rabs X.
  Proof.
    intros Ff Fo Hr Fx Hn T X.
    assert (Hu : 0 <= uR < 1) by (pose proof uR_pos; pose proof uR_half; lra).
    destruct (raw_rel f o d i Ff Fo Hr Fx Hn) as ((th & Hth & E) & _). fold T X in E.
    pose proof (lo3_pos uR Hu) as L3. pose proof (hi3_ge1 uR (proj1 Hu)) as H3.
    assert (L3' : 2 - hi3 uR <= lo3 uR).
    { unfold hi3, lo3. assert (0 <= uR * uR) by nra. assert (0 <= uR * uR * uR) by nra. nra. }
    split.
    - rewrite E. replace (X * th - X) with (X * (th - 1)) by ring. rewrite Rabs_mult, Rmult_comm.
      apply Rmult_le_compat_r. apply Rabs_pos. apply Rabs_le. lra.
    - rewrite E, Rabs_mult, (Rabs_pos_eq th) by lra. pose proof (Rabs_pos X). split; nra.
  Qed.

  Notation wfB' := (wfB prec emax Hprec Hmax).
  Notation wfR' := (wfR prec emax Hprec Hmax).
  Notation wB' := (wB prec emax Hprec Hmax).

  (** the format conditions: at least 5 bits, and the rounded constant [1 + 2 gamma3] is at least [1 + 6u]
      (binary64: exactly 1 + 3 * 2^-52, binary32: exactly 1 + 3 * 2^-23; see the end of the file) *)
  Definition margin_format : Prop := (5 <= prec)%Z /\ 1 + 6 * uR <= B2R wB'.
  Lemma margin_format_big : margin_format -> widen_big prec emax Hprec Hmax.
  Proof.
    intros (_ & H). unfold widen_big. apply Rle_trans with (2 := H).
    replace (1 - prec)%Z with (1 + - prec)%Z by ring. rewrite bpow_plus. fold uR. change (bpow radix2 1) with 2.
    pose proof uR_pos. lra.
  Qed.

  (** side conditions of one axis: finite inputs, the reciprocal as above, both plane parameters and
      their widened values finite, and no underflow in the product (a normal result; or the face
      passes through the origin coordinate, then the parameter is an exact zero) *)
  Definition param_ok (f o i : bf) : Prop :=
    fin (raw f o i) /\ fin (wfB' (raw f o i)) /\ (kmin <= Rabs (B2R (raw f o i)) \/ B2R f = B2R o).
  Definition axis_side (lo hi o d i : bf) : Prop :=
    fin lo /\ fin hi /\ fin o /\ (fin d /\ B2R d <> 0) /\ recip_ok d i /\ param_ok lo o i /\ param_ok hi o i.

  Lemma axis_facts (lo hi o d i : bf) : margin_format -> axis_side lo hi o d i ->
    let x1 := B2R (raw lo o i) in let x2 := B2R (raw hi o i) in
    let T1 := (B2R lo - B2R o) / B2R d in let T2 := (B2R hi - B2R o) / B2R d in
    let a := Rmin x1 x2 in let b := Rmax x1 x2 in let A := Rmin T1 T2 in let B := Rmax T1 T2 in
    (0 < A -> a * lo3 uR <= A) /\ (A <= 0 -> a <= 0) /\ a <= b /\
    (0 < B -> 0 < b /\ B <= b * hi3 uR /\ b * B2R wB' <= wfR' b * (1 + uR) /\ b < wfR' b).
  Proof.
    intros MF (Flo & Fhi & Fo & _ & Hr & (F1 & G1 & N1) & (F2 & G2 & N2)) x1 x2 T1 T2 a b A B.
    assert (Hu : 0 <= uR < 1) by (pose proof uR_pos; pose proof uR_half; lra).
    destruct (raw_rel lo o d i Flo Fo Hr F1 N1) as ((th1 & Hth1 & E1) & M1).
    destruct (raw_rel hi o d i Fhi Fo Hr F2 N2) as ((th2 & Hth2 & E2) & M2).
    fold x1 T1 in E1, M1. fold x2 T2 in E2, M2.
    destruct (slab_bounds uR x1 x2 T1 T2 th1 th2 Hu Hth1 Hth2 E1 E2) as (P1 & P2 & P3).
    fold a b A B in P1, P2, P3.
    split; [exact P1|]. split; [exact P2|]. split; [apply Rle_trans with x1; [apply Rmin_l | apply Rmax_l]|].
    intros HB. destruct (P3 HB) as (Pb & PB). split; [exact Pb|]. split; [exact PB|].
    assert (Fb : format b /\ (kmin <= Rabs b \/ b = 0)).
    { unfold b, Rmax. destruct (Rle_dec x1 x2); (split; [apply generic_format_B2R | assumption]). }
    destruct Fb as (Fb & Nb).
    assert (Kb : kmin <= b) by (destruct Nb as [Nb|Nb]; [rewrite Rabs_pos_eq in Nb; lra | lra]).
    pose proof (widen_strict prec emax Hprec Hmax b (margin_format_big MF) Fb Kb) as St.
    split; [|exact St].
    assert (Kw : kmin <= Rabs (wfR' b)) by (rewrite Rabs_pos_eq; lra).
    unfold wfR in *. fold wB' in *. destruct (err_normal _ Kw) as (e & He & Ee).
    apply Rabs_le_inv in He. rewrite Ee at 1.
    apply Rmult_le_compat_l; lra.
  Qed.

  (** *** boxes and rays: the exact parameters are those of Thm 1 ([t_near], [t_far] of Proofs/C14_real.v)
      read on the real values of the float inputs *)
  Definition B2V (v : V3 bf) : V3 R := mkV3 (B2R (vx v)) (B2R (vy v)) (B2R (vz v)).
  Definition boxR (b : BBox bf) : BBox R := mkBBox (B2V (bmin b)) (B2V (bmax b)).
  Definition rayR (r : Ray bf) : Ray R := mkRay (B2V (rorigin r)) (B2V (rdir r)).
  Definition side (b : BBox bf) (r : Ray bf) (i : V3 bf) : Prop :=
    axis_side (vx (bmin b)) (vx (bmax b)) (vx (rorigin r)) (vx (rdir r)) (vx i) /\
    axis_side (vy (bmin b)) (vy (bmax b)) (vy (rorigin r)) (vy (rdir r)) (vy i) /\
    axis_side (vz (bmin b)) (vz (bmax b)) (vz (rorigin r)) (vz (rdir r)) (vz i).
  (** the margin: every far end is ahead of the origin, and every near end that is ahead of the origin
      is below the far ends of the two OTHER axes by the factor [1 + 2u] *)
  Definition clear_by (c : R) (b : BBox R) (r : Ray R) : Prop :=
    (forall a, 0 < t_far b r a) /\
    (forall a a', a <> a' -> 0 < t_near b r a -> t_near b r a * (1 + c * uR) <= t_far b r a').

  Theorem float_complete_margin (b : BBox bf) (r : Ray bf) (i : V3 bf) :
    margin_format -> side b r i -> clear_by 2 (boxR b) (rayR r) -> bbox_intersect b r i = true.
  Proof.
    intros MF (SX & SY & SZ) (HF & HM).
    assert (Hu : 0 < uR <= / 32) by (split; [apply uR_pos | apply uR_small, MF]).
    pose proof (proj2 MF) as Hw.
    pose proof (axis_facts _ _ _ _ _ MF SX) as AX'. pose proof (axis_facts _ _ _ _ _ MF SY) as AY'.
    pose proof (axis_facts _ _ _ _ _ MF SZ) as AZ'. cbv zeta in AX', AY', AZ'.
    pose proof (HF AX) as FX. pose proof (HF AY) as FY. pose proof (HF AZ) as FZ.
    pose proof (HM AX AY ltac:(discriminate)) as Mxy. pose proof (HM AX AZ ltac:(discriminate)) as Mxz.
    pose proof (HM AY AX ltac:(discriminate)) as Myx. pose proof (HM AY AZ ltac:(discriminate)) as Myz.
    pose proof (HM AZ AX ltac:(discriminate)) as Mzx. pose proof (HM AZ AY ltac:(discriminate)) as Mzy.
    clear HF HM.
    unfold t_far, t_near, t_lo, t_hi, boxR, rayR, B2V in *. cbn [crd bmin bmax rorigin rdir vx vy vz] in *.
    destruct SX as (_ & _ & _ & _ & _ & (X1 & GX1 & _) & (X2 & GX2 & _)).
    destruct SY as (_ & _ & _ & _ & _ & (Y1 & GY1 & _) & (Y2 & GY2 & _)).
    destruct SZ as (_ & _ & _ & _ & _ & (Z1 & GZ1 & _) & (Z2 & GZ2 & _)).
    unfold bbox_intersect. rewrite intersect_is_core.
    rewrite (core_transfer prec emax Hprec Hmax) by assumption.
    destruct AX' as (ax1 & ax2 & ax3 & ax4). destruct AY' as (ay1 & ay2 & ay3 & ay4). destruct AZ' as (az1 & az2 & az3 & az4).
    destruct (ax4 FX) as (bx1 & bx2 & bx3 & bx4). destruct (ay4 FY) as (by1 & by2 & by3 & by4).
    destruct (az4 FZ) as (bz1 & bz2 & bz3 & bz4). clear ax4 ay4 az4.
    apply run_true_of_pairs; cbv zeta; repeat split; try assumption; try (apply Rlt_le; assumption).
    - apply Rle_lt_trans with (1 := ax3). exact bx4.
    - exact (margin_chain uR _ _ _ _ _ _ Hu ax1 ax2 FY by2 by1 by3 Hw Mxy).
    - exact (margin_chain uR _ _ _ _ _ _ Hu ax1 ax2 FZ bz2 bz1 bz3 Hw Mxz).
    - exact (margin_chain uR _ _ _ _ _ _ Hu ay1 ay2 FX bx2 bx1 bx3 Hw Myx).
    - apply Rle_lt_trans with (1 := ay3). exact by4.
    - exact (margin_chain uR _ _ _ _ _ _ Hu ay1 ay2 FZ bz2 bz1 bz3 Hw Myz).
    - exact (margin_chain uR _ _ _ _ _ _ Hu az1 az2 FX bx2 bx1 bx3 Hw Mzx).
    - exact (margin_chain uR _ _ _ _ _ _ Hu az1 az2 FY by2 by1 by3 Hw Mzy).
    - apply Rle_lt_trans with (1 := az3). exact bz4.
  Qed.

  (** *** the margin in terms of entry and exit parameters *)
  Definition t_enter (b : BBox R) (r : Ray R) : R := Rmax (Rmax (t_near b r AX) (t_near b r AY)) (t_near b r AZ).
  Definition t_exit (b : BBox R) (r : Ray R) : R := Rmin (Rmin (t_far b r AX) (t_far b r AY)) (t_far b r AZ).
  Lemma enter_exit_bounds (b : BBox R) (r : Ray R) (a : axis) : t_near b r a <= t_enter b r /\ t_exit b r <= t_far b r a.
  Proof.
    unfold t_enter, t_exit.
    pose proof (Rmax_l (Rmax (t_near b r AX) (t_near b r AY)) (t_near b r AZ)).
    pose proof (Rmax_r (Rmax (t_near b r AX) (t_near b r AY)) (t_near b r AZ)).
    pose proof (Rmax_l (t_near b r AX) (t_near b r AY)). pose proof (Rmax_r (t_near b r AX) (t_near b r AY)).
    pose proof (Rmin_l (Rmin (t_far b r AX) (t_far b r AY)) (t_far b r AZ)).
    pose proof (Rmin_r (Rmin (t_far b r AX) (t_far b r AY)) (t_far b r AZ)).
    pose proof (Rmin_l (t_far b r AX) (t_far b r AY)). pose proof (Rmin_r (t_far b r AX) (t_far b r AY)).
    destruct a; split; lra.
  Qed.
  Lemma clear_of_enter_exit (c : R) (b : BBox R) (r : Ray R) : 0 <= c ->
    0 < t_exit b r -> (0 < t_enter b r -> t_enter b r * (1 + c * uR) <= t_exit b r) -> clear_by c b r.
  Proof.
    intros Hc H0 HM. pose proof uR_pos as Hu. split.
    - intros a. pose proof (enter_exit_bounds b r a). lra.
    - intros a a' _ Ha. pose proof (enter_exit_bounds b r a) as [E1 _]. pose proof (enter_exit_bounds b r a') as [_ E2].
      assert (P : 0 < t_enter b r) by lra. specialize (HM P).
      assert (0 <= c * uR) by (apply Rmult_le_pos; lra).
      apply Rle_trans with (t_enter b r * (1 + c * uR)); [apply Rmult_le_compat_r; lra | lra].
  Qed.

  (** *** the margin in terms of a point of the ray: the box shrunk, relative to the origin, by [2u |face - o|]
      on every face (mirror image of [widened] in Thm 1); one axis may be flat instead, the point then
      lying exactly in the plane of the box *)
  Definition in_margin (b : BBox R) (o p : V3 R) (a : axis) : Prop :=
    crd a (bmin b) + 2 * uR * Rabs (crd a (bmin b) - crd a o) <= crd a p <=
    crd a (bmax b) - 2 * uR * Rabs (crd a (bmax b) - crd a o).
  Definition on_flat (b : BBox R) (p : V3 R) (a : axis) : Prop :=
    crd a (bmin b) = crd a (bmax b) /\ crd a p = crd a (bmin b).

  Theorem clear_of_point (b : BBox R) (r : Ray R) (t : R) : generic_dir r -> 0 < t ->
    (forall a, in_margin b (rorigin r) (ray_project r t) a \/ on_flat b (ray_project r t) a) ->
    (forall a a', a <> a' -> in_margin b (rorigin r) (ray_project r t) a \/ in_margin b (rorigin r) (ray_project r t) a') ->
    clear_by 2 b r.
  Proof.
    intros G Ht H1 H2.
    assert (Hv : 0 <= 2 * uR <= 1) by (pose proof uR_pos; pose proof uR_half; lra).
    pose proof uR_pos as Hu.
    assert (FM : forall a, in_margin b (rorigin r) (ray_project r t) a ->
                 (0 < t_near b r a -> t_near b r a * (1 + 2 * uR) <= t) /\ t_near b r a <= t /\
                 t * (1 + 2 * uR) <= t_far b r a /\ t <= t_far b r a).
    { intros a M. unfold in_margin in M. rewrite crd_project in M.
      exact (slab_margin _ _ _ _ _ _ Hv (G a) Ht M). }
    assert (FF : forall a, on_flat b (ray_project r t) a -> t_near b r a = t /\ t_far b r a = t).
    { intros a (Fl & Pl). rewrite crd_project in Pl. unfold t_near, t_far, t_lo, t_hi. rewrite <- Fl.
      assert (E : (crd a (bmin b) - crd a (rorigin r)) / crd a (rdir r) = t) by (rewrite <- Pl; field; exact (G a)).
      rewrite E. unfold Rmin, Rmax. destruct (Rle_dec t t); split; reflexivity. }
    assert (FB : forall a, t_near b r a <= t <= t_far b r a).
    { intros a. destruct (H1 a) as [M|M]; [destruct (FM a M) as (_ & ? & _ & ?) | destruct (FF a M) as (? & ?)]; lra. }
    split.
    - intros a. specialize (FB a). lra.
    - intros a a' Ne Pa. pose proof (FB a) as Ba. pose proof (FB a') as Ba'.
      destruct (H2 a a' Ne) as [M|M].
      + destruct (FM a M) as (F1 & _). specialize (F1 Pa). lra.
      + destruct (FM a' M) as (_ & _ & F3 & _).
        apply Rle_trans with (t * (1 + 2 * uR)); [apply Rmult_le_compat_r; lra | exact F3].
  Qed.

  (** a normal number: finite, significand of full width *)
  Definition normalb (x : bf) : bool :=
    match x with B754_finite _ m _ _ => Z.leb (2 ^ (prec - 1)) (Zpos m) | _ => false end.
  Definition nzfin (x : bf) : bool := match x with B754_finite _ _ _ _ => true | _ => false end.

  Lemma normalb_spec (x : bf) : normalb x = true -> fin x /\ kmin <= Rabs (B2R x).
  Proof.
    destruct x as [s|s| |s m e Hb]; try discriminate. intros H. split; [reflexivity|].
    apply Z.leb_le in H. pose proof Hprec as Hp. unfold FLX.Prec_gt_0 in Hp.
    assert (He : (emin <= e)%Z).
    { unfold bounded in Hb. apply andb_prop in Hb. destruct Hb as [Hc _]. unfold canonical_mantissa in Hc.
      apply Zeq_bool_eq in Hc. unfold SpecFloat.fexp, SpecFloat.emin in Hc. lia. }
    unfold B2R. rewrite F2R_cond_Zopp, abs_cond_Ropp, Rabs_pos_eq by (apply F2R_ge_0; simpl; lia).
    unfold F2R. cbn [Fnum Fexp].
    replace (emin + prec - 1)%Z with ((prec - 1) + emin)%Z by ring. rewrite bpow_plus.
    apply Rmult_le_compat; try apply bpow_ge_0.
    - rewrite <- IZR_Zpower by lia. apply IZR_le. exact H.
    - apply bpow_le. exact He.
  Qed.
  Lemma nzfin_spec (x : bf) : nzfin x = true -> fin x /\ B2R x <> 0.
  Proof.
    destruct x as [s|s| |s m e Hb]; try discriminate. intros _. split; [reflexivity|].
    intros E. simpl in E. apply eq_0_F2R in E. destruct s; discriminate.
  Qed.

  Definition param_okb (f o i : bf) : bool :=
    is_finite (raw f o i) && is_finite (wfB' (raw f o i)) && (normalb (raw f o i) || Beqb f o).
  Definition axis_okb (lo hi o d : bf) : bool :=
    let i := Bdiv mode_NE n1 d in
    is_finite lo && is_finite hi && is_finite o && nzfin d && normalb i && param_okb lo o i && param_okb hi o i.
  Definition margin_okb (b : BBox bf) (r : Ray bf) : bool :=
    axis_okb (vx (bmin b)) (vx (bmax b)) (vx (rorigin r)) (vx (rdir r)) &&
    axis_okb (vy (bmin b)) (vy (bmax b)) (vy (rorigin r)) (vy (rdir r)) &&
    axis_okb (vz (bmin b)) (vz (bmax b)) (vz (rorigin r)) (vz (rdir r)).

  Lemma param_okb_spec (f o i : bf) : fin f -> fin o -> param_okb f o i = true -> param_ok f o i.
  Proof.
    intros Ff Fo H. unfold param_okb in H. apply andb_prop in H. destruct H as [H H3].
    apply andb_prop in H. destruct H as [H1 H2]. split; [exact H1|]. split; [exact H2|].
    apply orb_prop in H3. destruct H3 as [N|E].
    - left. apply normalb_spec, N.
    - right. apply (@C07_interval.Beqb_fin prec emax); assumption.
  Qed.
  Lemma axis_okb_spec (lo hi o d : bf) : axis_okb lo hi o d = true -> axis_side lo hi o d (Bdiv mode_NE n1 d).
  Proof.
    unfold axis_okb. cbv zeta. intros H.
    repeat match type of H with (_ && _ = true) => let H' := fresh "K" in apply andb_prop in H; destruct H as [H H'] end.
    destruct (nzfin_spec _ K2) as (Fd & Nd). destruct (normalb_spec _ K1) as (Fi & Ni).
    split; [exact H|]. split; [exact K4|]. split; [exact K3|]. split; [split; assumption|].
    split; [apply recip_of_div; assumption|].
    split; apply param_okb_spec; assumption.
  Qed.
  Lemma margin_okb_side (b : BBox bf) (r : Ray bf) :
    margin_okb b r = true -> side b r (inv_dirB prec emax Hprec Hmax (rdir r)).
  Proof.
    unfold margin_okb. intros H. apply andb_prop in H. destruct H as [H HZ]. apply andb_prop in H. destruct H as [HX HY].
    split; [|split]; [exact (axis_okb_spec _ _ _ _ HX) | exact (axis_okb_spec _ _ _ _ HY) | exact (axis_okb_spec _ _ _ _ HZ)].
  Qed.

  (** *** Thm 3 as the user reads it *)
  Theorem float_complete_okb (b : BBox bf) (r : Ray bf) : margin_format -> margin_okb b r = true ->
    clear_by 2 (boxR b) (rayR r) -> bbox_intersect b r (inv_dirB prec emax Hprec Hmax (rdir r)) = true.
  Proof. intros MF H C. apply float_complete_margin; [exact MF | apply margin_okb_side, H | exact C]. Qed.

  Theorem float_complete_enter_exit (b : BBox bf) (r : Ray bf) (i : V3 bf) : margin_format -> side b r i ->
    0 < t_exit (boxR b) (rayR r) ->
    (0 < t_enter (boxR b) (rayR r) -> t_enter (boxR b) (rayR r) * (1 + 2 * uR) <= t_exit (boxR b) (rayR r)) ->
    bbox_intersect b r i = true.
  Proof. intros MF S H0 HM. apply float_complete_margin; try assumption. apply clear_of_enter_exit; [lra | assumption | assumption]. Qed.

  Lemma side_generic (b : BBox bf) (r : Ray bf) (i : V3 bf) : side b r i -> generic_dir (rayR r).
  Proof.
    intros (SX & SY & SZ) a.
    destruct SX as (_ & _ & _ & (_ & NX) & _). destruct SY as (_ & _ & _ & (_ & NY) & _). destruct SZ as (_ & _ & _ & (_ & NZ) & _).
    destruct a; assumption.
  Qed.
  Theorem float_complete_point (b : BBox bf) (r : Ray bf) (i : V3 bf) (t : R) : margin_format -> side b r i -> 0 < t ->
    let p := ray_project (rayR r) t in let o := rorigin (rayR r) in
    (forall a, in_margin (boxR b) o p a \/ on_flat (boxR b) p a) ->
    (forall a a', a <> a' -> in_margin (boxR b) o p a \/ in_margin (boxR b) o p a') ->
    bbox_intersect b r i = true.
  Proof.
    intros MF S Ht p o H1 H2. apply float_complete_margin; try assumption.
    apply clear_of_point with t; try assumption. exact (side_generic b r i S).
  Qed.
End Margin.

Lemma margin_format_64 : margin_format 53 1024 Hprec53 Hmax1024.
Proof.
  split; [lia|]. change (B2R (wB _ _ _ _)) with (B2R (@widen b64 NumB64)). rewrite widen_64_R. unfold uR. simpl. lra.
Qed.
Lemma margin_format_32 : margin_format 24 128 Hprec24 Hmax128.
Proof.
  split; [lia|]. change (B2R (wB _ _ _ _)) with (B2R (@widen b32 NumB32)). rewrite widen_32_R. unfold uR. simpl. lra.
Qed.

(** ** non-vacuity on binary64.  Unit cube; origin (-1, 1/4, 1/2); direction (3, 1/2, -1/4):
    [1/3] is rounded, the z slab needs the near/far swap; exact parameters x: [1/3, 2/3],
    y: [-1/2, 3/2], z: [-2, 2] *)
Definition m_box : BBox b64 := mkBBox (P zero64 zero64 zero64) (P one64 one64 one64).
Definition m_ray : Ray b64 := mkRay (P mone64 (q 1 (-2)) half64) (P (q 3 0) half64 (q (-1) (-2))).

Ltac b2r_const c s := rewrite (C07_interval.B2R_of_SF c s) by (vm_compute; reflexivity).

Lemma m_values : B2R zero64 = 0 /\ B2R one64 = 1 /\ B2R mone64 = -1 /\ B2R half64 = / 2 /\
  B2R (q 1 (-2)) = / 4 /\ B2R (q 3 0) = 3 /\ B2R (q (-1) (-2)) = - / 4.
Proof.
  b2r_const one64 (S754_finite false 4503599627370496 (-52)).
  b2r_const mone64 (S754_finite true 4503599627370496 (-52)).
  b2r_const half64 (S754_finite false 4503599627370496 (-53)).
  b2r_const (q 1 (-2)) (S754_finite false 4503599627370496 (-54)).
  b2r_const (q 3 0) (S754_finite false 6755399441055744 (-51)).
  b2r_const (q (-1) (-2)) (S754_finite true 4503599627370496 (-54)).
  C07_interval.b2r_lit. split. reflexivity. repeat split; lra.
Qed.

Lemma margin_nonvacuous :
  margin_format 53 1024 Hprec53 Hmax1024 /\ margin_okb 53 1024 Hprec53 Hmax1024 m_box m_ray = true /\
  clear_by 53 2 (boxR 53 1024 m_box) (rayR 53 1024 m_ray) /\
  bbox_intersect m_box m_ray (inv64 (rdir m_ray)) = true.
Proof.
  split; [exact margin_format_64|]. split; [vm_compute; reflexivity|]. split; [|vm_compute; reflexivity].
  destruct m_values as (V0 & V1 & Vm1 & Vh & Vq & V3 & Vmq).
  pose proof (uR_pos 53) as U0. pose proof (uR_small 53 ltac:(lia)) as U1.
  assert (T : forall a, t_near (boxR 53 1024 m_box) (rayR 53 1024 m_ray) a = match a with AX => / 3 | AY => - / 2 | AZ => - 2 end /\
                        t_far (boxR 53 1024 m_box) (rayR 53 1024 m_ray) a = match a with AX => 2 / 3 | AY => 3 / 2 | AZ => 2 end).
  { assert (I2 : / / 2 = 2) by field. assert (I4 : / - / 4 = - 4) by field.
    intros a. unfold t_near, t_far, t_lo, t_hi, boxR, rayR, B2V, m_box, m_ray, P.
    destruct a; cbn [crd bmin bmax rorigin rdir vx vy vz]; rewrite ?V0, ?V1, ?Vm1, ?Vh, ?Vq, ?V3, ?Vmq;
      unfold Rdiv; rewrite ?I2, ?I4; unfold Rmin, Rmax; destruct (Rle_dec _ _); split; lra. }
  split.
  - intros a. rewrite (proj2 (T a)). destruct a; lra.
  - intros a a' Ne. rewrite (proj1 (T a)), (proj2 (T a')). destruct a, a'; try (exfalso; apply Ne; reflexivity); intros; lra.
Qed.
