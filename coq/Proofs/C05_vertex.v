(** * C05 proofs: cast rays that pass EXACTLY through a vertex (or run parallel to an edge that is off the ray's line).
    [Proofs/C05_pointtest.v] proves the point test correct for GENERIC cast segments ([edge_generic]: the vertex rules of
    Loop3D::test_point are never consulted).  Here the vertex rules themselves are proved correct on the real-number
    instance:
      start rule  (t_a < EPSILON):  the crossing is counted iff  d x (b - a)  has the direction of the loop normal,
      end rule    (t_a = 1):        the crossing is counted iff  d x (a - b)  has the direction of the loop normal,
    which in exact arithmetic is the classical HALF-OPEN rule: an edge is counted iff one end point lies strictly to the
    left of the directed line of the ray and the other one on it or to its right (and the edge's line meets the ray).
    Chain:  (A) planar: the half-open crossing parity of a closed outline = parity of the number of fan triangles (any
                apex in general position) containing q -- WITHOUT any condition on where the ray's line meets the vertices;
            (B) [vis_same_direction] on vectors normal to the plane is the sign of the dot product (the absolute
                tolerances of [is_parallel] / [is_zero] are inactive there);
            (C) one edge: [edge_cross_count] = the half-open indicator [halfb3] under [edge_semigeneric];
            (D) the whole loop, segment -> ray (the live cast segment passes every vertex), plane coordinates;
            (E) assembled: fan parity, winding-number parity along any generic ray, membership.
    What stays excluded ([edge_semigeneric]): an INTERIOR crossing with edge parameter 0 < t_a < EPSILON = 2^-52 (the code
    applies the start-vertex rule to it and drops it when the edge leaves to the right: the exact-tier shadow of finding
    C05:vertex-grazing, see [sliver_edge_dropped]); a cast segment that runs ALONG an edge; an edge that is nearly but
    not exactly parallel to the cast segment (|(b - a) x d|^2 < 1e-5, finding family F11). *)
From Coq Require Import ZArith Reals Lra Lia Bool List Arith Psatz Floats.
From G3 Require Import Model.Num Model.NumF Model.Base Model.Vec Model.Segment Model.Loop Theory.RInst Theory.LoopGeom
  Proofs.C05_pointtest Proofs.C05_examples Proofs.C05_winding.
From G3 Require Theory.Cyclic Theory.Winding.
Import ListNotations.
Local Open Scope R_scope.

(** ** (A) planar: the half-open rule, [half2] of Theory/LoopGeom.v *)
Definition half_cross2 (q d a b : P2) : bool :=
  xorb (sgb (hgt2 q d a)) (sgb (hgt2 q d b)) && Rleb (orient2 a b q * det2 (sub2 b a) d) 0.
Lemma half_cross2_generic (q d a b : P2) :
  hgt2 q d a <> 0 -> hgt2 q d b <> 0 -> half_cross2 q d a b = ray_cross2 q d a b.
Proof. exact (half2_generic q d a b). Qed.
Theorem half_parity_fan (q d o : P2) (vs : list P2) :
  hgt2 q d o <> 0 ->
  (forall v, In v vs -> orient2 o v q <> 0) ->
  (forall a b, In (a, b) (cyc_edges2 vs) -> orient2 a b q <> 0) ->
  xpar (half_cross2 q d) (cyc_edges2 vs) = xpar (in_tri2 q o) (cyc_edges2 vs).
Proof. exact (half2_parity_fan q d o vs). Qed.

(** hence: the half-open count along a ray through vertices has the parity of the proper-crossing count along any
    generic ray d2 (apex in general position for both) *)
Corollary half_parity_is_generic_parity (q d d2 o : P2) (vs : list P2) :
  hgt2 q d o <> 0 -> hgt2 q d2 o <> 0 ->
  (forall v, In v vs -> hgt2 q d2 v <> 0 /\ orient2 o v q <> 0) ->
  (forall a b, In (a, b) (cyc_edges2 vs) -> orient2 a b q <> 0) ->
  xpar (half_cross2 q d) (cyc_edges2 vs) = xpar (ray_cross2 q d2) (cyc_edges2 vs).
Proof.
  intros Ho Ho2 Hv He. rewrite (half_parity_fan q d o), (ray_parity_fan q d2 o); try assumption; [reflexivity|].
  intros v Iv. exact (proj2 (Hv v Iv)).
Qed.

(** ** (B) [vis_same_direction] on vectors normal to the plane *)
(** a vector of squared length at least 1e-5 is not "zero" for [is_zero] (threshold 100 EPSILON per coordinate) *)
Lemma vis_zero_false_len (x : V) : / 100000 <= vlen2 x -> vis_zero x = false.
Proof.
  intros H. unfold vis_zero. rnum. pose proof ctiny_pos as T0. pose proof ctiny_small as T1.
  rcase (Rabs (vx x)) (@ctiny R _) Ex; [|reflexivity].
  rcase (Rabs (vy x)) (@ctiny R _) Ey; [|reflexivity].
  rcase (Rabs (vz x)) (@ctiny R _) Ez; [|reflexivity].
  exfalso. destruct x as [x1 x2 x3]. unfold vlen2 in H. cbn [vx vy vz] in *. rnum.
  assert (Sq : forall t, Rabs t < ctiny -> (t * t < / 1000000)%R).
  { intros t Ht. replace (t * t)%R with (Rabs t * Rabs t)%R by (rewrite <- Rabs_mult; apply Rabs_pos_eq; nra). pose proof (Rabs_pos t). nra. }
  pose proof (Sq _ Ex). pose proof (Sq _ Ey). pose proof (Sq _ Ez). lra.
Qed.
(** for two non-"zero" vectors that are exactly parallel (Lagrange: (x.n)^2 = |x|^2 |n|^2), [is_same_direction] is the
    sign of the dot product *)
Lemma same_direction_parallel (x n : V) :
  vis_zero n = false -> vis_zero x = false -> (vdot x n * vdot x n = vlen2 x * vlen2 n)%R ->
  vis_same_direction x n = Rltb 0 (vdot x n).
Proof.
  intros Hn Hx Hp. unfold vis_same_direction, vis_parallel. rewrite Hn, Hx. cbn [orb].
  replace (nabs (vdot x n * vdot x n - vlen2 x * vlen2 n) <? c1em5)%num with true; [reflexivity|].
  symmetry. unfold c1em5. rnum. apply Rltb_true. rewrite Hp. replace (vlen2 x * vlen2 n - vlen2 x * vlen2 n)%R with 0 by ring. rewrite Rabs_R0. lra.
Qed.
(** the side normals of the vertex rules: d x A with A, d in the plane with normal n *)
Lemma same_direction_cross (n d A : V) :
  vis_zero n = false -> vdot n d = 0 -> vdot n A = 0 -> / 100000 <= vlen2 (vcross A d) ->
  vis_same_direction (vcross d A) n = Rltb 0 (- vdot n (vcross A d)).
Proof.
  intros Hn Hd HA Hl.
  assert (E1 : vlen2 (vcross d A) = vlen2 (vcross A d)) by vring.
  assert (E2 : vdot (vcross d A) n = (- vdot n (vcross A d))%R) by vring.
  assert (E3 : vlen2 n = vdot n n) by vring.
  rewrite same_direction_parallel; [rewrite E2; reflexivity | exact Hn | apply vis_zero_false_len; rewrite E1; exact Hl |].
  rewrite E2, E1, E3. pose proof (cross_parallel_normal n A d HA Hd) as C. lra.
Qed.

(** ** (C) one edge *)
(** the hypotheses on one edge (a,b) for the cast segment q -> q + d in the plane with normal n.  Compared with
    [edge_generic]: crossings with edge parameter exactly 0 (the start vertex) and exactly 1 (the end vertex) are allowed,
    and so are edges exactly parallel to the cast segment that do not lie on its line.  Excluded: the sliver
    0 < t_a < EPSILON, near-parallel edges, and a cast segment running along the edge. *)
Definition edge_semigeneric (n q d a b : V) : Prop :=
  vdot n (vsub b a) = 0 /\ vdot n (vsub a q) = 0 /\                      (* a and b lie in the plane of q *)
  ((/ 100000 <= vlen2 (vcross (vsub b a) d) /\                           (* not parallel within the library's tolerance ... *)
    ~ (0 < edge_param n q d a b < neps))                                 (* ... and no INTERIOR crossing within EPSILON of the start vertex *)
   \/ (vcross (vsub b a) d = vzero /\ sideof n q d a <> 0)).             (* or exactly parallel, and off the line of the cast segment *)

Lemma edge_generic_semigeneric (n q d a b : V) : edge_generic n q d a b -> edge_semigeneric n q d a b.
Proof.
  intros [Hab [Haq [Hpar [_ Hband]]]]. split; [exact Hab|]. split; [exact Haq|]. left. split; [exact Hpar|].
  intros [K1 K2]. apply Hband. split; [lra | exact K2].
Qed.

(** the half-open crossing indicator of the cast SEGMENT (3-D, sign form) ... *)
Definition halfb3 (n q d a b : V) : bool :=
  xorb (sgb (sideof n q d a)) (sgb (sideof n q d b)) && Rleb (orient3 n a b q * orient3 n a b (vadd q d)) 0.
(** ... and of the RAY *)
Definition halfray3 (n q d a b : V) : bool :=
  xorb (sgb (sideof n q d a)) (sgb (sideof n q d b)) && Rleb (orient3 n a b q * vdot n (vcross (vsub b a) d)) 0.

(** an edge exactly parallel to the cast segment yields no intersection parameters *)
Lemma gip_parallel_none (a b q d : V) :
  vcross (vsub b a) d = vzero -> seg_get_intersection_pt (seg_new a b) (seg_new q (vadd q d)) = None.
Proof.
  intros Hc. unfold seg_get_intersection_pt, seg_get_intersection_pt_tag. cbn [sstart send seg_new]. rewrite vsub_vadd.
  destruct (vis_same_direction (vsub b a) d); [reflexivity|]. rewrite Hc.
  rewrite vlen_vzero, vdot_zero_r. unfold vzero, c1em5. cbn [vx vy vz]. rnum. rewrite Rabs_R0. rdec. reflexivity.
Qed.

(* the half-open interval of edge parameters that [halfb3] counts: (0, 1] when the edge leaves to the right (W > 0), [0, 1) otherwise *)
Lemma half_sign (t W : R) : W <> 0 ->
  xorb (sgb (t * W)) (sgb ((t - 1) * W)) = if Rltb 0 W then Rltb 0 t && Rleb t 1 else Rleb 0 t && Rltb t 1.
Proof.
  intros HW. unfold sgb.
  assert (HW' : 0 < W \/ W < 0) by (destruct (Rtotal_order 0 W) as [K|[K|K]]; [left; exact K | contradiction (HW (eq_sym K)) | right; exact K]).
  assert (Ht : t < 0 \/ t = 0 \/ 0 < t < 1 \/ t = 1 \/ 1 < t).
  { destruct (Rtotal_order t 0) as [T|[T|T]]; [tauto | tauto |]. destruct (Rtotal_order t 1) as [U|[U|U]]; tauto. }
  destruct HW'; destruct Ht as [T|[T|[T|[T|T]]]]; try subst t.
  all: first [assert (0 < t * W)%R by nra | assert (t * W <= 0)%R by nra | idtac].
  all: first [assert (0 < (t - 1) * W)%R by nra | assert ((t - 1) * W <= 0)%R by nra | idtac].
  all: rdec; reflexivity.
Qed.

(** CORE of the vertex rules: under [edge_semigeneric] the contribution of one edge to the crossing count is the
    half-open indicator.  The three branches of the code:  t_a = 0 <-> (a on the line, counted iff b strictly left),
    EPSILON <= t_a < 1 <-> (a, b strictly on opposite sides),  t_a = 1 <-> (b on the line, counted iff a strictly left). *)
Theorem edge_cross_count_semigeneric (L : Loop R) (q d a b : V) :
  let n := lnormal L in
  0 < vdot n n -> vis_zero n = false -> vdot n d = 0 ->
  seg_contains_point (seg_new a b) q = Ok false ->
  edge_semigeneric n q d a b ->
  edge_cross_count L q d (seg_new q (vadd q d)) a b = Ok (false, if halfb3 n q d a b then 1%nat else 0%nat).
Proof.
  cbn zeta. intros Hnn Hnz Hnd Hon [Hab [Haq Hcase]].
  unfold edge_cross_count. rewrite Hon. cbn [rbind].
  destruct Hcase as [[Hpar Hband] | [Hzero Hoff]].
  2:{ (* exactly parallel, off the line: no parameters, and both end points on the same side *)
      rewrite (gip_parallel_none a b q d Hzero). f_equal. f_equal. unfold halfb3.
      pose proof (sideof_diff (lnormal L) q d a b) as EW. rewrite Hzero, vdot_zero_r in EW.
      replace (sideof (lnormal L) q d b) with (sideof (lnormal L) q d a) by lra.
      rewrite xorb_nilpotent. reflexivity. }
  destruct (edge_solved _ q d a b Hnn Hnd Hab Haq Hpar) as [HW [tb [G [Sa [Sb [Oq Oe]]]]]]. rewrite G.
  (* the two side normals of the vertex rules *)
  unfold seg_as_vec, seg_as_rev_vec. cbn [seg_new sstart send].
  rewrite (same_direction_cross (lnormal L) d (vsub b a) Hnz Hnd Hab Hpar).
  assert (Erev : vcross (vsub a b) d = vneg (vcross (vsub b a) d)) by vring.
  assert (Hba : vdot (lnormal L) (vsub a b) = 0) by (replace (vsub a b) with (vneg (vsub b a)) by vring; rewrite vdot_neg_r, Hab; ring).
  assert (Hpar' : / 100000 <= vlen2 (vcross (vsub a b) d)).
  { rewrite Erev. replace (vlen2 (vneg (vcross (vsub b a) d))) with (vlen2 (vcross (vsub b a) d)); [exact Hpar|]. vunf. rnum. ring. }
  rewrite (same_direction_cross (lnormal L) d (vsub a b) Hnz Hnd Hba Hpar'), Erev, vdot_neg_r.
  unfold halfb3. rewrite Sa, Sb, Oq, Oe, half_sign, between_sign by exact HW.
  revert HW Hband. generalize (vdot (lnormal L) (vcross (vsub b a) d)) (edge_param (lnormal L) q d a b). intros W ta HW Hband.
  pose proof neps_pos as He. pose proof neps_lt_quarter as He4. revert He He4 Hband. generalize (@neps R NumR). intros eps He He4 Hband.
  unfold in01. rnum. destruct (Rleb 0 tb && Rleb tb 1); [|rewrite !andb_false_r; reflexivity].
  assert (Hta : ta < 0 \/ ta = 0 \/ (eps <= ta /\ ta < 1) \/ ta = 1 \/ 1 < ta).
  { destruct (Rtotal_order ta 0) as [T|[T|T]]; [tauto | tauto |]. destruct (Rtotal_order ta 1) as [U|[U|U]]; [|tauto | tauto].
    destruct (Rle_or_lt eps ta); [tauto | exfalso; apply Hband; split; assumption]. }
  destruct (Rlt_or_le 0 W); destruct Hta as [T|[T|[T|[T|T]]]]; try subst ta; rdec; reflexivity.
Qed.

(** ** (D) the whole loop; segment -> ray; plane coordinates *)
(** for a closed, exactly planar loop, a point q of its plane that no edge "contains" and a SEMIGENERIC cast segment,
    the point test answers the parity of the half-open crossing count of the cast segment *)
Theorem test_point_gen_counts_half (rayf : Loop R -> V -> V) (L : Loop R) (q : V) :
  lclosed L = true -> (1 <= llen L)%nat ->
  let n := lnormal L in let d := rayf L q in
  vis_zero n = false -> 0 < vdot n n -> vdot n d = 0 ->
  (forall a b, In (a, b) (cyc_edges (verts L)) -> seg_contains_point (seg_new a b) q = Ok false /\ edge_semigeneric n q d a b) ->
  loop_test_point_gen rayf L q = Ok (Nat.odd (countb (halfb3 n q d) (cyc_edges (verts L)))).
Proof.
  cbn zeta. intros Hc Hlen Hz Hnn Hd He. apply test_point_gen_counts; try assumption.
  intros a b Hin. destruct (He a b Hin) as [Hon Hg]. split; [exact (proj1 (proj2 Hg))|].
  apply edge_cross_count_semigeneric; assumption.
Qed.

(** a segment long enough to pass both end points of the edge: half-open crossing of the segment = of the ray *)
Theorem long_segment_is_ray_half (n q d a b : V) :
  vdot n d = 0 -> 0 < vdot d d ->
  vdot (vsub a q) d <= vdot d d -> vdot (vsub b q) d <= vdot d d ->
  halfb3 n q d a b = halfray3 n q d a b.
Proof.
  intros Hd Hdd Hla Hlb. unfold halfb3, halfray3.
  destruct (xorb (sgb (sideof n q d a)) (sgb (sideof n q d b))) eqn:C1; [|reflexivity]. cbn [andb].
  set (sa := sideof n q d a) in *. set (sb := sideof n q d b) in *. set (oq := orient3 n a b q) in *.
  set (W := vdot n (vcross (vsub b a) d)).
  assert (EW : W = (sa - sb)%R) by (unfold W, sa, sb; rewrite sideof_diff; reflexivity).
  assert (EO : (orient3 n a b (vadd q d) = oq + W)%R) by (unfold oq, W; apply orient3_far).
  assert (EI : (vdot (vsub b q) d * sa - vdot (vsub a q) d * sb = - oq * vdot d d)%R) by (unfold sa, sb, oq; rewrite side_orient, Hd; ring).
  assert (Hs : (0 < sa /\ sb <= 0) \/ (0 < sb /\ sa <= 0)).
  { revert C1. unfold sgb. rcase 0 sa Ea; rcase 0 sb Eb; cbn [xorb]; intros K; try discriminate; [left | right]; split; assumption. }
  rewrite EO. pose proof (long_ray_half sa sb oq W _ _ _ EW EI Hdd Hla Hlb Hs) as [L1 L2].
  rcase_le (oq * W) 0 C2; [apply Rleb_true; exact (L1 C2)|].
  apply Rleb_false. destruct (Rlt_or_le 0 (oq * (oq + W))) as [K|K]; [exact K | exfalso; pose proof (L2 K); lra].
Qed.
Theorem count_long_segment_is_ray_half (n q d : V) (vs : list V) :
  vdot n d = 0 -> 0 < vdot d d -> long_enough q d vs ->
  countb (halfb3 n q d) (cyc_edges vs) = countb (halfray3 n q d) (cyc_edges vs).
Proof.
  intros Hd Hdd Hl. apply countb_ext. intros a b Hin. destruct (in_cyc_edges _ _ _ Hin) as [Ia Ib].
  apply long_segment_is_ray_half; [exact Hd | exact Hdd | apply Hl; exact Ia | apply Hl; exact Ib].
Qed.

(** in 2-D coordinates of the plane the half-open predicate of the ray is the planar one *)
Theorem halfray3_plane (o e1 e2 q d a b : V) :
  halfray3 (vcross e1 e2) q d a b = half_cross2 (plane2 o e1 e2 q) (planev e1 e2 d) (plane2 o e1 e2 a) (plane2 o e1 e2 b).
Proof.
  unfold halfray3, half_cross2, sideof, orient3, hgt2, orient2. rewrite !binet_cauchy. rewrite !(planev_sub o). reflexivity.
Qed.

Lemma loop_ray_facts_semi (L : Loop R) (q : V) :
  (2 <= llen L)%nat ->
  (forall a b, In (a, b) (cyc_edges (verts L)) -> edge_semigeneric (lnormal L) q (loop_ray L q) a b) ->
  vdot (lnormal L) (loop_ray L q) = 0 /\ 0 < vdot (loop_ray L q) (loop_ray L q) /\ long_enough q (loop_ray L q) (verts L).
Proof.
  intros Hlen He. apply loop_ray_facts_gen; [exact Hlen|]. intros a b Hin.
  destruct (He a b Hin) as [Hab [Haq [[Hpar _]|[_ Hoff]]]]; auto.
Qed.

(** the live code: parity of the half-open crossings of the cast segment = of the ray *)
Theorem test_point_counts_half_ray_crossings (L : Loop R) (q : V) :
  lclosed L = true -> (2 <= llen L)%nat ->
  let n := lnormal L in let d := test_ray L q in
  vis_zero n = false -> 0 < vdot n n ->
  (forall a b, In (a, b) (cyc_edges (verts L)) -> seg_contains_point (seg_new a b) q = Ok false /\ edge_semigeneric n q d a b) ->
  loop_test_point L q = Ok (Nat.odd (countb (halfray3 n q d) (cyc_edges (verts L)))).
Proof.
  cbn zeta. intros Hc Hlen Hz Hnn He. rewrite test_point_is_gen. unfold test_ray in *.
  destruct (loop_ray_facts_semi L q Hlen (fun a b Hin => proj2 (He a b Hin))) as [Hnd [Hdd Hl]].
  rewrite (test_point_gen_counts_half loop_ray L q Hc ltac:(lia) Hz Hnn Hnd He). f_equal. f_equal.
  apply count_long_segment_is_ray_half; assumption.
Qed.

(** ** (E) assembled *)
(** [test_point] = parity of the number of fan triangles containing q, for every semigeneric cast segment: compared with
    [test_point_fan_parity] the hypothesis [edge_generic] is weakened to [edge_semigeneric] and the condition
    "hgt2 q' d' (pr v) <> 0 for every vertex" (the ray's line avoids the vertices) is not needed *)
Theorem test_point_vertex_fan_parity (L : Loop R) (q o e1 e2 : V) (apex : P2) :
  lclosed L = true -> (2 <= llen L)%nat ->
  let n := lnormal L in let d := test_ray L q in
  let pr := plane2 o e1 e2 in let q' := pr q in let d' := planev e1 e2 d in
  vis_zero n = false -> 0 < vdot n n -> n = vcross e1 e2 ->
  (forall a b, In (a, b) (cyc_edges (verts L)) -> seg_contains_point (seg_new a b) q = Ok false /\ edge_semigeneric n q d a b) ->
  hgt2 q' d' apex <> 0 ->
  (forall v, In v (verts L) -> orient2 apex (pr v) q' <> 0) ->
  (forall a b, In (a, b) (cyc_edges (verts L)) -> orient2 (pr a) (pr b) q' <> 0) ->
  loop_test_point L q = Ok (xpar (in_tri2 q' apex) (cyc_edges2 (map pr (verts L)))).
Proof.
  cbn zeta. intros Hc Hlen Hz Hnn Hn He Hap Hv Hed.
  rewrite (test_point_counts_half_ray_crossings L q Hc Hlen Hz Hnn He). f_equal. rewrite odd_countb.
  rewrite <- (half_parity_fan (plane2 o e1 e2 q) (planev e1 e2 (test_ray L q)) apex).
  - rewrite cyc_edges_map, xpar_map. apply xpar_ext. intros a b _. rewrite Hn. apply halfray3_plane.
  - exact Hap.
  - intros v Iv. apply in_map_iff in Iv. destruct Iv as [u [Eu Iu]]. subst v. apply Hv. exact Iu.
  - apply cyc_edges2_map_forall. exact Hed.
Qed.

(** an apex in general position for two directions and finitely many vertices exists *)
Lemma exists_apex (q d d2 : P2) (vs : list P2) :
  d <> (0, 0) -> d2 <> (0, 0) -> (forall v, In v vs -> v <> q) ->
  exists p, hgt2 q d p <> 0 /\ hgt2 q d2 p <> 0 /\ forall v, In v vs -> orient2 p v q <> 0.
Proof.
  intros Hd Hd2 Hv.
  destruct (Winding.avoid_directions (d :: d2 :: map (fun a => (fst a - fst q, snd a - snd q)%R) vs)) as [t0 Ht0].
  { intros w [Hw|[Hw|Hw]]; [subst; assumption | subst; assumption |].
    apply in_map_iff in Hw. destruct Hw as [a [Ha Hin]]. subst w. intros Heq. apply (Hv a Hin).
    injection Heq as E1 E2. destruct q as [q1 q2], a as [a1 a2]; cbn [fst snd] in *. f_equal; lra. }
  specialize (Ht0 (t0 + 1)%R ltac:(lra)). set (t := (t0 + 1)%R) in *.
  assert (Eh : forall dd, hgt2 q dd (fst q + 1, snd q + t)%R = (- (snd dd - t * fst dd))%R).
  { intros dd. unfold hgt2, det2, sub2. cbn [fst snd]. ring. }
  exists (fst q + 1, snd q + t)%R. split; [|split].
  - rewrite Eh. pose proof (Ht0 d (or_introl eq_refl)). lra.
  - rewrite Eh. pose proof (Ht0 d2 (or_intror (or_introl eq_refl))). lra.
  - intros v Iv.
    assert (Hin : In (fst v - fst q, snd v - snd q)%R (d :: d2 :: map (fun a => (fst a - fst q, snd a - snd q)%R) vs))
      by (right; right; apply in_map_iff; exists v; split; [reflexivity | exact Iv]).
    pose proof (Ht0 _ Hin) as H. cbn [fst snd] in H.
    replace (orient2 (fst q + 1, snd q + t)%R v q) with (snd v - snd q - t * (fst v - fst q))%R; [exact H|].
    unfold orient2, det2, sub2. cbn [fst snd]. ring.
Qed.

(** a direction whose line through q avoids finitely many points (other than q) exists *)
Lemma generic_direction_exists (q : P2) (vs : list P2) :
  (forall v, In v vs -> v <> q) -> exists d2, Winding.generic d2 q vs.
Proof.
  intros Hv.
  destruct (Winding.avoid_directions (map (fun a => (fst a - fst q, snd a - snd q)%R) vs)) as [t0 Ht0].
  { intros w Hw. apply in_map_iff in Hw. destruct Hw as [a [Ha Hin]]. subst w. intros Heq. apply (Hv a Hin).
    injection Heq as E1 E2. destruct q as [q1 q2], a as [a1 a2]; cbn [fst snd] in *. f_equal; lra. }
  specialize (Ht0 (t0 + 1)%R ltac:(lra)). exists (1, t0 + 1)%R. intros v Iv.
  assert (Hin : In (fst v - fst q, snd v - snd q)%R (map (fun a => (fst a - fst q, snd a - snd q)%R) vs))
    by (apply in_map_iff; exists v; split; [reflexivity | exact Iv]).
  pose proof (Ht0 _ Hin) as H. cbn [fst snd] in H. unfold Winding.hgt. cbn [fst snd]. lra.
Qed.

(** the planar image of the cast segment is not zero; no projected vertex is q' *)
Lemma semigeneric_planar_facts (L : Loop R) (q o e1 e2 : V) :
  (2 <= llen L)%nat ->
  let n := lnormal L in let d := test_ray L q in
  let pr := plane2 o e1 e2 in let q' := pr q in let d' := planev e1 e2 d in
  0 < vdot n n -> n = vcross e1 e2 ->
  (forall a b, In (a, b) (cyc_edges (verts L)) -> edge_semigeneric n q d a b) ->
  (forall a b, In (a, b) (cyc_edges (verts L)) -> orient2 (pr a) (pr b) q' <> 0) ->
  d' <> (0, 0) /\ (forall v, In v (map pr (verts L)) -> v <> q').
Proof.
  cbn zeta. intros Hlen Hnn Hn He Hed. unfold test_ray in *. split.
  - destruct (loop_ray_facts_semi L q Hlen He) as [Hnd _].
    destruct (verts L) as [|v0 [|v1 rest]] eqn:Ev; unfold llen in Hlen; rewrite Ev in Hlen; cbn [length] in Hlen; try lia.
    assert (E0 : In (v0, v1) (cyc_edges (v0 :: v1 :: rest))) by (left; reflexivity).
    destruct (He _ _ E0) as [Hab [_ Hcase]]. intros Z.
    destruct Hcase as [[Hpar _] | [_ Hoff]].
    + pose proof (cross_parallel_normal (lnormal L) (vsub v1 v0) (loop_ray L q) Hab Hnd) as C.
      assert (W0 : vdot (lnormal L) (vcross (vsub v1 v0) (loop_ray L q)) = 0).
      { rewrite Hn at 1. rewrite binet_cauchy, Z. unfold det2. cbn [fst snd]. ring. }
      rewrite W0 in C. nra.
    + apply Hoff. unfold sideof. rewrite Hn at 1. rewrite binet_cauchy, Z. unfold det2. cbn [fst snd]. ring.
  - intros v Iv Ev. apply in_map_iff in Iv. destruct Iv as [u [Eu Iu]]. subst v.
    destruct (in_edges_from_src (verts L) (vnth (verts L) O) u Iu) as [w Hw]. fold (cyc_edges (verts L)) in Hw.
    apply (Hed u w Hw). rewrite Ev. unfold orient2, det2, sub2. cbn [fst snd]. ring.
Qed.

(** [test_point] = parity of the winding number of the outline about q, counted along ANY generic ray d2 (the code's own
    ray may pass through vertices, where [Winding.crd] is not meaningful; the winding number does not depend on the
    generic ray used to count it: [Winding.wn_ray_independent_strong]) *)
Theorem test_point_vertex_wn_parity (L : Loop R) (q o e1 e2 : V) (d2 : P2) :
  lclosed L = true -> (2 <= llen L)%nat ->
  let n := lnormal L in let d := test_ray L q in
  let pr := plane2 o e1 e2 in let q' := pr q in
  vis_zero n = false -> 0 < vdot n n -> n = vcross e1 e2 ->
  (forall a b, In (a, b) (cyc_edges (verts L)) -> seg_contains_point (seg_new a b) q = Ok false /\ edge_semigeneric n q d a b) ->
  (forall a b, In (a, b) (cyc_edges (verts L)) -> orient2 (pr a) (pr b) q' <> 0) ->
  Winding.generic d2 q' (map pr (verts L)) ->
  loop_test_point L q = Ok (Z.odd (Winding.wn d2 (map pr (verts L)) q')).
Proof.
  cbn zeta. intros Hc Hlen Hz Hnn Hn He Hed G2.
  destruct (semigeneric_planar_facts L q o e1 e2 Hlen Hnn Hn (fun a b Hin => proj2 (He a b Hin)) Hed) as [Hd' Hvq].
  assert (Hd2 : d2 <> (0, 0)).
  { destruct (verts L) as [|v0 rest] eqn:Ev; [unfold llen in Hlen; rewrite Ev in Hlen; cbn [length] in Hlen; lia|].
    apply (Winding.generic_dir_nonzero d2 (plane2 o e1 e2 q) (plane2 o e1 e2 v0) (map (plane2 o e1 e2) (v0 :: rest))); [left; reflexivity | exact G2]. }
  destruct (exists_apex (plane2 o e1 e2 q) (planev e1 e2 (test_ray L q)) d2 (map (plane2 o e1 e2) (verts L)) Hd' Hd2 Hvq) as [p [P1 [P2' P3]]].
  rewrite (test_point_vertex_fan_parity L q o e1 e2 p Hc Hlen Hz Hnn Hn He P1).
  2:{ intros v Iv. apply P3. apply in_map. exact Iv. }
  2:{ exact Hed. }
  f_equal.
  assert (Hed2 : forall a b, In (a, b) (cyc_edges2 (map (plane2 o e1 e2) (verts L))) -> orient2 a b (plane2 o e1 e2 q) <> 0).
  { apply cyc_edges2_map_forall. exact Hed. }
  rewrite <- (ray_parity_fan (plane2 o e1 e2 q) d2 p).
  - apply ray_parity_is_wn_parity. exact Hed2.
  - exact P2'.
  - intros v Iv. split; [rewrite hgt2_is_hgt; apply G2; exact Iv | apply P3; exact Iv].
  - exact Hed2.
Qed.

(** for an outline whose winding numbers are 0 or 1: inside <-> wn = 1 *)
Corollary test_point_vertex_is_membership (L : Loop R) (q o e1 e2 : V) (d2 : P2) :
  lclosed L = true -> (2 <= llen L)%nat ->
  let n := lnormal L in let d := test_ray L q in
  let pr := plane2 o e1 e2 in let q' := pr q in
  vis_zero n = false -> 0 < vdot n n -> n = vcross e1 e2 ->
  (forall a b, In (a, b) (cyc_edges (verts L)) -> seg_contains_point (seg_new a b) q = Ok false /\ edge_semigeneric n q d a b) ->
  (forall a b, In (a, b) (cyc_edges (verts L)) -> orient2 (pr a) (pr b) q' <> 0) ->
  Winding.generic d2 q' (map pr (verts L)) ->
  (0 <= Winding.wn d2 (map pr (verts L)) q' <= 1)%Z ->
  (loop_test_point L q = Ok true <-> Winding.wn d2 (map pr (verts L)) q' = 1%Z).
Proof.
  cbn zeta. intros Hc Hlen Hz Hnn Hn He Hed G2 Hw.
  rewrite (test_point_vertex_wn_parity L q o e1 e2 d2 Hc Hlen Hz Hnn Hn He Hed G2).
  set (w := Winding.wn _ _ _) in *. assert (H : w = 0%Z \/ w = 1%Z) by lia.
  destruct H as [H|H]; rewrite H; cbn; split; intros K; try discriminate; try lia; reflexivity.
Qed.

(** a generic counting ray always exists under these hypotheses, so the statement above is never vacuous in d2 *)
Theorem test_point_vertex_wn_parity_exists (L : Loop R) (q o e1 e2 : V) :
  lclosed L = true -> (2 <= llen L)%nat ->
  let n := lnormal L in let d := test_ray L q in
  let pr := plane2 o e1 e2 in let q' := pr q in
  vis_zero n = false -> 0 < vdot n n -> n = vcross e1 e2 ->
  (forall a b, In (a, b) (cyc_edges (verts L)) -> seg_contains_point (seg_new a b) q = Ok false /\ edge_semigeneric n q d a b) ->
  (forall a b, In (a, b) (cyc_edges (verts L)) -> orient2 (pr a) (pr b) q' <> 0) ->
  exists d2, Winding.generic d2 q' (map pr (verts L)) /\ loop_test_point L q = Ok (Z.odd (Winding.wn d2 (map pr (verts L)) q')).
Proof.
  cbn zeta. intros Hc Hlen Hz Hnn Hn He Hed.
  destruct (semigeneric_planar_facts L q o e1 e2 Hlen Hnn Hn (fun a b Hin => proj2 (He a b Hin)) Hed) as [_ Hvq].
  destruct (generic_direction_exists _ _ Hvq) as [d2 G2]. exists d2. split; [exact G2|].
  apply test_point_vertex_wn_parity; assumption.
Qed.

(** ** the sliver that stays excluded: an interior crossing with 0 < t_a < EPSILON whose edge leaves to the RIGHT of the
    ray (a strictly left, b strictly right: W = n . ((b - a) x d) > 0) is handed to the start-vertex rule and dropped,
    although it is a proper crossing ([crossb3] = true) -- the exact-tier shadow of finding C05:vertex-grazing *)
Theorem sliver_edge_dropped (L : Loop R) (q d a b : V) :
  let n := lnormal L in
  0 < vdot n n -> vis_zero n = false -> vdot n d = 0 ->
  seg_contains_point (seg_new a b) q = Ok false ->
  vdot n (vsub b a) = 0 -> vdot n (vsub a q) = 0 -> / 100000 <= vlen2 (vcross (vsub b a) d) ->
  0 < edge_param n q d a b < neps -> 0 < vdot n (vcross (vsub b a) d) ->
  crossb3 n q d a b = true ->
  edge_cross_count L q d (seg_new q (vadd q d)) a b = Ok (false, 0%nat).
Proof.
  cbn zeta. intros Hnn Hnz Hnd Hon Hab Haq Hpar Hband HWp Hx.
  destruct (edge_solved _ q d a b Hnn Hnd Hab Haq Hpar) as [HW [tb [G [Sa [Sb [Oq Oe]]]]]].
  unfold edge_cross_count. rewrite Hon, G. cbn [rbind].
  unfold seg_as_vec. cbn [seg_new sstart send].
  rewrite (same_direction_cross (lnormal L) d (vsub b a) Hnz Hnd Hab Hpar).
  rewrite (crossb3_params _ q d a b _ tb HW Sa Oq) in Hx.
  apply andb_prop in Hx. destruct Hx as [_ X2]. unfold in01. rnum. rewrite X2. cbn [andb].
  revert Hband. generalize (edge_param (lnormal L) q d a b). intros ta Hband.
  pose proof neps_lt_quarter as He4. revert He4 Hband. generalize (@neps R NumR). intros eps He4 Hband.
  rdec. reflexivity.
Qed.

(** ** non-vacuity: the rectangle (0,0) (6,0) (6,4) (0,4) and q = (9/2, 2, 0).  The cast segment starts from q in the
    direction away from the midpoint (3,0,0) of the first edge: d = (600, 800, 0); it passes EXACTLY through the vertex
    (6,4,0) = q + d / 400, the end of the edge (6,0)-(6,4) (t_a = 1: end rule, (6,0) is to the right: not counted) and the
    start of the edge (6,4)-(0,4) (t_a = 0: start rule, (0,4) is to the left: counted). *)
Definition vrect : Loop R := mkLoop [mkV3 0 0 0; mkV3 6 0 0; mkV3 6 4 0; mkV3 0 4 0] (mkV3 0 0 1) true 24 20.
Definition vq : V := mkV3 (9 / 2) 2 0.

Lemma test_ray_vrect : test_ray vrect vq = mkV3 600 800 0.
Proof.
  unfold test_ray. rewrite (loop_ray_near vrect vq 8 (5 / 2)); [| lra | | lra |]; unfold vrect, vq, vnth; cbn [verts List.nth].
  - unfold vscale, vsub, vadd. cbn [vx vy vz]. rnum. apply v3_eq; cbn [vx vy vz]; lra.
  - intros v [E|[E|[E|[E|[]]]]]; subst v; unfold vlen2, vsub; cbn [vx vy vz]; rnum; lra.
  - unfold vlen2, vsub, vscale, vadd. cbn [vx vy vz]. rnum. lra.
Qed.

Lemma vrect_gates : lclosed vrect = true /\ (2 <= llen vrect)%nat /\ vis_zero (lnormal vrect) = false /\ 0 < vdot (lnormal vrect) (lnormal vrect).
Proof.
  repeat split; [cbn; lia | | unfold vrect; cbn [lnormal]; conc; lra].
  apply vis_zero_false. right. right. unfold vrect. cbn [lnormal vz]. apply Rabs_ge_l. lra.
Qed.

Lemma vrect_edges (a b : V) : In (a, b) (cyc_edges (verts vrect)) ->
  seg_contains_point (seg_new a b) vq = Ok false /\ edge_semigeneric (lnormal vrect) vq (test_ray vrect vq) a b.
Proof.
  rewrite test_ray_vrect. unfold vrect, cyc_edges, vnth. cbn [verts lnormal List.nth edges_from]. pose proof neps_lt_quarter as HE. pose proof neps_pos as HP.
  intros [E|[E|[E|[E|[]]]]]; injection E as Ea Eb; subst a b; unfold vq.
  all: split;
    [ apply contains_point_false;
      try (apply vcompare_false_intro; cbn [vx vy vz]; first [left; first [apply Rabs_ge_l; lra | apply Rabs_ge_r; lra] | right; left; first [apply Rabs_ge_l; lra | apply Rabs_ge_r; lra]]);
      conc; lra
    | unfold edge_semigeneric; split; [conc; lra|]; split; [conc; lra|]; left; split; [conc; lra|]; intros [K1 K2]; conc; lra ].
Qed.

(** the cast segment passes exactly through the vertex (6,4,0) ... *)
Lemma vrect_ray_through_vertex : vadd vq (vscale (test_ray vrect vq) (/ 400)) = mkV3 6 4 0.
Proof. rewrite test_ray_vrect. unfold vq, vadd, vscale. cbn [vx vy vz]. rnum. apply v3_eq; cbn [vx vy vz]; lra. Qed.
(** ... so the edge (6,0)-(6,4) is not [edge_generic]: the theorems of Properties/C05.v do not apply to this query *)
Lemma vrect_not_generic : ~ edge_generic (lnormal vrect) vq (test_ray vrect vq) (mkV3 6 0 0) (mkV3 6 4 0).
Proof.
  rewrite test_ray_vrect. unfold vrect. cbn [lnormal]. intros [_ [_ [_ [Hb _]]]]. apply Hb. unfold vq. conc. lra.
Qed.

(** the answer, from the half-open count: exactly one edge, (6,4)-(0,4), is counted *)
Theorem vrect_inside : loop_test_point vrect vq = Ok true.
Proof.
  destruct vrect_gates as [G1 [G2 [G3 G4]]].
  rewrite (test_point_counts_half_ray_crossings vrect vq G1 G2 G3 G4 vrect_edges). rewrite test_ray_vrect. f_equal.
  unfold vrect, cyc_edges, vnth, vq. cbn [verts lnormal List.nth edges_from]. unfold countb. cbn [filter fst snd].
  unfold halfray3, sgb. conc. rdec.
  reflexivity.
Qed.

(** the same through the winding-number theorem: plane coordinates (x, y), counting ray (1, 0) *)
Definition vo : V := mkV3 0 0 0.
Definition ve1 : V := mkV3 1 0 0.
Definition ve2 : V := mkV3 0 1 0.
Lemma vrect_planar :
  lnormal vrect = vcross ve1 ve2 /\
  (forall a b, In (a, b) (cyc_edges (verts vrect)) -> orient2 (plane2 vo ve1 ve2 a) (plane2 vo ve1 ve2 b) (plane2 vo ve1 ve2 vq) <> 0) /\
  Winding.generic (1, 0) (plane2 vo ve1 ve2 vq) (map (plane2 vo ve1 ve2) (verts vrect)) /\
  Winding.wn (1, 0) (map (plane2 vo ve1 ve2) (verts vrect)) (plane2 vo ve1 ve2 vq) = 1%Z.
Proof.
  split; [unfold vrect, ve1, ve2; cbn [lnormal]; vring|]. split; [|split].
  - unfold vrect, cyc_edges, vnth. cbn [verts List.nth edges_from].
    intros a b [E|[E|[E|[E|[]]]]]; injection E as Ea Eb; subst a b; unfold orient2, det2, sub2, plane2, vo, ve1, ve2, vq, vdot, vsub; cbn [fst snd vx vy vz]; rnum; lra.
  - unfold vrect. cbn [verts map]. intros v [E|[E|[E|[E|[]]]]]; subst v; unfold Winding.hgt, plane2, vo, ve1, ve2, vq, vdot, vsub; cbn [fst snd vx vy vz]; rnum; lra.
  - unfold vrect. cbn [verts map]. unfold plane2, vo, ve1, ve2, vq, vdot, vsub. cbn [vx vy vz]. rnum.
    Winding.wn_eval.
Qed.

(** ** the same input on the binary64 instance of the model (the instance that is run against the crate) *)
Local Open Scope float_scope.
Definition fvrect : Loop float := mkLoop [mkV3 0 0 0; mkV3 6 0 0; mkV3 6 4 0; mkV3 0 4 0] (mkV3 0 0 1) true 24 20.
Lemma fvrect_vertex_ray :
  @loop_test_point float NumF fvrect (mkV3 4.5 2 0) = Ok true /\
  @loop_ray float NumF fvrect (mkV3 4.5 2 0) = mkV3 600 800 0.
Proof. vm_compute. split; reflexivity. Qed.
