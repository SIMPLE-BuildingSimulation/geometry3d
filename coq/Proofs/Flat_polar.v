(** * Flat_polar: the polar angle [natan2 y x] on the real instance (used for the angular range of disks). *)
From Coq Require Import ZArith Reals Lra Bool List Psatz.
From G3 Require Import Model.Num Model.Base Theory.RInst.
Local Open Scope R_scope.

Lemma hyp_pos (x y : R) : x <> 0 \/ y <> 0 -> 0 < sqrt (x * x + y * y).
Proof. intros H. apply sqrt_lt_R0. destruct H; nra. Qed.
Lemma hyp_sqr (x y : R) : sqrt (x * x + y * y) * sqrt (x * x + y * y) = x * x + y * y.
Proof. apply sqrt_sqrt. nra. Qed.

(** sqrt (1 + (y/x)^2) = rho / |x| *)
Lemma sqrt_one_plus (x y : R) : x <> 0 -> sqrt (1 + (y / x)²) = sqrt (x * x + y * y) / Rabs x.
Proof.
  intros Hx. pose proof (hyp_pos x y (or_introl Hx)) as Hr. pose proof (hyp_sqr x y) as Hs.
  assert (Ha : 0 < Rabs x) by (apply Rabs_pos_lt; exact Hx).
  assert (Haa : Rabs x * Rabs x = x * x) by (unfold Rabs; destruct (Rcase_abs x); ring).
  apply sqrt_lem_1.
  - unfold Rsqr. assert (0 <= y / x * (y / x)) by nra. lra.
  - apply Rlt_le, Rdiv_lt_0_compat; assumption.
  - unfold Rsqr.
    replace (sqrt (x * x + y * y) / Rabs x * (sqrt (x * x + y * y) / Rabs x))
      with ((sqrt (x * x + y * y) * sqrt (x * x + y * y)) / (Rabs x * Rabs x)) by (field; lra).
    rewrite Hs, Haa. field. exact Hx.
Qed.

Lemma cos_atan_ratio (x y : R) : x <> 0 -> cos (atan (y / x)) = Rabs x / sqrt (x * x + y * y).
Proof.
  intros Hx. rewrite cos_atan, sqrt_one_plus by assumption.
  pose proof (hyp_pos x y (or_introl Hx)). assert (0 < Rabs x) by (apply Rabs_pos_lt; exact Hx). field. lra.
Qed.
Lemma sin_atan_ratio (x y : R) : x <> 0 -> sin (atan (y / x)) = y / x * Rabs x / sqrt (x * x + y * y).
Proof.
  intros Hx. rewrite sin_atan, sqrt_one_plus by assumption.
  pose proof (hyp_pos x y (or_introl Hx)). assert (0 < Rabs x) by (apply Rabs_pos_lt; exact Hx). field. lra.
Qed.

(** (x, y) = rho (cos theta, sin theta) with theta = atan2 y x in (-pi, pi]; at the origin rho = 0 and theta = 0 *)
Lemma Ratan2_polar (x y : R) :
  let rho := sqrt (x * x + y * y) in let th := Ratan2 y x in
  x = rho * cos th /\ y = rho * sin th /\ - PI < th <= PI.
Proof.
  cbv zeta. pose proof PI_RGT_0 as Hpi.
  unfold Ratan2. destruct (Rlt_dec 0 x) as [Hx|Hx]; [|destruct (Rlt_dec x 0) as [Hx'|Hx']].
  - pose proof (hyp_pos x y ltac:(lra)) as Hr. rewrite cos_atan_ratio, sin_atan_ratio by lra. rewrite Rabs_right by lra.
    pose proof (atan_bound (y / x)). repeat split; try (field; lra); lra.
  - pose proof (hyp_pos x y ltac:(lra)) as Hr. assert (Ha : Rabs x = - x) by (apply Rabs_left; exact Hx').
    destruct (Rle_dec 0 y) as [Hy|Hy].
    + rewrite cos_plus, sin_plus, cos_PI, sin_PI, cos_atan_ratio, sin_atan_ratio, Ha by lra.
      pose proof (atan_bound (y / x)) as B.
      assert (atan (y / x) <= 0).
      { destruct (Req_dec y 0) as [->|Hy0]; [unfold Rdiv; rewrite Rmult_0_l, atan_0; lra|].
        left. rewrite <- atan_0. apply atan_increasing. apply Ropp_lt_cancel. rewrite Ropp_0.
        replace (- (y / x)) with (y / (- x)) by (field; lra). apply Rdiv_lt_0_compat; lra. }
      repeat split; try (field; lra); lra.
    + rewrite cos_minus, sin_minus, cos_PI, sin_PI, cos_atan_ratio, sin_atan_ratio, Ha by lra.
      pose proof (atan_bound (y / x)) as B.
      assert (0 < atan (y / x)).
      { rewrite <- atan_0. apply atan_increasing. replace (y / x) with ((- y) / (- x)) by (field; lra). apply Rdiv_lt_0_compat; lra. }
      repeat split; try (field; lra); lra.
  - assert (x = 0) by lra. subst x. replace (0 * 0 + y * y) with (y * y) by ring.
    destruct (Rlt_dec 0 y) as [Hy1|Hy1]; [|destruct (Rlt_dec y 0) as [Hy2|Hy2]].
    + rewrite sqrt_square by lra. rewrite cos_PI2, sin_PI2. repeat split; lra.
    + replace (y * y) with ((- y) * (- y)) by ring. rewrite sqrt_square by lra.
      replace (- PI / 2) with (- (PI / 2)) by field. rewrite cos_neg, sin_neg, cos_PI2, sin_PI2. repeat split; lra.
    + assert (y = 0) by lra. subst y. rewrite Rmult_0_l, sqrt_0. repeat split; lra.
Qed.

(** the angle in [0, 2 pi) that the code derives from atan2 *)
Definition polar_phi (x y : R) : R := let th := Ratan2 y x in if Rltb th 0 then th + 2 * PI else th.
Lemma polar_phi_spec (x y : R) :
  let rho := sqrt (x * x + y * y) in let phi := polar_phi x y in
  x = rho * cos phi /\ y = rho * sin phi /\ 0 <= phi < 2 * PI.
Proof.
  cbv zeta. destruct (Ratan2_polar x y) as (Hx & Hy & Hb). pose proof PI_RGT_0 as Hpi.
  unfold polar_phi. rcase (Ratan2 y x) 0 E.
  - rewrite cos_plus, sin_plus, cos_2PI, sin_2PI. repeat split; lra.
  - repeat split; try assumption; lra.
Qed.

Lemma polar_phi_origin : polar_phi 0 0 = 0.
Proof. unfold polar_phi, Ratan2. destruct (Rlt_dec 0 0); [lra|]. rewrite Rltb_ge by lra. reflexivity. Qed.

(** uniqueness of the polar angle in [0, 2 pi) *)
Lemma cos_one_zero (x : R) : 0 <= x < 2 * PI -> cos x = 1 -> x = 0.
Proof.
  intros Hx Hc. pose proof PI_RGT_0 as Hpi.
  replace x with (2 * (x / 2)) in Hc by field. rewrite cos_2a_sin in Hc.
  assert (Hs : sin (x / 2) = 0) by nra.
  destruct (sin_eq_O_2PI_0 (x / 2)) as [E|[E|E]]; try lra.
Qed.
Lemma polar_unique (a b : R) : 0 <= a < 2 * PI -> 0 <= b < 2 * PI -> cos a = cos b -> sin a = sin b -> a = b.
Proof.
  intros Ha Hb Hc Hs. pose proof (sin2_cos2 b) as Hb2. unfold Rsqr in Hb2.
  destruct (Rle_dec b a) as [L|L].
  - assert (a - b = 0); [|lra]. apply cos_one_zero; [lra|]. rewrite cos_minus, Hc, Hs. lra.
  - assert (b - a = 0); [|lra]. apply cos_one_zero; [lra|]. rewrite cos_minus, Hc, Hs. lra.
Qed.
Lemma polar_phi_unique (x y rho phi : R) : 0 < rho -> 0 <= phi < 2 * PI ->
  x = rho * cos phi -> y = rho * sin phi -> polar_phi x y = phi.
Proof.
  intros Hr Hp Hx Hy. pose proof (sin2_cos2 phi) as H2. unfold Rsqr in H2.
  assert (Hxy : x * x + y * y = rho * rho) by (subst x y; nra).
  destruct (polar_phi_spec x y) as (Px & Py & Pb). rewrite Hxy, sqrt_square in Px, Py by lra.
  apply polar_unique; try assumption.
  - apply Rmult_eq_reg_l with rho; [|lra]. rewrite <- Px. exact Hx.
  - apply Rmult_eq_reg_l with rho; [|lra]. rewrite <- Py. exact Hy.
Qed.
