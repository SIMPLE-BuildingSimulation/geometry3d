(** * Flat_examples: combined statements and the concrete inputs used as non-vacuity witnesses. *)
From Coq Require Import ZArith Reals Lra Bool List Psatz.
From G3 Require Import Model.Num Model.Base Model.Vec Model.BBox Model.Transform Model.Hit Model.Segment Model.Triangle Model.Plane Model.Disk Model.Distant
  Theory.RInst Proofs.C06_transform Proofs.Flat_base Proofs.Flat_polar Proofs.Flat_triangle Proofs.Flat_disk Proofs.Flat_distant.
Local Open Scope R_scope.

Lemma tri_intersect_sound (t : Tri R) (ray : Ray R) (i : Info R) :
  tri_intersect t ray = Some i -> (exists tt, ctiny < tt /\ ip i = ray_project ray tt) /\ in_triangle t (ip i).
Proof. intros H. apply tri_intersect_spec in H. destruct H as (A & B & _). split; assumption. Qed.

Lemma disk_basic_sound_geo (d : Disk R) (ray : Ray R) (p : V) (phi : R) : disk_wf d ->
  disk_basic_intersection d ray = Some (p, phi) ->
  (exists t, 0 < t /\ p = ray_project ray t) /\
  vdot (dk_normal d) (vsub p (dk_centre d)) = 0 /\
  dk_inner d * dk_inner d <= vlen2 (vsub p (dk_centre d)) <= dk_radius d * dk_radius d /\
  exists rho, dk_inner d <= rho <= dk_radius d /\ 0 <= phi <= dk_phi_max d /\ phi < 2 * PI /\ p = disk_point d rho phi.
Proof.
  intros W H. apply disk_basic_sound in H; [|assumption]. destruct H as (Ht & _ & Hon & ->).
  pose proof Hon as (H1 & H2 & H3). destruct (on_disk_polar d p W Hon) as (rho & R1 & R2 & R3 & R4).
  split; [assumption|]. split; [assumption|]. split; [assumption|]. exists rho. repeat split; try assumption; lra.
Qed.

Lemma disk_intersect_tr_sound (d : Disk R) (t : T) (ray : Ray R) (i : Info R) : disk_wf d -> dk_transform d = Some t -> Inv t ->
  disk_intersect d ray = Some i ->
  exists pl, ip i = tr_pt t pl /\ on_disk d pl /\ exists s, 0 < s /\ ip i = ray_project ray s.
Proof.
  intros W Et Hi H. destruct (disk_intersect_tr_spec d t ray i W Et Hi H) as (il & _ & _ & Hon & Hp & Hs & _).
  exists (ip il). auto.
Qed.
Lemma disk_intersect_tr_data (d : Disk R) (t : T) (ray : Ray R) (i : Info R) : disk_wf d -> dk_transform d = Some t -> Inv t ->
  disk_intersect d ray = Some i ->
  vdot (inormal i) (rdir ray) < 0 /\ vdot (inormal i) (idpdu i) = 0 /\ vdot (inormal i) (idpdv i) = 0 /\
  (rigid t -> vlen2 (inormal i) = 1) /\
  (vdot (tr_normal t (dk_normal d)) (rdir ray) < 0 -> iside i = Front /\ inormal i = tr_normal t (dk_normal d)) /\
  (0 < vdot (tr_normal t (dk_normal d)) (rdir ray) -> iside i = Back /\ inormal i = vneg (tr_normal t (dk_normal d))).
Proof.
  intros W Et Hi H. destruct (disk_intersect_tr_spec d t ray i W Et Hi H) as (il & _ & _ & _ & _ & _ & A & B & C & _ & D & E & F).
  repeat split; try assumption; try (apply E; assumption); try (apply F; assumption).
Qed.

Definition ex_tri : Tri R := mkTri (mkV3 0 0 0) (mkV3 1 0 0) (mkV3 0 1 0) (mkV3 0 0 1) (1 / 2).
Definition ex_ray_down : Ray R := mkRay (mkV3 (1/4) (1/4) 1) (mkV3 0 0 (-1)).
Definition ex_ray_up : Ray R := mkRay (mkV3 (1/4) (1/4) (-2)) (mkV3 0 0 3).

Lemma ex_tri_det_down : tri_det ex_ray_down (ta ex_tri) (tb ex_tri) (tc ex_tri) = 1.
Proof. unfold tri_det, ex_ray_down, ex_tri. cbn [ta tb tc]. vring. Qed.
Lemma ex_tri_det_up : tri_det ex_ray_up (ta ex_tri) (tb ex_tri) (tc ex_tri) = -3.
Proof. unfold tri_det, ex_ray_up, ex_tri. cbn [ta tb tc]. vring. Qed.
Lemma ex_tri_hit_down : intersect_triangle ex_ray_down (ta ex_tri) (tb ex_tri) (tc ex_tri) = Some (ray_project ex_ray_down 1, 1/4, 1/4).
Proof.
  pose proof ctiny_small. pose proof ctiny_pos. apply intersect_triangle_complete; try lra.
  - rewrite ex_tri_det_down. lra.
  - unfold tri_point, ex_ray_down, ex_tri. cbn [ta tb tc]. apply v3_eq; vcbn; field.
Qed.
Lemma ex_tri_hit_up : intersect_triangle ex_ray_up (ta ex_tri) (tb ex_tri) (tc ex_tri) = Some (ray_project ex_ray_up (2/3), 1/4, 1/4).
Proof.
  pose proof ctiny_small. pose proof ctiny_pos. apply intersect_triangle_complete; try lra.
  - rewrite ex_tri_det_up. lra.
  - unfold tri_point, ex_ray_up, ex_tri. cbn [ta tb tc]. apply v3_eq; vcbn; field.
Qed.
Lemma ex_tri_nonvacuous : exists p u v, intersect_triangle ex_ray_down (ta ex_tri) (tb ex_tri) (tc ex_tri) = Some (p, u, v).
Proof. eexists; eexists; eexists. apply ex_tri_hit_down. Qed.
Lemma ex_tri_two_sided : exists i1 i2, tri_intersect ex_tri ex_ray_down = Some i1 /\ tri_intersect ex_tri ex_ray_up = Some i2 /\
  vdot (tri_N ex_tri) (rdir ex_ray_down) < 0 /\ 0 < vdot (tri_N ex_tri) (rdir ex_ray_up).
Proof.
  unfold tri_intersect, tri_intersect_local_ray. rewrite ex_tri_hit_down, ex_tri_hit_up.
  destruct (get_side _ (rdir ex_ray_down)). destruct (get_side _ (rdir ex_ray_up)).
  eexists; eexists. split; [reflexivity|]. split; [reflexivity|].
  unfold tri_N, ex_tri, ex_ray_down, ex_ray_up. cbn [ta tb tc]. vcbn. lra.
Qed.
Lemma ex_tri_simple_nonvacuous : exists (t : Tri R) (ray : Ray R) (p : V), tri_simple_intersect t ray = Some p.
Proof.
  (* the nudge dt of the identity transform is not computed: the triangle is placed one unit ahead of the nudged origin *)
  destruct (id_ray_world ex_ray_down) as (dt & P & D & Pr).
  exists (mkTri (mkV3 0 0 (- dt)) (mkV3 1 0 (- dt)) (mkV3 0 1 (- dt)) (mkV3 0 0 1) (1 / 2)), ex_ray_down.
  unfold tri_simple_intersect. destruct (tr_inv_ray tr_new ex_ray_down) as [[r' oe] de]. cbn [fst] in *. cbn [ta tb tc].
  pose proof ctiny_small. pose proof ctiny_pos.
  rewrite (intersect_triangle_complete r' _ _ _ 1 (1/4) (1/4)); try lra; [eexists; reflexivity | |].
  - unfold tri_det. rewrite D. unfold ex_ray_down. vcbn. lra.
  - rewrite Pr. unfold tri_point, ex_ray_down. apply v3_eq; vcbn; field.
Qed.

Definition ex_disk : Disk R := mkDisk (mkV3 0 0 0) (mkV3 0 0 1) 1 0 (mkV3 1 0 0) (2 * PI) None.
Lemma ex_disk_wf : disk_wf ex_disk.
Proof. constructor; unfold ex_disk; cbn [dk_normal dk_phi_zero dk_inner dk_radius]; vcbn; lra. Qed.
Lemma ex_disk_on (p : V) : vz p = 0 -> vx p * vx p + vy p * vy p <= 1 -> on_disk ex_disk p.
Proof.
  intros Hz Hr. destruct p as [px py pz]. cbn [vx vy vz] in *. subst pz. unfold on_disk, ex_disk. cbn [dk_normal dk_centre dk_inner dk_radius dk_phi_max].
  split; [vring|]. split; [vcbn; nra|].
  rewrite disk_phi_eq. destruct (polar_phi_spec (vdot (vsub (mkV3 px py 0) (dk_centre ex_disk)) (dk_phi_zero ex_disk)) (vdot (vsub (mkV3 px py 0) (dk_centre ex_disk)) (disk_e2 ex_disk))) as (_ & _ & B).
  cbv zeta in B. fold ex_disk. lra.
Qed.
Lemma ex_disk_den (ray : Ray R) : vz (rdir ray) = -1 -> neps <= Rabs (vdot (dk_normal ex_disk) (rdir ray)).
Proof.
  intros H. unfold ex_disk. cbn [dk_normal]. destruct ray as [o [dx dy dz]]. cbn [rdir vz] in *. subst dz. vcbn.
  replace (0 * dx + 0 * dy + 1 * -1) with (- (1)) by ring. rewrite Rabs_Ropp, Rabs_R1. pose proof neps_small. lra.
Qed.
Lemma ex_disk_hit_down : disk_basic_intersection ex_disk ex_ray_down = Some (ray_project ex_ray_down 1, disk_phi ex_disk (ray_project ex_ray_down 1)).
Proof.
  apply disk_basic_complete; [apply ex_disk_wf | apply ex_disk_den; reflexivity | lra |].
  apply ex_disk_on; unfold ex_ray_down; vcbn; lra.
Qed.
Lemma ex_disk_nonvacuous : disk_wf ex_disk /\ exists p phi, disk_basic_intersection ex_disk ex_ray_down = Some (p, phi).
Proof. split; [apply ex_disk_wf|]. eexists; eexists. apply ex_disk_hit_down. Qed.
Lemma ex_disk_two_sided : exists i1 i2, disk_intersect_local_ray ex_disk ex_ray_down = Some i1 /\ disk_intersect_local_ray ex_disk ex_ray_up = Some i2 /\
  vdot (dk_normal ex_disk) (rdir ex_ray_down) < 0 /\ 0 < vdot (dk_normal ex_disk) (rdir ex_ray_up).
Proof.
  assert (H2 : disk_basic_intersection ex_disk ex_ray_up = Some (ray_project ex_ray_up (2/3), disk_phi ex_disk (ray_project ex_ray_up (2/3)))).
  { apply disk_basic_complete; [apply ex_disk_wf | | lra | apply ex_disk_on; unfold ex_ray_up; vcbn; lra].
    unfold ex_disk, ex_ray_up. cbn [dk_normal]. vcbn. replace (0 * 0 + 0 * 0 + 1 * 3) with 3 by ring. rewrite Rabs_right by lra. pose proof neps_small. lra. }
  unfold disk_intersect_local_ray. rewrite ex_disk_hit_down, H2. unfold disk_intersection_info.
  destruct (get_side _ (rdir ex_ray_down)). destruct (get_side _ (rdir ex_ray_up)).
  eexists; eexists. split; [reflexivity|]. split; [reflexivity|]. unfold ex_disk, ex_ray_down, ex_ray_up. cbn [dk_normal]. vcbn. lra.
Qed.

(** a translated disk: the local ray is not computed; the disk is centred one unit ahead of its (nudged) origin *)
Lemma ex_disk_tr_nonvacuous : exists (d : Disk R) (t : T) (ray : Ray R) (pw : V),
  disk_wf d /\ dk_transform d = Some t /\ Inv t /\ rigid t /\ disk_simple_intersect d ray = Some pw /\ exists i, disk_intersect d ray = Some i.
Proof.
  set (t := tr_translate 1 2 3). assert (Hi : Inv t) by apply Inv_translate.
  destruct (inv_ray_world t ex_ray_down Hi) as (dt & P & D & Pr).
  set (r' := fst (fst (tr_inv_ray t ex_ray_down))) in *.
  assert (Hd : rdir r' = mkV3 0 0 (-1)) by (rewrite D; subst t; unfold ex_ray_down; cbn [rdir]; apply v3_eq; unf; ring).
  set (d := mkDisk (ray_project r' 1) (mkV3 0 0 1) 1 0 (mkV3 1 0 0) (2 * PI) (Some t)).
  assert (W : disk_wf d) by (constructor; unfold d; cbn [dk_normal dk_phi_zero dk_inner dk_radius]; vcbn; lra).
  assert (Hden : neps <= Rabs (vdot (dk_normal d) (rdir r'))).
  { rewrite Hd. unfold d. cbn [dk_normal]. vcbn. replace (0 * 0 + 0 * 0 + 1 * -1) with (- (1)) by ring. rewrite Rabs_Ropp, Rabs_R1. pose proof neps_small. lra. }
  assert (Hon : on_disk d (ray_project r' 1)).
  { unfold on_disk, d. cbn [dk_normal dk_centre dk_inner dk_radius dk_phi_max]. rewrite disk_phi_eq. cbn [dk_centre dk_phi_zero].
    assert (Z : vsub (ray_project r' 1) (ray_project r' 1) = mkV3 0 0 0) by (generalize (ray_project r' 1); intros q; vring).
    rewrite Z. split; [vring|]. split; [vcbn; lra|].
    replace (vdot (mkV3 0 0 0) (mkV3 1 0 0)) with 0 by vring.
    replace (vdot (mkV3 0 0 0) (disk_e2 _)) with 0 by vring.
    rewrite polar_phi_origin. pose proof PI_RGT_0. lra. }
  exists d, t, ex_ray_down, (tr_pt t (ray_project r' 1)).
  split; [assumption|]. split; [reflexivity|]. split; [assumption|]. split; [apply rigid_translate|].
  split; [apply (disk_simple_intersect_complete d t ex_ray_down 1 W eq_refl Hi Hden ltac:(lra) Hon)|].
  unfold disk_intersect. cbn [dk_transform d]. fold r'. unfold disk_intersect_local_ray.
  rewrite (disk_basic_complete d r' 1 W Hden ltac:(lra) Hon). unfold disk_intersection_info. destruct (get_side _ _). eexists; reflexivity.
Qed.

(** the distant source: the sun straight ahead *)
Definition ex_sun : Distant R := mkDistant (mkV3 0 0 1) 1 1 (1 / 2) 1.
Lemma ex_sun_hit : vlen2 (ds_direction ex_sun) = 1 /\ 0 < ds_cos_half_alpha ex_sun /\ 0 < ds_tan_half_alpha ex_sun /\
  exists i, distant_intersect ex_sun ex_ray_up = Ok (Some i).
Proof.
  unfold ex_sun. cbn [ds_direction ds_cos_half_alpha ds_tan_half_alpha]. split; [vring|]. split; [lra|]. split; [lra|].
  unfold distant_intersect, distant_intersect_local_ray.
  assert (Hc : distant_simple_intersect_local_ray ex_sun ex_ray_up = Some (ray_project ex_ray_up nmaxf)).
  { apply distant_simple_local_iff. split; [|reflexivity]. rewrite vnormalize_dot. unfold ex_sun, ex_ray_up. cbn [ds_direction ds_cos_half_alpha rdir].
    unfold vlen. vcbn. replace (0 * 0 + 0 * 0 + 3 * 3) with (3 * 3) by ring. rewrite sqrt_square by lra. lra. }
  fold ex_sun. rewrite Hc.
  assert (Hu : vlen2 (ds_direction ex_sun) = 1) by (unfold ex_sun; cbn [ds_direction]; vring).
  assert (Hr : 0 < nofZ 10 * ds_tan_half_alpha ex_sun) by (unfold ex_sun; cbn [ds_tan_half_alpha]; rnumg; lra).
  destruct (distant_proxy_ok ex_sun (nofZ 10) Hu Hr) as (dk & Edk & _). rewrite Edk. cbn [rbind].
  unfold disk_intersection_info. destruct (get_side _ _). eexists; reflexivity.
Qed.
Lemma ex_get_side : get_side (mkV3 0 0 1) (mkV3 0 0 (-1)) = (mkV3 0 0 1, Front) /\ get_side (mkV3 0 0 1) (mkV3 0 0 3) = (mkV3 0 0 (-1), Back).
Proof.
  split; [rewrite get_side_front by (vcbn; lra); reflexivity|]. rewrite get_side_back by (vcbn; lra). f_equal. vring.
Qed.
Lemma ex_info_new : vlen2 (vcross (mkV3 0 1 0) (mkV3 1 0 0)) <> 0 /\ vdot (vcross (mkV3 0 1 0) (mkV3 1 0 0)) (rdir ex_ray_down) <> 0.
Proof. unfold ex_ray_down. vcbn. split; lra. Qed.
Lemma ex_plane : exists t, plane_intersect (plane_new (mkV3 0 0 0) (mkV3 0 0 2)) ex_ray_down = Some t.
Proof.
  exists 1. assert (Hn : vlen2 (mkV3 0 0 2) <> 0) by (vcbn; lra).
  destruct (plane_new_spec (mkV3 0 0 0) (mkV3 0 0 2) Hn) as (_ & Hpl). cbv zeta in Hpl.
  apply plane_intersect_complete; [| apply Hpl; unfold ex_ray_down; vring | lra].
  unfold plane_den, plane_new. cbn [pl_normal]. rewrite vnormalize_dot. unfold ex_ray_down, vlen. vcbn.
  replace (0 * 0 + 0 * 0 + 2 * 2) with (2 * 2) by ring. rewrite sqrt_square by lra.
  replace ((0 * 0 + 0 * 0 + 2 * -1) / 2) with (- (1)) by field. rewrite Rabs_Ropp, Rabs_R1. pose proof neps_small. lra.
Qed.
