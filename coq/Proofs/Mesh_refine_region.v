(** * Mesh_refine_region (C08): [refine] (and [mesh_polygon]) preserve the region, over the reals.
    From a mesh with WF, CNT, GEO, planar and positively oriented ([INV]), if [refine] returns Ok and every step of its trace
    (Proofs/Mesh_refine_trace.v) meets the side conditions [side] on the mesh it is applied to -- each inserted point separated
    from the then-current vertices; every add_point located Inside (strictly, in the plane coordinates) or EXACTLY on the located
    edge; inserted points in the plane -- then area, coverage, positive orientation and the invariants are those of the start.
    The midpoint at which an edge is split needs only the separation: it is exactly on the edge and in the plane.
    A swallowed Err of add_point left the mesh unchanged (split_*_struct, Proofs/Mesh_atomic.v). *)
From Coq Require Import ZArith Bool List Arith Lia Permutation Reals Lra.
From G3 Require Import Model.Num Model.Base Model.Vec Model.Segment Model.Triangle Model.Loop Model.Polygon Model.Triangulation
  Theory.RInst Theory.Cyclic Theory.Winding
  Proofs.Mesh_base Proofs.Mesh_wf Proofs.Mesh_sites Proofs.Mesh_conf Proofs.Mesh_region Proofs.Mesh_atomic
  Proofs.Mesh_links Proofs.Mesh_links_steps Proofs.Mesh_links_region Proofs.Mesh_refine_trace.
From G3 Require Proofs.C05_pointtest.
Import ListNotations.

Section RefineRegion.
  Local Open Scope R_scope.
  Notation VR := (V3 R).
  Variables o e1 e2 : V3 R.
  Notation pr := (C05_pointtest.plane2 o e1 e2).
  Hypothesis E11 : vdot e1 e1 = 1.
  Hypothesis E22 : vdot e2 e2 = 1.
  Hypothesis E12 : vdot e1 e2 = 0.

  Definition INV (M : Mesh R) : Prop := WF M /\ CNT M /\ POS o e1 e2 M.
  (** what is asked of each step of the trace, on the mesh it is applied to; [Gn p]: the ray avoids the inserted point *)
  Definition side (Gn : VR -> Prop) (M : Mesh R) (op : mop R) : Prop :=
    match op with
    | OSplitEdge _ _ p => SEPp M p /\ Gn p
    | ORestore _ => True
    | OAddPoint p => SEPp M p /\ in_plane o e1 e2 p /\ add_point_hyp between M p /\
                     (forall i, find_container (tris M) 0 p = Some (i, Inside) -> inside_hyp o e1 e2 M i p) /\ Gn p
    | OSplitTriangle i p => SEPp M p /\ in_plane o e1 e2 p /\ inside_hyp o e1 e2 M i p
    | _ => False
    end.

  Lemma INV_LNK M : INV M -> LNK M.
  Proof. intros (_ & _ & (HL & _) & _). apply LNKG_LNK. exact HL. Qed.
  Lemma emb_mid (u1 v1 u2 v2 : R) : vscale (vadd (emb o e1 e2 u1 v1) (emb o e1 e2 u2 v2)) nhalf = emb o e1 e2 ((u1 + u2) / 2) ((v1 + v2) / 2).
  Proof. unfold emb, vscale, vadd, nhalf. apply v3_eq; cbn [vx vy vz]; rnum; field. Qed.
  Lemma midpoint_in_plane (M : Mesh R) (i : nat) (t : TriPiece R) (s_i : N) (s : Seg R) :
    InPlane o e1 e2 M -> nth_error (tris M) i = Some t -> tp_valid t = true -> longest_edge (tp_tri t) = Ok (s_i, s) -> in_plane o e1 e2 (seg_midpoint s).
  Proof.
    intros HI Et Ev H. assert (Lt : lvM M i (tp_tri t)) by (apply slot_lvT; assumption). destruct (mesh_vert_tri _ _ _ Lt) as (Pa & Pb & Pc).
    apply HI in Pa. apply HI in Pb. apply HI in Pc. destruct Pa as (ua & va & Ea). destruct Pb as (ub & vb & Eb). destruct Pc as (uc & vc & Ec).
    unfold longest_edge in H. cbn [tri_segment rbind] in H.
    destruct (nltb (slength (tri_ab (tp_tri t))) (slength (tri_bc (tp_tri t)))); destruct (nltb _ (slength (tri_ca (tp_tri t)))); inversion H; subst;
      unfold seg_midpoint, tri_ab, tri_bc, tri_ca, seg_new; cbn [sstart send]; rewrite ?Ea, ?Eb, ?Ec, emb_mid; eexists; eexists; reflexivity.
  Qed.

  (** the first projection of the replayed steps *)
  Lemma step_se_fst (i : nat) (e : N) (ed : Edge) (p : VR) (M M1 : Mesh R) (u : unit) :
    edge_from_i e = Ok ed -> split_edge i ed p M = (M1, Ok u) -> fst (mesh_step (OSplitEdge i e p) M) = M1.
  Proof. intros E H. cbn [mesh_step]. unfold mbind, mlift. rewrite E, H. reflexivity. Qed.
  Lemma step_rd_fst (m : R) (M M1 : Mesh R) (u : unit) : restore_delaunay m M = (M1, Ok u) -> fst (mesh_step (ORestore m) M) = M1.
  Proof. intros H. cbn [mesh_step]. unfold mbind. rewrite H. reflexivity. Qed.
  Lemma step_ap_fst (p : VR) (M M1 : Mesh R) (b : bool) : add_point p M = (M1, Ok b) -> fst (mesh_step (OAddPoint p) M) = M1.
  Proof. intros H. cbn [mesh_step]. unfold mbind. rewrite H. reflexivity. Qed.
  Lemma step_st_fst (i : nat) (p : VR) (M M1 : Mesh R) (u : unit) : split_triangle i p M = (M1, Ok u) -> fst (mesh_step (OSplitTriangle i p) M) = M1.
  Proof. intros H. cbn [mesh_step]. unfold mbind. rewrite H. reflexivity. Qed.

  Section Measure.
    (** a quantity that the elementary steps keep *)
    Context {X : Type}.
    Variable phi : Mesh R -> X.
    Variable Gn : VR -> Prop.
    Hypothesis Hse : forall M i ed p M', GEO M -> SEPp M p -> edge_hyp between M i ed p -> Gn p -> split_edge i ed p M = (M', Ok tt) -> phi M' = phi M.
    Hypothesis Hst : forall M i p M', split_triangle i p M = (M', Ok tt) -> phi M' = phi M.
    Hypothesis Hrd : forall M m M', GEO M -> restore_delaunay m M = (M', Ok tt) -> phi M' = phi M.
    Hypothesis Hap : forall M p M' b, GEO M -> add_point_hyp between M p -> Gn p -> add_point p M = (M', Ok b) -> phi M' = phi M.

    Lemma L_se (M M1 : Mesh R) (i : nat) (t : TriPiece R) (s_i : N) (s : Seg R) (ed : Edge) :
      INV M -> nth_error (tris M) i = Some t -> tp_valid t = true -> longest_edge (tp_tri t) = Ok (s_i, s) -> edge_from_i s_i = Ok ed ->
      SEPp M (seg_midpoint s) -> Gn (seg_midpoint s) -> split_edge i ed (seg_midpoint s) M = (M1, Ok tt) -> INV M1 /\ phi M1 = phi M.
    Proof.
      intros (W & C & HP) Et Ev Hl He S1 S2 H. pose proof HP as (HG & HI & HA).
      assert (Hb : edge_hyp between M i ed (seg_midpoint s)).
      { intros t' Et' _. rewrite Et in Et'. inversion Et'; subst t'. eapply refine_midpoint_between; eassumption. }
      split; [|eapply Hse; eassumption].
      split; [exact (proj2 (wf_split_edge _ _ _ _ _ _ H) W)|]. split.
      - destruct (split_edge_struct _ _ _ _ _ _ W C (LNKG_LNK _ (proj1 HG)) H) as [(_ & _ & Q & _) | [Q | Q]]; [exact Q | subst; exact C | discriminate].
      - eapply (split_edge_POS o e1 e2); try eassumption. eapply midpoint_in_plane; eassumption.
    Qed.
    Lemma L_rd (M M1 : Mesh R) (m : R) : INV M -> restore_delaunay m M = (M1, Ok tt) -> INV M1 /\ phi M1 = phi M.
    Proof.
      intros (W & C & HP) H. destruct (cnt_restore _ _ _ _ W C H) as (C1 & W1 & _). split; [|eapply Hrd; [exact (proj1 HP) | exact H]].
      split; [exact W1 | split; [exact C1 | eapply (restore_POS o e1 e2); eassumption]].
    Qed.
    Lemma L_st (M M1 : Mesh R) (i : nat) (p : VR) : INV M -> side Gn M (OSplitTriangle i p) -> split_triangle i p M = (M1, Ok tt) -> INV M1 /\ phi M1 = phi M.
    Proof.
      intros (W & C & HP) (S1 & S2 & S3) H. split; [|eapply Hst; exact H].
      split; [exact (proj2 (wf_split_triangle _ _ _ _ _ H) W)|]. split; [exact (proj1 (cnt_split_triangle _ _ _ _ _ C H))|].
      eapply (split_triangle_POS o e1 e2); eassumption.
    Qed.
    Lemma L_ap (M M1 : Mesh R) (p : VR) (b : bool) : INV M -> side Gn M (OAddPoint p) -> add_point p M = (M1, Ok b) -> INV M1 /\ phi M1 = phi M.
    Proof.
      intros HV (S1 & S2 & S3 & S4 & S5) H. pose proof HV as (W & C & HP). pose proof HP as (HG & _).
      split; [|eapply Hap; eassumption].
      destruct (add_point_ok_struct _ _ _ _ W C (INV_LNK _ HV) H) as [W1 C1]. split; [exact W1 | split; [exact C1|]].
      apply (step_POS o e1 e2 E11 E22 E12 (OAddPoint p) M M1 (Some b) HP); [exact (conj S1 (conj S2 (conj S3 S4)))|].
      cbn [mesh_step]. unfold mbind. rewrite H. reflexivity.
    Qed.

    Lemma refine_pass_region (a m : R) : forall cnt i l any M M' b rest,
      INV M -> l = skipn i (tris M) -> refine_pass a m cnt i l any M = (M', Ok b) ->
      tr_ok (side Gn) M (refine_pass_trace a m cnt i l M ++ rest) -> INV M' /\ phi M' = phi M /\ tr_ok (side Gn) M' rest.
    Proof.
      induction cnt as [|cnt IH]; intros i l any M M' b rest HV Hl H Htr; cbn [refine_pass refine_pass_trace] in H, Htr.
      - inversion H; subst. split; [exact HV | split; [reflexivity | exact Htr]].
      - destruct l as [|t l']; [discriminate|]. symmetry in Hl. destruct (skipn_cons _ _ _ _ Hl) as [Et Hl'].
        destruct (tp_valid t) eqn:Ev; cbn [negb] in H, Htr; [|discriminate].
        destruct (nltb (tarea (tp_tri t)) c1em3); [eapply IH; eassumption|].
        destruct (nltb m (tp_ar t)).
        { apply bind_lift_ok in H. destruct H as ([s_i s] & Els & H). apply bind_lift_ok in H. destruct H as (ed & Eed & H).
          apply mbind_ok in H. destruct H as ([] & M1 & H1 & H). apply mbind_ok in H. destruct H as ([] & M2 & H2 & H).
          rewrite Els, Eed, H1, H2 in Htr. cbn [app tr_ok] in Htr. destruct Htr as ((S1 & S2) & _ & Htr).
          rewrite (step_se_fst _ _ _ _ _ _ _ Eed H1), (step_rd_fst _ _ _ _ H2) in Htr.
          destruct (L_se M M1 i t s_i s ed HV Et Ev Els Eed S1 S2 H1) as [HV1 P1]. destruct (L_rd M1 M2 m HV1 H2) as [HV2 P2].
          destruct (IH _ _ _ _ _ _ _ HV2 eq_refl H Htr) as (A & B & D). split; [exact A | split; [congruence | exact D]]. }
        destruct (nltb a (tarea (tp_tri t))); [|eapply IH; eassumption].
        destruct (add_point (tp_cc t) M) as [M1 [did | c | s]] eqn:Eadd; [| |discriminate].
        + cbn [app tr_ok] in Htr. destruct Htr as (Sd & Htr). rewrite (step_ap_fst _ _ _ _ Eadd) in Htr.
          destruct (L_ap M M1 _ did HV Sd Eadd) as [HV1 P1]. destruct did.
          * apply mbind_ok in H. destruct H as ([] & M2 & H2 & H). rewrite H2 in Htr. cbn [app tr_ok] in Htr. destruct Htr as (_ & Htr).
            rewrite (step_rd_fst _ _ _ _ H2) in Htr. destruct (L_rd M1 M2 m HV1 H2) as [HV2 P2].
            destruct (IH _ _ _ _ _ _ _ HV2 eq_refl H Htr) as (A & B & D). split; [exact A | split; [congruence | exact D]].
          * destruct (IH _ _ _ _ _ _ _ HV1 eq_refl H Htr) as (A & B & D). split; [exact A | split; [congruence | exact D]].
        + pose proof HV as (W & C & _). assert (M1 = M) by (eapply add_point_err_struct; [exact W | exact C | apply INV_LNK; exact HV | exact Eadd]). subst M1.
          cbn [app tr_ok] in Htr. rewrite Eadd in Htr. cbn [fst] in Htr.
          apply bind_get_ok in H. destruct H as (t' & Et' & H). rewrite Et' in Htr.
          apply mbind_ok in H. destruct H as (did & M2 & H2 & H). rewrite H2 in Htr.
          destruct (aptt_inside_ok _ _ _ _ _ H2) as [Hst' ->]. cbn [app tr_ok] in Htr. destruct Htr as (Sd & Htr). rewrite (step_st_fst _ _ _ _ _ Hst') in Htr.
          destruct (L_st M M2 i _ HV Sd Hst') as [HV2 P2].
          apply mbind_ok in H. destruct H as ([] & M3 & H3 & H). rewrite H3 in Htr. cbn [app tr_ok] in Htr. destruct Htr as (_ & Htr).
          rewrite (step_rd_fst _ _ _ _ H3) in Htr. destruct (L_rd M2 M3 m HV2 H3) as [HV3 P3].
          destruct (IH _ _ _ _ _ _ _ HV3 eq_refl H Htr) as (A & B & D). split; [exact A | split; [congruence | exact D]].
    Qed.
    Theorem refine_region (a m : R) : forall fuel M M' r, INV M -> refine fuel a m M = (M', Ok r) ->
      tr_ok (side Gn) M (refine_trace fuel a m M) -> INV M' /\ phi M' = phi M.
    Proof.
      induction fuel as [|f IH]; intros M M' r HV H Htr; cbn [refine refine_trace] in H, Htr.
      - inversion H; subst. split; [exact HV | reflexivity].
      - apply mbind_ok in H. destruct H as (any & M1 & H1 & H). rewrite H1 in Htr.
        destruct (refine_pass_region a m _ _ _ _ _ _ _ _ HV eq_refl H1 Htr) as (HV1 & P1 & Htr1).
        destruct any; [|inversion H; subst; split; assumption].
        destruct (IH _ _ _ HV1 H Htr1) as [A B]. split; [exact A | congruence].
    Qed.
  End Measure.

  (** ** the three instances *)
  Notation area2 := (mesh_area2 o e1 e2).
  Notation coverM := (mesh_cover o e1 e2).
  Theorem refine_area (fuel : nat) (a m : R) (M M' : Mesh R) (r : rres) :
    INV M -> refine fuel a m M = (M', Ok r) -> tr_ok (side (fun _ => True)) M (refine_trace fuel a m M) -> area2 M' = area2 M.
  Proof.
    intros HV H Htr. apply (refine_region area2 (fun _ => True)) with (a := a) (m := m) (fuel := fuel) (r := r); try assumption.
    - intros M0 i ed p M1 HG S1 Hb _ H1. apply (proj2 (region_split_edge_geo_area o e1 e2 _ _ _ _ _ HG S1 (fun t Et Ev => between_on_line _ _ _ (Hb t Et Ev)) H1)).
    - intros M0 i p M1 H1. apply (region_split_triangle o e1 e2 _ _ _ _ H1).
    - intros M0 m0 M1 HG H1. apply (proj1 (proj2 (region_restore_geo o e1 e2 _ _ _ HG H1))).
    - intros M0 p M1 b HG Hh _ H1. eapply region_add_point_area; [|exact H1].
      apply add_point_ok_geo; [exact on_line_sym | exact HG|]. intros i loc E. specialize (Hh i loc E). destruct loc; try exact I; intros t Et Ev; apply between_on_line; apply Hh; assumption.
  Qed.
  Theorem refine_cover (d q : P2) (fuel : nat) (a m : R) (M M' : Mesh R) (r : rres) :
    INV M -> refine fuel a m M = (M', Ok r) -> tr_ok (side (fun p => hgt d q (pr p) <> 0)) M (refine_trace fuel a m M) -> coverM d M' q = coverM d M q.
  Proof.
    intros HV H Htr. apply (refine_region (fun M => coverM d M q) (fun p => hgt d q (pr p) <> 0)) with (a := a) (m := m) (fuel := fuel) (r := r); try assumption.
    - intros M0 i ed p M1 HG S1 Hb Hg H1. apply (region_split_edge_geo_cover o e1 e2 _ _ _ _ _ d q HG Hb Hg H1).
    - intros M0 i p M1 H1. apply (region_split_triangle o e1 e2 _ _ _ _ H1).
    - intros M0 m0 M1 HG H1. apply (proj2 (proj2 (region_restore_geo o e1 e2 _ _ _ HG H1))).
    - intros M0 p M1 b HG Hh Hg H1. eapply region_add_point_cover; [apply add_point_ok_geo; [exact between_sym | exact HG | exact Hh] | exact Hg | exact H1].
  Qed.
  Theorem refine_INV (fuel : nat) (a m : R) (M M' : Mesh R) (r : rres) :
    INV M -> refine fuel a m M = (M', Ok r) -> tr_ok (side (fun _ => True)) M (refine_trace fuel a m M) -> INV M'.
  Proof.
    intros HV H Htr. apply (proj1 (refine_region (fun _ : Mesh R => tt) (fun _ => True) (fun _ _ _ _ _ _ _ _ _ _ => eq_refl) (fun _ _ _ _ _ => eq_refl)
      (fun _ _ _ _ _ => eq_refl) (fun _ _ _ _ _ _ _ _ => eq_refl) a m fuel M M' r HV H Htr)).
  Qed.
  (** mesh_polygon = from_polygon then refine *)
  Corollary mesh_polygon_region (fuel : nat) (P : Poly R) (a m : R) (M0 M' : Mesh R) (r : rres) :
    from_polygon P = Ok M0 -> INV M0 -> mesh_polygon fuel P a m = Ok (M', r) -> tr_ok (side (fun _ => True)) M0 (refine_trace fuel a m M0) ->
    INV M' /\ area2 M' = area2 M0.
  Proof.
    intros H0 HV H Htr. apply mesh_polygon_inv in H. destruct H as (M1 & E0 & E). rewrite H0 in E0. inversion E0; subst M1.
    split; [eapply refine_INV; eassumption | eapply refine_area; eassumption].
  Qed.
End RefineRegion.
