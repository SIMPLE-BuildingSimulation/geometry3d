(** * C10 proofs: redundant collinear points IN GENERAL through the pipeline push* / close (live code,
    after fix 1ef6368: [push] drops every trailing vertex the new point makes redundant, [close] drops redundant
    vertices repeatedly at both ends of the seam).

    An outline l all of whose corners are genuine is ENRICHED by inserting finitely many points exactly on its open
    edges (any number per edge, the first and the closing edge included) and the enriched cycle may be entered anywhere
    (at a vertex of l or at an inserted point).  If every push and the close are accepted, the stored vertex list of the
    enriched input is a cyclic shift of l -- hence the same perimeter, vertex mean, Newell vector ... (the measures).

    Mechanism: while the points of the edge a -> b are pushed the stored list is
        (start point) :: (vertices of l passed so far) ++ (at most ONE pending point of the current edge);
    a point of the same edge replaces the pending one (cross product exactly 0 < 1e-5), the corner at a is tested against
    every point pushed on a -> b (hypothesis: it stays genuine), and the two seam loops of [close] remove a pending point of
    the closing edge and a start point that is not a vertex of l. *)
From Coq Require Import ZArith Reals Lra Lia Bool List Arith Psatz Sorted.
From G3 Require Import Model.Num Model.Base Model.Vec Model.Segment Model.Loop Theory.RInst Theory.LoopGeom
  Proofs.C04_loop Proofs.C04_reach Proofs.C04_reach_live Proofs.C10_measures Proofs.C10_pipeline Proofs.C10_planar.
Import ListNotations.
Local Open Scope R_scope.

(** ** the vertex-list effect of a sequence of accepted pushes *)
Fixpoint pushv_list (vs : list V) (pts : list V) : res (list V) :=
  match pts with [] => Ok vs | p :: tl => do vs' <- push_verts vs p; pushv_list vs' tl end.

Lemma push_list_verts (pts : list V) : forall (L L' : Loop R),
  push_list L pts = Ok L' -> pushv_list (verts L) pts = Ok (verts L').
Proof.
  induction pts as [|p pts IH]; intros L L' H; cbn [push_list pushv_list] in *.
  - injection H as H. subst. reflexivity.
  - destruct (loop_push L p) as [L1| |] eqn:E; cbn [rbind] in H; try discriminate.
    apply push_ok_verts in E. rewrite E. cbn [rbind]. apply IH. exact H.
Qed.

Lemma pushv_list_app (l1 l2 : list V) : forall (vs vs1 : list V),
  pushv_list vs l1 = Ok vs1 -> pushv_list vs (l1 ++ l2) = pushv_list vs1 l2.
Proof.
  induction l1 as [|p l1 IH]; intros vs vs1 H; cbn [pushv_list app] in *.
  - injection H as H. subst. reflexivity.
  - destruct (push_verts vs p) as [v| |]; cbn [rbind] in *; try discriminate. apply IH. exact H.
Qed.

(** ** points of a line *)
Definition pt_on (a b : V) (s : R) : V := vadd a (vscale (vsub b a) s).
Definition on_line (a b p : V) : Prop := exists s : R, p = pt_on a b s.

Lemma on_line_start (a b : V) : on_line a b a.
Proof. exists 0. unfold pt_on. vring. Qed.
Lemma on_line_end (a b : V) : on_line a b b.
Proof. exists 1. unfold pt_on. vring. Qed.
Lemma on_line_cross3 (a b o q p : V) : on_line a b o -> on_line a b q -> on_line a b p ->
  vcross (vsub q o) (vsub p q) = vzero.
Proof. intros [r ->] [s ->] [t ->]. unfold pt_on. vring. Qed.

Lemma is_collinear_on_line3 (a b o q p : V) : on_line a b o -> on_line a b q -> on_line a b p ->
  vcompare o q && vcompare o p = false -> is_collinear o q p = Ok true.
Proof. intros Ho Hq Hp Hd. apply is_collinear_cross0; [exact (on_line_cross3 a b o q p Ho Hq Hp) | exact Hd]. Qed.

(** ** the pending point *)
Fixpoint lastl (pend : list V) (ms : list V) : list V := match ms with [] => pend | p :: r => lastl [p] r end.
Lemma lastl_snoc (ms : list V) : forall (pend : list V) (b : V), lastl pend (ms ++ [b]) = [b].
Proof. induction ms as [|m ms IH]; intros pend b; cbn [app lastl]; [reflexivity | apply IH]. Qed.

(** a pending point q of the edge a -> b: on the line, and distinguishable from a *)
Definition pend_ok (a b : V) (pend : list V) : Prop :=
  pend = [] \/ exists q, pend = [q] /\ on_line a b q /\ vcompare a q = false.

(** pushing points of the line a -> b on a list that ends with x, a and (possibly) a pending point of that line:
    each point replaces the pending one, as long as the corner (x, a, .) stays genuine *)
Lemma push_edge_points (b : V) (ms : list V) : forall (st : list V) (x a : V) (pend : list V),
  pend_ok a b pend ->
  Forall (on_line a b) ms -> Forall (fun p => is_collinear x a p = Ok false) ms ->
  pushv_list (st ++ [x; a] ++ pend) ms = Ok (st ++ [x; a] ++ lastl pend ms) /\ pend_ok a b (lastl pend ms).
Proof.
  induction ms as [|p ms IH]; intros st x a pend Hp Hl Hg; cbn [pushv_list lastl]; [split; [reflexivity | exact Hp]|].
  inversion Hl as [|? ? Hl1 Hl2]; subst. inversion Hg as [|? ? Hg1 Hg2]; subst.
  destruct (is_collinear_false_distinct _ _ _ Hg1) as (_ & Dxp & Dap).
  assert (Hp' : pend_ok a b [p]) by (right; exists p; split; [reflexivity | split; [exact Hl1 | exact Dap]]).
  assert (E : push_verts (st ++ [x; a] ++ pend) p = Ok (st ++ [x; a] ++ [p])).
  { destruct Hp as [->|(q & -> & Hq & Dq)]; cbn [app].
    - apply push_verts_last2; assumption.
    - apply push_verts_last3; [exact Dap | | exact Hg1].
      apply (is_collinear_on_line3 a b); [apply on_line_start | exact Hq | exact Hl1 | rewrite Dq; reflexivity]. }
  rewrite E. cbn [rbind]. apply IH; assumption.
Qed.

(** the first edge: the start point p0 and the following points of its line, up to the next vertex *)
Lemma push_start_points (a b p0 : V) (qs : list V) : forall q : V,
  on_line a b p0 -> on_line a b q -> Forall (on_line a b) qs -> Forall (fun q' => vcompare p0 q' = false) qs ->
  pushv_list [p0; q] qs = Ok (p0 :: lastl [q] qs).
Proof.
  induction qs as [|q' qs IH]; intros q H0 Hq Hl Hd; cbn [pushv_list lastl]; [reflexivity|].
  inversion Hl as [|? ? Hl1 Hl2]; subst. inversion Hd as [|? ? Hd1 Hd2]; subst.
  assert (E : push_verts [p0; q] q' = Ok [p0; q']).
  { unfold push_verts. cbn [length Nat.leb Nat.sub vnth nth]. rewrite Hd1. cbn [push_keep Nat.leb Nat.sub vnth nth].
    rewrite (is_collinear_on_line3 a b p0 q q' H0 Hq Hl1) by (rewrite Hd1; apply andb_false_r).
    cbn [rbind firstn app]. reflexivity. }
  rewrite E. cbn [rbind]. apply IH; assumption.
Qed.
Lemma push_start (a b p0 : V) (ps : list V) :
  on_line a b p0 -> Forall (on_line a b) ps -> Forall (fun q' => vcompare p0 q' = false) ps ->
  pushv_list [] (p0 :: ps) = Ok (p0 :: lastl [] ps).
Proof.
  intros H0 Hl Hd. destruct ps as [|q qs]; [reflexivity|].
  inversion Hl; subst. inversion Hd; subst.
  change (pushv_list [] (p0 :: q :: qs)) with (pushv_list [p0; q] qs). cbn [lastl]. apply (push_start_points a b); assumption.
Qed.

(** ** enriched outlines.  An entry = a vertex of the outline together with the points inserted on the edge that leaves it *)
Notation entry := (V * list V)%type.
Definition base (es : list entry) : list V := map fst es.
Definition flat (es : list entry) : list V := flat_map (fun e => fst e :: snd e) es.
Definition next_vertex (tl : list entry) (bend : V) : V := match tl with [] => bend | e :: _ => fst e end.
Fixpoint last_entry (d : entry) (tl : list entry) : entry := match tl with [] => d | e :: r => last_entry e r end.

(** ms = points EXACTLY on the open edge a -> b, in increasing order of the parameter *)
Definition on_edge (a b : V) (ms : list V) : Prop :=
  exists ss : list R, ms = map (pt_on a b) ss /\ Forall (fun s => 0 < s < 1) ss /\ StronglySorted Rlt ss.
Lemma on_edge_on_line (a b : V) (ms : list V) : on_edge a b ms -> Forall (on_line a b) ms.
Proof. intros (ss & -> & _ & _). induction ss as [|s ss IH]; cbn [map]; constructor; [exists s; reflexivity | exact IH]. Qed.

(** the corner (x, a, b) of the outline stays genuine for the library's test whichever point of the enriched edge
    x -> a (x itself or a point inserted on it) and whichever point of the enriched edge a -> b (an inserted point or b)
    are taken as its neighbours.  Forced: a point m on a -> b with is_collinear x a m = Ok true REPLACES the vertex a. *)
Definition corner_kept (x : V) (xs : list V) (a : V) (ms : list V) (b : V) : Prop :=
  forall p q : V, In p (x :: xs) -> In q (ms ++ [b]) -> is_collinear p a q = Ok false.

(** a chain of entries, entered from the vertex x with inserted points xs, ending at the vertex bend *)
Fixpoint chain_good (x : V) (xs : list V) (es : list entry) (bend : V) : Prop :=
  match es with
  | [] => True
  | e :: tl => on_edge (fst e) (next_vertex tl bend) (snd e) /\ corner_kept x xs (fst e) (snd e) (next_vertex tl bend)
               /\ chain_good (fst e) (snd e) tl bend
  end.
(** cyclically: every edge and every corner of the closed outline  e0 :: es  exactly once *)
Definition cyc_good (e0 : entry) (es : list entry) : Prop :=
  chain_good (fst (last_entry e0 es)) (snd (last_entry e0 es)) (e0 :: es) (fst e0).

Lemma flat_cons (a : V) (ms : list V) (tl : list entry) : flat ((a, ms) :: tl) = a :: ms ++ flat tl.
Proof. reflexivity. Qed.

(** pushing the points of a good chain (the vertex a already stored, after x'): the vertices stay, at most one point of
    the last edge is pending; the last corner (y, z) is reported for the seam *)
Lemma push_chain (bend : V) : forall (tl : list entry) (st : list V) (x : V) (xs : list V) (x' a : V) (ms : list V),
  chain_good x xs ((a, ms) :: tl) bend -> In x' (x :: xs) ->
  exists (G : list V) (y z : V) (zs : list V),
    st ++ x' :: a :: base tl = G ++ [y; z] /\ (z, zs) = last_entry (a, ms) tl /\
    (forall q, In q (zs ++ [bend]) -> is_collinear y z q = Ok false) /\
    pend_ok z bend (lastl [] zs) /\
    pushv_list (st ++ [x'; a]) (ms ++ flat tl) = Ok (G ++ [y; z] ++ lastl [] zs).
Proof.
  induction tl as [|[b mb] tl IH]; intros st x xs x' a ms H Hx'.
  - cbn [chain_good fst snd next_vertex] in H. destruct H as (He & Hc & _).
    exists st, x', a, ms. split; [reflexivity|]. split; [reflexivity|].
    split; [intros q Hq; apply Hc; assumption|].
    cbn [flat flat_map]. rewrite app_nil_r.
    destruct (push_edge_points bend ms st x' a [] (or_introl eq_refl)) as (E & Hp).
    + apply on_edge_on_line, He.
    + apply Forall_forall. intros q Hq. apply Hc; [exact Hx' | apply in_or_app; left; exact Hq].
    + split; [exact Hp | exact E].
  - cbn [chain_good fst snd next_vertex] in H. destruct H as (He & Hc & Hrest).
    destruct (push_edge_points b (ms ++ [b]) st x' a [] (or_introl eq_refl)) as (E & _).
    + apply Forall_app. split; [apply on_edge_on_line, He | constructor; [apply on_line_end | constructor]].
    + apply Forall_forall. intros q Hq. apply Hc; [exact Hx' | exact Hq].
    + rewrite lastl_snoc in E. cbn [app] in E.
      destruct (IH (st ++ [x']) a ms a b mb Hrest (or_introl eq_refl)) as (G & y & z & zs & E1 & E2 & E3 & E4 & E5).
      exists G, y, z, zs. rewrite <- app_assoc in E1, E5. cbn [app] in E1, E5.
      split; [exact E1|]. split; [exact E2|]. split; [exact E3|]. split; [exact E4|].
      rewrite flat_cons. replace (ms ++ b :: mb ++ flat tl) with ((ms ++ [b]) ++ (mb ++ flat tl)) by (rewrite <- app_assoc; reflexivity).
      rewrite (pushv_list_app _ _ _ _ E). exact E5.
Qed.

(** ** the two seam loops of [close] on explicit shapes *)
Lemma vnth_last1 (P : list V) (w : V) : vnth (P ++ [w]) (length (P ++ [w]) - 1) = w.
Proof.
  unfold vnth. rewrite app_length. cbn [length]. replace (length P + 1 - 1)%nat with (length P + 0)%nat by lia.
  rewrite app_nth2_plus. reflexivity.
Qed.
Lemma last_red_shape (P : list V) (u w : V) : P <> [] -> last_is_redundant (P ++ [u; w]) = is_collinear u w (hd vzero P).
Proof.
  intros HP. unfold last_is_redundant. cbv zeta. destruct (vnth_last2 P u w) as [E1 E2]. rewrite E1, E2.
  assert (Hn : Nat.ltb (length (P ++ [u; w])) 3 = false).
  { apply Nat.ltb_ge. rewrite app_length. destruct P; [congruence|]. cbn [length]. lia. }
  rewrite Hn. destruct P; [congruence|]. reflexivity.
Qed.
(** the trailing loop: a pending point of the closing edge goes, the corner before it stays *)
Lemma pop_seam (P : list V) (y z b : V) (pend : list V) (f : nat) : P <> [] ->
  is_collinear y z (hd vzero P) = Ok false ->
  pend_ok z b pend -> on_line z b (hd vzero P) -> (2 <= f)%nat ->
  pop_redundant (P ++ [y; z] ++ pend) f = (P ++ [y; z], Ok tt).
Proof.
  intros HP C1 Hpend Hb Hf. destruct f as [|[|f]]; try lia.
  destruct Hpend as [->|(q & -> & Hq & Dq)]; cbn [app].
  - apply pop_red_false. rewrite last_red_shape by exact HP. exact C1.
  - replace (P ++ [y; z; q]) with ((P ++ [y]) ++ [z; q]) by (rewrite <- app_assoc; reflexivity).
    rewrite pop_red_true.
    2:{ rewrite last_red_shape by (destruct P; discriminate). destruct P; [congruence|].
        apply (is_collinear_on_line3 z b); [apply on_line_start | exact Hq | exact Hb | rewrite Dq; reflexivity]. }
    rewrite removelast_app by discriminate. cbn [removelast]. rewrite <- app_assoc. cbn [app].
    apply pop_red_false. rewrite last_red_shape by exact HP. exact C1.
Qed.

(** ** the stored list before [close]: the outline read from the start point, possibly followed by one pending point of
    the closing edge; (y, z) is the last corner of the outline *)
Lemma corner_third_distinct (p a q : V) : is_collinear p a q = Ok false -> vcompare a q = false.
Proof. intros H. exact (proj2 (proj2 (is_collinear_false_distinct _ _ _ H))). Qed.

Lemma stored_at_vertex (v0 : V) (ms0 : list V) (es : list entry) (L' : Loop R) :
  (2 <= length es)%nat -> cyc_good (v0, ms0) es ->
  push_list loop_new (flat ((v0, ms0) :: es)) = Ok L' ->
  exists (G : list V) (y z : V) (zs : list V),
    v0 :: base es = G ++ [y; z] /\ (z, zs) = last_entry (v0, ms0) es /\
    (forall q, In q (zs ++ [v0]) -> is_collinear y z q = Ok false) /\ pend_ok z v0 (lastl [] zs) /\
    verts L' = (v0 :: base es) ++ lastl [] zs.
Proof.
  intros Hn Hg P. destruct es as [|[v1 ms1] tl]; [cbn in Hn; lia|]. clear Hn.
  unfold cyc_good in Hg. cbn [last_entry fst] in Hg. destruct Hg as (He0 & Hc0 & Hch). cbn [fst snd next_vertex] in He0, Hc0.
  pose proof (on_edge_on_line _ _ _ He0) as Hl0.
  apply push_list_verts in P. cbn [verts loop_new] in P. rewrite !flat_cons in P.
  replace (v0 :: ms0 ++ v1 :: ms1 ++ flat tl) with ((v0 :: ms0 ++ [v1]) ++ (ms1 ++ flat tl)) in P
    by (cbn [app]; rewrite <- app_assoc; reflexivity).
  assert (S0 : pushv_list [] (v0 :: ms0 ++ [v1]) = Ok [v0; v1]).
  { rewrite (push_start v0 v1 v0 (ms0 ++ [v1])); [rewrite lastl_snoc; reflexivity | apply on_line_start | |].
    - apply Forall_app. split; [exact Hl0 | constructor; [apply on_line_end | constructor]].
    - apply Forall_forall. intros q Hq. apply (corner_third_distinct (fst (last_entry (v1, ms1) tl))). apply Hc0; [left; reflexivity | exact Hq]. }
  rewrite (pushv_list_app _ _ _ _ S0) in P.
  destruct (push_chain v0 tl [] v0 ms0 v0 v1 ms1 Hch (or_introl eq_refl)) as (G & y & z & zs & E1 & E2 & E3 & E4 & E5).
  cbn [app] in E1, E5. rewrite E5 in P. injection P as P.
  exists G, y, z, zs. split; [exact E1|]. split; [exact E2|]. split; [exact E3|]. split; [exact E4|].
  rewrite <- P. cbn [base map fst]. fold (base tl). rewrite E1, <- app_assoc. reflexivity.
Qed.

(** ** the enriched outline entered at a vertex of the outline: the trailing loop of [close] removes the pending point *)
Lemma build_enriched_at_vertex (v0 : V) (ms0 : list V) (es : list entry) (L' : Loop R) :
  (2 <= length es)%nat -> cyc_good (v0, ms0) es ->
  push_list loop_new (flat ((v0, ms0) :: es)) = Ok L' -> snd (loop_close L') = Ok tt ->
  verts (fst (loop_close L')) = v0 :: base es.
Proof.
  intros Hn Hg P Cl. destruct (stored_at_vertex v0 ms0 es L' Hn Hg P) as (G & y & z & zs & E1 & E2 & E3 & E4 & Ev).
  destruct es as [|[v1 ms1] tl]; [cbn in Hn; lia|]. cbn [length] in Hn.
  unfold cyc_good in Hg. rewrite <- E2 in Hg. destruct Hg as (_ & Hc0 & _). cbn [fst snd next_vertex] in Hc0.
  cbn [base map fst] in E1, Ev. fold (base tl) in E1, Ev. rewrite E1, <- app_assoc in Ev.
  assert (HG : G <> []).
  { intros ->. apply (f_equal (@length V)) in E1. unfold base in E1. cbn [length app] in E1. rewrite map_length in E1. lia. }
  assert (Hhd : hd vzero G = v0) by (destruct G as [|g G]; [congruence | cbn [app] in E1; injection E1 as E1 _; symmetry; exact E1]).
  destruct (close_ok L' Cl) as (vs1 & vs2 & P1 & P2 & -> & _).
  assert (Q1 : pop_redundant (verts L') (llen L') = (G ++ [y; z], Ok tt)).
  { unfold llen. rewrite Ev. apply (pop_seam G y z v0); rewrite ?Hhd;
      [exact HG | apply E3, in_or_app; right; left; reflexivity | exact E4 | apply on_line_end |].
    rewrite !app_length. cbn [length]. lia. }
  rewrite Q1 in P1. injection P1 as P1. subst vs1. rewrite <- E1 in P2.
  assert (Hz : vnth (v0 :: v1 :: base tl) (length (v0 :: v1 :: base tl) - 1) = z).
  { rewrite E1. replace (G ++ [y; z]) with ((G ++ [y]) ++ [z]) by (rewrite <- app_assoc; reflexivity). apply vnth_last1. }
  change (length (v0 :: v1 :: base tl)) with (S (length (v1 :: base tl))) in P2 at 1.
  rewrite drop_first_false in P2; [injection P2 as P2; symmetry; exact P2|].
  rewrite Hz. cbn [vnth nth]. apply Hc0; [left; reflexivity | apply in_or_app; right; left; reflexivity].
Qed.

(** ** ... and entered at an inserted point p0 of the edge v0 -> v1 (the points [pre] of that edge before p0 come last) *)
Lemma stored_at_inserted (v0 : V) (pre : list V) (p0 : V) (post : list V) (es : list entry) (L' : Loop R) :
  (2 <= length es)%nat -> cyc_good (v0, pre ++ p0 :: post) es -> Forall (fun q => vcompare p0 q = false) post ->
  push_list loop_new (p0 :: post ++ flat es ++ v0 :: pre) = Ok L' ->
  exists (G : list V) (y z : V) (zs : list V),
    base es = G ++ [y; z] /\ (z, zs) = last_entry (v0, pre ++ p0 :: post) es /\
    pend_ok v0 (next_vertex es v0) (lastl [] pre) /\ verts L' = (p0 :: base es ++ [v0]) ++ lastl [] pre.
Proof.
  intros Hn Hg Hd P. destruct es as [|[v1 ms1] tl]; [cbn in Hn; lia|]. destruct tl as [|[v2 ms2] tl']; [cbn in Hn; lia|]. clear Hn.
  unfold cyc_good in Hg. cbn [last_entry fst] in Hg. destruct Hg as (He0 & Hc0 & Hch). cbn [fst snd next_vertex] in He0, Hc0.
  pose proof Hch as (_ & Hc1 & _). cbn [fst snd next_vertex] in Hc1.
  remember ((v2, ms2) :: tl') as tl eqn:Etl.
  pose proof (on_edge_on_line _ _ _ He0) as Hl0. apply Forall_app in Hl0. destruct Hl0 as (Hlpre & Hl0). inversion Hl0 as [|? ? Hlp0 Hlpost]; subst x l.
  assert (Hin0 : In p0 (v0 :: pre ++ p0 :: post)) by (right; apply in_or_app; right; left; reflexivity).
  apply push_list_verts in P. cbn [verts loop_new] in P. rewrite flat_cons in P.
  replace (p0 :: post ++ (v1 :: ms1 ++ flat tl) ++ v0 :: pre) with ((p0 :: post ++ [v1]) ++ ((ms1 ++ flat tl) ++ ([v0] ++ pre))) in P
    by (cbn [app]; rewrite <- !app_assoc; reflexivity).
  assert (S0 : pushv_list [] (p0 :: post ++ [v1]) = Ok [p0; v1]).
  { rewrite (push_start v0 v1 p0 (post ++ [v1])); [rewrite lastl_snoc; reflexivity | exact Hlp0 | |].
    - apply Forall_app. split; [exact Hlpost | constructor; [apply on_line_end | constructor]].
    - apply Forall_app. split; [exact Hd|]. constructor; [|constructor].
      assert (C : is_collinear p0 v1 v2 = Ok false) by (apply Hc1; [exact Hin0 | apply in_or_app; right; left; reflexivity]).
      exact (proj1 (is_collinear_false_distinct _ _ _ C)). }
  rewrite (pushv_list_app _ _ _ _ S0) in P.
  destruct (push_chain v0 tl [] v0 (pre ++ p0 :: post) p0 v1 ms1 Hch Hin0) as (G & y & z & zs & E1 & E2 & E3 & E4 & E5).
  cbn [app] in E1, E5. rewrite (pushv_list_app _ _ _ _ E5) in P.
  pose proof E2 as E2'. rewrite Etl in E2'. cbn [last_entry] in E2'. rewrite <- E2' in Hc0. cbn [fst snd] in Hc0.
  (* the vertex v0 *)
  assert (S1 : pushv_list (G ++ [y; z] ++ lastl [] zs) [v0] = Ok ((G ++ [y]) ++ [z; v0] ++ [])).
  { destruct (push_edge_points v0 [v0] G y z (lastl [] zs) E4) as (E & _).
    - constructor; [apply on_line_end | constructor].
    - constructor; [apply E3, in_or_app; right; left; reflexivity | constructor].
    - rewrite E. cbn [lastl app]. rewrite <- app_assoc. reflexivity. }
  rewrite (pushv_list_app _ _ _ _ S1) in P.
  destruct (push_edge_points v1 pre (G ++ [y]) z v0 [] (or_introl eq_refl) Hlpre) as (S2 & Hpre).
  { apply Forall_forall. intros q Hq. apply Hc0; [left; reflexivity | apply in_or_app; left; apply in_or_app; left; exact Hq]. }
  rewrite S2 in P. injection P as P.
  destruct G as [|g G']; [apply (f_equal (@length V)) in E1; rewrite Etl in E1; cbn [length app base map] in E1; lia|].
  cbn [app] in E1. injection E1 as Eg E1. subst g.
  exists G', y, z, zs. split; [exact E1|]. split; [exact E2|]. split; [exact Hpre|].
  rewrite <- P. cbn [base map fst]. fold (base tl). rewrite E1. cbn [app]. rewrite <- !app_assoc. reflexivity.
Qed.

(** both loops of [close] act: the trailing one removes a pending point of [pre], the leading one the start point p0 *)
Lemma build_enriched_at_inserted (v0 : V) (pre : list V) (p0 : V) (post : list V) (es : list entry) (L' : Loop R) :
  (2 <= length es)%nat -> cyc_good (v0, pre ++ p0 :: post) es -> Forall (fun q => vcompare p0 q = false) post ->
  push_list loop_new (p0 :: post ++ flat es ++ v0 :: pre) = Ok L' -> snd (loop_close L') = Ok tt ->
  verts (fst (loop_close L')) = base es ++ [v0].
Proof.
  intros Hn Hg Hd P Cl. destruct (stored_at_inserted v0 pre p0 post es L' Hn Hg Hd P) as (G' & y & z & zs & E1 & E2 & Hpre & Ev).
  destruct es as [|[v1 ms1] [|[v2 ms2] tl']]; [cbn in Hn; lia ..|]. clear Hn P. cbn [next_vertex fst] in Hpre.
  unfold cyc_good in Hg. rewrite <- E2 in Hg. destruct Hg as (He0 & Hc0 & _ & Hc1 & _). cbn [fst snd next_vertex] in He0, Hc0, Hc1.
  remember ((v2, ms2) :: tl') as tl eqn:Etl. cbn [base map fst] in E1, Ev. fold (base tl) in E1, Ev.
  pose proof (on_edge_on_line _ _ _ He0) as Hl0. apply Forall_app in Hl0. destruct Hl0 as (_ & Hl0). pose proof (Forall_inv Hl0) as Hlp0.
  assert (Ev' : verts L' = ((p0 :: G') ++ [y]) ++ [z; v0] ++ lastl [] pre) by (rewrite Ev, E1; cbn [app]; rewrite <- !app_assoc; reflexivity).
  destruct (close_ok L' Cl) as (vs1 & vs2 & P1 & P2 & -> & _).
  assert (Czp0 : is_collinear z v0 p0 = Ok false) by (apply Hc0; [left; reflexivity | apply in_or_app; left; apply in_or_app; right; left; reflexivity]).
  assert (Q1 : pop_redundant (verts L') (llen L') = (((p0 :: G') ++ [y]) ++ [z; v0], Ok tt)).
  { unfold llen. rewrite Ev'. apply (pop_seam _ z v0 v1); [discriminate | exact Czp0 | exact Hpre | exact Hlp0 |].
    rewrite !app_length. cbn [length]. lia. }
  rewrite Q1 in P1. injection P1 as P1.
  assert (EM : ((p0 :: G') ++ [y]) ++ [z; v0] = p0 :: (v1 :: base tl) ++ [v0]).
  { rewrite E1. cbn [app]. rewrite <- !app_assoc. reflexivity. }
  change (((p0 :: G') ++ [y]) ++ [z; v0] = vs1) in P1. rewrite EM in P1. subst vs1.
  set (M := (v1 :: base tl) ++ [v0]) in *.
  assert (HlenM : (3 <= length M)%nat) by (unfold M; rewrite app_length, Etl; unfold base; cbn [length map]; lia).
  assert (Cz01 : is_collinear z v0 v1 = Ok false) by (apply Hc0; [left; reflexivity | apply in_or_app; right; left; reflexivity]).
  assert (Q2 : pop_redundant (List.tl (p0 :: M)) (length (p0 :: M)) = (M, Ok tt)).
  { cbn [List.tl length]. apply pop_red_false. unfold M. rewrite E1.
    replace ((G' ++ [y; z]) ++ [v0]) with ((G' ++ [y]) ++ [z; v0]) by (rewrite <- !app_assoc; reflexivity).
    rewrite last_red_shape by (destruct G'; discriminate).
    replace (hd vzero (G' ++ [y])) with v1; [exact Cz01|].
    destruct G' as [|g G'']; cbn [app] in E1 |- *; injection E1; intros; subst; reflexivity. }
  assert (Cp0 : is_collinear v0 p0 v1 = Ok true).
  { assert (Hv : vcompare v0 p0 = false) by (apply (corner_third_distinct z), Czp0).
    apply (is_collinear_on_line3 v0 v1); [apply on_line_start | exact Hlp0 | apply on_line_end | rewrite Hv; reflexivity]. }
  assert (Hlast : vnth (p0 :: M) (length (p0 :: M) - 1) = v0).
  { unfold M. change (p0 :: (v1 :: base tl) ++ [v0]) with ((p0 :: v1 :: base tl) ++ [v0]). apply vnth_last1. }
  change (length (p0 :: M)) with (S (length M)) in P2 at 1.
  rewrite (drop_first_true (p0 :: M) M) in P2; [| cbn [length]; lia | rewrite Hlast; exact Cp0 | exact Q2].
  destruct (length M) as [|f] eqn:Elen; [lia|].
  rewrite drop_first_false in P2; [injection P2 as P2; symmetry; exact P2|].
  unfold M at 1 2. rewrite vnth_last1. unfold M. rewrite Etl. cbn [base map app vnth nth fst].
  apply Hc1; [left; reflexivity | apply in_or_app; right; left; reflexivity].
Qed.

(** ** the enrichment relation and the pipeline theorem *)
(** equal as cyclic sequences *)
Definition cyc_shift (l m : list V) : Prop := exists r1 r2 : list V, l = r1 ++ r2 /\ m = r2 ++ r1.
Lemma cyc_shift_refl (l : list V) : cyc_shift l l.
Proof. exists [], l. split; [reflexivity | rewrite app_nil_r; reflexivity]. Qed.
Lemma cyc_shift_rot1 (l m : list V) (a : V) : cyc_shift l (a :: m) -> cyc_shift l (m ++ [a]).
Proof.
  intros (r1 & r2 & E1 & E2). destruct r2 as [|b r2].
  - cbn [app] in E2. rewrite app_nil_r in E1. subst r1. subst l. exists [a], m. split; reflexivity.
  - cbn [app] in E2. injection E2 as Ea Em. subst b m l. exists (r1 ++ [a]), r2. split; rewrite <- app_assoc; reflexivity.
Qed.

(** [enrich l l']: l is an outline whose corners are all genuine (cyclically), and l' is obtained from it by inserting points
    exactly on its open edges -- [cyc_good]: on every edge a -> b finitely many points a + s (b - a), 0 < s < 1, in increasing
    order of s, such that every corner stays genuine towards the inserted points ([corner_kept]) -- and then entering the
    enriched cycle anywhere:
    - at a vertex v0 of l (the outline read from v0 on is  v0 :: base es;  points on the closing edge allowed), or
    - at an inserted point p0 of the edge v0 -> v1, whose points are pre ++ p0 :: post; then the input is
      p0 :: post ++ (the rest of the cycle) ++ v0 :: pre,  and p0 must be distinguishable (Point3D::compare, 1e-5 in some
      coordinate) from the points of its edge that follow it: otherwise [push] takes the third input point for a spike. *)
Inductive enrich (l : list V) : list V -> Prop :=
| enrich_at_vertex (v0 : V) (ms0 : list V) (es : list entry) :
    genuine_cycle l -> (2 <= length es)%nat -> cyc_shift l (v0 :: base es) -> cyc_good (v0, ms0) es ->
    enrich l (flat ((v0, ms0) :: es))
| enrich_at_inserted (v0 : V) (pre : list V) (p0 : V) (post : list V) (es : list entry) :
    genuine_cycle l -> (2 <= length es)%nat -> cyc_shift l (v0 :: base es) -> cyc_good (v0, pre ++ p0 :: post) es ->
    Forall (fun q => vcompare p0 q = false) post ->
    enrich l (p0 :: post ++ flat es ++ v0 :: pre).

Lemma enrich_genuine (l l' : list V) : enrich l l' -> genuine_cycle l.
Proof. intros [? ? ? H|? ? ? ? ? H]; exact H. Qed.

Theorem pipeline_enrichment (l l' : list V) (L L' : Loop R) :
  enrich l l' ->
  push_list loop_new l = Ok L -> snd (loop_close L) = Ok tt ->
  push_list loop_new l' = Ok L' -> snd (loop_close L') = Ok tt ->
  verts (fst (loop_close L)) = l /\ cyc_shift l (verts (fst (loop_close L'))).
Proof.
  intros He P C P' C'. split; [apply build_genuine; [exact (enrich_genuine _ _ He) | exact P | exact C]|].
  destruct He as [v0 ms0 es _ Hn Hs Hg | v0 pre p0 post es _ Hn Hs Hg Hd].
  - rewrite (build_enriched_at_vertex v0 ms0 es L' Hn Hg P' C'). exact Hs.
  - rewrite (build_enriched_at_inserted v0 pre p0 post es L' Hn Hg Hd P' C'). apply cyc_shift_rot1. exact Hs.
Qed.

(** same start vertex (points on the closing edge allowed): the very same vertex list *)
Theorem pipeline_enrichment_same_start (v0 : V) (ms0 : list V) (es : list entry) (L L' : Loop R) :
  genuine_cycle (v0 :: base es) -> (2 <= length es)%nat -> cyc_good (v0, ms0) es ->
  push_list loop_new (v0 :: base es) = Ok L -> snd (loop_close L) = Ok tt ->
  push_list loop_new (flat ((v0, ms0) :: es)) = Ok L' -> snd (loop_close L') = Ok tt ->
  verts (fst (loop_close L')) = v0 :: base es /\ verts (fst (loop_close L')) = verts (fst (loop_close L)).
Proof.
  intros G Hn Hg P C P' C'. rewrite (build_genuine _ L G P C). rewrite (build_enriched_at_vertex v0 ms0 es L' Hn Hg P' C'). split; reflexivity.
Qed.

(** ** the measures.  Perimeter, centroid (= mean of the stored vertices), number of vertices and the Newell vector
    S = sum v_i x v_{i+1} (twice the vector area: area = |n . S| / 2, orientation = sign of n . S) coincide. *)
Theorem enrichment_measures (l l' : list V) (L L' : Loop R) :
  enrich l l' ->
  push_list loop_new l = Ok L -> snd (loop_close L) = Ok tt ->
  push_list loop_new l' = Ok L' -> snd (loop_close L') = Ok tt ->
  let C := fst (loop_close L) in let C' := fst (loop_close L') in
  loop_perimeter C' = loop_perimeter C /\ loop_centroid C' = loop_centroid C /\ llen C' = llen C /\
  newell (verts C') = newell (verts C) /\
  loop_area C = Ok (Rabs (vdot (lnormal L) (newell l)) / 2) /\ loop_area C' = Ok (Rabs (vdot (lnormal L') (newell l)) / 2) /\
  0 <= vdot (lnormal C) (newell l) /\ 0 <= vdot (lnormal C') (newell l).
Proof.
  intros He P Cl P' Cl'. cbv zeta.
  destruct (pipeline_enrichment l l' L L' He P Cl P' Cl') as (E & r1 & r2 & E1 & E2).
  destruct (close_measures L Cl) as (Hc & _ & Ha & _ & Ho & Hp). destruct (close_measures L' Cl') as (Hc' & _ & Ha' & _ & Ho' & Hp').
  cbv zeta in *. unfold loop_perimeter, loop_area. rewrite Hc, Hc', (centroid_spec _ Hc), (centroid_spec _ Hc'). unfold llen.
  rewrite Hp, Hp', Ha, Ha'. rewrite E, E2 in *. clear E. subst l.
  assert (Hlen : length (r2 ++ r1) = length (r1 ++ r2)) by (rewrite !app_length; apply Nat.add_comm).
  rewrite (perimeter_rot r2 r1), (vsum_rot r2 r1), (newell_rot r2 r1), Hlen. rewrite (newell_rot r2 r1) in Ho'.
  repeat split; try reflexivity; assumption.
Qed.

(** area and normal: the normal field before [close] is the unit normal of the first stored corner at the moment the third
    vertex arrived -- the corner (l0, l1, l2) for l, the corner (p0, v1, m) for l' (m the first point pushed after v1).  For an
    exactly planar outline both are +- the unit normal of the plane; GIVEN that the two agree up to sign, the areas coincide
    and (non-zero area) so do the normals after the right-hand-rule flip of [set_area]. *)
Theorem enrichment_area_normal (l l' : list V) (L L' : Loop R) :
  enrich l l' ->
  push_list loop_new l = Ok L -> snd (loop_close L) = Ok tt ->
  push_list loop_new l' = Ok L' -> snd (loop_close L') = Ok tt ->
  (lnormal L' = lnormal L \/ lnormal L' = vneg (lnormal L)) ->
  let C := fst (loop_close L) in let C' := fst (loop_close L') in
  loop_area C' = loop_area C /\ (vdot (lnormal L) (newell l) <> 0 -> lnormal C' = lnormal C).
Proof.
  intros He P Cl P' Cl' Hn. cbv zeta.
  destruct (enrichment_measures l l' L L' He P Cl P' Cl') as (_ & _ & _ & _ & Ha & Ha' & Ho & Ho'). cbv zeta in *.
  destruct (close_measures L Cl) as (_ & _ & _ & Hs & _). destruct (close_measures L' Cl') as (_ & _ & _ & Hs' & _). cbv zeta in *.
  rewrite Ha, Ha'. split.
  - destruct Hn as [->| ->]; [reflexivity|]. rewrite vdot_neg_l, Rabs_Ropp. reflexivity.
  - intros Hnz. destruct Hs as [Es|Es]; destruct Hs' as [Es'|Es']; destruct Hn as [En|En]; rewrite Es in *; rewrite Es' in *; rewrite En in *;
      rewrite ?vneg_neg in *; rewrite ?vdot_neg_l in *; try reflexivity; exfalso; lra.
Qed.

(** ** non-vacuity over the reals: the unit square with two extra points on its first edge and one on its closing edge,
    the input starting at an inserted point of the first edge *)
Lemma col_false_intro (a b c : V) :
  vcompare a b = false -> vcompare a c = false -> vcompare b c = false ->
  (1 / 100000) * (1 / 100000) <= vlen2 (vcross (vsub b a) (vsub c b)) -> is_collinear a b c = Ok false.
Proof.
  intros H1 H2 H3 H. apply is_collinear_false_iff. repeat split; try assumption. apply Rltb_false.
  unfold vlen, c1em5. rnum. rewrite <- (sqrt_square (1 / 100000)) by lra. apply sqrt_le_1_alt. exact H.
Qed.
Ltac vcmp_false := apply vcompare_false_intro; cbn [vx vy vz];
  first [ left; solve [unfold Rabs; destruct (Rcase_abs _); lra]
        | right; left; solve [unfold Rabs; destruct (Rcase_abs _); lra]
        | right; right; solve [unfold Rabs; destruct (Rcase_abs _); lra] ].
Ltac col_false := apply col_false_intro; [vcmp_false | vcmp_false | vcmp_false | unfold vlen2, vcross, vsub; cbn [vx vy vz]; rnum; lra].

Definition ex_input : list V :=
  [mkV3 (1/2) 0 0; mkV3 1 0 0; mkV3 1 1 0; mkV3 0 1 0; mkV3 0 (1/2) 0; mkV3 0 0 0; mkV3 (1/4) 0 0].
Example enrich_square : enrich square_pts ex_input.
Proof.
  apply (enrich_at_inserted square_pts (mkV3 0 0 0) [mkV3 (1/4) 0 0] (mkV3 (1/2) 0 0) []
           [(mkV3 1 0 0, []); (mkV3 1 1 0, []); (mkV3 0 1 0, [mkV3 0 (1/2) 0])]).
  - unfold genuine_cycle, square_pts. cbn [app genuine_chain]. repeat split; col_false.
  - cbn [length]. lia.
  - exists [], square_pts. split; reflexivity.
  - unfold cyc_good. cbn [last_entry chain_good fst snd next_vertex app].
    assert (E0 : on_edge (mkV3 0 0 0) (mkV3 1 0 0) [mkV3 (1/4) 0 0; mkV3 (1/2) 0 0]).
    { exists [1/4; 1/2]. split; [|split; [repeat constructor; lra | repeat constructor; lra]].
      cbn [map]. unfold pt_on. f_equal; [apply v3_eq; vunf; rnum; lra | f_equal; apply v3_eq; vunf; rnum; lra]. }
    assert (E3 : on_edge (mkV3 0 1 0) (mkV3 0 0 0) [mkV3 0 (1/2) 0]).
    { exists [1/2]. split; [|split; [repeat constructor; lra | repeat constructor]].
      cbn [map]. unfold pt_on. f_equal. apply v3_eq; vunf; rnum; lra. }
    assert (En : forall a b : V, on_edge a b []) by (intros a b; exists []; repeat split; constructor).
    repeat split; try exact E0; try exact E3; try apply En;
      intros p q Hp Hq; cbn [In app] in Hp, Hq;
      repeat match goal with H : _ \/ _ |- _ => destruct H | H : False |- _ => destruct H end; subst; col_false.
  - constructor.
Qed.

(** ** the normal field: once three vertices are stored, it is the unit normal of the FIRST stored corner (live push:
    recomputed whenever the list has exactly three vertices, zeroed below three, kept above) *)
Lemma push_normal_inv (L L' : Loop R) (p : V) : loop_push L p = Ok L' ->
  ((3 <= llen L)%nat -> lnormal L = tri_normal (verts L)) -> (3 <= llen L')%nat -> lnormal L' = tri_normal (verts L').
Proof.
  intros H I H3. pose proof (live_push_normal _ _ _ H) as HL. destruct (push_live_effect _ _ _ H) as (_ & Hs & _).
  rewrite HL. destruct (Nat.eqb (llen L') 3) eqn:E3; [reflexivity|]. apply Nat.eqb_neq in E3.
  destruct (Nat.ltb (llen L') 3) eqn:El; [apply Nat.ltb_lt in El; lia|]. clear HL El.
  unfold llen in *. destruct Hs as [Hl E| r a b Er _ E| keep H2 Hk Hck E]; rewrite E in *.
  - rewrite app_length in H3. cbn [length] in H3. lia.
  - rewrite length_removelast in *. rewrite tri_normal_removelast by lia. apply I. lia.
  - rewrite app_length, firstn_length in *. cbn [length] in *. rewrite tri_normal_firstn_snoc by lia. apply I. lia.
Qed.
Lemma push_list_normal_inv (pts : list V) : forall (L L' : Loop R), push_list L pts = Ok L' ->
  ((3 <= llen L)%nat -> lnormal L = tri_normal (verts L)) -> (3 <= llen L')%nat -> lnormal L' = tri_normal (verts L').
Proof.
  induction pts as [|p pts IH]; intros L L' H I; cbn [push_list] in H.
  - injection H as H. subst. exact I.
  - destruct (loop_push L p) as [L1| |] eqn:E; cbn [rbind] in H; try discriminate.
    apply (IH L1 L' H). apply (push_normal_inv L L1 p E I).
Qed.

(** an exactly planar outline: unit normal N, every vertex in the plane through o *)
Definition planar (N o : V) (l : list V) : Prop := vdot N N = 1 /\ forall v : V, In v l -> vdot N (vsub v o) = 0.

Lemma corner_normal_planar (N a b c : V) : vdot N N = 1 -> vdot N (vsub b a) = 0 -> vdot N (vsub c b) = 0 ->
  is_collinear a b c = Ok false ->
  tri_normal [a; b; c] = N \/ tri_normal [a; b; c] = vneg N.
Proof.
  intros HN H1 H2 C. cbn [tri_normal]. rewrite (cross_in_plane N _ _ HN H1 H2).
  apply vnormalize_scaled_unit; [exact HN|]. intros Hk.
  assert (Z : vcross (vsub b a) (vsub c b) = vzero).
  { rewrite (cross_in_plane N _ _ HN H1 H2), Hk. destruct N as [n1 n2 n3]. vring. }
  destruct (is_collinear_false_distinct _ _ _ C) as (D1 & _ & _).
  rewrite (is_collinear_cross0 a b c Z) in C by (rewrite D1; reflexivity). discriminate.
Qed.
Lemma tri_normal_3 (a b c : V) (r : list V) : tri_normal (a :: b :: c :: r) = tri_normal [a; b; c].
Proof. reflexivity. Qed.

Lemma cyc_shift_in (l m : list V) (v : V) : cyc_shift l m -> In v m -> In v l.
Proof. intros (r1 & r2 & -> & ->) H. apply in_or_app. apply in_app_or in H. tauto. Qed.
Lemma cyc_shift_length (l m : list V) : cyc_shift l m -> length l = length m.
Proof. intros (r1 & r2 & -> & ->). rewrite !app_length. apply Nat.add_comm. Qed.

(** for an exactly planar outline the normals held before close agree up to sign *)
Theorem enrichment_normals_agree (l l' : list V) (L L' : Loop R) (N o : V) :
  enrich l l' -> planar N o l ->
  push_list loop_new l = Ok L -> snd (loop_close L) = Ok tt ->
  push_list loop_new l' = Ok L' -> snd (loop_close L') = Ok tt ->
  (lnormal L = N \/ lnormal L = vneg N) /\ (lnormal L' = N \/ lnormal L' = vneg N).
Proof.
  intros He (HN & Hpl) P Cl P' Cl'.
  assert (Hin : forall a b : V, In a l -> In b l -> vdot N (vsub b a) = 0).
  { intros a b Ha Hb. rewrite (vdot_sub_origin N a b o), (Hpl a Ha), (Hpl b Hb). ring. }
  assert (Inew : (3 <= llen (@loop_new R _))%nat -> lnormal (@loop_new R _) = tri_normal (verts (@loop_new R _))) by (cbn; lia).
  pose proof (push_list_normal_inv l _ L P Inew (close_ok_len L Cl)) as NL.
  pose proof (push_list_normal_inv l' _ L' P' Inew (close_ok_len L' Cl')) as NL'.
  split.
  - (* l itself *)
    pose proof (enrich_genuine _ _ He) as G.
    assert (Hl3 : (3 <= length l)%nat) by (destruct He as [? ? ? _ Hn Hs _|? ? ? ? ? _ Hn Hs _ _]; rewrite (cyc_shift_length _ _ Hs); unfold base; cbn [length]; rewrite map_length; lia).
    destruct l as [|a [|b [|c r]]]; cbn [length] in Hl3; try lia.
    assert (E : verts L = a :: b :: c :: r).
    { apply (push_list_genuine (a :: b :: c :: r) loop_new L); [|exact P]. cbn [verts loop_new app]. apply (genuine_chain_prefix _ [a; b]). exact G. }
    rewrite NL, E, tri_normal_3. unfold genuine_cycle in G. cbn [app genuine_chain] in G. destruct G as (C & _).
    apply corner_normal_planar; [exact HN | apply Hin; cbn; tauto | apply Hin; cbn; tauto | exact C].
  - destruct He as [v0 ms0 es _ Hn Hs Hg | v0 pre p0 post es _ Hn Hs Hg Hd].
    + destruct (stored_at_vertex v0 ms0 es L' Hn Hg P') as (G & y & z & zs & _ & _ & _ & _ & E).
      destruct es as [|[v1 ms1] [|[v2 ms2] tl']]; cbn [length] in Hn; try lia.
      rewrite NL', E. cbn [base map fst app]. rewrite tri_normal_3.
      assert (I0 : In v0 l) by (apply (cyc_shift_in _ _ _ Hs); cbn; tauto).
      assert (I1 : In v1 l) by (apply (cyc_shift_in _ _ _ Hs); cbn; tauto).
      assert (I2 : In v2 l) by (apply (cyc_shift_in _ _ _ Hs); cbn; tauto).
      unfold cyc_good in Hg. destruct Hg as (_ & _ & _ & Hc1 & _). cbn [fst snd next_vertex] in Hc1.
      apply corner_normal_planar; [exact HN | apply Hin; assumption | apply Hin; assumption|].
      apply Hc1; [left; reflexivity | apply in_or_app; right; left; reflexivity].
    + destruct (stored_at_inserted v0 pre p0 post es L' Hn Hg Hd P') as (G & y & z & zs & _ & _ & _ & E).
      destruct es as [|[v1 ms1] [|[v2 ms2] tl']]; cbn [length] in Hn; try lia.
      rewrite NL', E. cbn [base map fst app]. rewrite tri_normal_3.
      assert (I0 : In v0 l) by (apply (cyc_shift_in _ _ _ Hs); cbn; tauto).
      assert (I1 : In v1 l) by (apply (cyc_shift_in _ _ _ Hs); cbn; tauto).
      assert (I2 : In v2 l) by (apply (cyc_shift_in _ _ _ Hs); cbn; tauto).
      unfold cyc_good in Hg. destruct Hg as (He0 & _ & _ & Hc1 & _). cbn [fst snd next_vertex] in He0, Hc1.
      pose proof (on_edge_on_line _ _ _ He0) as Hl0.
      assert (Hp0 : on_line v0 v1 p0) by (apply (proj1 (Forall_forall _ _) Hl0); apply in_or_app; right; left; reflexivity).
      destruct Hp0 as (s & ->).
      apply corner_normal_planar; [exact HN | | apply Hin; assumption|].
      * unfold pt_on. rewrite vdot_from_line_point, (Hin v0 v1 I0 I1). ring.
      * apply Hc1; [right; apply in_or_app; right; left; reflexivity | apply in_or_app; right; left; reflexivity].
Qed.

(** hence: same area, and (non-zero area) same normal *)
Theorem enrichment_area_normal_planar (l l' : list V) (L L' : Loop R) (N o : V) :
  enrich l l' -> planar N o l ->
  push_list loop_new l = Ok L -> snd (loop_close L) = Ok tt ->
  push_list loop_new l' = Ok L' -> snd (loop_close L') = Ok tt ->
  let C := fst (loop_close L) in let C' := fst (loop_close L') in
  loop_area C' = loop_area C /\ (vdot N (newell l) <> 0 -> lnormal C' = lnormal C).
Proof.
  intros He Hp P Cl P' Cl'. cbv zeta.
  destruct (enrichment_normals_agree l l' L L' N o He Hp P Cl P' Cl') as (A & A').
  assert (Hn : lnormal L' = lnormal L \/ lnormal L' = vneg (lnormal L)).
  { destruct A as [-> | ->]; destruct A' as [-> | ->]; rewrite ?vneg_neg; auto. }
  destruct (enrichment_area_normal l l' L L' He P Cl P' Cl' Hn) as (B1 & B2). cbv zeta in *.
  split; [exact B1|]. intros Hnz. apply B2. destruct A as [-> | ->]; [exact Hnz|]. rewrite vdot_neg_l. lra.
Qed.

Example square_planar :
  let N : V := mkV3 0 0 1 in
  vdot N N = 1 /\ (forall v : V, In v [mkV3 0 0 0; mkV3 1 0 0; mkV3 1 1 0; mkV3 0 1 0] -> vdot N (vsub v (mkV3 0 0 0)) = 0).
Proof.
  cbv zeta. split; [vunf; rnum; ring|]. intros v Hv. cbn [In] in Hv.
  repeat match goal with H : _ \/ _ |- _ => destruct H | H : False |- _ => destruct H end; subst; vunf; rnum; ring.
Qed.

(** ** the conditions are those of the CYCLE: [cyc_good] does not depend on the entry the cycle is read from *)
Lemma next_vertex_snoc (tl : list entry) (e : entry) (b : V) :
  next_vertex (tl ++ [e]) b = next_vertex tl (fst e).
Proof. destruct tl; reflexivity. Qed.
Lemma last_entry_snoc (tl : list entry) : forall d e : entry, last_entry d (tl ++ [e]) = e.
Proof. induction tl as [|u tl IH]; intros d e; cbn [app last_entry]; [reflexivity | apply IH]. Qed.
Lemma chain_good_snoc (es : list entry) : forall (x : V) (xs : list V) (e : entry) (b : V),
  chain_good x xs es (fst e) ->
  on_edge (fst e) b (snd e) ->
  corner_kept (fst (last_entry (x, xs) es)) (snd (last_entry (x, xs) es)) (fst e) (snd e) b ->
  chain_good x xs (es ++ [e]) b.
Proof.
  induction es as [|u es IH]; intros x xs e b H He Hc.
  - cbn [app chain_good next_vertex]. cbn [last_entry fst snd] in Hc. repeat split; assumption.
  - cbn [app]. destruct H as (H1 & H2 & H3). cbn [chain_good]. rewrite next_vertex_snoc. split; [exact H1|]. split; [exact H2|].
    apply IH; [exact H3 | exact He|]. cbn [last_entry] in Hc. destruct u as [u1 u2]. exact Hc.
Qed.
Theorem cyc_good_rot1 (e0 e1 : entry) (tl : list entry) : cyc_good e0 (e1 :: tl) -> cyc_good e1 (tl ++ [e0]).
Proof.
  unfold cyc_good. rewrite last_entry_snoc. cbn [last_entry]. intros (H1 & H2 & H3). cbn [next_vertex] in H1, H2.
  change (e1 :: tl ++ [e0]) with ((e1 :: tl) ++ [e0]). destruct e0 as [v0 ms0]. cbn [fst snd] in *.
  apply chain_good_snoc; cbn [fst snd last_entry]; assumption.
Qed.

(** ** the start point only needs to be distinguishable from its SUCCESSOR: the later points of the edge are farther *)
Lemma vcompare_false_elim (a b : V) : vcompare a b = false ->
  1 / 100000 <= Rabs (vx a - vx b) \/ 1 / 100000 <= Rabs (vy a - vy b) \/ 1 / 100000 <= Rabs (vz a - vz b).
Proof.
  unfold vcompare, c1em5. rnum. intros H.
  destruct (Rltb (Rabs (vx a - vx b)) (1 / 100000)) eqn:E1; [|left; apply Rltb_false; exact E1].
  destruct (Rltb (Rabs (vy a - vy b)) (1 / 100000)) eqn:E2; [|right; left; apply Rltb_false; exact E2].
  destruct (Rltb (Rabs (vz a - vz b)) (1 / 100000)) eqn:E3; [discriminate|right; right; apply Rltb_false; exact E3].
Qed.
Lemma vcompare_farther (a b : V) (s t t' : R) : s < t -> t <= t' ->
  vcompare (pt_on a b s) (pt_on a b t) = false -> vcompare (pt_on a b s) (pt_on a b t') = false.
Proof.
  intros Hst Htt H. apply vcompare_false_elim in H. apply vcompare_false_intro.
  assert (M : forall d : R, Rabs ((s - t) * d) <= Rabs ((s - t') * d)).
  { intros d. rewrite !Rabs_mult. apply Rmult_le_compat_r; [apply Rabs_pos|]. rewrite !Rabs_left1 by lra. lra. }
  unfold pt_on in *. revert H. vunf. rnum. intros H.
  destruct H as [H|[H|H]]; [left | right; left | right; right]; eapply Rle_trans; try exact H.
  - replace (vx a + (vx b - vx a) * s - (vx a + (vx b - vx a) * t)) with ((s - t) * (vx b - vx a)) by ring.
    replace (vx a + (vx b - vx a) * s - (vx a + (vx b - vx a) * t')) with ((s - t') * (vx b - vx a)) by ring. apply M.
  - replace (vy a + (vy b - vy a) * s - (vy a + (vy b - vy a) * t)) with ((s - t) * (vy b - vy a)) by ring.
    replace (vy a + (vy b - vy a) * s - (vy a + (vy b - vy a) * t')) with ((s - t') * (vy b - vy a)) by ring. apply M.
  - replace (vz a + (vz b - vz a) * s - (vz a + (vz b - vz a) * t)) with ((s - t) * (vz b - vz a)) by ring.
    replace (vz a + (vz b - vz a) * s - (vz a + (vz b - vz a) * t')) with ((s - t') * (vz b - vz a)) by ring. apply M.
Qed.

Lemma start_distinct_from_successor (a b : V) (pre : list V) (p0 : V) (post : list V) :
  on_edge a b (pre ++ p0 :: post) ->
  match post with [] => True | q :: _ => vcompare p0 q = false end ->
  Forall (fun q => vcompare p0 q = false) post.
Proof.
  intros (ss & E & _ & Hs) H. symmetry in E. apply map_eq_app in E. destruct E as (s1 & s2 & -> & _ & E).
  apply map_eq_cons in E. destruct E as (s0 & ts & -> & <- & <-).
  assert (Hs2 : StronglySorted Rlt (s0 :: ts)).
  { clear H. induction s1 as [|u s1 IH]; [exact Hs|]. apply IH. cbn [app] in Hs. apply StronglySorted_inv in Hs. tauto. }
  apply StronglySorted_inv in Hs2. destruct Hs2 as (Hts & Hlt).
  destruct ts as [|t1 ts]; [constructor|]. cbn [map] in *.
  constructor; [exact H|]. apply StronglySorted_inv in Hts. destruct Hts as (_ & Ht1). inversion Hlt as [|? ? Hs01 _]; subst.
  apply Forall_forall. intros q Hq. apply in_map_iff in Hq. destruct Hq as (t & <- & Ht).
  apply (vcompare_farther a b s0 t1 t); [exact Hs01 | | exact H].
  apply Rlt_le. exact (proj1 (Forall_forall _ _) Ht1 t Ht).
Qed.

(** [enrich_at_inserted] with the weaker hypothesis *)
Theorem enrich_at_inserted_succ (l : list V) (v0 : V) (pre : list V) (p0 : V) (post : list V) (es : list entry) :
  genuine_cycle l -> (2 <= length es)%nat -> cyc_shift l (v0 :: base es) -> cyc_good (v0, pre ++ p0 :: post) es ->
  match post with [] => True | q :: _ => vcompare p0 q = false end ->
  enrich l (p0 :: post ++ flat es ++ v0 :: pre).
Proof.
  intros G Hn Hs Hg Hd. apply enrich_at_inserted; try assumption.
  unfold cyc_good in Hg. destruct Hg as (He0 & _). cbn [fst snd] in He0. exact (start_distinct_from_successor _ _ _ _ _ He0 Hd).
Qed.
