(** * C11 proofs: cut_hole is all-or-nothing and accounts for the hole's area.
    Everything here holds for EVERY number instance of the model (reals, Flocq floats, primitive floats). *)
From Coq Require Import ZArith Bool List Arith Lia.
From G3 Require Import Model.Num Model.Base Model.Vec Model.Segment Model.Loop Model.Polygon Model.PolyAux Proofs.C04_loop.
Import ListNotations.
Local Open Scope num_scope.

(** the scans of the model ([in_any_hole], [all_inside], [any_inside_loop], [encloses_any]) test the elements in turn and
    stop at the first answer [stop]; they run through, answering [negb stop], exactly when every element answers [negb stop]
    ([all_inside] stops at the first [false]: stop = false; [in_any_hole] at the first [true]: stop = true) *)
Lemma res_scan {A} (stop : bool) (f : A -> res bool) (scan : list A -> res bool) :
  scan [] = Ok (negb stop) ->
  (forall x tl, scan (x :: tl) = do b <- f x; if b then (if stop then Ok true else scan tl) else (if stop then scan tl else Ok false)) ->
  forall l, ((forall x, no_panic (f x)) -> no_panic (scan l)) /\
            (scan l = Ok (negb stop) <-> forall x, In x l -> f x = Ok (negb stop)).
Proof.
  intros H0 Hc. induction l as [|x tl [IHn IHi]]; [rewrite H0; split; [intros _; apply np_ok | split; [intros _ x [] | reflexivity]]|].
  rewrite Hc. split.
  - intros Hf. apply np_bind; [apply Hf|]. intros [|]; destruct stop; solve [apply np_ok | apply IHn, Hf].
  - destruct stop, (f x) as [[|]| |] eqn:E; cbn [rbind negb] in *;
      first [ rewrite IHi; split; [intros H y [<-|Hy]; [exact E | apply H, Hy] | intros H y Hy; apply H; right; exact Hy]
            | split; [discriminate | intros H; specialize (H x (or_introl eq_refl)); congruence] ].
Qed.

Section AnyNum.
  Context {K : Type} {NK : Num K}.
  Notation V := (V3 K).

  (** ** never Panic: none of the model's panic sites is reachable from cut_hole *)
  Lemma np_contains_point (sg : Seg K) (p : V) : no_panic (seg_contains_point sg p).
  Proof.
    unfold seg_contains_point. apply np_bind; [apply is_collinear_no_panic|]. intros col.
    apply np_if; [apply np_ok|]. repeat (apply np_if; [apply np_ok|]). apply np_err.
  Qed.
  Lemma np_edge_cross (L : Loop K) (p d : V) (ray : Seg K) (a b : V) : no_panic (edge_cross_count L p d ray a b).
  Proof.
    unfold edge_cross_count. apply np_bind; [apply np_contains_point|]. intros on. apply np_if; [apply np_ok|].
    destruct (seg_get_intersection_pt _ _) as [[ta tb]|]; [|apply np_ok].
    apply np_if; [|apply np_ok]. apply np_if; [apply np_ok|]. apply np_if; apply np_ok.
  Qed.
  Lemma np_count_crossings (L : Loop K) (p d : V) (ray : Seg K) (vs : list V) : forall first acc, no_panic (count_crossings L p d ray vs first acc).
  Proof.
    induction vs as [|a tl IH]; intros first acc; cbn [count_crossings]; [apply np_ok|].
    apply np_bind; [apply np_edge_cross|]. intros r. apply np_if; [apply np_ok | apply IH].
  Qed.
  Lemma np_loop_test_point (L : Loop K) (p : V) : no_panic (loop_test_point L p).
  Proof.
    unfold loop_test_point. apply np_if; [apply np_err|]. apply np_bind; [apply coplanar_no_panic|]. intros cop.
    apply np_if; [apply np_ok|]. apply np_bind; [apply np_count_crossings|]. intros r. apply np_if; apply np_ok.
  Qed.
  Lemma np_in_any_hole (hs : list (Loop K)) (p : V) : no_panic (in_any_hole hs p).
  Proof. exact (proj1 (res_scan true (fun h => loop_test_point h p) (fun hs => in_any_hole hs p) eq_refl (fun _ _ => eq_refl) hs) (fun h => np_loop_test_point h p)). Qed.
  Lemma np_poly_test_point (P : Poly K) (p : V) : no_panic (poly_test_point P p).
  Proof.
    unfold poly_test_point. apply np_bind; [apply np_loop_test_point|]. intros o. apply np_if; [apply np_ok|].
    apply np_bind; [apply np_in_any_hole|]. intros h. apply np_ok.
  Qed.
  Lemma np_all_inside (P : Poly K) (vs : list V) : no_panic (all_inside P vs).
  Proof. exact (proj1 (res_scan false _ (all_inside P) eq_refl (fun _ _ => eq_refl) vs) (np_poly_test_point P)). Qed.
  Lemma np_any_inside_loop (h : Loop K) (vs : list V) : no_panic (any_inside_loop h vs).
  Proof. exact (proj1 (res_scan true _ (any_inside_loop h) eq_refl (fun _ _ => eq_refl) vs) (np_loop_test_point h)). Qed.
  Lemma np_encloses_any (hole : Loop K) (hs : list (Loop K)) : no_panic (encloses_any hole hs).
  Proof. exact (proj1 (res_scan true _ (encloses_any hole) eq_refl (fun _ _ => eq_refl) hs) (fun g => np_any_inside_loop hole (verts g))). Qed.
  Lemma np_loop_area (L : Loop K) : no_panic (loop_area L).
  Proof. unfold loop_area. apply np_if; [apply np_ok | apply np_err]. Qed.

  Theorem cut_hole_no_panic (P : Poly K) (h : Loop K) : forall s, poly_cut_hole P h <> Panic s.
  Proof.
    unfold poly_cut_hole. apply np_if; [apply np_err|]. apply np_bind; [apply np_all_inside|]. intros ins.
    apply np_if; [apply np_err|]. apply np_bind; [apply np_encloses_any|]. intros enc. apply np_if; [apply np_err|].
    apply np_bind; [apply np_loop_area|]. intros ha. apply np_ok.
  Qed.
  Theorem poly_new_no_panic (outer : Loop K) : forall s, poly_new outer <> Panic s.
  Proof. unfold poly_new. apply np_if; [apply np_err|]. apply np_bind; [apply np_loop_area|]. intros a. apply np_ok. Qed.
  Lemma poly_step_no_panic (P : Poly K) (h : Loop K) : no_panic (snd (poly_step P h)).
  Proof. apply (np_snd _ P (fun P' => (P', Ok tt))); [exact (cut_hole_no_panic P h)|]. intros P'. apply np_ok. Qed.
  Theorem poly_run_no_panic (hs : list (Loop K)) : forall (P : Poly K) s, ~ In (Panic s) (snd (poly_run P hs)).
  Proof. intros P s H. exact (run_gen_out poly_step (fun r => r <> Panic s) (fun P h => poly_step_no_panic P h s) hs P _ H eq_refl). Qed.

  (** ** a refused call leaves the polygon unchanged; an accepted one changes exactly area and hole list *)
  Theorem refused_unchanged (P : Poly K) (h : Loop K) : snd (poly_step P h) <> Ok tt -> fst (poly_step P h) = P.
  Proof. unfold poly_step. destruct (poly_cut_hole P h); cbn [fst snd]; intros H; [exfalso; apply H|..]; reflexivity. Qed.

  Theorem accepted_accounts (P P' : Poly K) (h : Loop K) : poly_cut_hole P h = Ok P' ->
    parea P' = parea P - larea h /\ pinner P' = pinner P ++ [h] /\ pouter P' = pouter P /\ pnormal P' = pnormal P /\ lclosed h = true.
  Proof.
    unfold poly_cut_hole. destruct (negb (vis_parallel _ _)); [discriminate|].
    destruct (all_inside P (verts h)) as [ins| |]; cbn [rbind]; try discriminate. destruct (negb ins); [discriminate|].
    destruct (encloses_any h (pinner P)) as [enc| |]; cbn [rbind]; try discriminate. destruct enc; [discriminate|].
    unfold loop_area. destruct (lclosed h); cbn [rbind]; [|discriminate]. intros E; inversion E; subst; cbn. repeat split; reflexivity.
  Qed.

  (** ** histories: after ANY list of candidate holes the area is the outer area minus the accepted
      holes' areas (the float / real expression the code computes, left to right) and the hole list is
      the list of accepted candidates *)
  Definition sub_areas (a : K) (hs : list (Loop K)) : K := fold_left (fun acc h => acc - larea h) hs a.
  Lemma step_cases (P : Poly K) (h : Loop K) :
    (exists P', poly_cut_hole P h = Ok P' /\ poly_step P h = (P', Ok tt)) \/ (is_ok (snd (poly_step P h)) = false /\ fst (poly_step P h) = P).
  Proof. unfold poly_step. destruct (poly_cut_hole P h) as [P'| |]; [left; exists P'; split; reflexivity | right; split; reflexivity ..]. Qed.
  Theorem history_accounting (hs : list (Loop K)) : forall P : Poly K,
    let r := poly_run P hs in
    parea (fst r) = sub_areas (parea P) (accepted_of hs (snd r)) /\
    pinner (fst r) = pinner P ++ accepted_of hs (snd r) /\
    pouter (fst r) = pouter P /\ pnormal (fst r) = pnormal P /\
    length (snd r) = length hs.
  Proof.
    induction hs as [|h hs IH]; intros P; cbn [poly_run].
    - cbn. rewrite app_nil_r. repeat split; reflexivity.
    - destruct (step_cases P h) as [[P' [Hc Hs]]|[Hn Hf]].
      + rewrite Hs. specialize (IH P'). cbn zeta in IH. destruct (poly_run P' hs) as [P'' os]. cbn [fst snd] in *.
        destruct (accepted_accounts _ _ _ Hc) as (Ha & Hi & Ho & Hnn & _). destruct IH as (I1 & I2 & I3 & I4 & I5).
        cbn [accepted_of is_ok]. unfold sub_areas in *. cbn [fold_left]. rewrite I1, I2, I3, I4, Ha, Hi, Ho, Hnn, <- app_assoc. cbn [app length]. rewrite I5. repeat split; reflexivity.
      + destruct (poly_step P h) as [P' o]. cbn [fst snd] in Hn, Hf. subst P'. specialize (IH P). cbn zeta in IH.
        destruct (poly_run P hs) as [P'' os]. cbn [fst snd] in *. cbn [accepted_of]. rewrite Hn. destruct IH as (I1 & I2 & I3 & I4 & I5).
        cbn [length]. rewrite I5. repeat split; assumption.
  Qed.
  Lemma length_accepted (hs : list (Loop K)) : forall os, length (accepted_of hs os) = length (filter (@is_ok unit) (firstn (length hs) os)).
  Proof.
    induction hs as [|h hs IH]; intros os; [reflexivity|]. destruct os as [|o os]; [reflexivity|]. cbn [accepted_of length firstn filter].
    destruct (is_ok o); cbn [length]; rewrite IH; reflexivity.
  Qed.
  (** starting from [Polygon3D::new]: area = outer area - accepted areas, number of holes = number of accepted calls *)
  Theorem history_from_new (outer : Loop K) (P : Poly K) (hs : list (Loop K)) : poly_new outer = Ok P ->
    let r := poly_run P hs in
    parea (fst r) = sub_areas (larea outer) (accepted_of hs (snd r)) /\
    pinner (fst r) = accepted_of hs (snd r) /\
    length (pinner (fst r)) = length (filter (@is_ok unit) (snd r)) /\
    pouter (fst r) = outer /\ pnormal (fst r) = lnormal outer.
  Proof.
    unfold poly_new. destruct (negb (lclosed outer)) eqn:Ec; [discriminate|]. unfold loop_area. destruct (lclosed outer); [|discriminate].
    cbn [rbind]. intros E; inversion E; subst P; clear E. cbn zeta.
    destruct (history_accounting hs (mkPoly outer [] (larea outer) (lnormal outer))) as (I1 & I2 & I3 & I4 & I5). cbn [parea pinner pouter pnormal app] in *.
    repeat split; try assumption. rewrite I2, length_accepted, <- I5, firstn_all. reflexivity.
  Qed.

  (** ** acceptance is exactly the conjunction of the four tests *)
  Lemma all_inside_true (P : Poly K) (vs : list V) : all_inside P vs = Ok true <-> (forall v, In v vs -> poly_test_point P v = Ok true).
  Proof. exact (proj2 (res_scan false _ (all_inside P) eq_refl (fun _ _ => eq_refl) vs)). Qed.
  Lemma any_inside_false (h : Loop K) (vs : list V) : any_inside_loop h vs = Ok false <-> (forall v, In v vs -> loop_test_point h v = Ok false).
  Proof. exact (proj2 (res_scan true _ (any_inside_loop h) eq_refl (fun _ _ => eq_refl) vs)). Qed.
  Lemma encloses_false (hole : Loop K) (hs : list (Loop K)) :
    encloses_any hole hs = Ok false <-> (forall g, In g hs -> forall w, In w (verts g) -> loop_test_point hole w = Ok false).
  Proof.
    rewrite (proj2 (res_scan true _ (encloses_any hole) eq_refl (fun _ _ => eq_refl) hs)).
    split; intros H g Hg; apply any_inside_false, H, Hg.
  Qed.

  Theorem acceptance (P : Poly K) (h : Loop K) :
    (exists P', poly_cut_hole P h = Ok P') <->
    vis_parallel (pnormal P) (lnormal h) = true /\
    (forall v, In v (verts h) -> poly_test_point P v = Ok true) /\
    (forall g, In g (pinner P) -> forall w, In w (verts g) -> loop_test_point h w = Ok false) /\
    lclosed h = true.
  Proof.
    rewrite <- all_inside_true, <- encloses_false. unfold poly_cut_hole.
    destruct (vis_parallel (pnormal P) (lnormal h)); cbn [negb]; [|split; [intros [P' E]; discriminate | intros [E _]; discriminate]].
    destruct (all_inside P (verts h)) as [ins| |]; cbn [rbind]; try (split; [intros [P' E]; discriminate | intros (_ & E & _); discriminate]).
    destruct ins; cbn [negb]; [|split; [intros [P' E]; discriminate | intros (_ & E & _); discriminate]].
    destruct (encloses_any h (pinner P)) as [enc| |]; cbn [rbind]; try (split; [intros [P' E]; discriminate | intros (_ & _ & E & _); discriminate]).
    destruct enc; [split; [intros [P' E]; discriminate | intros (_ & _ & E & _); discriminate]|].
    unfold loop_area. destruct (lclosed h); cbn [rbind]; [|split; [intros [P' E]; discriminate | intros (_ & _ & _ & E); discriminate]].
    split; [intros _; repeat split; reflexivity | intros _; eexists; reflexivity].
  Qed.
End AnyNum.
