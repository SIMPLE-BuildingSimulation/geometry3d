From Coq Require Import ZArith Reals Lra Bool List.
From G3 Require Import Model.Num Model.Base Model.Vec Model.BBox Model.Transform Model.Hit Theory.RInst Proofs.C06_transform.
From G3 Require Export Theory.VecR.
Local Open Scope R_scope.

Lemma vdot_self (a : V) : vdot a a = vlen2 a.
Proof. reflexivity. Qed.
Lemma vcross_anti (a b : V) : vcross a b = vneg (vcross b a).
Proof. exact (vcross_anticomm a b). Qed.

Lemma get_side_front (n d : V) : vdot n d < 0 -> get_side n d = (n, Front).
Proof. intros H. unfold get_side. rnumg. rewrite Rltb_lt by exact H. reflexivity. Qed.
Lemma get_side_back (n d : V) : 0 < vdot n d -> get_side n d = (vneg n, Back).
Proof. intros H. unfold get_side. rnumg. rewrite Rltb_ge, Rltb_lt, vscale_m1 by lra. reflexivity. Qed.
Lemma get_side_na (n d : V) : vdot n d = 0 -> get_side n d = (mkV3 0 0 0, NonApplicable).
Proof. intros H. unfold get_side. rnumg. rewrite H, !Rltb_ge by lra. reflexivity. Qed.
Lemma get_side_cases (n d : V) :
  (vdot n d < 0 /\ get_side n d = (n, Front)) \/ (vdot n d = 0 /\ get_side n d = (mkV3 0 0 0, NonApplicable)) \/
  (0 < vdot n d /\ get_side n d = (vneg n, Back)).
Proof.
  destruct (Rtotal_order (vdot n d) 0) as [L|[E|G]]; [left | right; left | right; right];
    auto using get_side_front, get_side_na, get_side_back.
Qed.
Lemma get_side_flips (n d1 d2 : V) : vdot n d1 < 0 -> 0 < vdot n d2 ->
  get_side n d1 = (n, Front) /\ get_side n d2 = (vneg n, Back).
Proof. auto using get_side_front, get_side_back. Qed.

Lemma get_side_parallel (n d : V) : exists s, fst (get_side n d) = vscale n s /\ (vdot n d <> 0 -> s = 1 \/ s = -1).
Proof.
  destruct (get_side_cases n d) as [(L & ->)|[(E & ->)|(G & ->)]]; [exists 1 | exists 0 | exists (-1)];
    (split; [cbn [fst]; vring | intros; auto; contradiction]).
Qed.
Lemma get_side_faces (n d : V) : vdot n d <> 0 -> vdot (fst (get_side n d)) d < 0.
Proof.
  intros H. destruct (get_side_cases n d) as [(L & ->)|[(E & ->)|(G & ->)]]; [exact L | contradiction |].
  cbn [fst]. rewrite vdot_neg_l. lra.
Qed.
Lemma get_side_len2 (n d : V) : vdot n d <> 0 -> vlen2 (fst (get_side n d)) = vlen2 n.
Proof.
  intros H. destruct (get_side_cases n d) as [(L & ->)|[(E & ->)|(G & ->)]]; [reflexivity | contradiction | apply vlen2_neg].
Qed.
Lemma get_side_perp (n d w : V) : vdot n w = 0 -> vdot (fst (get_side n d)) w = 0.
Proof.
  intros H. destruct (get_side_cases n d) as [(L & ->)|[(E & ->)|(G & ->)]]; cbn [fst];
    [exact H | vring | rewrite vdot_neg_l, H; ring].
Qed.
Lemma get_side_side (n d : V) :
  (snd (get_side n d) = Front <-> vdot n d < 0) /\ (snd (get_side n d) = Back <-> 0 < vdot n d).
Proof.
  destruct (get_side_cases n d) as [(L & ->)|[(E & ->)|(G & ->)]]; cbn [snd];
    repeat split; intros; (discriminate || lra || reflexivity).
Qed.

Lemma info_new_fields (ray : Ray R) (p du dv : V) :
  let i := info_new ray p du dv in
  ip i = p /\ idpdu i = du /\ idpdv i = dv /\
  inormal i = fst (get_side (vnormalize (vcross dv du)) (rdir ray)) /\
  iside i = snd (get_side (vnormalize (vcross dv du)) (rdir ray)).
Proof. cbv zeta. unfold info_new. destruct (get_side _ _). cbn. auto. Qed.
Lemma info_new_spec (ray : Ray R) (p dpdu dpdv : V) :
  let c := vcross dpdv dpdu in
  let i := info_new ray p dpdu dpdv in
  vlen2 c <> 0 -> vdot c (rdir ray) <> 0 ->
  ip i = p /\ idpdu i = dpdu /\ idpdv i = dpdv /\
  vdot (inormal i) dpdu = 0 /\ vdot (inormal i) dpdv = 0 /\ vlen2 (inormal i) = 1 /\
  vcross (inormal i) c = mkV3 0 0 0 /\ vdot (inormal i) (rdir ray) < 0 /\
  (iside i = Front <-> vdot c (rdir ray) < 0) /\ (iside i = Back <-> 0 < vdot c (rdir ray)).
Proof.
  intros c i Hc Hd. destruct (info_new_fields ray p dpdu dpdv) as (Ep & Eu & Ev & En & Es). fold c i in Ep, Eu, Ev, En, Es.
  rewrite Ep, Eu, Ev, En, Es. clear Ep Eu Ev En Es i.
  destruct (vnormalize_dot_sign c (rdir ray) Hc) as (S1 & S2 & S3).
  destruct (get_side_side (vnormalize c) (rdir ray)) as (F & B).
  destruct (get_side_parallel (vnormalize c) (rdir ray)) as (s & Ek & _).
  destruct (vcross_perp dpdv dpdu) as (Pv & Pu). fold c in Pv, Pu.
  repeat split; try tauto.
  - apply get_side_perp. rewrite vnormalize_dot, Pu. unfold Rdiv. ring.
  - apply get_side_perp. rewrite vnormalize_dot, Pv. unfold Rdiv. ring.
  - rewrite get_side_len2 by tauto. apply vnormalize_len2, Hc.
  - rewrite Ek, vnormalize_scale, !vcross_scale_l, vcross_self. vring.
  - apply get_side_faces. tauto.
Qed.

Definition rigid (t : T) : Prop := forall u v : V, vdot (tr_vec t u) (tr_vec t v) = vdot u v.

(** for a rigid linear part the inverse transpose is the matrix itself *)
Lemma rigid_normal_is_vec (t : T) (n : V) : Inv t -> rigid t -> tr_normal t n = tr_vec t n.
Proof.
  intros Hi Hr. apply vsub_zero_eq, vlen2_zero. set (w := vsub (tr_normal t n) (tr_vec t n)).
  rewrite vlen2_vdot. rewrite <- (vec_inv_vec t w Hi) at 2. unfold w at 1. rewrite vdot_vsub_l, normal_dot_vec, Hr by exact Hi. ring.
Qed.
Lemma rigid_normal_len (t : T) (n : V) : Inv t -> rigid t -> vlen2 (tr_normal t n) = vlen2 n.
Proof. intros Hi Hr. rewrite rigid_normal_is_vec by assumption. apply (Hr n n). Qed.

Lemma rigid_new : rigid tr_new.
Proof. intros u v. unfold tr_vec, tr_new. cbn [elements]. rewrite !vec_id. reflexivity. Qed.
Lemma rigid_translate x y z : rigid (tr_translate x y z).
Proof. intros u v. unf. ring. Qed.
Lemma rigid_rotate_x d : rigid (tr_rotate_x d).
Proof. intros u v. apply (rotations_rigid d u v). Qed.
Lemma rigid_rotate_y d : rigid (tr_rotate_y d).
Proof. intros u v. apply (rotations_rigid d u v). Qed.
Lemma rigid_rotate_z d : rigid (tr_rotate_z d).
Proof. intros u v. apply (rotations_rigid d u v). Qed.
Lemma rigid_mul_assign (a b : T) : Inv a -> Inv b -> rigid a -> rigid b -> rigid (tr_mul_assign a b).
Proof. intros Ha Hb Ra Rb u v. rewrite !mul_assign_acts_vec by assumption. rewrite Ra. apply Rb. Qed.

(** so the sign of "normal . direction" is the same in both spaces *)
Lemma normal_dot_world (t : T) (n dw : V) : vdot (tr_normal t n) dw = vdot n (tr_inv_vec t dw).
Proof. unfold tr_normal, tr_inv_vec. apply dot_transpose. Qed.

Lemma tr_normal_neg (t : T) (n : V) : tr_normal t (vneg n) = vneg (tr_normal t n).
Proof. apply v3_eq; unf; ring. Qed.

Lemma info_transform_spec (t : T) (i : Info R) (dw : V) : Inv t ->
  let i' := info_transform i t in
  ip i' = tr_pt t (ip i) /\ iside i' = iside i /\
  vdot (inormal i') (idpdu i') = vdot (inormal i) (idpdu i) /\
  vdot (inormal i') (idpdv i') = vdot (inormal i) (idpdv i) /\
  vdot (inormal i') dw = vdot (inormal i) (tr_inv_vec t dw) /\
  (rigid t -> vlen2 (inormal i') = vlen2 (inormal i)).
Proof.
  intros Hi. unfold info_transform. cbn [ip iside inormal idpdu idpdv].
  repeat split; try (apply normal_dot_vec; assumption).
  - apply normal_dot_world.
  - intros Hr. apply rigid_normal_len; assumption.
Qed.
