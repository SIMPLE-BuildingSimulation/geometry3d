(** * Mesh_wf (C09 b): well-formedness of the neighbour indices (the panic sites are in Mesh_sites.v).
    - [WF M]: every neighbour index stored in a slot is in range and is not the slot itself.  It is preserved by
      EVERY operation whatever its outcome (Ok, Err or Panic), hence by every history.
    Valid for every number instance. *)
From Coq Require Import ZArith Bool List Arith Lia.
From G3 Require Import Model.Num Model.Base Model.Vec Model.Segment Model.Triangle Model.Loop Model.Polygon Model.Triangulation Proofs.Mesh_base.
Import ListNotations.

Section WFSec.
  Context {K : Type} {NK : Num K}.
  Notation V := (V3 K).
  Notation TP := (TriPiece K).
  Notation Mesh := (Mesh K).

  Definition WFl (l : list TP) : Prop :=
    forall i t, nth_error l i = Some t -> forall e j, tp_neighbour t e = Some j -> j < length l /\ j <> i.
  Definition WF (M : Mesh) : Prop := WFl (tris M).
  Definition Rwf (M M' : Mesh) : Prop := length (tris M) <= length (tris M') /\ (WF M -> WF M').
  Lemma Rwf_refl M : Rwf M M. Proof. split; [lia | tauto]. Qed.
  Lemma Rwf_trans M1 M2 M3 : Rwf M1 M2 -> Rwf M2 M3 -> Rwf M1 M3.
  Proof. intros [H1 H2] [H3 H4]. split; [lia | tauto]. Qed.
  Notation PW := (Pres Rwf).
  Definition wf_bind {A B} := @pres_bind K Rwf Rwf_trans A B.
  Definition wf_state {A} := @pres_state K Rwf A.

  (** *** primitives *)
  Lemma WFl_upd (i : nat) (f : TP -> TP) (l : list TP) :
    (forall t e, tp_neighbour (f t) e = tp_neighbour t e) -> WFl l -> WFl (upd i f l).
  Proof.
    intros Hf W k t Hk e j Hn. rewrite upd_length. rewrite nth_error_upd in Hk. destruct (Nat.eqb i k).
    - destruct (nth_error l k) as [u|] eqn:Eu; [|discriminate]. inversion Hk; subst. rewrite Hf in Hn. eapply W; eassumption.
    - eapply W; eassumption.
  Qed.
  Lemma constrain_neighbours e' (t : TP) e : tp_neighbour (tp_constrain e' t) e = tp_neighbour t e.
  Proof. destruct e', e; reflexivity. Qed.
  Lemma invalidate_neighbours (t : TP) e : tp_neighbour (tp_invalidate t) e = tp_neighbour t e.
  Proof. destruct e; reflexivity. Qed.
  Lemma wf_mupd s i (f : TP -> TP) : (forall t e, tp_neighbour (f t) e = tp_neighbour t e) -> PW (mupd s i f).
  Proof.
    intros Hf M M' r H. unfold mupd in H. destruct (Nat.ltb i (length (tris M))); inversion H; subst; [|apply Rwf_refl].
    split; cbn [tris]; [rewrite upd_length; lia|]. intros W. unfold WF; cbn [tris]. apply WFl_upd; assumption.
  Qed.
  Lemma wf_constrain s i e : PW (mupd s i (tp_constrain e)).
  Proof. apply wf_mupd. apply constrain_neighbours. Qed.
  Lemma wf_invalidate i : PW (mesh_invalidate (K:=K) i).
  Proof.
    intros M M' r H. destruct (invalidate_inv _ _ _ _ H) as [(_ & -> & _) | (_ & E & _)]; [apply Rwf_refl|].
    split; [rewrite E, upd_length; lia|]. intros W. unfold WF. rewrite E. apply WFl_upd; [apply invalidate_neighbours | exact W].
  Qed.

  Lemma tp_new_neighbours (a b c : V) (n : nat) (t : TP) : tp_new a b c n = Ok t -> forall e, tp_neighbour t e = None.
  Proof. unfold tp_new. destruct (tri_new a b c); cbn [rbind]; try discriminate. intros H; inversion H; subst. intros []; reflexivity. Qed.
  Lemma wf_push (a b c : V) (la : nat) : PW (mesh_push a b c la).
  Proof.
    intros M M' r H. destruct (push_inv _ _ _ _ _ _ _ H) as (n & [[-> _] | (t & _ & -> & _ & Hs)]); [apply Rwf_refl|].
    assert (L : length (tris M) <= length (tris M'))
      by (destruct Hs as [(_ & _ & _ & ->) | (_ & ->)]; [rewrite set_nth_length | rewrite app_length]; lia).
    split; [exact L|]. intros W k u Hk e j Hn. destruct (push_ok_nth _ _ _ _ _ _ _ H) as (t' & Et & En & _ & Ho).
    destruct (Nat.eq_dec k n) as [->|Hkn].
    - rewrite En in Hk. inversion Hk; subst. rewrite (tp_new_neighbours _ _ _ _ _ Et) in Hn. discriminate.
    - rewrite (Ho k Hkn) in Hk. destruct (W k u Hk e j Hn). split; [lia | assumption].
  Qed.

  Lemma set_neighbour_neighbours e' i' (t : TP) e j :
    tp_neighbour (tp_set_neighbour e' i' t) e = Some j -> j = i' \/ tp_neighbour t e = Some j.
  Proof. destruct e', e; cbn; intros H; try (right; exact H); left; inversion H; reflexivity. Qed.
  Lemma WFl_set_neighbour (i i' : nat) (e' : Edge) (l : list TP) :
    i' < length l -> i' <> i -> WFl l -> WFl (upd i (tp_set_neighbour e' i') l).
  Proof.
    intros Hlt Hne W k t Hk e j Hn. rewrite upd_length. rewrite nth_error_upd in Hk. destruct (Nat.eqb_spec i k).
    - subst k. destruct (nth_error l i) as [u|] eqn:Eu; [|discriminate]. inversion Hk; subst.
      apply set_neighbour_neighbours in Hn. destruct Hn as [->|Hn]; [split; assumption | eapply W; eassumption].
    - eapply W; eassumption.
  Qed.
  Lemma wf_mark (i1 : nat) (e1 : Edge) (i2 : nat) : PW (mark_as_neighbours (K:=K) i1 e1 i2).
  Proof.
    intros M M' r H.
    destruct (mark_inv _ _ _ _ _ _ H) as [(-> & _) | (t1 & t2 & sg & k & e2 & Hne & E1 & _ & E2 & _ & _ & _ & _ & _ & ET & _)]; [apply Rwf_refl|].
    assert (L1 : i1 < length (tris M)) by (apply nth_error_Some; congruence).
    assert (L2 : i2 < length (tris M)) by (apply nth_error_Some; congruence).
    split; [rewrite ET, !upd_length; lia|]. intros W. unfold WF. rewrite ET.
    apply WFl_set_neighbour; [rewrite upd_length; exact L1 | auto |]. apply WFl_set_neighbour; [exact L2 | auto | exact W].
  Qed.

  (** *** the composed operations *)
  Lemma wf_stable : Stable Rwf.
  Proof. constructor; [exact Rwf_refl | exact Rwf_trans | exact wf_mark | exact wf_constrain | exact wf_invalidate | exact wf_push]. Qed.
  Definition wf_flip := pres_flip Rwf wf_stable.
  Definition wf_split_edge := pres_split_edge Rwf wf_stable.
  Definition wf_split_triangle := pres_split_triangle Rwf wf_stable.
  Definition wf_restore := pres_restore Rwf wf_stable.
  Definition wf_aptt := pres_aptt Rwf wf_stable.
  Definition wf_add_point := pres_add_point Rwf wf_stable.
  Definition wf_refine_pass := pres_refine_pass Rwf wf_stable.
  Definition wf_refine := pres_refine Rwf wf_stable.

  (** every history keeps the neighbour indices well formed, whatever the outcomes of its steps *)
  Theorem wf_run (ops : list (mop K)) : forall M, WF M -> WF (fst (mesh_run M ops)).
  Proof.
    induction ops as [|op ops IH]; intros M W; cbn [mesh_run]; [exact W|].
    destruct (mesh_step op M) as [M1 o] eqn:E1. pose proof (pres_mesh_step Rwf wf_stable op M M1 o E1) as [_ G].
    specialize (IH M1 (G W)). destruct (mesh_run M1 ops) as [M2 os]. exact IH.
  Qed.
  Lemma WF_new : WF (mesh_new (K:=K)).
  Proof. intros i t H. destruct i; discriminate. Qed.
End WFSec.
