(** * Bridge32_C16: (S) and (M) of C16 at binary32, transferred to the EXECUTED f32 instance.
    The four [*_with_error] / [*_propagate_error] functions of Model/Transform.v on [NumF32] (= [NumF32fast]) return the
    embedding of what they return on the Flocq instance [NumB32] ([Bridge32_model.f32_pt_with_error] ...), so on
    binary32-valued entries [to_b32] is a reading map in the sense of [Bridge_C16.read_S_vec] ...: (S) and (M) at
    (24,128) (u = 2^-24, gamma from binary32's EPSILON) hold of the executed run read back through [to_b32].
    [tV tM] = [to_b32] over vectors / matrices, [is32V v] / [is32M m]: every entry is a binary32-valued float. *)
From Coq Require Import ZArith Reals Bool Floats Lia.
From Flocq Require Import Core BinarySingleNaN.
From G3 Require Import Model.Num Model.NumF Model.NumF32 Model.Base Model.Vec Model.BBox Model.Transform Run.FastNum32 Run.FastNum32Proof.
From G3 Require Import Theory.PrimBridge Theory.F32Bridge Proofs.Bridge_model Proofs.Bridge32_model.
From G3 Require Import Proofs.C16_errbound Proofs.Bridge_C16.
Local Open Scope R_scope.

Definition is32M (m : M4 prim) : Prop := oM (tM m) = m.
Lemma is32M_oM (m : M4 b32) : is32M (oM m).
Proof. unfold is32M. rewrite tM_oM. reflexivity. Qed.
Lemma is32M_entries (m : M4 prim) :
  is32 (m00 m) -> is32 (m01 m) -> is32 (m02 m) -> is32 (m03 m) -> is32 (m10 m) -> is32 (m11 m) -> is32 (m12 m) -> is32 (m13 m) ->
  is32 (m20 m) -> is32 (m21 m) -> is32 (m22 m) -> is32 (m23 m) -> is32 (m30 m) -> is32 (m31 m) -> is32 (m32 m) -> is32 (m33 m) ->
  is32M m.
Proof. exact (mapM4_inv of_b32 to_b32 m). Qed.
Lemma Hp8_24 : (8 <= 24)%Z. Proof. lia. Qed.

(** ** the executed run, read back as binary32, is the Flocq binary32 run *)
Theorem f32_pt_with_error_is32 (m : M4 prim) (p : V3 prim) : is32M m -> is32V p ->
  mapP tV tV (@pt_with_error _ NumF32 m p) = @pt_with_error _ NumB32 (tM m) (tV p).
Proof. intros Hm Hp. rewrite <- f32_pt_with_error. rewrite Hm, (oV_tV p Hp). reflexivity. Qed.
Theorem f32_vec_with_error_is32 (m : M4 prim) (v : V3 prim) : is32M m -> is32V v ->
  mapP tV tV (@vec_with_error _ NumF32 m v) = @vec_with_error _ NumB32 (tM m) (tV v).
Proof. intros Hm Hv. rewrite <- f32_vec_with_error. rewrite Hm, (oV_tV v Hv). reflexivity. Qed.
Theorem f32_pt_propagate_error_is32 (m : M4 prim) (p e : V3 prim) : is32M m -> is32V p -> is32V e ->
  mapP tV tV (@pt_propagate_error _ NumF32 m p e) = @pt_propagate_error _ NumB32 (tM m) (tV p) (tV e).
Proof. intros Hm Hp He. rewrite <- f32_pt_propagate_error. rewrite Hm, (oV_tV p Hp), (oV_tV e He). reflexivity. Qed.
Theorem f32_vec_propagate_error_is32 (m : M4 prim) (v e : V3 prim) : is32M m -> is32V v -> is32V e ->
  mapP tV tV (@vec_propagate_error _ NumF32 m v e) = @vec_propagate_error _ NumB32 (tM m) (tV v) (tV e).
Proof. intros Hm Hv He. rewrite <- f32_vec_propagate_error. rewrite Hm, (oV_tV v Hv), (oV_tV e He). reflexivity. Qed.

(** ** non-vacuity on the f32 instance: scale (2,3,1) then translate (1,-2,4); point (1,2,3); input error box 1/2 *)
Local Open Scope float_scope.
Definition w32_m : M4 prim := mkM4 2 0 0 1  0 3 0 (-2)  0 0 1 4  0 0 0 1.
Definition w32_p : V3 prim := mkV3 1 2 3.
Definition w32_e : V3 prim := mkV3 0.5 0.5 0.5.
Local Close Scope float_scope.

Lemma f32_C16_nonvacuous :
  is32M w32_m /\ is32V w32_p /\ is32V w32_e /\
  fin3 24 128 (tV (snd (@pt_with_error _ NumF32 w32_m w32_p))) /\ fin3 24 128 (tV (snd (@vec_with_error _ NumF32 w32_m w32_p))) /\
  fin3 24 128 (tV (snd (@pt_propagate_error _ NumF32 w32_m w32_p w32_e))) /\
  fin3 24 128 (tV (snd (@vec_propagate_error _ NumF32 w32_m w32_p w32_e))) /\
  @pt_with_error _ NumF32fast w32_m w32_p = @pt_with_error _ NumF32 w32_m w32_p.
Proof.
  split; [apply is32M_entries; apply is32_by_bits; vm_compute; reflexivity|].
  split; [repeat split; apply is32_by_bits; vm_compute; reflexivity|].
  split; [repeat split; apply is32_by_bits; vm_compute; reflexivity|].
  split; [unfold fin3; repeat split; vm_compute; reflexivity|].
  split; [unfold fin3; repeat split; vm_compute; reflexivity|].
  split; [unfold fin3; repeat split; vm_compute; reflexivity|].
  split; [unfold fin3; repeat split; vm_compute; reflexivity|].
  rewrite NumF32fast_eq. reflexivity.
Qed.
