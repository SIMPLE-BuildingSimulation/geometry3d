(** * C04 proofs: the states that histories of push/close could reach BEFORE the fix of push/close
    ([loop_push_pre], [loop_close_pre], [loop_run_pre] of Model/Loop.v, the code that the witnesses of
    Properties/C04_reach.v run on).
    For every number instance: the exact effect of an accepted [push] and of [close] on the state,
    and the invariant [Reach_inv] of all states reachable from [loop_new], by induction over operation lists.
    Over the reals: interior corners stay genuine (non-zero cross product) as long as every collinear
    REPLACEMENT performed by [push] was an exact one. *)
From Coq Require Import ZArith Bool List Arith Lia.
From G3 Require Import Model.Num Model.Base Model.Vec Model.Segment Model.Loop Proofs.C04_loop.
Import ListNotations.

Lemma nth_firstn_lt {A : Type} (l : list A) (d : A) : forall i j, i < j -> nth i (firstn j l) d = nth i l d.
Proof. induction l as [|a l IH]; intros i j H; [rewrite firstn_nil; reflexivity|]. destruct j; [lia|]. destruct i; [reflexivity|]. cbn. apply IH. lia. Qed.

Section AnyNum.
  Context {K : Type} {NK : Num K}.
  Notation V := (V3 K).

  Definition tail_pre (vs : list V) (p : V) : res (list V) :=
    do col <- is_collinear (vnth vs (length vs - 2)) (vnth vs (length vs - 1)) p;
    Ok (if col then replace_last vs p else vs ++ [p]).
  Lemma loop_push_pre_eq (L : Loop K) (p : V) : loop_push_pre L p = push_with tail_pre false L p.
  Proof. reflexivity. Qed.

  Theorem push_on_closed_refused_pre (L : Loop K) (p : V) : lclosed L = true -> loop_push_pre L p = Err 30%N.
  Proof. intros H. unfold loop_push_pre, loop_push_gen, loop_push_gen2, valid_to_add. rewrite H. reflexivity. Qed.

  Definition accepts_pre (L : Loop K) (p : V) : bool :=
    negb (lclosed L) &&
    (if negb (vis_zero (lnormal L)) then match loop_is_coplanar L p with Ok b => b | _ => false end else true) &&
    (if Nat.leb 3 (llen L) then negb (crosses_any (seg_new (vnth (verts L) (llen L - 1)) p) (verts L) (llen L - 2)) else true) &&
    (if Nat.leb 2 (llen L) then vcompare (vnth (verts L) (llen L - 2)) p ||
                                is_ok (is_collinear (vnth (verts L) (llen L - 2)) (vnth (verts L) (llen L - 1)) p) else true).
  Theorem push_accepts_pre (L : Loop K) (p : V) : is_ok (loop_push_pre L p) = accepts_pre L p.
  Proof.
    rewrite loop_push_pre_eq, push_with_accepts, is_ok_valid_to_add. unfold accepts_pre, tail_pre. fold (llen L).
    destruct (is_collinear _ _ p); reflexivity.
  Qed.

  Theorem close_ok_invariants_pre (L : Loop K) : snd (loop_close_pre L) = Ok tt ->
    let L' := fst (loop_close_pre L) in lclosed L' = true /\ 3 <= llen L'.
  Proof.
    unfold loop_close_pre. destruct (Nat.ltb (llen L) 3); [discriminate|].
    destruct (is_collinear _ _ _) as [c1| |]; try discriminate. destruct (valid_to_add _ _) as [u| |]; try discriminate.
    destruct (is_collinear _ _ _) as [c2| |]; try discriminate. apply close_finish_ok.
  Qed.

  (** the normal that [set_normal] computes from the first corner of a vertex list *)
  Definition tri_normal (vs : list V) : V :=
    match vs with a :: b :: c :: _ => vnormalize (vcross (vsub b a) (vsub c b)) | _ => vzero end.

  (** ** windows of two / three consecutive vertices, read on the REVERSED list (push works at the end) *)
  Fixpoint radj (r : list V) : Prop :=
    match r with
    | b :: tl => match tl with a :: _ => vcompare a b = false | [] => True end /\ radj tl
    | [] => True
    end.
  Fixpoint rwin3 (P : V -> V -> V -> Prop) (r : list V) : Prop :=
    match r with
    | c :: tl => match tl with b :: a :: _ => P a b c | _ => True end /\ rwin3 P tl
    | [] => True
    end.
  Definition adj_distinct (vs : list V) : Prop := radj (rev vs).
  Definition corners (P : V -> V -> V -> Prop) (vs : list V) : Prop := rwin3 P (rev vs).

  Lemma radj_tl x r : radj (x :: r) -> radj r.
  Proof. cbn [radj]. tauto. Qed.
  Lemma rwin3_tl P x r : rwin3 P (x :: r) -> rwin3 P r.
  Proof. cbn [rwin3]. tauto. Qed.
  Lemma radj_removelast r : radj r -> radj (removelast r).
  Proof.
    induction r as [|b r IH]; [trivial|]. destruct r as [|a r]; [intros _; exact I|].
    destruct r as [|z r].
    - intros _. cbn. auto.
    - intros (H1 & H2). specialize (IH H2). change (removelast (b :: a :: z :: r)) with (b :: removelast (a :: z :: r)).
      change (removelast (a :: z :: r)) with (a :: removelast (z :: r)) in *. split; [exact H1 | exact IH].
  Qed.
  Lemma rwin3_removelast P r : rwin3 P r -> rwin3 P (removelast r).
  Proof.
    induction r as [|c r IH]; [trivial|]. destruct r as [|b r]; [intros _; exact I|].
    destruct r as [|a r]; [intros _; cbn; auto|]. destruct r as [|z r].
    - intros _. cbn. auto.
    - intros (H1 & H2). specialize (IH H2). change (removelast (c :: b :: a :: z :: r)) with (c :: removelast (b :: a :: z :: r)).
      change (removelast (b :: a :: z :: r)) with (b :: a :: removelast (z :: r)) in *. split; [exact H1 | exact IH].
  Qed.

  Lemma rev_removelast (vs : list V) : rev (removelast vs) = tl (rev vs).
  Proof.
    destruct vs as [|x vs]; [reflexivity|]. destruct (@exists_last _ (x :: vs)) as (l & y & E); [discriminate|].
    rewrite E, removelast_last, rev_app_distr. reflexivity.
  Qed.
  Lemma rev_tl (vs : list V) : rev (tl vs) = removelast (rev vs).
  Proof. destruct vs as [|x vs]; [reflexivity|]. cbn [tl rev]. rewrite removelast_last. reflexivity. Qed.
  Lemma rev_snoc (vs : list V) p : rev (vs ++ [p]) = p :: rev vs.
  Proof. rewrite rev_app_distr. reflexivity. Qed.
  Lemma rev_replace_last (vs : list V) p : rev (replace_last vs p) = p :: tl (rev vs).
  Proof. unfold replace_last. rewrite rev_snoc, rev_removelast. reflexivity. Qed.
  Lemma rev_last_two (vs : list V) : 2 <= length vs ->
    exists r, rev vs = vnth vs (length vs - 1) :: vnth vs (length vs - 2) :: r.
  Proof.
    intros Hn. pose proof (rev_nth vs vzero (n := 0) ltac:(lia)) as E0. pose proof (rev_nth vs vzero (n := 1) ltac:(lia)) as E1.
    rewrite <- (rev_length vs) in Hn. destruct (rev vs) as [|x [|y r]]; cbn [length] in Hn; try lia.
    exists r. unfold vnth. rewrite <- E0, <- E1. reflexivity.
  Qed.
  Lemma rev_len3 (vs : list V) x y r : rev vs = x :: y :: r -> length vs = S (S (length r)).
  Proof. intros E. rewrite <- (rev_length vs), E. reflexivity. Qed.

  Lemma tri_normal_snoc (vs : list V) p : 3 <= length vs -> tri_normal (vs ++ [p]) = tri_normal vs.
  Proof. destruct vs as [|x [|y [|z t]]]; cbn [length]; try lia. reflexivity. Qed.
  Lemma tri_normal_removelast (vs : list V) : 4 <= length vs -> tri_normal (removelast vs) = tri_normal vs.
  Proof. destruct vs as [|x [|y [|z [|w t]]]]; cbn [length]; try lia. reflexivity. Qed.
  Lemma tri_normal_replace_last (vs : list V) p : 4 <= length vs -> tri_normal (replace_last vs p) = tri_normal vs.
  Proof. destruct vs as [|x [|y [|z [|w t]]]]; cbn [length]; try lia. reflexivity. Qed.
  Lemma length_replace_last (vs : list V) p : 1 <= length vs -> length (replace_last vs p) = length vs.
  Proof.
    intros H. rewrite <- (rev_length (replace_last vs p)), rev_replace_last, <- (rev_length vs).
    destruct (rev vs) eqn:E; [|reflexivity]. apply (f_equal (@length _)) in E. rewrite rev_length in E. cbn in E. lia.
  Qed.
  Lemma length_removelast (vs : list V) : length (removelast vs) = length vs - 1.
  Proof. rewrite <- (rev_length (removelast vs)), rev_removelast, <- (rev_length vs). destruct (rev vs); cbn; lia. Qed.
  Lemma length_tl (vs : list V) : length (tl vs) = length vs - 1.
  Proof. destruct vs; cbn; lia. Qed.

  Inductive push_shape (vs : list V) (p : V) (vs' : list V) : Prop :=
  | PS_first : length vs < 2 -> vs' = vs ++ [p] -> push_shape vs p vs'
  | PS_pop (r : list V) (a b : V) : rev vs = b :: a :: r -> vcompare a p = true ->
      vs' = removelast vs -> push_shape vs p vs'
  | PS_replace (r : list V) (a b : V) : rev vs = b :: a :: r -> vcompare a p = false -> is_collinear a b p = Ok true ->
      vs' = replace_last vs p -> push_shape vs p vs'
  | PS_append (r : list V) (a b : V) : rev vs = b :: a :: r -> vcompare a p = false -> is_collinear a b p = Ok false ->
      vs' = vs ++ [p] -> push_shape vs p vs'.

  Lemma push_verts_with_cases tail (vs : list V) (p : V) (vs' : list V) : push_verts_with tail vs p = Ok vs' ->
    (length vs < 2 /\ vs' = vs ++ [p]) \/
    exists r, rev vs = vnth vs (length vs - 1) :: vnth vs (length vs - 2) :: r /\
      (vcompare (vnth vs (length vs - 2)) p = true /\ vs' = removelast vs \/
       vcompare (vnth vs (length vs - 2)) p = false /\ tail vs p = Ok vs').
  Proof.
    unfold push_verts_with. destruct (Nat.leb_spec 2 (length vs)) as [H|H]; intros E; [|injection E as <-; auto].
    destruct (rev_last_two _ H) as (r & Er). right. exists r. split; [exact Er|].
    destruct (vcompare _ p); [injection E as <-|]; auto.
  Qed.

  Theorem push_ok_effect (L L' : Loop K) (p : V) : loop_push_pre L p = Ok L' ->
    lclosed L = false /\ push_shape (verts L) p (verts L') /\
    L' = mkLoop (verts L') (if Nat.eqb (llen L') 3 then tri_normal (verts L') else lnormal L) false (larea L) (lperim L).
  Proof.
    rewrite loop_push_pre_eq. intros H. destruct (push_with_ok _ _ _ _ _ H) as (Hc & Hv & HL). split; [exact Hc|]. split; [|exact HL].
    destruct (push_verts_with_cases _ _ _ _ Hv) as [(Hl & E)|(r & Er & [(Hcmp & E)|(Hcmp & E)])].
    - exact (PS_first _ _ _ Hl E).
    - exact (PS_pop _ _ _ _ _ _ Er Hcmp E).
    - unfold tail_pre in E. destruct (is_collinear _ _ p) as [[|]| |] eqn:Ecol; try discriminate; injection E as E; symmetry in E.
      + exact (PS_replace _ _ _ _ _ _ Er Hcmp Ecol E).
      + exact (PS_append _ _ _ _ _ _ Er Hcmp Ecol E).
  Qed.

  Corollary push_len_normal (L L' : Loop K) (p : V) : loop_push_pre L p = Ok L' ->
    (llen L' = llen L - 1 \/ llen L' = llen L \/ llen L' = S (llen L)) /\ (lnormal L' = lnormal L \/ llen L' = 3).
  Proof.
    intros H. destruct (push_ok_effect _ _ _ H) as (_ & Hs & HL). split.
    - unfold llen. destruct Hs as [Hl ->| r a b Er _ ->| r a b Er _ _ ->| r a b Er _ _ ->].
      + right; right. rewrite app_length. cbn. lia.
      + left. apply length_removelast.
      + right; left. apply length_replace_last. apply rev_len3 in Er. lia.
      + right; right. rewrite app_length. cbn. lia.
    - apply (f_equal (@lnormal K)) in HL. cbn [lnormal] in HL. rewrite HL.
      destruct (Nat.eqb (llen L') 3) eqn:E; [right; apply Nat.eqb_eq; exact E | left; reflexivity].
  Qed.

  Lemma crosses_any_false (e : Seg K) (vs : list V) (count : nat) :
    crosses_any e vs count = false <->
    (forall i, i < count -> S i < length vs -> seg_intersect e (seg_new (vnth vs i) (vnth vs (S i))) = None).
  Proof.
    revert vs. induction count as [|c IH]; intros vs.
    - split; [intros _ i Hi; lia | intros _; destruct vs; reflexivity].
    - destruct vs as [|v [|v1 tl]].
      + cbn. split; [intros _ i _ Hi; lia | reflexivity].
      + cbn. split; [intros _ i _ Hi; lia | reflexivity].
      + cbn [crosses_any]. destruct (seg_intersect e (seg_new v v1)) eqn:E.
        * split; [discriminate|]. intros H. specialize (H 0 ltac:(lia) ltac:(cbn; lia)). unfold vnth in H. cbn [nth] in H. congruence.
        * rewrite (IH (v1 :: tl)). split.
          -- intros H i Hi Hl. destruct i as [|i]; [exact E|]. apply (H i); [lia | cbn [length] in *; lia].
          -- intros H i Hi Hl. apply (H (S i)); [lia | cbn [length] in *; lia].
  Qed.

  (** an APPENDED vertex (not a replacement, not a spike pop) passed both tests of the library at that moment:
      the corner at the previous vertex is not collinear, and the new edge intersects none of the edges 0 .. n-3 *)
  Theorem push_append_checked (L L' : Loop K) (p : V) : loop_push_pre L p = Ok L' -> verts L' = verts L ++ [p] -> 2 <= llen L ->
    is_collinear (vnth (verts L) (llen L - 2)) (vnth (verts L) (llen L - 1)) p = Ok false /\
    (3 <= llen L -> forall i, i < llen L - 2 ->
       seg_intersect (seg_new (vnth (verts L) (llen L - 1)) p) (seg_new (vnth (verts L) i) (vnth (verts L) (S i))) = None).
  Proof.
    intros H Hv Hn. split.
    - destruct (push_ok_effect _ _ _ H) as (_ & Hs & _). unfold llen in *.
      destruct (rev_last_two _ Hn) as (r0 & Er0).
      assert (Hlen : forall l : list V, l = verts L ++ [p] -> length l = S (length (verts L))) by (intros l ->; rewrite app_length; cbn; lia).
      destruct Hs as [Hl _| r a b Er _ E| r a b Er _ _ E| r a b Er _ Hc _].
      + lia.
      + rewrite Hv in E. apply (f_equal (@length _)) in E. rewrite length_removelast, app_length in E. cbn in E. lia.
      + rewrite Hv in E. apply (f_equal (@rev _)) in E. rewrite rev_snoc, rev_replace_last, Er in E. cbn [tl] in E.
        inversion E. apply (f_equal (@length _)) in H2. cbn in H2. lia.
      + rewrite Er in Er0. inversion Er0. subst. exact Hc.
    - intros H3 i Hi. pose proof (push_accepts_pre L p) as Ha. rewrite H in Ha. cbn [is_ok] in Ha. symmetry in Ha.
      unfold accepts_pre in Ha. apply andb_prop in Ha. destruct Ha as (Ha & _). apply andb_prop in Ha. destruct Ha as (_ & Ha).
      apply Nat.leb_le in H3. rewrite H3 in Ha. apply negb_true_iff in Ha.
      apply (proj1 (crosses_any_false _ _ _) Ha i Hi). apply Nat.leb_le in H3. unfold llen in *. lia.
  Qed.

  (** the three ways [close] can end:
      (1) nothing changed (an error);
      (2) an error after the last vertex was popped (it tested collinear with its cyclic neighbours): only the vertex list changed;
      (3) the closed flag was set: the outcome is Ok, or the error 33 / 36 of set_area / set_perimeter (the flag stays set);
          the vertex list is the old one minus (last if test 1) minus (first if test 2). *)
  Definition close_test1 (L : Loop K) := is_collinear (vnth (verts L) (llen L - 2)) (vnth (verts L) (llen L - 1)) (vnth (verts L) 0).
  Definition close_test2 (vs1 : list V) := is_collinear (vnth vs1 (length vs1 - 1)) (vnth vs1 0) (vnth vs1 1).
  Theorem close_effect (L : Loop K) :
    let L' := fst (loop_close_pre L) in let o := snd (loop_close_pre L) in
    (L' = L /\ o <> Ok tt) \/
    (3 <= llen L /\ close_test1 L = Ok true /\ L' = set_verts L (removelast (verts L)) /\ o <> Ok tt) \/
    (3 <= llen L /\ lclosed L = false /\ lclosed L' = true /\ (o = Ok tt \/ o = Err 33%N \/ o = Err 36%N) /\
     exists c1 c2, close_test1 L = Ok c1 /\
       let vs1 := if c1 then removelast (verts L) else verts L in
       close_test2 vs1 = Ok c2 /\ verts L' = (if c2 then tl vs1 else vs1)).
  Proof.
    cbv zeta. unfold loop_close_pre, close_test1, close_test2.
    destruct (Nat.ltb (llen L) 3) eqn:E3; [left; split; [reflexivity | discriminate]|]. apply Nat.ltb_ge in E3.
    destruct (is_collinear _ _ _) as [c1| |] eqn:E1; [|left; split; [reflexivity | discriminate] ..].
    set (L1 := if c1 then set_verts L (removelast (verts L)) else L).
    assert (Hv1 : verts L1 = if c1 then removelast (verts L) else verts L) by (subst L1; destruct c1; reflexivity).
    assert (Hcl1 : lclosed L1 = lclosed L) by (subst L1; destruct c1; reflexivity).
    assert (Hfail : forall o, o <> Ok tt -> (L1 = L /\ o <> Ok tt) \/
        (3 <= llen L /\ Ok c1 = Ok true /\ L1 = set_verts L (removelast (verts L)) /\ o <> Ok tt)).
    { intros o Ho. subst L1. destruct c1; [right; auto | left; auto]. }
    destruct (valid_to_add L1 _) as [u| |] eqn:Ev; cbn [fst snd].
    2,3: apply -> or_assoc; left; apply Hfail; discriminate.
    pose proof (valid_to_add_open _ _ _ Ev) as Hopen.
    destruct (is_collinear (vnth (verts L1) (llen L1 - 1)) (vnth (verts L1) 0) (vnth (verts L1) 1)) as [c2| |] eqn:Ec2; cbn [fst snd].
    all: unfold llen in Ec2; rewrite Hv1 in Ec2.
    2,3: apply -> or_assoc; left; apply Hfail; discriminate.
    set (L2 := if c2 then set_verts L1 (tl (verts L1)) else L1).
    destruct (close_finish_cases L2) as (Hv & Hc & Ho). right; right.
    split; [exact E3|]. split; [congruence|]. split; [exact Hc|].
    split; [destruct Ho as [(Ho & _)|[Ho|Ho]]; [left | right; left | right; right]; exact Ho|].
    exists c1, c2. split; [reflexivity|]. split; [exact Ec2|]. rewrite <- Hv1. etransitivity; [exact Hv|]. subst L2. destruct c2; reflexivity.
  Qed.

  Lemma corners_removelast P (vs : list V) : corners P vs -> corners P (removelast vs).
  Proof. unfold corners. rewrite rev_removelast. destruct (rev vs); [trivial|]. apply rwin3_tl. Qed.
  Lemma corners_tl P (vs : list V) : corners P vs -> corners P (tl vs).
  Proof. unfold corners. rewrite rev_tl. apply rwin3_removelast. Qed.
  Lemma corners_snoc P (vs : list V) p : corners P vs ->
    (2 <= length vs -> P (vnth vs (length vs - 2)) (vnth vs (length vs - 1)) p) -> corners P (vs ++ [p]).
  Proof.
    unfold corners. rewrite rev_snoc. intros H Hp. split; [|exact H]. destruct (Nat.leb_spec 2 (length vs)) as [G|G].
    - destruct (rev_last_two _ G) as (r & ->). exact (Hp G).
    - rewrite <- rev_length in G. destruct (rev vs) as [|x [|y t]]; cbn [length] in G; try lia; exact I.
  Qed.
  Lemma corners_close P (L : Loop K) : corners P (verts L) -> corners P (verts (fst (loop_close_pre L))).
  Proof.
    intros HI. destruct (close_effect L) as [(-> & _)|[(_ & _ & -> & _)|(_ & _ & _ & _ & c1 & c2 & _ & _ & ->)]].
    - exact HI.
    - apply corners_removelast, HI.
    - destruct c2; [apply corners_tl|]; (destruct c1; [apply corners_removelast|]; exact HI).
  Qed.

  Lemma rwin3_nth_rev P (r : list V) : rwin3 P r ->
    forall j, S (S j) < length r -> P (vnth r (S (S j))) (vnth r (S j)) (vnth r j).
  Proof.
    induction r as [|c r IH]; intros H j Hj; [cbn in Hj; lia|]. destruct H as (H1 & H2). destruct j as [|j].
    - destruct r as [|b [|a r]]; cbn in Hj; try lia. exact H1.
    - apply (IH H2 j). cbn [length] in Hj. lia.
  Qed.
  Lemma rwin3_nth (P : V -> V -> V -> Prop) (vs : list V) : rwin3 P (rev vs) ->
    forall i, (S (S i) < length vs)%nat -> P (vnth vs i) (vnth vs (S i)) (vnth vs (S (S i))).
  Proof.
    intros H i Hi. pose proof (rwin3_nth_rev P _ H (length vs - 3 - i)) as G. rewrite rev_length in G. unfold vnth in *.
    rewrite !rev_nth in G by lia.
    replace (length vs - S (S (S (length vs - 3 - i)))) with i in G by lia.
    replace (length vs - S (S (length vs - 3 - i))) with (S i) in G by lia.
    replace (length vs - S (length vs - 3 - i)) with (S (S i)) in G by lia. apply G. lia.
  Qed.
  Lemma radj_nth_rev (r : list V) : radj r -> forall j, S j < length r -> vcompare (vnth r (S j)) (vnth r j) = false.
  Proof.
    induction r as [|b r IH]; intros H j Hj; [cbn in Hj; lia|]. destruct H as (H1 & H2). destruct j as [|j].
    - destruct r as [|a r]; cbn in Hj; try lia. exact H1.
    - apply (IH H2 j). cbn [length] in Hj. lia.
  Qed.
  Lemma radj_nth (vs : list V) : radj (rev vs) -> forall i, S i < length vs -> vcompare (vnth vs i) (vnth vs (S i)) = false.
  Proof.
    intros H i Hi. pose proof (radj_nth_rev _ H (length vs - 2 - i)) as G. rewrite rev_length in G. unfold vnth in *.
    rewrite !rev_nth in G by lia.
    replace (length vs - S (S (length vs - 2 - i))) with i in G by lia.
    replace (length vs - S (length vs - 2 - i)) with (S i) in G by lia. apply G. lia.
  Qed.
End AnyNum.

Section Invariant.
  Context {K : Type} {NK : Num K}.
  Notation V := (V3 K).
  Local Open Scope num_scope.

  Record Reach_inv (L : Loop K) : Prop := {
    (** a loop marked closed is not empty (NOT: has three vertices -- see C04_closed_has_three_refuted) *)
    ri_closed_nonempty : lclosed L = true -> 1 <= llen L;
    (** an open loop never had its area / perimeter set *)
    ri_open_measures : lclosed L = false -> larea L = - n1 /\ lperim L = - n1;
    (** the cached normal of an open loop with at least three vertices is the normal of its FIRST corner *)
    ri_open_normal : lclosed L = false -> 3 <= llen L -> lnormal L = tri_normal (verts L);
    (** consecutive stored vertices are distinct for [compare], except possibly in a two-vertex loop *)
    ri_adjacent : llen L <> 2 -> adj_distinct (verts L)
  }.

  Lemma reach_inv_new : Reach_inv (@loop_new K NK).
  Proof. split; cbn; intros; try lia; try discriminate; auto. Qed.

  Lemma reach_inv_push (L L' : Loop K) (p : V) : Reach_inv L -> loop_push_pre L p = Ok L' -> Reach_inv L'.
  Proof.
    intros [I1 I2 I3 I4] H. destruct (push_ok_effect _ _ _ H) as (Hc & Hs & HL).
    assert (Hcl : lclosed L' = false) by (rewrite HL; reflexivity).
    assert (Har : larea L' = larea L /\ lperim L' = lperim L) by (rewrite HL; split; reflexivity).
    assert (Hno : lnormal L' = if Nat.eqb (llen L') 3 then tri_normal (verts L') else lnormal L).
    { apply (f_equal (@lnormal K)) in HL. exact HL. }
    split.
    - rewrite Hcl. discriminate.
    - intros _. destruct Har as (-> & ->). apply I2, Hc.
    - intros _ H3. rewrite Hno. destruct (Nat.eqb (llen L') 3) eqn:E3; [reflexivity|]. apply Nat.eqb_neq in E3.
      unfold llen in *.
      destruct Hs as [Hl E| r a b Er _ E| r a b Er _ _ E| r a b Er _ _ E]; rewrite E in *.
      + rewrite app_length in H3. cbn [length] in H3. lia.
      + rewrite length_removelast in H3, E3. rewrite tri_normal_removelast by lia. apply I3; [exact Hc | lia].
      + pose proof (rev_len3 _ _ _ _ Er) as Hlen. rewrite length_replace_last in H3, E3 by lia.
        rewrite tri_normal_replace_last by lia. apply I3; [exact Hc | lia].
      + rewrite app_length in H3, E3. cbn [length] in H3, E3. rewrite tri_normal_snoc by lia. apply I3; [exact Hc | lia].
    - intros Hn2. unfold adj_distinct, llen in *.
      destruct Hs as [Hl E| r a b Er Hcmp E| r a b Er Hcmp _ E| r a b Er _ Hcol E]; rewrite E in *.
      + rewrite app_length in Hn2. cbn [length] in Hn2. destruct (verts L) as [|x [|y t]]; cbn [length] in *; try lia. cbn. auto.
      + rewrite rev_removelast, Er. cbn [tl]. pose proof (rev_len3 _ _ _ _ Er) as Hlen.
        destruct r as [|z r]; [cbn; auto|]. assert (Hq : length (verts L) <> 2) by (cbn [length] in Hlen; lia).
        specialize (I4 Hq). rewrite Er in I4. exact (radj_tl _ _ I4).
      + rewrite rev_replace_last, Er. cbn [tl]. pose proof (rev_len3 _ _ _ _ Er) as Hlen. rewrite length_replace_last in Hn2 by lia.
        specialize (I4 Hn2). rewrite Er in I4. apply radj_tl in I4. cbn [radj] in *. split; [exact Hcmp | exact I4].
      + rewrite rev_snoc, Er. pose proof (rev_len3 _ _ _ _ Er) as Hlen.
        destruct (is_collinear_false_distinct _ _ _ Hcol) as (Hab & _ & Hbp).
        destruct r as [|z r].
        * cbn. auto.
        * assert (Hq : length (verts L) <> 2) by (cbn [length] in Hlen; lia). specialize (I4 Hq). rewrite Er in I4.
          change (radj (p :: b :: a :: z :: r)) with (vcompare b p = false /\ radj (b :: a :: z :: r)). split; [exact Hbp | exact I4].
  Qed.

  Lemma adj_distinct_removelast (vs : list V) : adj_distinct vs -> adj_distinct (removelast vs).
  Proof. unfold adj_distinct. rewrite rev_removelast. destruct (rev vs); [trivial|]. apply radj_tl. Qed.
  Lemma adj_distinct_tl (vs : list V) : adj_distinct vs -> adj_distinct (tl vs).
  Proof. unfold adj_distinct. rewrite rev_tl. apply radj_removelast. Qed.

  Lemma reach_inv_close (L : Loop K) : Reach_inv L -> Reach_inv (fst (loop_close_pre L)).
  Proof.
    intros HI. pose proof HI as [I1 I2 I3 I4]. destruct (close_effect L) as [(-> & _)|[(H3 & _ & -> & _)|(H3 & Hop & Hcl & _ & c1 & c2 & _ & _ & Hv)]].
    - exact HI.
    - split; unfold llen in *; cbn [set_verts lclosed verts larea lperim lnormal].
      + intros Hc. rewrite length_removelast. lia.
      + exact I2.
      + intros Hc Hl. rewrite length_removelast in Hl. rewrite tri_normal_removelast by lia. apply I3; [exact Hc | lia].
      + intros _. apply adj_distinct_removelast, I4. lia.
    - assert (Hadj : adj_distinct (verts (fst (loop_close_pre L)))).
      { rewrite Hv. assert (A0 : adj_distinct (verts L)) by (apply I4; lia).
        assert (A1 : adj_distinct (if c1 then removelast (verts L) else verts L)) by (destruct c1; [apply adj_distinct_removelast|]; exact A0).
        destruct c2; [apply adj_distinct_tl|]; exact A1. }
      split.
      + intros _. unfold llen in *. rewrite Hv.
        assert (2 <= length (if c1 then removelast (verts L) else verts L)) by (destruct c1; [rewrite length_removelast|]; lia).
        destruct c2; [rewrite length_tl|]; lia.
      + rewrite Hcl. discriminate.
      + rewrite Hcl. discriminate.
      + intros _. exact Hadj.
  Qed.

  Theorem reach_inv_run (ops : list (lop K)) : forall L : Loop K, Reach_inv L -> Reach_inv (fst (loop_run_pre L ops)).
  Proof.
    apply (run_gen_inv loop_step_pre (fun L _ => Reach_inv L)). intros L op _ HI.
    exact (step_inv loop_push_pre loop_close_pre Reach_inv L op HI (fun p L' _ => reach_inv_push L L' p HI) (reach_inv_close L HI)).
  Qed.
  Theorem reachable_invariant (ops : list (lop K)) : Reach_inv (fst (loop_run_pre (@loop_new K NK) ops)).
  Proof. apply reach_inv_run, reach_inv_new. Qed.

  Corollary reachable_no_adjacent_duplicates (ops : list (lop K)) :
    let L := fst (loop_run_pre (@loop_new K NK) ops) in
    llen L <> 2 -> forall i, S i < llen L -> vcompare (vnth (verts L) i) (vnth (verts L) (S i)) = false.
  Proof. cbv zeta. intros H2 i Hi. apply radj_nth; [|exact Hi]. apply (ri_adjacent _ (reachable_invariant ops)), H2. Qed.

  (** closed states: every further operation is refused; nothing changes, except that a further [close] may pop
      the last vertex (when it tests collinear with its cyclic neighbours) before it fails *)
  Theorem closed_absorbing (L : Loop K) (op : lop K) : lclosed L = true ->
    let L' := fst (loop_step_pre L op) in
    snd (loop_step_pre L op) <> Ok tt /\ lclosed L' = true /\ lnormal L' = lnormal L /\ larea L' = larea L /\ lperim L' = lperim L /\
    (verts L' = verts L \/
     (op = LClose /\ 3 <= llen L /\ close_test1 L = Ok true /\ verts L' = removelast (verts L))).
  Proof.
    intros Hc. destruct op as [p|]; cbn [loop_step_pre].
    - rewrite (push_on_closed_refused_pre L p Hc). cbn [fst snd]. repeat split; try discriminate; auto.
    - destruct (close_effect L) as [(E & Ho)|[(H3 & Ht & E & Ho)|(_ & Hop & _)]].
      + cbv zeta. rewrite E. repeat split; auto.
      + cbv zeta. rewrite E. cbn [set_verts lclosed lnormal larea lperim verts]. repeat split; auto.
      + congruence.
  Qed.

  (** what a failed close may have changed (the property demands an unchanged state only for refused ADDITIONS) *)
  Theorem failed_close_effect (L : Loop K) : snd (loop_close_pre L) <> Ok tt ->
    let L' := fst (loop_close_pre L) in
    L' = L \/
    (3 <= llen L /\ close_test1 L = Ok true /\ L' = set_verts L (removelast (verts L))) \/
    (3 <= llen L /\ lclosed L = false /\ lclosed L' = true /\ (snd (loop_close_pre L) = Err 33%N \/ snd (loop_close_pre L) = Err 36%N)).
  Proof.
    intros Ho. cbv zeta. destruct (close_effect L) as [(E & _)|[(H3 & Ht & E & _)|(H3 & Hop & Hcl & Hout & _)]].
    - left. exact E.
    - right; left. auto.
    - right; right. repeat split; auto. destruct Hout as [E|[E|E]]; [contradiction | auto | auto].
  Qed.

  Theorem close_ok_effect (L : Loop K) : snd (loop_close_pre L) = Ok tt ->
    let L' := fst (loop_close_pre L) in
    lclosed L = false /\ lclosed L' = true /\ 3 <= llen L' /\
    exists c1 c2, close_test1 L = Ok c1 /\
      let vs1 := if c1 then removelast (verts L) else verts L in
      close_test2 vs1 = Ok c2 /\ verts L' = (if c2 then tl vs1 else vs1).
  Proof.
    intros Ho. cbv zeta. destruct (close_ok_invariants_pre L Ho) as (_ & Hl).
    destruct (close_effect L) as [(_ & E)|[(_ & _ & _ & E)|(H3 & Hop & Hcl & _ & Hex)]]; [contradiction | contradiction |].
    repeat split; auto.
  Qed.
  (** in particular: when close drops nothing, both wrap-around corners passed the library's collinearity test *)
  Corollary close_ok_nothing_dropped (L : Loop K) : snd (loop_close_pre L) = Ok tt -> verts (fst (loop_close_pre L)) = verts L ->
    is_collinear (vnth (verts L) (llen L - 2)) (vnth (verts L) (llen L - 1)) (vnth (verts L) 0) = Ok false /\
    is_collinear (vnth (verts L) (llen L - 1)) (vnth (verts L) 0) (vnth (verts L) 1) = Ok false.
  Proof.
    intros Ho Hv. destruct (close_ok_effect L Ho) as (_ & _ & H3 & c1 & c2 & E1 & E2 & E3). cbv zeta in *.
    rewrite Hv in E3. unfold llen in H3. rewrite Hv in H3.
    assert (c1 = false /\ c2 = false) as (-> & ->).
    { apply (f_equal (@length _)) in E3. destruct c1, c2; try rewrite length_tl in E3; try rewrite length_removelast in E3; try (split; reflexivity); lia. }
    split; [exact E1 | exact E2].
  Qed.
End Invariant.

From Coq Require Import Reals Lra Psatz.
From G3 Require Import Theory.RInst Theory.VecR.
Section RealTier.
  Local Open Scope R_scope.
  Notation VR := (V3 R).

  (** a genuine corner: the two edges at b are not parallel (in particular none of them is null) *)
  Definition genuine (a b c : VR) : Prop := vcross (vsub b a) (vsub c b) <> mkV3 0 0 0.
  Definition exactly_collinear (a b c : VR) : Prop := vcross (vsub b a) (vsub c b) = mkV3 0 0 0.

  Lemma vlen_vzero_short : (vlen (vzero : VR) <? c1em5)%num = true.
  Proof. rewrite vlen_vzero. apply Rltb_true. unfold c1em5. rnum. lra. Qed.
  Lemma is_collinear_false_genuine (a b c : VR) : is_collinear a b c = Ok false -> genuine a b c.
  Proof.
    intros H Hz. apply is_collinear_false_iff in H. destruct H as (_ & _ & _ & H). unfold genuine in Hz. rewrite Hz in H.
    change (mkV3 0 0 0) with (vzero : VR) in H. rewrite vlen_vzero_short in H. discriminate.
  Qed.
  Lemma is_collinear_cross0 (a q p : VR) :
    vcross (vsub q a) (vsub p q) = vzero -> vcompare a q && vcompare a p = false -> is_collinear a q p = Ok true.
  Proof. intros Hc Hd. apply is_collinear_short; [exact Hd | rewrite Hc; exact vlen_vzero_short]. Qed.
  Lemma vcompare_false_neq (a p : VR) : vcompare a p = false -> p <> a.
  Proof.
    intros H ->. unfold vcompare, c1em5 in H. rnum. rewrite !Rminus_diag_eq in H by reflexivity. rewrite Rabs_R0 in H.
    rewrite Rltb_lt in H by lra. discriminate.
  Qed.

  Lemma cross_dual_expand (u v w : VR) :
    vscale (vcross u v) (vdot w w) =
    vadd (vadd (vscale (vcross v w) (- vdot u w)) (vscale (vcross u w) (vdot v w))) (vscale w (vdot u (vcross v w))).
  Proof. vring. Qed.
  Lemma cross_parallel_trans (u v w : VR) :
    vcross v w = mkV3 0 0 0 -> vcross u w = mkV3 0 0 0 -> w <> mkV3 0 0 0 -> vcross u v = mkV3 0 0 0.
  Proof.
    intros H1 H2 Hw. pose proof (cross_dual_expand u v w) as K. rewrite H1, H2 in K.
    assert (Hww : vdot w w <> 0).
    { intros Z. apply Hw. destruct w as [w1 w2 w3]. unfold vdot in Z. cbn [vx vy vz] in Z. rnum. f_equal; nra. }
    revert K Hww. generalize (vdot w w) (vdot v w) (vdot u w) (vcross u v). intros s s1 s2 [c1 c2 c3] K Hs.
    unfold vscale, vadd, vdot in K. cbn [vx vy vz] in K. rnum. injection K as K1 K2 K3.
    f_equal; apply (Rmult_eq_reg_r s); lra.
  Qed.

  Lemma genuine_replace (z a b p : VR) : genuine z a b -> exactly_collinear a b p -> p <> a -> genuine z a p.
  Proof.
    unfold genuine, exactly_collinear. intros Hg He Hne Hc. apply Hg.
    apply (cross_parallel_trans _ _ (vsub p a)); [| exact Hc |].
    - rewrite <- He. apply v3_eq; unfold vcross, vsub; cbn [vx vy vz]; rnum; ring.
    - intros Z. apply Hne. destruct p as [p1 p2 p3], a as [a1 a2 a3]. unfold vsub in Z. cbn [vx vy vz] in Z. rnum. injection Z as Z1 Z2 Z3. f_equal; lra.
  Qed.

  (** "every collinear replacement performed by this push is exact": the hypothesis under which corners are preserved *)
  Definition exact_push (L : Loop R) (p : VR) : Prop :=
    forall a b r, rev (verts L) = b :: a :: r -> vcompare a p = false -> is_collinear a b p = Ok true -> exactly_collinear a b p.
  Fixpoint exact_run (L : Loop R) (ops : list (lop R)) : Prop :=
    match ops with
    | [] => True
    | op :: tl => match op with LPush p => exact_push L p | LClose => True end /\ exact_run (fst (loop_step_pre L op)) tl
    end.

  Lemma corners_push (L L' : Loop R) (p : VR) : corners genuine (verts L) -> exact_push L p -> loop_push_pre L p = Ok L' ->
    corners genuine (verts L').
  Proof.
    intros HI Hex H. destruct (push_ok_effect _ _ _ H) as (_ & Hs & _).
    destruct Hs as [Hl E| r a b Er Hcmp E| r a b Er Hcmp Hcol E| r a b Er _ Hcol E]; rewrite E.
    - apply corners_snoc; [exact HI | lia].
    - apply corners_removelast, HI.
    - unfold corners in *. rewrite rev_replace_last. rewrite Er in *. cbn [tl]. destruct r as [|z r]; [cbn; auto|].
      destruct HI as (Hg & HI). split; [|exact HI].
      apply (genuine_replace z a b p Hg); [exact (Hex a b (z :: r) Er Hcmp Hcol) | exact (vcompare_false_neq _ _ Hcmp)].
    - unfold corners in *. rewrite rev_snoc, Er. rewrite Er in HI. split; [exact (is_collinear_false_genuine _ _ _ Hcol) | exact HI].
  Qed.
  Theorem corners_run (ops : list (lop R)) : forall L : Loop R, corners genuine (verts L) -> exact_run L ops ->
    corners genuine (verts (fst (loop_run_pre L ops))).
  Proof.
    intros L HI Hex.
    refine (proj1 (run_gen_inv loop_step_pre (fun L ops => corners genuine (verts L) /\ exact_run L ops) _ ops L (conj HI Hex))).
    clear. intros L op tl (HI & Hop & Hex). split; [|exact Hex].
    refine (step_inv loop_push_pre loop_close_pre (fun L => corners genuine (verts L)) L op HI _ (corners_close _ L HI)).
    intros p L' ->. exact (corners_push _ _ _ HI Hop).
  Qed.
  Theorem reachable_corners_genuine (ops : list (lop R)) : exact_run (@loop_new R NumR) ops ->
    corners genuine (verts (fst (loop_run_pre (@loop_new R NumR) ops))).
  Proof. apply corners_run. exact I. Qed.

  Corollary reachable_corners_genuine_nth (ops : list (lop R)) : exact_run (@loop_new R NumR) ops ->
    let L := fst (loop_run_pre (@loop_new R NumR) ops) in
    forall i, (S (S i) < llen L)%nat -> genuine (vnth (verts L) i) (vnth (verts L) (S i)) (vnth (verts L) (S (S i))).
  Proof. intros H. cbv zeta. apply rwin3_nth. exact (reachable_corners_genuine ops H). Qed.

  (** a closed loop none of whose vertices was dropped by [close]: ALL corners are genuine, the two wrap-around ones included *)
  Theorem closed_all_corners_genuine (ops : list (lop R)) :
    let L := fst (loop_run_pre (@loop_new R NumR) ops) in
    exact_run (@loop_new R NumR) ops -> snd (loop_close_pre L) = Ok tt -> verts (fst (loop_close_pre L)) = verts L ->
    let L' := fst (loop_close_pre L) in let n := llen L' in
    lclosed L' = true /\ (3 <= n)%nat /\
    (forall i, (S (S i) < n)%nat -> genuine (vnth (verts L') i) (vnth (verts L') (S i)) (vnth (verts L') (S (S i)))) /\
    genuine (vnth (verts L') (n - 2)) (vnth (verts L') (n - 1)) (vnth (verts L') 0) /\
    genuine (vnth (verts L') (n - 1)) (vnth (verts L') 0) (vnth (verts L') 1).
  Proof.
    cbv zeta. intros Hex Ho Hv. destruct (close_ok_invariants_pre _ Ho) as (Hc & H3).
    destruct (close_ok_nothing_dropped _ Ho Hv) as (T1 & T2). unfold llen in *. rewrite Hv in *.
    split; [exact Hc|]. split; [exact H3|]. split; [|split].
    - apply (reachable_corners_genuine_nth ops Hex).
    - exact (is_collinear_false_genuine _ _ _ T1).
    - exact (is_collinear_false_genuine _ _ _ T2).
  Qed.
End RealTier.
