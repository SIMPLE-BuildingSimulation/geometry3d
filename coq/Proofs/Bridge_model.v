(** * Bridge_model: every model function the float-tier theorems speak about commutes with a [Num] homomorphism.
    Generic over [NumHom N1 N2 h] (Theory/PrimBridge.v); instantiated at [P2B : NumF -> NumB64] by the [Bridge_C*]
    files: the primitive-float run of a model function IS its Flocq binary64 run. *)
From Coq Require Import ZArith Bool List.
From G3 Require Import Model.Num Model.Base Model.Vec Model.BBox Model.Transform Theory.PrimBridge Proofs.C14_real.

Section Model.
  Context {K1 K2 : Type} {N1 : Num K1} {N2 : Num K2} (h : K1 -> K2) {H : NumHom N1 N2 h}.
  Notation mV := (mapV3 h).
  Notation mR := (mapRay h).
  Notation mB := (mapBBox h).
  Notation mM := (mapM4 h).
  Notation mT := (mapTr h).

  (** ** Model/Vec.v *)
  Lemma hom_vadd (a b : V3 K1) : vadd (mV a) (mV b) = mV (vadd a b).
  Proof. unfold vadd. bridge h. Qed.
  Lemma hom_vsub (a b : V3 K1) : vsub (mV a) (mV b) = mV (vsub a b).
  Proof. unfold vsub. bridge h. Qed.
  Lemma hom_vneg (a : V3 K1) : vneg (mV a) = mV (vneg a).
  Proof. unfold vneg. bridge h. Qed.
  Lemma hom_vscale (a : V3 K1) (s : K1) : vscale (mV a) (h s) = mV (vscale a s).
  Proof. unfold vscale. bridge h. Qed.
  Lemma hom_vdivs (a : V3 K1) (s : K1) : vdivs (mV a) (h s) = mV (vdivs a s).
  Proof. unfold vdivs. bridge h. Qed.
  Lemma hom_vdot (a b : V3 K1) : vdot (mV a) (mV b) = h (vdot a b).
  Proof. unfold vdot. bridge h. Qed.
  Lemma hom_vabs (a : V3 K1) : vabs (mV a) = mV (vabs a).
  Proof. unfold vabs. bridge h. Qed.
  Lemma hom_vcross (a b : V3 K1) : vcross (mV a) (mV b) = mV (vcross a b).
  Proof. unfold vcross. bridge h. Qed.
  Lemma hom_vlen2 (a : V3 K1) : vlen2 (mV a) = h (vlen2 a).
  Proof. unfold vlen2. bridge h. Qed.
  Lemma hom_vlen (a : V3 K1) : vlen (mV a) = h (vlen a).
  Proof. unfold vlen. rewrite hom_vlen2. bridge h. Qed.
  Lemma hom_vnormalize (a : V3 K1) : vnormalize (mV a) = mV (vnormalize a).
  Proof. unfold vnormalize. cbv zeta. rewrite hom_vlen. bridge h. Qed.
  Lemma hom_psqdist (a b : V3 K1) : psqdist (mV a) (mV b) = h (psqdist a b).
  Proof. unfold psqdist. bridge h. Qed.
  Lemma hom_ray_project (r : Ray K1) (t : K1) : ray_project (mR r) (h t) = mV (ray_project r t).
  Proof. unfold ray_project, vadd, vscale. bridge h. Qed.
  Lemma hom_ray_advance (r : Ray K1) (t : K1) : ray_advance (mR r) (h t) = mR (ray_advance r t).
  Proof. unfold ray_advance, vadd, vscale. bridge h. Qed.

  (** ** Model/BBox.v *)
  Lemma hom_get_mins_maxs (x1 y1 z1 x2 y2 z2 : K1) :
    get_mins_maxs (h x1) (h y1) (h z1) (h x2) (h y2) (h z2) = mapP mV mV (get_mins_maxs x1 y1 z1 x2 y2 z2).
  Proof. unfold get_mins_maxs. rewrite !(hom_ord h). do 3 destruct (if nltb _ _ then _ else _). reflexivity. Qed.
  Lemma hom_mm (a b : V3 K1) : mm (mV a) (mV b) = mapP mV mV (mm a b).
  Proof. unfold mm. cbn [mapV3 vx vy vz]. apply hom_get_mins_maxs. Qed.
  Lemma hom_bbox_new (a b : V3 K1) : bbox_new (mV a) (mV b) = mB (bbox_new a b).
  Proof. unfold bbox_new. rewrite hom_mm. destruct (mm a b). reflexivity. Qed.
  Lemma hom_bbox_from_point (p : V3 K1) : bbox_from_point (mV p) = mB (bbox_from_point p).
  Proof. reflexivity. Qed.
  Lemma hom_bbox_from_union_point (b : BBox K1) (p : V3 K1) :
    bbox_from_union_point (mB b) (mV p) = mB (bbox_from_union_point b p).
  Proof. unfold bbox_from_union_point. cbn [mapBBox bmin bmax]. rewrite !hom_mm. reflexivity. Qed.
  Lemma hom_bbox_from_union (a b : BBox K1) : bbox_from_union (mB a) (mB b) = mB (bbox_from_union a b).
  Proof. unfold bbox_from_union. cbn [mapBBox bmin bmax]. rewrite !hom_mm. reflexivity. Qed.
  Lemma hom_bbox_from_intersection (a b : BBox K1) : bbox_from_intersection (mB a) (mB b) = mB (bbox_from_intersection a b).
  Proof. unfold bbox_from_intersection. cbn [mapBBox bmin bmax]. rewrite !hom_mm. reflexivity. Qed.
  Lemma hom_bbox_overlaps (a b : BBox K1) : bbox_overlaps (mB a) (mB b) = bbox_overlaps a b.
  Proof. unfold bbox_overlaps. hom_norm. hom_pull h. reflexivity. Qed.
  Lemma hom_bbox_point_inside (b : BBox K1) (p : V3 K1) : bbox_point_inside (mB b) (mV p) = bbox_point_inside b p.
  Proof. unfold bbox_point_inside. hom_norm. hom_pull h. reflexivity. Qed.
  Lemma hom_bbox_point_inside_exclusive (b : BBox K1) (p : V3 K1) :
    bbox_point_inside_exclusive (mB b) (mV p) = bbox_point_inside_exclusive b p.
  Proof. unfold bbox_point_inside_exclusive. hom_norm. hom_pull h. reflexivity. Qed.
  Lemma hom_bbox_max_extent (b : BBox K1) : bbox_max_extent (mB b) = bbox_max_extent b.
  Proof. unfold bbox_max_extent, vsub. hom_norm. hom_pull h. reflexivity. Qed.
  Lemma hom_bbox_surface_area (b : BBox K1) : bbox_surface_area (mB b) = h (bbox_surface_area b).
  Proof. unfold bbox_surface_area, vsub. bridge h. Qed.

  (** [BBox3D::intersect]: the same answer AND the same path tag.  Through [slab_core]: once the three ordered pairs
      are named, every remaining condition is a comparison of images, so no case split is needed. *)
  Lemma hom_slab_core (x1 x2 y1 y2 z1 z2 : K1) :
    slab_core (h x1) (h x2) (h y1) (h y2) (h z1) (h z2) = slab_core x1 x2 y1 y2 z1 z2.
  Proof.
    unfold slab_core. rewrite !(hom_ord h).
    destruct (if nltb x2 x1 then _ else _), (if nltb y2 y1 then _ else _), (if nltb z2 z1 then _ else _).
    unfold mapP. cbn [fst snd].
    rewrite (hom_widen h), (hom_n0 h), !hom_mul, !hom_ltb, !(hom_if h), !hom_ltb. reflexivity.
  Qed.
  Lemma hom_bbox_intersect_tag (b : BBox K1) (r : Ray K1) (i : V3 K1) :
    bbox_intersect_tag (mB b) (mR r) (mV i) = bbox_intersect_tag b r i.
  Proof. rewrite !intersect_is_core. unfold raw. hom_norm. rewrite !(hom_sub (h:=h)), !(hom_mul (h:=h)). apply hom_slab_core. Qed.
  Lemma hom_bbox_intersect (b : BBox K1) (r : Ray K1) (i : V3 K1) :
    bbox_intersect (mB b) (mR r) (mV i) = bbox_intersect b r i.
  Proof. unfold bbox_intersect. rewrite hom_bbox_intersect_tag. reflexivity. Qed.
  (** ** Model/Transform.v *)
  Lemma hom_mul4x4point (m : M4 K1) (p : V3 K1) : mul4x4point (mM m) (mV p) = mV (mul4x4point m p).
  Proof. unfold mul4x4point, vdivs. hom_norm. rewrite !(hom_mul (h:=h)), !(hom_add (h:=h)), !(hom_div (h:=h)). reflexivity. Qed.
  Lemma hom_mul4x4point_debug_ok (m : M4 K1) (p : V3 K1) : mul4x4point_debug_ok (mM m) (mV p) = mul4x4point_debug_ok m p.
  Proof. unfold mul4x4point_debug_ok. bridge h. Qed.
  Lemma hom_mul4x4vec (m : M4 K1) (v : V3 K1) : mul4x4vec (mM m) (mV v) = mV (mul4x4vec m v).
  Proof. unfold mul4x4vec. hom_norm. rewrite !(hom_mul (h:=h)), !(hom_add (h:=h)). reflexivity. Qed.
  Lemma hom_mul4x4_abs (m : M4 K1) (x y z : K1) : mul4x4_abs (mM m) (h x) (h y) (h z) = mV (mul4x4_abs m x y z).
  Proof. unfold mul4x4_abs. hom_norm. rewrite !(hom_mul (h:=h)), !(hom_abs (h:=h)), !(hom_add (h:=h)). reflexivity. Qed.
  Lemma hom_mul3x3_abs (m : M4 K1) (x y z : K1) : mul3x3_abs (mM m) (h x) (h y) (h z) = mV (mul3x3_abs m x y z).
  Proof. unfold mul3x3_abs. hom_norm. rewrite !(hom_mul (h:=h)), !(hom_abs (h:=h)), !(hom_add (h:=h)). reflexivity. Qed.
  (** one entry of a matrix product; pulling [h] out entry by entry keeps the rewrites at 16 *)
  Definition dot4 {K} {N : Num K} (r0 r1 r2 r3 c0 c1 c2 c3 : K) : K := (r0 * c0 + r1 * c1 + r2 * c2 + r3 * c3)%num.
  Lemma hom_dot4 (r0 r1 r2 r3 c0 c1 c2 c3 : K1) :
    dot4 (h r0) (h r1) (h r2) (h r3) (h c0) (h c1) (h c2) (h c3) = h (dot4 r0 r1 r2 r3 c0 c1 c2 c3).
  Proof. unfold dot4. rewrite !hom_mul, !hom_add. reflexivity. Qed.
  Lemma hom_mul4x4 (a b : M4 K1) : mul4x4 (mM a) (mM b) = mM (mul4x4 a b).
  Proof.
    cbv beta delta [mul4x4]. (* [unfold] would also expand the local entry function *)
    change (fun r0 r1 r2 r3 c0 c1 c2 c3 : K2 => _) with (@dot4 K2 N2).
    change (fun r0 r1 r2 r3 c0 c1 c2 c3 : K1 => _) with (@dot4 K1 N1).
    cbv zeta. hom_norm. rewrite !hom_dot4. reflexivity.
  Qed.
  Lemma hom_tr_mul_assign (a b : Tr K1) : tr_mul_assign (mT a) (mT b) = mT (tr_mul_assign a b).
  Proof. unfold tr_mul_assign. cbn [mapTr elements inv_elements]. rewrite !hom_mul4x4. reflexivity. Qed.
  Lemma hom_m4_id : @m4_id K2 N2 = mM m4_id.
  Proof. unfold m4_id. bridge h. Qed.
  Lemma hom_tr_new : @tr_new K2 N2 = mT tr_new.
  Proof. unfold tr_new, mapTr. cbn [elements inv_elements]. rewrite hom_m4_id. reflexivity. Qed.
  Lemma hom_tr_translate (x y z : K1) : tr_translate (h x) (h y) (h z) = mT (tr_translate x y z).
  Proof. unfold tr_translate. bridge h. Qed.
  Lemma hom_tr_scale (x y z : K1) : tr_scale (h x) (h y) (h z) = mT (tr_scale x y z).
  Proof. unfold tr_scale. bridge h. Qed.
  Lemma hom_tr_rotate_x_sc (s c : K1) : tr_rotate_x_sc (h s) (h c) = mT (tr_rotate_x_sc s c).
  Proof. unfold tr_rotate_x_sc. bridge h. Qed.
  Lemma hom_tr_rotate_y_sc (s c : K1) : tr_rotate_y_sc (h s) (h c) = mT (tr_rotate_y_sc s c).
  Proof. unfold tr_rotate_y_sc. bridge h. Qed.
  Lemma hom_tr_rotate_z_sc (s c : K1) : tr_rotate_z_sc (h s) (h c) = mT (tr_rotate_z_sc s c).
  Proof. unfold tr_rotate_z_sc. bridge h. Qed.
  Lemma hom_det3 (m : M4 K1) : det3 (mM m) = h (det3 m).
  Proof. unfold det3. bridge h. Qed.
  Lemma hom_tr_changes_hands (t : Tr K1) : tr_changes_hands (mT t) = tr_changes_hands t.
  Proof. unfold tr_changes_hands. cbn [mapTr elements]. rewrite hom_det3. bridge h. Qed.

  Lemma hom_tr_pt (t : Tr K1) (p : V3 K1) : tr_pt (mT t) (mV p) = mV (tr_pt t p).
  Proof. apply hom_mul4x4point. Qed.
  Lemma hom_tr_inv_pt (t : Tr K1) (p : V3 K1) : tr_inv_pt (mT t) (mV p) = mV (tr_inv_pt t p).
  Proof. apply hom_mul4x4point. Qed.
  Lemma hom_tr_vec (t : Tr K1) (v : V3 K1) : tr_vec (mT t) (mV v) = mV (tr_vec t v).
  Proof. apply hom_mul4x4vec. Qed.
  Lemma hom_tr_inv_vec (t : Tr K1) (v : V3 K1) : tr_inv_vec (mT t) (mV v) = mV (tr_inv_vec t v).
  Proof. apply hom_mul4x4vec. Qed.

  (** the four [*_with_error] / [*_propagate_error] families: value AND reported error *)
  Lemma hom_pt_with_error (m : M4 K1) (p : V3 K1) : pt_with_error (mM m) (mV p) = mapP mV mV (pt_with_error m p).
  Proof.
    unfold pt_with_error, mapP. cbn [fst snd]. rewrite hom_mul4x4point. f_equal.
    cbn [mapV3 vx vy vz]. rewrite hom_mul4x4_abs. rewrite (hom_ngamma h 4 eq_refl). apply hom_vscale.
  Qed.
  Lemma hom_vec_with_error (m : M4 K1) (v : V3 K1) : vec_with_error (mM m) (mV v) = mapP mV mV (vec_with_error m v).
  Proof.
    unfold vec_with_error, mapP. cbn [fst snd]. rewrite hom_mul4x4vec. f_equal.
    cbn [mapV3 vx vy vz]. rewrite hom_mul3x3_abs. rewrite (hom_ngamma h 3 eq_refl). apply hom_vscale.
  Qed.
  Lemma hom_err1 (m : M4 K1) (e : V3 K1) :
    vscale (mul3x3_abs (mM m) (vx (mV e)) (vy (mV e)) (vz (mV e))) (n1 + ngamma 3)%num =
    mV (vscale (mul3x3_abs m (vx e) (vy e) (vz e)) (n1 + ngamma 3)%num).
  Proof.
    cbn [mapV3 vx vy vz]. rewrite hom_mul3x3_abs. rewrite (hom_ngamma h 3 eq_refl), (hom_n1 h), hom_add. apply hom_vscale.
  Qed.
  Lemma hom_pt_propagate_error (m : M4 K1) (p e : V3 K1) :
    pt_propagate_error (mM m) (mV p) (mV e) = mapP mV mV (pt_propagate_error m p e).
  Proof.
    unfold pt_propagate_error. rewrite hom_pt_with_error. destruct (pt_with_error m p) as [ret err2].
    unfold mapP. cbn [fst snd]. f_equal. rewrite hom_err1. apply hom_vadd.
  Qed.
  Lemma hom_vec_propagate_error (m : M4 K1) (v e : V3 K1) :
    vec_propagate_error (mM m) (mV v) (mV e) = mapP mV mV (vec_propagate_error m v e).
  Proof.
    unfold vec_propagate_error. rewrite hom_vec_with_error. destruct (vec_with_error m v) as [ret err2].
    unfold mapP. cbn [fst snd]. f_equal. rewrite hom_err1. apply hom_vadd.
  Qed.
  Lemma hom_normal_by (m : M4 K1) (v : V3 K1) : normal_by (mM m) (mV v) = mV (normal_by m v).
  Proof. unfold normal_by. bridge h. Qed.
  Lemma hom_tr_normal (t : Tr K1) (v : V3 K1) : tr_normal (mT t) (mV v) = mV (tr_normal t v).
  Proof. apply hom_normal_by. Qed.
  Lemma hom_tr_inv_normal (t : Tr K1) (v : V3 K1) : tr_inv_normal (mT t) (mV v) = mV (tr_inv_normal t v).
  Proof. apply hom_normal_by. Qed.

  (** rays: the nudged origin, the direction and both reported errors *)
  Definition mapRayRes (x : Ray K1 * V3 K1 * V3 K1) : Ray K2 * V3 K2 * V3 K2 :=
    let '(r, oe, de) := x in (mR r, mV oe, mV de).
  Lemma hom_nudge (o d e : V3 K1) : nudge (mV o) (mV d) (mV e) = mV (nudge o d e).
  Proof.
    unfold nudge. cbv zeta. rewrite hom_vlen2, hom_vabs, hom_vdot, (hom_n0 h), hom_ltb, hom_div.
    destruct (nltb n0 (vlen2 d)); [|reflexivity]. rewrite hom_vscale. apply hom_vadd.
  Qed.
  Lemma hom_ray_by (m : M4 K1) (r : Ray K1) : ray_by (mM m) (mR r) = mapRayRes (ray_by m r).
  Proof.
    unfold ray_by. cbn [mapRay rorigin rdir]. rewrite hom_pt_with_error, hom_vec_with_error.
    destruct (pt_with_error m (rorigin r)) as [o oe]. destruct (vec_with_error m (rdir r)) as [d de].
    unfold mapP, mapRayRes, mapRay. cbn [fst snd rorigin rdir]. rewrite hom_nudge. reflexivity.
  Qed.
  Lemma hom_ray_propagate_by (m : M4 K1) (r : Ray K1) (oe de : V3 K1) :
    ray_propagate_by (mM m) (mR r) (mV oe) (mV de) = mapRayRes (ray_propagate_by m r oe de).
  Proof.
    unfold ray_propagate_by. cbn [mapRay rorigin rdir]. rewrite hom_pt_propagate_error, hom_vec_propagate_error.
    destruct (pt_propagate_error m (rorigin r) oe) as [o oe']. destruct (vec_propagate_error m (rdir r) de) as [d de'].
    unfold mapP, mapRayRes, mapRay. cbn [fst snd rorigin rdir]. rewrite hom_nudge. reflexivity.
  Qed.
  Lemma hom_tr_ray (t : Tr K1) (r : Ray K1) : tr_ray (mT t) (mR r) = mapRayRes (tr_ray t r).
  Proof. apply hom_ray_by. Qed.
  Lemma hom_tr_inv_ray (t : Tr K1) (r : Ray K1) : tr_inv_ray (mT t) (mR r) = mapRayRes (tr_inv_ray t r).
  Proof. apply hom_ray_by. Qed.
  Lemma hom_tr_ray_propagate (t : Tr K1) (r : Ray K1) (oe de : V3 K1) :
    tr_ray_propagate (mT t) (mR r) (mV oe) (mV de) = mapRayRes (tr_ray_propagate t r oe de).
  Proof. apply hom_ray_propagate_by. Qed.
  Lemma hom_tr_inv_ray_propagate (t : Tr K1) (r : Ray K1) (oe de : V3 K1) :
    tr_inv_ray_propagate (mT t) (mR r) (mV oe) (mV de) = mapRayRes (tr_inv_ray_propagate t r oe de).
  Proof. apply hom_ray_propagate_by. Qed.

  Lemma hom_mul4x4point_xyz (m : M4 K1) (x y z : K1) :
    mul4x4point (mM m) (mkV3 (h x) (h y) (h z)) = mV (mul4x4point m (mkV3 x y z)).
  Proof. apply (hom_mul4x4point m (mkV3 x y z)). Qed.
  Lemma hom_mul4x4point_debug_ok_xyz (m : M4 K1) (x y z : K1) :
    mul4x4point_debug_ok (mM m) (mkV3 (h x) (h y) (h z)) = mul4x4point_debug_ok m (mkV3 x y z).
  Proof. apply (hom_mul4x4point_debug_ok m (mkV3 x y z)). Qed.
  Lemma hom_bbox_by (m : M4 K1) (b : BBox K1) : bbox_by (mM m) (mB b) = mB (bbox_by m b).
  Proof.
    unfold bbox_by. cbv zeta. cbn [mapBBox bmin bmax mapV3 vx vy vz].
    rewrite !hom_mul4x4point_xyz, hom_bbox_from_point, !hom_bbox_from_union_point. reflexivity.
  Qed.
  Lemma hom_bbox_by_debug_ok (m : M4 K1) (b : BBox K1) : bbox_by_debug_ok (mM m) (mB b) = bbox_by_debug_ok m b.
  Proof.
    unfold bbox_by_debug_ok. cbv zeta. cbn [mapBBox bmin bmax mapV3 vx vy vz].
    rewrite !hom_mul4x4point_debug_ok_xyz. reflexivity.
  Qed.
  Lemma hom_tr_bbox (t : Tr K1) (b : BBox K1) : tr_bbox (mT t) (mB b) = mB (tr_bbox t b).
  Proof. apply hom_bbox_by. Qed.
  Lemma hom_tr_inv_bbox (t : Tr K1) (b : BBox K1) : tr_inv_bbox (mT t) (mB b) = mB (tr_inv_bbox t b).
  Proof. apply hom_bbox_by. Qed.
End Model.
