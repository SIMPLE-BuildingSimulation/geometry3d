(** * Mesh_progress (C09): progress and cost of [refine].  Every number instance, NO hypothesis on the mesh.

    The counter [n_valid_triangles] ([nvalid]) is followed through every step of the model: [invalidate] takes one off,
    [push] adds one, nothing else touches it.  Because the steps test every child with Triangle3D::new BEFORE they
    mutate (crate fix 361bbb9), the accounting also covers the outcomes [Err]:
    - flip_diagonal Ok: same count; restore_delaunay Ok: same count;
    - split_triangle: Ok => +2; Err => mesh unchanged, or +2 (the late failures 102/103 of mark_as_neighbours);
    - split_edge: Ok => +1 (no neighbour across the edge) or +2; Err => the counter did not go down;
    - add_point / add_point_to_triangle: Ok true => +1 or +2, Ok false => mesh unchanged, Err => the counter did not go down.
    Hence a pass of [refine] never lowers the counter, and a pass that reports
    [any_changes = true] has raised it STRICTLY.  The recursion [if any_changes { self.refine(..) }] therefore runs at
    most (triangles created) + 1 passes: [refine_passes] (the recursion depth of the real code) is bounded by the growth
    of the counter, the model's fuel is adequate as soon as it exceeds that growth, and the result does not depend on
    the fuel.  Per pass the trace of Mesh_refine_trace holds at most 3 events per slot read at loop entry. *)
From Coq Require Import ZArith Bool List Arith Lia.
From G3 Require Import Model.Num Model.Base Model.Vec Model.Segment Model.Triangle Model.Loop Model.Polygon Model.Triangulation
  Proofs.Mesh_base Proofs.Mesh_wf Proofs.Mesh_sites Proofs.Mesh_conf Proofs.Mesh_region Proofs.Mesh_atomic Proofs.Mesh_refine
  Proofs.Mesh_refine_trace.
Import ListNotations.

Section Progress.
  Context {K : Type} {NK : Num K}.
  Notation V := (V3 K).
  Notation TP := (TriPiece K).
  Notation Mesh := (Mesh K).

  Definition Rnv (M M' : Mesh) : Prop := nvalid M' = nvalid M.
  Lemma Rnv_refl M : Rnv M M. Proof. reflexivity. Qed.
  Lemma Rnv_trans M1 M2 M3 : Rnv M1 M2 -> Rnv M2 M3 -> Rnv M1 M3. Proof. unfold Rnv; congruence. Qed.
  Lemma nv_mupd s i (f : TP -> TP) : Pres Rnv (mupd s i f).
  Proof. intros M M' r H. unfold mupd in H. destruct (Nat.ltb _ _); inversion H; subst; reflexivity. Qed.
  Lemma nv_constrain s i e : Pres Rnv (mupd (K:=K) s i (tp_constrain e)). Proof. apply nv_mupd. Qed.
  Lemma nv_mark i1 e1 i2 : Pres Rnv (mark_as_neighbours (K:=K) i1 e1 i2).
  Proof. apply (pres_mark_upd Rnv Rnv_refl Rnv_trans). intros s i e j. apply nv_mupd. Qed.

  Lemma invalidate_count (i : nat) (M M' : Mesh) : mesh_invalidate i M = (M', Ok tt) -> nvalid M = S (nvalid M').
  Proof. intros H. destruct (invalidate_inv _ _ _ _ H) as [(_ & _ & Q) | (_ & _ & [[_ E] | (Q & _)])]; [discriminate Q | exact E | discriminate Q]. Qed.
  Lemma invalidate_err (i : nat) (M M' : Mesh) (c : N) : mesh_invalidate i M = (M', Err c) -> M' = M.
  Proof. intros H. destruct (invalidate_inv _ _ _ _ H) as [(_ & E & _) | (_ & _ & [[Q _] | (Q & _)])]; [exact E | discriminate Q ..]. Qed.
  Lemma push_count (a b c : V) (la : nat) (M M' : Mesh) (n : nat) : mesh_push a b c la M = (M', Ok n) -> nvalid M' = S (nvalid M).
  Proof.
    intros H. destruct (push_inv _ _ _ _ _ _ _ H) as (k & [[_ Q] | (_ & _ & _ & E & _)]); [|exact E].
    destruct (tp_new a b c k); [contradiction | discriminate ..].
  Qed.
  Lemma push_fail (a b c : V) (la : nat) (M M' : Mesh) (r : res nat) : mesh_push a b c la M = (M', r) -> (forall n, r <> Ok n) -> M' = M.
  Proof. intros H G. destruct (push_inv _ _ _ _ _ _ _ H) as (k & [[E _] | (_ & _ & Q & _)]); [exact E | destruct (G _ Q)]. Qed.

  (** ** flip_diagonal: two out, two in *)
  Theorem flip_count (i : nat) (e : Edge) (M M' : Mesh) : flip_diagonal i e M = (M', Ok tt) -> nvalid M' = nvalid M.
  Proof.
    intros H. destruct (flip_inv _ _ _ _ _ H) as [[_ Q] | (t & nb & ni & a & b & c & o & e1 & e2 & e3 & e4 & T1 & T2 & _ & H')]; [destruct (Q tt eq_refl)|].
    clear H. rename H' into H. unfold flip_suffix in H.
    apply mbind_ok in H. destruct H as ([] & M1 & H1 & H).
    apply mbind_ok in H. destruct H as ([] & M2 & H2 & H).
    apply mbind_ok in H. destruct H as (aoc & M3 & H3 & H).
    apply mbind_ok in H. destruct H as (cob & M4 & H4 & H).
    pose proof (pres_flip_links Rnv Rnv_refl Rnv_trans nv_mark nv_constrain _ _ _ _ _ _ _ _ _ _ _ _ H) as E. unfold Rnv in E.
    pose proof (invalidate_count _ _ _ H1). pose proof (invalidate_count _ _ _ H2).
    pose proof (push_count _ _ _ _ _ _ _ H3). pose proof (push_count _ _ _ _ _ _ _ H4). lia.
  Qed.

  (** ** restore_delaunay only flips *)
  Theorem restore_count (m : K) (M M' : Mesh) (u : unit) : restore_delaunay m M = (M', Ok u) -> nvalid M' = nvalid M.
  Proof.
    destruct u. intros H. refine (proj2 (restore_ind (fun _ => True) (fun M0 M1 => nvalid M1 = nvalid M0) (fun _ => eq_refl) _ _ m M M' I H)).
    - intros M1 M2 M3 E1 E2. congruence.
    - intros i e ar M0 M1 _ _ H1. split; [exact I | exact (flip_count _ _ _ _ H1)].
  Qed.

  (** ** split_triangle: one out, three in; an Err comes with the mesh unchanged or after the three pushes *)
  Theorem split_triangle_count (i : nat) (p : V) (M M' : Mesh) (r : res unit) :
    split_triangle i p M = (M', r) ->
    (exists s, r = Panic s) \/ (M' = M /\ forall u, r <> Ok u) \/ nvalid M' = nvalid M + 2.
  Proof.
    intros H. destruct (split_triangle_open _ _ _ _ _ H) as [(E & Q & _) | (t & e1 & e2 & e3 & T1 & T2 & T3 & _ &
      [[-> _] | (M1 & M2 & M3 & M4 & cap & abp & bcp & H1 & H2 & H3 & H4 & H')])];
      [right; left; split; assumption | left; eexists; reflexivity | right; right].
    pose proof (pres_st_links Rnv Rnv_refl Rnv_trans nv_mark nv_constrain _ _ _ _ _ _ _ _ _ _ H') as E. unfold Rnv in E.
    pose proof (invalidate_count _ _ _ H1). pose proof (push_count _ _ _ _ _ _ _ H2).
    pose proof (push_count _ _ _ _ _ _ _ H3). pose proof (push_count _ _ _ _ _ _ _ H4). lia.
  Qed.
  Corollary split_triangle_ok_count (i : nat) (p : V) (M M' : Mesh) (u : unit) :
    split_triangle i p M = (M', Ok u) -> nvalid M' = nvalid M + 2.
  Proof.
    intros H. destruct (split_triangle_count _ _ _ _ _ H) as [(s & E) | [(_ & G) | E]]; [discriminate | exfalso; eapply G; reflexivity | exact E].
  Qed.
  Corollary split_triangle_err_count (i : nat) (p : V) (M M' : Mesh) (c : N) :
    split_triangle i p M = (M', Err c) -> M' = M \/ nvalid M' = nvalid M + 2.
  Proof. intros H. destruct (split_triangle_count _ _ _ _ _ H) as [(s & E) | [(E & _) | E]]; [discriminate | left; exact E | right; exact E]. Qed.

  (** after its pre-check: one out, two in, whatever happens later *)
  Lemma hemisphere_count (s : Seg K) (p : V) (idx : nat) (t : TP) (a b c : V) (TA TB : Tri K) (M M' : Mesh) (r : res (nat * nat)) :
    nth_error (tris M) idx = Some t -> hemi_verts (tp_tri t) s = Ok (a, b, c) -> tri_new a p c = Ok TA -> tri_new p b c = Ok TB ->
    process_hemisphere s p idx M = (M', r) -> (exists s', r = Panic s') \/ nvalid M' = nvalid M + 1.
  Proof.
    intros Et HV ETA ETB H.
    destruct (hemisphere_open _ _ _ _ _ _ _ _ _ _ _ _ Et HV ETA ETB H) as [[-> _] | (ed & ea & eb & M1 & M2 & M3 & apc & pbc & H1 & H2 & H3 & H')];
      [left; eexists; reflexivity | right].
    pose proof (pres_hemi_links Rnv Rnv_refl Rnv_trans nv_mark nv_constrain _ _ _ _ _ _ _ _ _ H') as E. unfold Rnv in E.
    pose proof (invalidate_count _ _ _ H1). pose proof (push_count _ _ _ _ _ _ _ H2). pose proof (push_count _ _ _ _ _ _ _ H3). lia.
  Qed.
  (** without any pre-check (the second hemisphere, whose slot the first one may have recycled): at worst one out *)
  Lemma hemisphere_any (s : Seg K) (p : V) (idx : nat) (M M' : Mesh) (r : res (nat * nat)) :
    process_hemisphere s p idx M = (M', r) ->
    (exists s', r = Panic s') \/ (nvalid M <= nvalid M' + 1 /\ forall x, r = Ok x -> nvalid M' = nvalid M + 1).
  Proof.
    intros H. destruct (hemisphere_inv _ _ _ _ _ _ H) as [(-> & Q & _) | (t & a & b & c & ed & ea & eb & _ & _ & H')];
      [right; split; [lia | intros x E; destruct (Q x E)] | clear H; rename H' into H; unfold hemi_suffix in H].
    apply mbind_inv in H. destruct H as [([] & M1 & H1 & H) | [(c' & H1 & ->) | (s' & H1 & ->)]];
      [| apply invalidate_err in H1; subst; right; split; [lia | discriminate] | left; eexists; reflexivity].
    pose proof (invalidate_count _ _ _ H1) as C1.
    apply bind_get_inv in H. destruct H as [(t1 & _ & H) | (_ & E & _)]; [|left; eexists; exact E].
    apply mbind_inv in H. destruct H as [(apc & M2 & H2 & H) | [(c' & H2 & ->) | (s' & H2 & ->)]];
      [| apply push_fail in H2; [subst; right; split; [lia | discriminate] | discriminate] | left; eexists; reflexivity].
    pose proof (push_count _ _ _ _ _ _ _ H2) as C2.
    apply mbind_inv in H. destruct H as [(pbc & M3 & H3 & H) | [(c' & H3 & ->) | (s' & H3 & ->)]];
      [| apply push_fail in H3; [subst; right; split; [lia | discriminate] | discriminate] | left; eexists; reflexivity].
    pose proof (push_count _ _ _ _ _ _ _ H3) as C3.
    pose proof (pres_hemi_links Rnv Rnv_refl Rnv_trans nv_mark nv_constrain _ _ _ _ _ _ _ _ _ H) as E. unfold Rnv in E. right. split; [lia | intros; lia].
  Qed.

  (** ** split_edge: +1 without a neighbour across the edge, +2 with one; an Err never lowers the counter *)
  Theorem split_edge_count (i : nat) (e : Edge) (p : V) (M M' : Mesh) (r : res unit) :
    split_edge i e p M = (M', r) ->
    (exists s, r = Panic s) \/
    (nvalid M <= nvalid M' /\
     forall u, r = Ok u -> exists t, nth_error (tris M) i = Some t /\
       nvalid M' = nvalid M + match tp_neighbour t e with Some _ => 2 | None => 1 end).
  Proof.
    intros H. destruct (split_edge_inv _ _ _ _ _ _ H) as [[-> Q] | (t & sg & a & b & c & TA & TB & Et & Ev & Esg & HV & ETA & ETB & _ & H')].
    { destruct r as [x|c|s]; [destruct (Q x eq_refl) | right; split; [lia | discriminate] | left; eexists; reflexivity]. }
    clear H. rename H' into H. unfold split_edge_suffix in H.
    apply mbind_inv in H. destruct H as [([tl tr] & M1 & H1 & H) | [(c'' & H1 & ->) | (s & H1 & ->)]]; [| | left; eexists; reflexivity];
      (destruct (hemisphere_count _ _ _ _ _ _ _ _ _ _ _ _ Et HV ETA ETB H1) as [(x & E)|C1]; [discriminate|]); [|right; split; [lia | discriminate]].
    destruct (tp_neighbour t e) as [nei|] eqn:En.
    - apply mbind_inv in H. destruct H as [([br bl] & M2 & H2 & H) | [(c'' & H2 & ->) | (s & H2 & ->)]];
        [| destruct (hemisphere_any _ _ _ _ _ _ H2) as [(x & E)|[C2 _]]; [discriminate | right; split; [lia | discriminate]]
         | left; eexists; reflexivity].
      destruct (hemisphere_any _ _ _ _ _ _ H2) as [(x & E)|[_ C2]]; [discriminate|]. specialize (C2 _ eq_refl).
      pose proof (pres_bind Rnv Rnv_trans _ _ (nv_mark _ _ _) (fun _ => nv_mark _ _ _) _ _ _ H) as E. unfold Rnv in E. right. split; [lia|].
      intros u _. exists t. split; [exact Et|]. rewrite En. lia.
    - inversion H; subst. right. split; [lia|]. intros u _. exists t. split; [exact Et|]. rewrite En. lia.
  Qed.
  Corollary split_edge_ok_count (i : nat) (e : Edge) (p : V) (M M' : Mesh) (u : unit) :
    split_edge i e p M = (M', Ok u) -> nvalid M < nvalid M' /\ nvalid M' <= nvalid M + 2.
  Proof.
    intros H. destruct (split_edge_count _ _ _ _ _ _ H) as [(s & E) | (_ & G)]; [discriminate|].
    destruct (G u eq_refl) as (t & _ & E). destruct (tp_neighbour t e); lia.
  Qed.
  Corollary split_edge_err_count (i : nat) (e : Edge) (p : V) (M M' : Mesh) (c : N) :
    split_edge i e p M = (M', Err c) -> nvalid M <= nvalid M'.
  Proof. intros H. destruct (split_edge_count _ _ _ _ _ _ H) as [(s & E) | (G & _)]; [discriminate | exact G]. Qed.

  Definition ap_post (M M' : Mesh) (r : res bool) : Prop :=
    (exists s, r = Panic s) \/
    (nvalid M <= nvalid M' /\ (r = Ok true -> nvalid M < nvalid M' /\ nvalid M' <= nvalid M + 2) /\ (r = Ok false -> M' = M)).
  Theorem aptt_count (i : nat) (p : V) (loc : PIT) (M M' : Mesh) (r : res bool) : add_point_to_triangle i p loc M = (M', r) -> ap_post M M' r.
  Proof.
    intros H. unfold add_point_to_triangle in H. unfold ap_post.
    apply bind_get_inv in H. destruct H as [(t & Et & H) | (_ & E & _)]; [|left; eexists; exact E].
    destruct (negb (tp_valid t)); [inversion H; subst; left; eexists; reflexivity|].
    destruct (pit_is_vertex loc); [inversion H; subst; right; split; [lia | split; [discriminate | reflexivity]]|].
    destruct (pit_is_edge loc).
    - apply bind_lift_inv in H. destruct H as [(ed & _ & H) | (-> & HR)].
      2:{ destruct HR as [(c & ->) | (s & -> & _)]; [right; split; [lia | split; discriminate] | left; eexists; reflexivity]. }
      apply mbind_inv in H. destruct H as [(u & M1 & H1 & H) | [(c & H1 & ->) | (s & H1 & ->)]].
      + inversion H; subst. right. destruct (split_edge_ok_count _ _ _ _ _ _ H1). split; [lia | split; [intros _; lia | discriminate]].
      + right. apply split_edge_err_count in H1. split; [exact H1 | split; discriminate].
      + left; eexists; reflexivity.
    - destruct loc; try (inversion H; subst; left; eexists; reflexivity).
      apply mbind_inv in H. destruct H as [(u & M1 & H1 & H) | [(c & H1 & ->) | (s & H1 & ->)]].
      + inversion H; subst. right. pose proof (split_triangle_ok_count _ _ _ _ _ H1). split; [lia | split; [intros _; lia | discriminate]].
      + right. destruct (split_triangle_err_count _ _ _ _ _ H1) as [E|E]; (split; [subst; lia | split; discriminate]).
      + left; eexists; reflexivity.
  Qed.
  Theorem add_point_count (p : V) (M M' : Mesh) (r : res bool) : add_point p M = (M', r) -> ap_post M M' r.
  Proof.
    unfold add_point. destruct (find_container (tris M) 0 p) as [[i loc]|]; [apply aptt_count|].
    intros H; inversion H; subst. right. split; [lia | split; discriminate].
  Qed.

  (** ** one pass of refine: the counter never goes down, and goes up STRICTLY when the pass reports a change *)
  Lemma refine_pass_count (a m : K) : forall (cnt i : nat) (l : list TP) (any : bool) (M M' : Mesh) (b : bool),
    refine_pass a m cnt i l any M = (M', Ok b) ->
    nvalid M <= nvalid M' /\ (b = true -> any = true \/ nvalid M < nvalid M').
  Proof.
    induction cnt as [|cnt IH]; intros i l any M M' b H.
    - cbn [refine_pass] in H. inversion H; subst. split; [lia | auto].
    - cbn [refine_pass] in H. destruct l as [|t l']; [discriminate|].
      destruct (negb (tp_valid t)); [discriminate|].
      destruct (nltb (tarea (tp_tri t)) c1em3); [apply IH in H; exact H|].
      destruct (nltb m (tp_ar t)).
      { apply mbind_ok in H. destruct H as ([s_i s] & M1 & E1 & H). inversion E1; subst M1. clear E1.
        apply mbind_ok in H. destruct H as (ed & M1 & E1 & H). inversion E1; subst M1. clear E1.
        apply mbind_ok in H. destruct H as (u1 & M1 & Hs & H).
        apply mbind_ok in H. destruct H as (u2 & M2 & Hr & H).
        apply IH in H. destruct H as (A & _). destruct (split_edge_ok_count _ _ _ _ _ _ Hs). apply restore_count in Hr.
        split; [lia | intros _; right; lia]. }
      destruct (nltb a (tarea (tp_tri t))); [|apply IH in H; exact H].
      destruct (add_point (tp_cc t) M) as [M1 [did| c | s]] eqn:Eadd; [| |discriminate].
      + destruct (add_point_count _ _ _ _ Eadd) as [(s & E) | (A1 & B1 & C1)]; [discriminate|].
        destruct did.
        * apply mbind_ok in H. destruct H as (u & M2 & Hr & H). apply restore_count in Hr.
          apply IH in H. destruct H as (A & _). specialize (B1 eq_refl). split; [lia | intros _; right; lia].
        * specialize (C1 eq_refl). subst M1. apply IH in H. exact H.
      + destruct (add_point_count _ _ _ _ Eadd) as [(s & E) | (A1 & _)]; [discriminate|].
        apply mbind_ok in H. destruct H as (t' & M2 & E2 & H). unfold mget in E2. inversion E2; subst M2. clear E2.
        apply mbind_ok in H. destruct H as (did & M3 & Hd & H).
        destruct (aptt_ok _ _ _ _ _ _ Hd) as (_ & Ht). rewrite (Ht eq_refl) in H, Hd.
        destruct (aptt_count _ _ _ _ _ _ Hd) as [(s & E) | (_ & B3 & _)]; [discriminate|]. specialize (B3 eq_refl).
        apply mbind_ok in H. destruct H as (u & M4 & Hr & H). apply restore_count in Hr.
        apply IH in H. destruct H as (A & _). split; [lia | intros _; right; lia].
  Qed.
  Theorem refine_pass_progress (a m : K) (M M' : Mesh) (b : bool) :
    refine_pass a m (length (tris M)) 0 (tris M) false M = (M', Ok b) ->
    nvalid M <= nvalid M' /\ (b = true -> nvalid M < nvalid M') /\ (b = false -> M' = M).
  Proof.
    intros H. destruct (refine_pass_count _ _ _ _ _ _ _ _ _ H) as (A & C). split; [exact A | split].
    - intros E. destruct (C E) as [G|G]; [discriminate | exact G].
    - intros ->. apply refine_pass_false in H; [|reflexivity]. apply H.
  Qed.

  (** ** refine: the number of passes (= the recursion depth of the real code) *)
  Fixpoint refine_passes (fuel : nat) (a m : K) (M : Mesh) : nat :=
    match fuel with
    | O => 0
    | S f => S (match refine_pass a m (length (tris M)) 0 (tris M) false M with
                | (M1, Ok true) => refine_passes f a m M1
                | _ => 0
                end)
    end.
  Definition last_pass (r : rres) : nat := match r with RDone => 1 | ROutOfFuel => 0 end.
  Theorem refine_progress (a m : K) : forall (fuel : nat) (M M' : Mesh) (r : rres),
    refine fuel a m M = (M', Ok r) ->
    nvalid M <= nvalid M' /\ nvalid M + refine_passes fuel a m M <= nvalid M' + last_pass r /\ (r = ROutOfFuel -> refine_passes fuel a m M = fuel).
  Proof.
    induction fuel as [|f IH]; intros M M' r H.
    - cbn [refine] in H. inversion H; subst. cbn [refine_passes last_pass]. split; [lia | split; [lia | reflexivity]].
    - cbn [refine] in H. apply mbind_ok in H. destruct H as (any & M1 & Hp & H). cbn [refine_passes]. rewrite Hp.
      destruct (refine_pass_progress _ _ _ _ _ Hp) as (A & B & C). destruct any.
      + specialize (B eq_refl). apply IH in H. destruct H as (A1 & B1 & C1). split; [lia | split; [lia|]]. intros E. rewrite (C1 E). reflexivity.
      + inversion H; subst. cbn [last_pass]. split; [lia | split; [lia | discriminate]].
  Qed.
  Corollary refine_done_passes (a m : K) (fuel : nat) (M M' : Mesh) :
    refine fuel a m M = (M', Ok RDone) -> nvalid M <= nvalid M' /\ refine_passes fuel a m M <= nvalid M' - nvalid M + 1.
  Proof. intros H. destruct (refine_progress _ _ _ _ _ _ H) as (A & B & _). cbn [last_pass] in B. split; [exact A | lia]. Qed.
  (** fuel adequacy: the fuel runs out only if at least [fuel] triangles were created *)
  Corollary refine_out_of_fuel (a m : K) (fuel : nat) (M M' : Mesh) :
    refine fuel a m M = (M', Ok ROutOfFuel) -> nvalid M + fuel <= nvalid M'.
  Proof. intros H. destruct (refine_progress _ _ _ _ _ _ H) as (_ & B & C). rewrite (C eq_refl) in B. cbn [last_pass] in B. lia. Qed.
  Corollary refine_fuel_adequate (a m : K) (fuel B : nat) (M M' : Mesh) (r : rres) :
    refine fuel a m M = (M', Ok r) -> nvalid M' <= B -> B < nvalid M + fuel -> r = RDone.
  Proof. intros H H1 H2. destruct r; [reflexivity|]. apply refine_out_of_fuel in H. lia. Qed.
  (** the fuel is only a device of the model: more fuel does not change an outcome other than ROutOfFuel *)
  Theorem refine_fuel_mono (a m : K) : forall (fuel k : nat) (M M' : Mesh) (r : res rres),
    refine fuel a m M = (M', r) -> r <> Ok ROutOfFuel ->
    refine (fuel + k) a m M = (M', r) /\ refine_passes (fuel + k) a m M = refine_passes fuel a m M.
  Proof.
    induction fuel as [|f IH]; intros k M M' r H Hr.
    - cbn [refine] in H. inversion H; subst. exfalso; apply Hr; reflexivity.
    - cbn [Nat.add refine refine_passes] in *. unfold mbind in *.
      destruct (refine_pass a m (length (tris M)) 0 (tris M) false M) as [M1 [[|]| c | s]]; try (split; [exact H | reflexivity]).
      destruct (IH k _ _ _ H Hr) as (E1 & E2). split; [exact E1 | rewrite E2; reflexivity].
  Qed.

  (** ** slots: the vector of slots never shrinks *)
  Lemma refine_pass_slots (a m : K) (cnt i : nat) (l : list TP) (any : bool) (M M' : Mesh) (r : res bool) :
    refine_pass a m cnt i l any M = (M', r) -> length (tris M) <= length (tris M').
  Proof. intros H. exact (proj1 (wf_refine_pass a m cnt i l any M M' r H)). Qed.
  Lemma refine_slots (a m : K) (fuel : nat) (M M' : Mesh) (r : res rres) : refine fuel a m M = (M', r) -> length (tris M) <= length (tris M').
  Proof. intros H. exact (proj1 (wf_refine a m fuel M M' r H)). Qed.
  Lemma count_valid_all (l : list TP) : forallb tp_valid l = true -> count_valid l = length l.
  Proof. induction l as [|t l IH]; cbn [forallb count_valid length]; [reflexivity|]. intros H. apply andb_true_iff in H. destruct H as [H1 H2]. rewrite H1, (IH H2). reflexivity. Qed.
  (** after [Ok RDone] every slot is live (C18): the number of slots IS the number of live triangles *)
  Lemma refine_done_slots (a m : K) (fuel : nat) (M M' : Mesh) :
    refine fuel a m M = (M', Ok RDone) -> length (tris M') = count_valid (tris M') /\ (CNT M' -> length (tris M') = nvalid M').
  Proof.
    intros H. apply refine_ok_all_valid in H. apply count_valid_all in H. split; [symmetry; exact H|]. intros C. unfold CNT in C. congruence.
  Qed.

  (** ** cost: at most three trace events per slot read at loop entry (an insertion or a swallowed attempt, the
      fall-back insertion, one restore_delaunay) *)
  Lemma refine_pass_trace_length (a m : K) : forall (cnt i : nat) (l : list TP) (M : Mesh), length (refine_pass_trace a m cnt i l M) <= 3 * cnt.
  Proof.
    induction cnt as [|cnt IH]; intros i l M; cbn [refine_pass_trace]; [cbn; lia|].
    repeat (match goal with
            | |- context [if ?b then _ else _] => destruct b
            | |- context [match ?x with _ => _ end] => destruct x
            end; cbn [length]);
    try lia; match goal with |- context [refine_pass_trace a m cnt ?i' ?l' ?M'] => specialize (IH i' l' M'); lia end.
  Qed.
  (** ... of which at most one per slot is a restore_delaunay (each at most MAX_LOOPS = 30 sweeps of the slots) *)
  Definition is_restore (ev : tev K) : bool := match ev with TStep (ORestore _) => true | _ => false end.
  Lemma refine_pass_trace_restores (a m : K) : forall (cnt i : nat) (l : list TP) (M : Mesh),
    length (filter is_restore (refine_pass_trace a m cnt i l M)) <= cnt.
  Proof.
    induction cnt as [|cnt IH]; intros i l M; cbn [refine_pass_trace]; [cbn; lia|].
    repeat (match goal with
            | |- context [if ?b then _ else _] => destruct b
            | |- context [match ?x with _ => _ end] => destruct x
            end; cbn [length filter is_restore]);
    try lia; match goal with |- context [refine_pass_trace a m cnt ?i' ?l' ?M'] => specialize (IH i' l' M'); lia end.
  Qed.
  Theorem refine_pass_cost (a m : K) (cnt i : nat) (l : list TP) (M : Mesh) :
    length (refine_pass_trace a m cnt i l M) <= 3 * cnt /\ length (filter is_restore (refine_pass_trace a m cnt i l M)) <= cnt.
  Proof. split; [apply refine_pass_trace_length | apply refine_pass_trace_restores]. Qed.
  Theorem refine_trace_length (a m : K) : forall (fuel : nat) (M M' : Mesh) (r : res rres),
    refine fuel a m M = (M', r) -> length (refine_trace fuel a m M) <= 3 * (refine_passes fuel a m M * length (tris M')).
  Proof.
    induction fuel as [|f IH]; intros M M' r H; cbn [refine_trace refine_passes]; [cbn; lia|].
    rewrite app_length. pose proof (refine_pass_trace_length a m (length (tris M)) 0 (tris M) M) as L0.
    cbn [refine] in H. unfold mbind in H.
    destruct (refine_pass a m (length (tris M)) 0 (tris M) false M) as [M1 [[|]| c | s]] eqn:Hp; pose proof (refine_pass_slots _ _ _ _ _ _ _ _ _ Hp) as S1.
    - pose proof (refine_slots _ _ _ _ _ _ H) as S2. apply IH in H. nia.
    - inversion H; subst. cbn [length]. nia.
    - inversion H; subst. cbn [length]. nia.
    - inversion H; subst. cbn [length]. nia.
  Qed.
  (** combined: a successful refine performs at most 3 * (final slots) * (created triangles + 1) elementary operations *)
  Theorem refine_cost (a m : K) (fuel : nat) (M M' : Mesh) :
    refine fuel a m M = (M', Ok RDone) ->
    length (refine_trace fuel a m M) <= 3 * ((nvalid M' - nvalid M + 1) * length (tris M')) /\
    length (tris M') = count_valid (tris M').
  Proof.
    intros H. pose proof (refine_trace_length _ _ _ _ _ _ H) as L. destruct (refine_done_passes _ _ _ _ _ H) as (_ & P).
    split; [nia | exact (proj1 (refine_done_slots _ _ _ _ _ H))].
  Qed.

  (** [refine], [refine_passes] and [refine_trace] are three recursions over the same passes; on a concrete input
      [refine_obs] runs each pass once for the outcome, the number of passes and the length of the trace together *)
  Fixpoint refine_obs (fuel : nat) (a m : K) (M : Mesh) : Mesh * res rres * nat * nat :=
    match fuel with
    | O => (M, Ok ROutOfFuel, 0, 0)
    | S f =>
      let n := length (refine_pass_trace a m (length (tris M)) 0 (tris M) M) in
      match refine_pass a m (length (tris M)) 0 (tris M) false M with
      | (M1, Ok true) => let '(x, p, k) := refine_obs f a m M1 in (x, S p, n + k)
      | (M1, Ok false) => (M1, Ok RDone, 1, n)
      | (M1, Err c) => (M1, Err c, 1, n)
      | (M1, Panic s) => (M1, Panic s, 1, n)
      end
    end.
  Lemma refine_obs_spec (a m : K) : forall (fuel : nat) (M : Mesh),
    refine_obs fuel a m M = (refine fuel a m M, refine_passes fuel a m M, length (refine_trace fuel a m M)).
  Proof.
    induction fuel as [|f IH]; intros M; cbn [refine_obs refine refine_passes refine_trace]; [reflexivity|].
    rewrite app_length. unfold mbind.
    destruct (refine_pass a m (length (tris M)) 0 (tris M) false M) as [M1 [[|]| c | s]]; [rewrite IH; reflexivity | cbn [length]; rewrite Nat.add_0_r; reflexivity ..].
  Qed.

  Theorem mesh_polygon_progress (fuel : nat) (P : Poly K) (a m : K) (M0 M' : Mesh) (r : rres) :
    from_polygon P = Ok M0 -> mesh_polygon fuel P a m = Ok (M', r) ->
    refine fuel a m M0 = (M', Ok r) /\ nvalid M0 <= nvalid M' /\ nvalid M0 + refine_passes fuel a m M0 <= nvalid M' + last_pass r /\
    (nvalid M' < nvalid M0 + fuel -> r = RDone).
  Proof.
    intros H0 H. unfold mesh_polygon in H. rewrite H0 in H. cbn [rbind] in H.
    destruct (refine fuel a m M0) as [t' [o| |]] eqn:E; cbn [rbind] in H; try discriminate. inversion H; subst.
    destruct (refine_progress _ _ _ _ _ _ E) as (A & B & _). split; [reflexivity | split; [exact A | split; [exact B|]]].
    intros L. eapply refine_fuel_adequate; [exact E | apply Nat.le_refl | exact L].
  Qed.
End Progress.

(** * the accounting on the executed instance (binary64): the unit square refined with max_area = 0.01 and
    max_aspect_ratio = 1.5 *)
From Coq Require Import Floats.
From G3 Require Import Model.NumF Proofs.Mesh_witness.
Set Warnings "-inexact-float".
Local Open Scope float_scope.

(* every figure of the run is read off ONE evaluation, and as a boolean: the meshes themselves (152 slots of cached
   floats) stay out of the proof term, where each occurrence would be compared again by coqchk.  The reading is
   proved for a variable polygon: on the closed one every conversion at Qed would be free to evaluate the run. *)
Definition run_check (P : Poly float) : bool :=
  match from_polygon P with
  | Ok M0 =>
    Nat.eqb (nvalid M0) 2 &&
    match refine_obs 100 0.01 1.5 M0 with
    | (M', Ok RDone, p, k) => Nat.eqb p 8 && Nat.eqb (nvalid M') 152 && Nat.eqb (length (tris M')) 152 && Nat.eqb k 176
    | _ => false
    end &&
    match refine 3 0.01 1.5 M0 with
    | (M3, Ok ROutOfFuel) => Nat.eqb (nvalid M3) 31
    | _ => false
    end
  | _ => false
  end.
Lemma run_check_sound (P : Poly float) : run_check P = true ->
  exists M0 M' M3 : Mesh float,
    from_polygon P = Ok M0 /\ nvalid M0 = 2%nat /\
    mesh_polygon 100 P 0.01 1.5 = Ok (M', RDone) /\
    refine_passes 100 0.01 1.5 M0 = 8%nat /\ nvalid M' = 152%nat /\ length (tris M') = 152%nat /\
    length (refine_trace 100 0.01 1.5 M0) = 176%nat /\
    mesh_polygon 3 P 0.01 1.5 = Ok (M3, ROutOfFuel) /\ nvalid M3 = 31%nat.
Proof.
  intros H. unfold run_check, mesh_polygon in *.
  destruct (from_polygon P) as [M0| |]; try discriminate. rewrite refine_obs_spec in H. cbn [rbind].
  destruct (refine 100 0.01 1.5 M0) as [M' [[|]| |]]; try (rewrite andb_false_r in H; discriminate).
  destruct (refine 3 0.01 1.5 M0) as [M3 [[|]| |]]; try (rewrite andb_false_r in H; discriminate).
  apply andb_true_iff in H. destruct H as [H H3]. apply andb_true_iff in H. destruct H as [H0 H].
  repeat (apply andb_true_iff in H; destruct H as [H ?]).
  exists M0, M', M3. repeat split; try reflexivity; apply Nat.eqb_eq; assumption.
Qed.
Lemma w4_run_checked : run_check w4_poly = true.
Proof. vm_compute. reflexivity. Qed.
