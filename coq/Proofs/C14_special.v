(** * C14, IEEE special values (Thm 2): what [intersect] does with the +-inf and NaN that
    axis-parallel rays produce ([inv_dirB = 1/+-0 = +-inf], [0 * inf = NaN] when the origin lies in a
    face plane), for every Flocq binary format.

    The test is read as the fold of Proofs/C14_real.v: what a slab with infinite or NaN
    parameters does to the running interval (kills it, or leaves it as it is), and which *inputs*
    produce which such slab; at the end of the file, witnesses by [vm_compute] on binary64. *)
From Coq Require Import ZArith Reals Bool List Lra Lia.
From Coq Require Import Floats.SpecFloat.
From Flocq Require Import Core BinarySingleNaN Plus_error.
From G3 Require Import Model.Num Model.Base Model.Vec Model.BBox Proofs.C14_real.
From G3 Require Proofs.C07_interval.
Local Open Scope num_scope.

Section Flocq.
  Variable prec emax : Z.
  Context (Hprec : FLX.Prec_gt_0 prec) (Hmax : Prec_lt_emax prec emax).
  Notation bf := (binary_float prec emax).
  Notation emin := (3 - emax - prec)%Z.
  Notation fexp := (FLT_exp emin prec).
  Local Instance NB : Num bf := NumB prec emax Hprec Hmax.
  Notation nan := (B754_nan : bf).
  Notation pinf := (B754_infinity false : bf).
  Notation minf := (B754_infinity true : bf).
  Local Open Scope R_scope.

  (** the widening constant [1 + 2 gamma(3)] of the format is a positive finite number
      (true of binary32 and binary64 by computation, see the end of the file) *)
  Definition widen_ok : Prop := exists m e H, (@widen bf NB) = B754_finite false m e H.

  Lemma lt_nan_l (x : bf) : Bltb nan x = false. Proof. destruct x; reflexivity. Qed.
  Lemma lt_nan_r (x : bf) : Bltb x nan = false. Proof. destruct x; reflexivity. Qed.
  Lemma nan_mul (x : bf) : Bmult mode_NE nan x = nan. Proof. destruct x; reflexivity. Qed.
  Lemma lt_pinf_l (x : bf) : Bltb pinf x = false. Proof. destruct x as [|[]| |]; reflexivity. Qed.
  Lemma lt_minf_r (x : bf) : Bltb x minf = false. Proof. destruct x as [|[]| |[]]; reflexivity. Qed.
  Lemma top (x : bf) : Bltb x pinf = false -> forall y, Bltb x y = false.
  Proof.
    destruct x as [s|[]| |[] m e H]; try discriminate; intros _ y.
    - apply lt_pinf_l. - apply lt_nan_l.
  Qed.
  Lemma minf_neg : Bltb minf (@n0 bf NB) = true. Proof. reflexivity. Qed.
  Lemma pinf_widen : widen_ok -> Bmult mode_NE pinf (@widen bf NB) = pinf.
  Proof. intros (m & e & H & ->). reflexivity. Qed.

  Notation W := (fun t : bf => (t * widen)%num).
  Ltac expose := unfold slab_init, slab_merge, slab_sort; cbn [nltb nmul NB NumB].

  (** far end [-inf]: behind the origin *)
  Lemma init_minf : slab_init W minf minf = None.
  Proof. expose. rewrite lt_minf_r, minf_neg. reflexivity. Qed.
  Lemma merge_minf o (a : bf) : (a = minf \/ a = nan) -> slab_merge W o a minf = None.
  Proof.
    intros A. destruct o as [[lo hi]|]; [|reflexivity]. expose.
    replace (Bltb minf a) with false by (destruct A as [-> | ->]; reflexivity). rewrite minf_neg. reflexivity.
  Qed.
  Lemma init_pinf (c : bf) : Bltb c pinf = false -> slab_dead (slab_init W pinf c).
  Proof. intros C. expose. rewrite C, (top c C). left. exact lt_pinf_l. Qed.
  Lemma merge_pinf o (c : bf) : Bltb c pinf = false -> slab_dead (slab_merge W o pinf c).
  Proof.
    intros C. destruct o as [[lo hi]|]; [|exact I]. expose. rewrite C, (top c C).
    destruct (_ || _); [exact I|]. left. destruct (Bltb lo pinf) eqn:E; [exact lt_pinf_l | exact (top lo E)].
  Qed.
  Lemma init_nan (a c : bf) : a = nan \/ c = nan -> slab_dead (slab_init W a c).
  Proof.
    intros [-> | ->]; expose.
    - rewrite lt_nan_r. destruct (Bltb c _); [exact I | left; exact lt_nan_l].
    - rewrite !lt_nan_l, nan_mul. right. exact lt_nan_r.
  Qed.
  (** the IEEE encoding (-inf, +inf) of "inside for every t", or NaN in place of either end: nothing changes *)
  Lemma merge_unbounded o (a c : bf) : widen_ok -> a = minf \/ a = nan -> c = pinf \/ c = nan -> slab_merge W o a c = o.
  Proof.
    intros Wk A C. apply merge_open.
    - destruct A as [-> | ->]; [exact lt_minf_r | exact lt_nan_r].
    - destruct C as [-> | ->]; [exact lt_pinf_l | exact lt_nan_l].
    - destruct C as [-> | ->]; [exact (pinf_widen Wk) | apply nan_mul].
  Qed.
  Lemma sort_pinf_minf : slab_sort pinf minf = slab_sort (minf : bf) pinf.
  Proof. reflexivity. Qed.

  Definition nonzero (s : bool) (f : bf) : Prop := f = B754_infinity s \/ exists m e H, f = B754_finite s m e H.
  Definition is_zero (f : bf) : Prop := exists s, f = B754_zero s.

  Lemma finite_B2R_0 (f : bf) : is_finite f = true -> B2R f = 0 -> is_zero f.
  Proof.
    destruct f as [s|s| |s m e H]; try discriminate; intros _ E; [exists s; reflexivity|].
    exfalso. simpl in E. apply eq_0_F2R in E. destruct s; discriminate.
  Qed.
  Lemma sub_eq (a o : bf) : is_finite a = true -> is_finite o = true -> B2R a = B2R o ->
    is_zero (Bminus mode_NE a o).
  Proof.
    intros Fa Fo E. generalize (Bminus_correct prec emax Hprec Hmax mode_NE a o Fa Fo).
    rewrite E, Rminus_diag_eq by reflexivity. rewrite round_0 by auto with typeclass_instances.
    rewrite Rabs_R0, Rlt_bool_true by apply bpow_gt_0. intros (B & F & _). apply finite_B2R_0; assumption.
  Qed.

  (** a difference of two distinct floats does not round to zero and has the sign of the exact
      difference, also when it overflows *)
  Lemma sub_nonzero (a o : bf) : is_finite a = true -> is_finite o = true -> B2R a <> B2R o ->
    nonzero (Rlt_bool (B2R a) (B2R o)) (Bminus mode_NE a o).
  Proof.
    intros Fa Fo N. generalize (Bminus_correct prec emax Hprec Hmax mode_NE a o Fa Fo).
    assert (NZ : round radix2 fexp (round_mode mode_NE) (B2R a - B2R o) <> 0).
    { unfold Rminus. apply round_plus_neq_0; auto with typeclass_instances.
      - apply generic_format_B2R.
      - apply generic_format_opp, generic_format_B2R.
      - lra. }
    set (s := Rlt_bool (B2R a) (B2R o)).
    assert (Cs : Rcompare (B2R a - B2R o) 0 = if s then Lt else Gt).
    { unfold s. destruct (Rlt_bool_spec (B2R a) (B2R o)); [apply Rcompare_Lt | apply Rcompare_Gt]; lra. }
    destruct (Rlt_bool _ (bpow _ _)).
    - rewrite Cs. intros (B & F & S). right.
      destruct (Bminus mode_NE a o) as [z|z| |z m e H]; try discriminate.
      + exfalso. apply NZ. exact (eq_sym B).
      + simpl in S. replace z with s by (destruct s; auto). eauto.
    - intros (B & S). unfold binary_overflow, overflow_to_inf in B. left.
      assert (Sa : Bsign a = s).
      { pose proof (C07_interval.Bsign_sign prec emax a Fa) as Pa. pose proof (C07_interval.Bsign_sign prec emax o Fo) as Po.
        unfold s. destruct (Rlt_bool_spec (B2R a) (B2R o)) as [L|L], (Bsign a), (Bsign o); try reflexivity; try discriminate S; lra. }
      rewrite Sa in B. destruct (Bminus mode_NE a o) as [z|z| |z m e H]; try discriminate. inversion B. reflexivity.
  Qed.

  Lemma zero_mul_inf (f : bf) s : is_zero f -> Bmult mode_NE f (B754_infinity s) = nan.
  Proof. intros (z & ->). reflexivity. Qed.
  Lemma nonzero_mul_inf (f : bf) z s : nonzero z f -> Bmult mode_NE f (B754_infinity s) = B754_infinity (if z then negb s else s).
  Proof. intros [->|(m & e & H & ->)]; destruct z, s; reflexivity. Qed.

  (** the raw plane parameter [(face - origin) * inv] when [inv = +-inf] *)
  Lemma raw_on (f o : bf) s : is_finite f = true -> is_finite o = true -> B2R o = B2R f ->
    raw f o (B754_infinity s) = nan.
  Proof. intros Ff Fo E. unfold raw. apply zero_mul_inf, sub_eq; auto. Qed.
  Lemma raw_above (f o : bf) s : is_finite f = true -> is_finite o = true -> B2R o < B2R f ->
    raw f o (B754_infinity s) = B754_infinity s.
  Proof.
    intros Ff Fo L. unfold raw. cbn [nsub nmul NB NumB]. rewrite (nonzero_mul_inf _ false) by (rewrite <- (Rlt_bool_false (B2R f) (B2R o)) by lra; apply sub_nonzero; auto; lra).
    reflexivity.
  Qed.
  Lemma raw_below (f o : bf) s : is_finite f = true -> is_finite o = true -> B2R f < B2R o ->
    raw f o (B754_infinity s) = B754_infinity (negb s).
  Proof.
    intros Ff Fo L. unfold raw. cbn [nsub nmul NB NumB]. rewrite (nonzero_mul_inf _ true) by (rewrite <- (Rlt_bool_true (B2R f) (B2R o)) by lra; apply sub_nonzero; auto; lra).
    reflexivity.
  Qed.

  Definition fin (f : bf) : Prop := is_finite f = true.
  Definition format_ok : Prop := widen_ok /\ exists m e H, (@n1 bf NB) = B754_finite false m e H.
  (** with this the second half of [format_ok] holds in every format *)
  Lemma n1_one : fin (@n1 bf NB) /\ B2R (@n1 bf NB) = 1.
  Proof.
    pose proof Hprec as P. pose proof Hmax as Q. unfold FLX.Prec_gt_0, Prec_lt_emax in P, Q.
    apply (C07_interval.Bofz_exact prec emax Hprec Hmax 1); change 1 with (bpow radix2 0).
    - apply generic_format_bpow. unfold FLT_exp. lia.
    - rewrite Rabs_pos_eq by apply bpow_ge_0. apply bpow_lt. lia.
  Qed.
  Lemma n1_finite_pos : exists m e H, (@n1 bf NB) = B754_finite false m e H.
  Proof.
    destruct n1_one as (F & V). destruct (@n1 bf NB) as [s|s| |s m e H]; try discriminate F.
    - simpl in V. lra.
    - destruct s; [|eauto]. exfalso. pose proof (C07_interval.Bsign_sign prec emax _ F) as L. cbn [Bsign] in L. rewrite V in L. lra.
  Qed.

  Section Axis.
    Variables lo hi o : bf.
    Hypotheses (Fo : fin o) (F1 : fin lo) (F2 : fin hi).

    Lemma outside_slab s : B2R lo <= B2R hi -> B2R o < B2R lo \/ B2R hi < B2R o ->
      exists z, raw lo o (B754_infinity s) = B754_infinity z /\ raw hi o (B754_infinity s) = B754_infinity z.
    Proof.
      intros L [E|E]; [exists s | exists (negb s)].
      - rewrite !raw_above by (assumption || lra). split; reflexivity.
      - rewrite !raw_below by (assumption || lra). split; reflexivity.
    Qed.
    Lemma outside_init s : B2R lo <= B2R hi -> B2R o < B2R lo \/ B2R hi < B2R o ->
      slab_dead (slab_init W (raw lo o (B754_infinity s)) (raw hi o (B754_infinity s))).
    Proof.
      intros L E. destruct (outside_slab s L E) as ([] & -> & ->); [rewrite init_minf; exact I | apply init_pinf; reflexivity].
    Qed.
    Lemma outside_merge s p : B2R lo <= B2R hi -> B2R o < B2R lo \/ B2R hi < B2R o ->
      slab_dead (slab_merge W p (raw lo o (B754_infinity s)) (raw hi o (B754_infinity s))).
    Proof.
      intros L E. destruct (outside_slab s L E) as ([] & -> & ->); [rewrite merge_minf by auto; exact I | apply merge_pinf; reflexivity].
    Qed.

    (** reciprocal [-inf], origin in a face plane of a slab of positive thickness: the NaN blocks the near/far swap *)
    Lemma neg_zero_face_merge p : B2R lo < B2R hi -> B2R o = B2R lo \/ B2R o = B2R hi ->
      slab_dead (slab_merge W p (raw lo o minf) (raw hi o minf)).
    Proof.
      intros L [E|E].
      - rewrite (raw_on _ _ true F1 Fo E), (raw_above _ _ true F2 Fo), merge_minf by (auto || lra). exact I.
      - rewrite (raw_on hi _ true F2 Fo E), (raw_below _ _ true F1 Fo) by lra. apply merge_pinf. reflexivity.
    Qed.

    (** origin inside the slab, NaN or not: the slab is (-inf, +inf), up to the swap and NaN for either end *)
    Definition slab_inside (i : bf) : Prop :=
      (i = pinf /\ B2R lo <= B2R o <= B2R hi) \/
      (i = minf /\ (B2R lo < B2R o < B2R hi \/ B2R lo = B2R o /\ B2R o = B2R hi)).
    Lemma inside_merge i p : widen_ok -> slab_inside i -> slab_merge W p (raw lo o i) (raw hi o i) = p.
    Proof.
      intros Wk [[-> [L U]]|[-> [[L U]|[L U]]]].
      - apply merge_unbounded; [exact Wk | |].
        + destruct (Rle_lt_or_eq_dec _ _ L) as [L'|L']; [left; apply (raw_below _ _ false) | right; apply raw_on]; auto.
        + destruct (Rle_lt_or_eq_dec _ _ U) as [U'|U']; [left; apply (raw_above _ _ false) | right; apply raw_on]; auto.
      - rewrite (raw_below _ _ true F1 Fo L), (raw_above _ _ true F2 Fo U). cbn [negb].
        unfold slab_merge. rewrite sort_pinf_minf. apply (merge_unbounded p minf pinf); auto.
      - rewrite (raw_on _ _ true F1 Fo (eq_sym L)), (raw_on _ _ true F2 Fo U). apply merge_unbounded; auto.
    Qed.
  End Axis.

  Section Inputs.
    Variables (b : BBox bf) (r : Ray bf) (i : V3 bf).
    Notation o := (rorigin r).
    Notation X1 := (raw (vx (bmin b)) (vx o) (vx i)). Notation X2 := (raw (vx (bmax b)) (vx o) (vx i)).
    Notation Y1 := (raw (vy (bmin b)) (vy o) (vy i)). Notation Y2 := (raw (vy (bmax b)) (vy o) (vy i)).
    Notation Z1 := (raw (vz (bmin b)) (vz o) (vz i)). Notation Z2 := (raw (vz (bmax b)) (vz o) (vz i)).

    (** first class of lost rays (the recorded finding F10): x slab, origin in a face plane [x = min.x] or [x = max.x], direction.x = +-0: LOST *)
    Theorem x_face_lost s : vx i = B754_infinity s -> fin (vx o) ->
      (fin (vx (bmin b)) /\ B2R (vx o) = B2R (vx (bmin b))) \/ (fin (vx (bmax b)) /\ B2R (vx o) = B2R (vx (bmax b))) ->
      bbox_intersect b r i = false.
    Proof.
      rewrite intersect_run. intros -> Fo H. apply run_dead_x, init_nan.
      destruct H as [[F E]|[F E]]; [left | right]; apply raw_on; assumption.
    Qed.

    (** second class of lost rays: y or z slab of positive thickness, origin in one of its face planes, direction = -0: LOST *)
    Theorem y_face_neg_zero_lost : vy i = minf -> fin (vy o) -> fin (vy (bmin b)) -> fin (vy (bmax b)) ->
      B2R (vy (bmin b)) < B2R (vy (bmax b)) ->
      B2R (vy o) = B2R (vy (bmin b)) \/ B2R (vy o) = B2R (vy (bmax b)) ->
      bbox_intersect b r i = false.
    Proof. rewrite intersect_run. intros -> Fo F1 F2 L E. apply run_dead_y. intros p. apply neg_zero_face_merge; assumption. Qed.
    Theorem z_face_neg_zero_lost : vz i = minf -> fin (vz o) -> fin (vz (bmin b)) -> fin (vz (bmax b)) ->
      B2R (vz (bmin b)) < B2R (vz (bmax b)) ->
      B2R (vz o) = B2R (vz (bmin b)) \/ B2R (vz o) = B2R (vz (bmax b)) ->
      bbox_intersect b r i = false.
    Proof. rewrite intersect_run. intros -> Fo F1 F2 L E. apply run_dead_z. intros p. apply neg_zero_face_merge; assumption. Qed.

    (** origin outside the slab of a zero direction component: rejected (correct) *)
    Theorem x_outside_rejected s : widen_ok -> vx i = B754_infinity s -> fin (vx o) -> fin (vx (bmin b)) -> fin (vx (bmax b)) ->
      B2R (vx (bmin b)) <= B2R (vx (bmax b)) -> B2R (vx o) < B2R (vx (bmin b)) \/ B2R (vx (bmax b)) < B2R (vx o) ->
      bbox_intersect b r i = false.
    Proof. rewrite intersect_run. intros _ -> Fo F1 F2 L E. apply run_dead_x, outside_init; assumption. Qed.
    Theorem y_outside_rejected s : widen_ok -> vy i = B754_infinity s -> fin (vy o) -> fin (vy (bmin b)) -> fin (vy (bmax b)) ->
      B2R (vy (bmin b)) <= B2R (vy (bmax b)) -> B2R (vy o) < B2R (vy (bmin b)) \/ B2R (vy (bmax b)) < B2R (vy o) ->
      bbox_intersect b r i = false.
    Proof. rewrite intersect_run. intros _ -> Fo F1 F2 L E. apply run_dead_y. intros p. apply outside_merge; assumption. Qed.
    Theorem z_outside_rejected s : widen_ok -> vz i = B754_infinity s -> fin (vz o) -> fin (vz (bmin b)) -> fin (vz (bmax b)) ->
      B2R (vz (bmin b)) <= B2R (vz (bmax b)) -> B2R (vz o) < B2R (vz (bmin b)) \/ B2R (vz (bmax b)) < B2R (vz o) ->
      bbox_intersect b r i = false.
    Proof. rewrite intersect_run. intros _ -> Fo F1 F2 L E. apply run_dead_z. intros p. apply outside_merge; assumption. Qed.

    (** origin inside the slab of a zero direction component, NaN or not: the slab is ignored, i.e. the answer is
        the one obtained with the IEEE encoding (-inf, +inf) of "inside for every t" *)
    Definition y_slab_inside : Prop :=
      (vy i = pinf /\ B2R (vy (bmin b)) <= B2R (vy o) <= B2R (vy (bmax b))) \/
      (vy i = minf /\ (B2R (vy (bmin b)) < B2R (vy o) < B2R (vy (bmax b)) \/
                       B2R (vy (bmin b)) = B2R (vy o) /\ B2R (vy o) = B2R (vy (bmax b)))).
    Definition z_slab_inside : Prop :=
      (vz i = pinf /\ B2R (vz (bmin b)) <= B2R (vz o) <= B2R (vz (bmax b))) \/
      (vz i = minf /\ (B2R (vz (bmin b)) < B2R (vz o) < B2R (vz (bmax b)) \/
                       B2R (vz (bmin b)) = B2R (vz o) /\ B2R (vz o) = B2R (vz (bmax b)))).

    Theorem y_inside_ignored : widen_ok -> fin (vy o) -> fin (vy (bmin b)) -> fin (vy (bmax b)) -> y_slab_inside ->
      bbox_intersect b r i = fst (slab_core X1 X2 minf pinf Z1 Z2).
    Proof.
      intros Wk Fo F1 F2 H. rewrite intersect_run, core_run. unfold slab_run.
      rewrite (inside_merge _ _ _ Fo F1 F2 _ _ Wk H), (merge_unbounded _ minf pinf) by auto. reflexivity.
    Qed.
    Theorem z_inside_ignored : widen_ok -> fin (vz o) -> fin (vz (bmin b)) -> fin (vz (bmax b)) -> z_slab_inside ->
      bbox_intersect b r i = fst (slab_core X1 X2 Y1 Y2 minf pinf).
    Proof.
      intros Wk Fo F1 F2 H. rewrite intersect_run, core_run. unfold slab_run.
      rewrite (inside_merge _ _ _ Fo F1 F2 _ _ Wk H), (merge_unbounded _ minf pinf) by auto. reflexivity.
    Qed.
    Theorem x_strictly_inside_ignored s : widen_ok -> vx i = B754_infinity s ->
      fin (vx o) -> fin (vx (bmin b)) -> fin (vx (bmax b)) ->
      B2R (vx (bmin b)) < B2R (vx o) < B2R (vx (bmax b)) ->
      bbox_intersect b r i = fst (slab_core minf pinf Y1 Y2 Z1 Z2).
    Proof.
      intros _ Ei Fo F1 F2 [L U]. rewrite intersect_run, core_run, Ei.
      rewrite (raw_below _ _ s F1 Fo L), (raw_above _ _ s F2 Fo U). unfold slab_run, slab_init.
      destruct s; cbn [negb]; [rewrite sort_pinf_minf|]; reflexivity.
    Qed.
  End Inputs.

  (** *** the recorded finding as a decidable predicate on the inputs (IEEE [==]: +0 == -0) *)
  Definition known_x_slab_nan (b : BBox bf) (r : Ray bf) : bool :=
    ((vx (rdir r) =? n0) && ((vx (rorigin r) =? vx (bmin b)) || (vx (rorigin r) =? vx (bmax b))))%num.
  (** the second class of lost rays (direction -0, origin on a face plane) *)
  Definition known_neg_zero_face (b : BBox bf) (r : Ray bf) : bool :=
    let neg0 (d : bf) := match d with B754_zero true => true | _ => false end in
    ((neg0 (vy (rdir r)) && negb (vy (bmin b) =? vy (bmax b)) && ((vy (rorigin r) =? vy (bmin b)) || (vy (rorigin r) =? vy (bmax b)))) ||
     (neg0 (vz (rdir r)) && negb (vz (bmin b) =? vz (bmax b)) && ((vz (rorigin r) =? vz (bmin b)) || (vz (rorigin r) =? vz (bmax b)))))%num.
  Definition fin3 (v : V3 bf) : Prop := fin (vx v) /\ fin (vy v) /\ fin (vz v).
  Definition inv_dirB (d : V3 bf) : V3 bf := mkV3 (n1 / vx d)%num (n1 / vy d)%num (n1 / vz d)%num.

  Lemma eqb_false_R (a c : bf) : fin a -> fin c -> Beqb a c = false -> B2R a <> B2R c.
  Proof. intros Fa Fc. rewrite Beqb_correct by assumption. case Req_bool_spec; [discriminate | auto]. Qed.
  Lemma recip_zero (d : bf) : format_ok -> Beqb d (@n0 bf NB) = true -> exists s, Bdiv mode_NE (@n1 bf NB) d = B754_infinity s.
  Proof.
    intros (_ & m & e & H & ->). destruct d as [s|s| |s m' e' H']; intros E.
    - exists s. destruct s; reflexivity.
    - destruct s; discriminate E.
    - discriminate E.
    - destruct s; discriminate E.
  Qed.
  Lemma recip_neg_zero : format_ok -> Bdiv mode_NE (@n1 bf NB) (B754_zero true) = minf.
  Proof. intros (_ & m & e & H & ->). reflexivity. Qed.

  Theorem known_x_slab_nan_lost (b : BBox bf) (r : Ray bf) : format_ok ->
    fin3 (bmin b) -> fin3 (bmax b) -> fin3 (rorigin r) ->
    known_x_slab_nan b r = true -> bbox_intersect b r (inv_dirB (rdir r)) = false.
  Proof.
    intros Ok (F1 & _) (F2 & _) (Fo & _) H. unfold known_x_slab_nan in H. cbn [neqb NB NumB] in H.
    apply andb_prop in H. destruct H as [Hd Hf]. destruct (recip_zero _ Ok Hd) as [s Es].
    apply (x_face_lost b r (inv_dirB (rdir r)) s Es Fo).
    apply orb_prop in Hf. destruct Hf as [E|E]; [left | right]; split; try assumption; apply (@C07_interval.Beqb_fin prec emax); assumption.
  Qed.

  Theorem known_neg_zero_face_lost (b : BBox bf) (r : Ray bf) : format_ok ->
    fin3 (bmin b) -> fin3 (bmax b) -> fin3 (rorigin r) ->
    B2R (vy (bmin b)) <= B2R (vy (bmax b)) -> B2R (vz (bmin b)) <= B2R (vz (bmax b)) ->
    known_neg_zero_face b r = true -> bbox_intersect b r (inv_dirB (rdir r)) = false.
  Proof.
    intros Ok (_ & F1y & F1z) (_ & F2y & F2z) (_ & Foy & Foz) Wy Wz H. unfold known_neg_zero_face in H.
    cbn [neqb NB NumB] in H. apply orb_prop in H. destruct H as [H|H];
      apply andb_prop in H; destruct H as [H Hf]; apply andb_prop in H; destruct H as [Hd Hn];
      apply negb_true_iff in Hn.
    - apply y_face_neg_zero_lost; try assumption.
      + cbn [inv_dirB vy]. destruct (vy (rdir r)) as [[]|?| |? ? ? ?]; try discriminate. apply recip_neg_zero, Ok.
      + pose proof (eqb_false_R _ _ F1y F2y Hn). lra.
      + apply orb_prop in Hf. destruct Hf as [E|E]; [left | right]; apply (@C07_interval.Beqb_fin prec emax); assumption.
    - apply z_face_neg_zero_lost; try assumption.
      + cbn [inv_dirB vz]. destruct (vz (rdir r)) as [[]|?| |? ? ? ?]; try discriminate. apply recip_neg_zero, Ok.
      + pose proof (eqb_false_R _ _ F1z F2z Hn). lra.
      + apply orb_prop in Hf. destruct Hf as [E|E]; [left | right]; apply (@C07_interval.Beqb_fin prec emax); assumption.
  Qed.
End Flocq.

Lemma finite_of_SF {prec emax} (f : binary_float prec emax) m e :
  B2SF f = S754_finite false m e -> exists H, f = B754_finite false m e H.
Proof. destruct f as [s|s| |s m' e' H]; try discriminate. simpl. intros E. inversion E. subst. eauto. Qed.

(** the widening constant [RN (1 + 2 gamma(3))] is [1 + 3 ulp(1)] in both formats *)
Lemma widen_64 : B2SF (@widen b64 NumB64) = S754_finite false 4503599627370499 (-52).
Proof. vm_compute. reflexivity. Qed.
Lemma widen_32 : B2SF (@widen b32 NumB32) = S754_finite false 8388611 (-23).
Proof. vm_compute. reflexivity. Qed.
Lemma widen_64_R : B2R (@widen b64 NumB64) = (1 + 3 * bpow radix2 (-52))%R.
Proof. rewrite <- SF2R_B2SF, widen_64. unfold SF2R, F2R. simpl. lra. Qed.
Lemma widen_32_R : B2R (@widen b32 NumB32) = (1 + 3 * bpow radix2 (-23))%R.
Proof. rewrite <- SF2R_B2SF, widen_32. unfold SF2R, F2R. simpl. lra. Qed.

Lemma format_ok_64 : format_ok 53 1024 Hprec53 Hmax1024.
Proof.
  split.
  - destruct (finite_of_SF _ _ _ widen_64) as [H EH]. do 3 eexists. exact EH.
  - apply n1_finite_pos.
Qed.
Lemma format_ok_32 : format_ok 24 128 Hprec24 Hmax128.
Proof.
  split.
  - destruct (finite_of_SF _ _ _ widen_32) as [H EH]. do 3 eexists. exact EH.
  - apply n1_finite_pos.
Qed.

Definition q (m : Z) (e : Z) : b64 := binary_normalize 53 1024 Hprec53 Hmax1024 mode_NE m e false.
Definition inv64 := inv_dirB 53 1024 Hprec53 Hmax1024.
Definition P (x y z : b64) : V3 b64 := mkV3 x y z.
Definition zero64 : b64 := B754_zero false.
Definition nzero64 : b64 := B754_zero true.
Definition one64 : b64 := q 1 0.
Definition half64 : b64 := q 1 (-1).
Definition mone64 : b64 := q (-1) 0.

(** F10: box {0} x [0,1] x [0,1] (and the unit cube), origin (0, 0.5, -1), direction (0, 0, 1):
    the point at t = 1.5 is (0, 0.5, 0.5), inside the box, yet [intersect] answers false. *)
Definition w_flat : BBox b64 := bbox_new (P zero64 zero64 zero64) (P zero64 one64 one64).
Definition w_cube : BBox b64 := bbox_new (P zero64 zero64 zero64) (P one64 one64 one64).
Definition w_ray : Ray b64 := mkRay (P zero64 half64 mone64) (P zero64 zero64 one64).
Definition w_t : b64 := q 3 (-1).

Lemma x_slab_nan_witness :
  (known_x_slab_nan 53 1024 Hprec53 Hmax1024 w_flat w_ray = true /\
   (n0 <? w_t)%num = true /\ bbox_point_inside w_flat (ray_project w_ray w_t) = true /\
   bbox_intersect w_flat w_ray (inv64 (rdir w_ray)) = false) /\
  (known_x_slab_nan 53 1024 Hprec53 Hmax1024 w_cube w_ray = true /\
   bbox_point_inside w_cube (ray_project w_ray w_t) = true /\
   bbox_intersect w_cube w_ray (inv64 (rdir w_ray)) = false).
Proof. vm_compute. repeat split; reflexivity. Qed.

(** the mirror cases: the same ray geometry in the y = 0 face / a box flat in y or z is accepted *)
Lemma mirror_cases_accepted :
  bbox_intersect (bbox_new (P zero64 zero64 zero64) (P one64 zero64 one64)) (mkRay (P half64 zero64 mone64) (P zero64 zero64 one64))
                 (inv64 (P zero64 zero64 one64)) = true /\
  bbox_intersect w_cube (mkRay (P half64 zero64 mone64) (P zero64 zero64 one64)) (inv64 (P zero64 zero64 one64)) = true /\
  bbox_intersect w_cube (mkRay (P half64 one64 mone64) (P zero64 zero64 one64)) (inv64 (P zero64 zero64 one64)) = true /\
  bbox_intersect (bbox_new (P zero64 zero64 zero64) (P one64 one64 zero64)) (mkRay (P mone64 half64 zero64) (P one64 zero64 zero64))
                 (inv64 (P one64 zero64 zero64)) = true.
Proof. vm_compute. repeat split; reflexivity. Qed.

(** second class: direction.y = -0 (or direction.z = -0), origin in a face plane of a slab of positive thickness *)
Definition w_ray_y : Ray b64 := mkRay (P half64 zero64 mone64) (P zero64 nzero64 one64).
Definition w_ray_z : Ray b64 := mkRay (P mone64 half64 one64) (P one64 zero64 nzero64).
Lemma neg_zero_face_witness :
  (known_neg_zero_face 53 1024 Hprec53 Hmax1024 w_cube w_ray_y = true /\
   known_x_slab_nan 53 1024 Hprec53 Hmax1024 w_cube w_ray_y = false /\
   bbox_point_inside w_cube (ray_project w_ray_y w_t) = true /\
   bbox_intersect w_cube w_ray_y (inv64 (rdir w_ray_y)) = false) /\
  (known_neg_zero_face 53 1024 Hprec53 Hmax1024 w_cube w_ray_z = true /\
   known_x_slab_nan 53 1024 Hprec53 Hmax1024 w_cube w_ray_z = false /\
   bbox_point_inside w_cube (ray_project w_ray_z w_t) = true /\
   bbox_intersect w_cube w_ray_z (inv64 (rdir w_ray_z)) = false).
Proof. vm_compute. repeat split; reflexivity. Qed.
