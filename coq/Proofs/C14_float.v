(** * C14, float tier (Thm 3, first half): completeness of [intersect] at the level of the COMPUTED
    plane parameters, for every Flocq binary format.

    What is proved: if the six computed products [(face - origin) * inv_dir] and their widened values
    are finite, the computed parameter intervals [lo_a, hi_a] of the three slabs share a parameter
    [t > 0] (no margin; [lo_a = hi_a] allowed: a flat slab computes both ends by the same operations,
    so they are bit-equal), and every far end is strictly increased by the widening (true of every
    positive normal number, lemma [widen_strict]), then the answer is [true].
    The three roundings between the exact parameters [(face - o)/d] and the computed ones ([1/d],
    the subtraction, the product) are the subject of Proofs/C14_margin.v. *)
From Coq Require Import ZArith Reals Bool Lra Psatz.
From Flocq Require Import Core BinarySingleNaN.
From G3 Require Import Model.Num Model.Base Model.Vec Model.BBox Theory.RInst Proofs.C14_real Proofs.C14_special.
From G3 Require Proofs.C07_interval.

Local Open Scope R_scope.

(** ** from floats to reals: on finite values the float core is the real core *)
Section Transfer.
  Variable prec emax : Z.
  Context (Hprec : FLX.Prec_gt_0 prec) (Hmax : Prec_lt_emax prec emax).
  Notation bf := (binary_float prec emax).
  Notation emin := (3 - emax - prec)%Z.
  Notation fexp := (FLT_exp emin prec).
  Local Instance NB : Num bf := NumB prec emax Hprec Hmax.
  Notation fin x := (is_finite x = true).
  Definition RN (r : R) : R := round radix2 fexp ZnearestE r.
  Definition wB : bf := @widen bf NB.
  (** the widening as executed, and its real reading *)
  Definition wfB (t : bf) : bf := Bmult mode_NE t wB.
  Definition wfR (r : R) : R := RN (r * B2R wB).

  Lemma ltb_R (x y : bf) : fin x -> fin y -> Bltb x y = Rltb (B2R x) (B2R y).
  Proof.
    intros Fx Fy. rewrite Bltb_correct by assumption. unfold Rltb.
    destruct (Rlt_bool_spec (B2R x) (B2R y)), (Rlt_dec (B2R x) (B2R y)); try reflexivity; lra.
  Qed.
  Lemma wf_R (x : bf) : fin (wfB x) -> B2R (wfB x) = wfR (B2R x).
  Proof. intros F. exact (proj2 (proj2 (C07_interval.Bmult_fin x wB F))). Qed.

  Lemma core_transfer (x1 x2 y1 y2 z1 z2 : bf) :
    fin x1 -> fin x2 -> fin y1 -> fin y2 -> fin z1 -> fin z2 ->
    fin (wfB x1) -> fin (wfB x2) -> fin (wfB y1) -> fin (wfB y2) -> fin (wfB z1) -> fin (wfB z2) ->
    fst (slab_core x1 x2 y1 y2 z1 z2) = slab_run wfR (B2R x1) (B2R x2) (B2R y1) (B2R y2) (B2R z1) (B2R z2).
  Proof.
    intros. rewrite core_run. symmetry.
    apply (run_hom B2R (fun x : bf => fin x) wfB wfR); try assumption.
    - intros a b Fa Fb. symmetry. apply ltb_R; assumption.
    - exact (C07_interval.Bofz0 prec emax Hprec Hmax).
    - intros a _ Fa. symmetry. apply wf_R, Fa.
  Qed.

  (** the widening strictly increases every positive normal number, provided the constant is at least
      one ulp above 1 (binary64: 1 + 3 * 2^-52, binary32: 1 + 3 * 2^-23) *)
  Definition widen_big : Prop := 1 + bpow radix2 (1 - prec) <= B2R wB.
  Lemma widen_strict (b : R) : widen_big -> generic_format radix2 fexp b -> bpow radix2 (emin + prec - 1) <= b -> b < wfR b.
  Proof.
    intros W Fb Nb.
    assert (Pb : 0 < b) by (apply Rlt_le_trans with (2 := Nb); apply bpow_gt_0).
    assert (Hu : ulp radix2 fexp b <= b * bpow radix2 (1 - prec)).
    { rewrite <- (Rabs_pos_eq b) at 2 by lra. apply ulp_FLT_le. rewrite Rabs_pos_eq by lra. exact Nb. }
    assert (Hs : succ radix2 fexp b <= b * B2R wB).
    { rewrite succ_eq_pos by lra. unfold widen_big in W. nra. }
    apply Rlt_le_trans with (succ radix2 fexp b).
    - apply succ_gt_id. lra.
    - unfold wfR, RN. rewrite <- (round_generic radix2 fexp ZnearestE (succ radix2 fexp b)).
      + apply round_le; auto with typeclass_instances.
      + apply generic_format_succ; auto with typeclass_instances.
  Qed.

  (** Thm 3, first half: completeness on the computed parameters *)
  Theorem param_complete (x1 x2 y1 y2 z1 z2 : bf) :
    fin x1 -> fin x2 -> fin y1 -> fin y2 -> fin z1 -> fin z2 ->
    fin (wfB x1) -> fin (wfB x2) -> fin (wfB y1) -> fin (wfB y2) -> fin (wfB z1) -> fin (wfB z2) ->
    let ax := Rmin (B2R x1) (B2R x2) in let bx := Rmax (B2R x1) (B2R x2) in
    let ay := Rmin (B2R y1) (B2R y2) in let by_ := Rmax (B2R y1) (B2R y2) in
    let az := Rmin (B2R z1) (B2R z2) in let bz := Rmax (B2R z1) (B2R z2) in
    (exists t, 0 < t /\ ax <= t <= bx /\ ay <= t <= by_ /\ az <= t <= bz) ->
    bx < wfR bx -> by_ < wfR by_ -> bz < wfR bz ->
    fst (slab_core x1 x2 y1 y2 z1 z2) = true.
  Proof.
    intros F1 F2 F3 F4 F5 F6 G1 G2 G3 G4 G5 G6 ax bx ay by_ az bz (t & Pt & Hx & Hy & Hz) Sx Sy Sz.
    rewrite core_transfer by assumption. apply run_true_of_pairs; fold ax bx ay by_ az bz; repeat split; lra.
  Qed.

  (** the same for normal far ends, the strictness being a lemma *)
  Corollary param_complete_normal (x1 x2 y1 y2 z1 z2 : bf) :
    widen_big ->
    fin x1 -> fin x2 -> fin y1 -> fin y2 -> fin z1 -> fin z2 ->
    fin (wfB x1) -> fin (wfB x2) -> fin (wfB y1) -> fin (wfB y2) -> fin (wfB z1) -> fin (wfB z2) ->
    let ax := Rmin (B2R x1) (B2R x2) in let bx := Rmax (B2R x1) (B2R x2) in
    let ay := Rmin (B2R y1) (B2R y2) in let by_ := Rmax (B2R y1) (B2R y2) in
    let az := Rmin (B2R z1) (B2R z2) in let bz := Rmax (B2R z1) (B2R z2) in
    (exists t, 0 < t /\ ax <= t <= bx /\ ay <= t <= by_ /\ az <= t <= bz) ->
    bpow radix2 (emin + prec - 1) <= bx -> bpow radix2 (emin + prec - 1) <= by_ -> bpow radix2 (emin + prec - 1) <= bz ->
    fst (slab_core x1 x2 y1 y2 z1 z2) = true.
  Proof.
    intros W F1 F2 F3 F4 F5 F6 G1 G2 G3 G4 G5 G6 ax bx ay by_ az bz Ht Nx Ny Nz.
    assert (Fmax : forall u v : bf, generic_format radix2 fexp (Rmax (B2R u) (B2R v))).
    { intros u v. unfold Rmax. destruct (Rle_dec (B2R u) (B2R v)); apply generic_format_B2R. }
    apply param_complete; try assumption; apply widen_strict; try assumption; apply Fmax.
  Qed.

  (** on boxes and rays: [raw face o i = (face - o) * i] are the six computed parameters *)
  Corollary intersect_complete_on_computed_parameters (b : BBox bf) (r : Ray bf) (i : V3 bf) :
    widen_big ->
    let o := rorigin r in
    let x1 := raw (vx (bmin b)) (vx o) (vx i) in let x2 := raw (vx (bmax b)) (vx o) (vx i) in
    let y1 := raw (vy (bmin b)) (vy o) (vy i) in let y2 := raw (vy (bmax b)) (vy o) (vy i) in
    let z1 := raw (vz (bmin b)) (vz o) (vz i) in let z2 := raw (vz (bmax b)) (vz o) (vz i) in
    fin x1 -> fin x2 -> fin y1 -> fin y2 -> fin z1 -> fin z2 ->
    fin (wfB x1) -> fin (wfB x2) -> fin (wfB y1) -> fin (wfB y2) -> fin (wfB z1) -> fin (wfB z2) ->
    (exists t, 0 < t /\ Rmin (B2R x1) (B2R x2) <= t <= Rmax (B2R x1) (B2R x2) /\
                        Rmin (B2R y1) (B2R y2) <= t <= Rmax (B2R y1) (B2R y2) /\
                        Rmin (B2R z1) (B2R z2) <= t <= Rmax (B2R z1) (B2R z2)) ->
    bpow radix2 (emin + prec - 1) <= Rmax (B2R x1) (B2R x2) ->
    bpow radix2 (emin + prec - 1) <= Rmax (B2R y1) (B2R y2) ->
    bpow radix2 (emin + prec - 1) <= Rmax (B2R z1) (B2R z2) ->
    bbox_intersect b r i = true.
  Proof.
    intros W o x1 x2 y1 y2 z1 z2. unfold bbox_intersect. rewrite intersect_is_core. fold o x1 x2 y1 y2 z1 z2.
    apply param_complete_normal. exact W.
  Qed.

  (** a slab of zero thickness computes both parameters by the same operations: bit-equal, so the
      hypothesis [lo <= t <= hi] needs no margin on that axis *)
  Lemma flat_slab_bit_equal (lo hi o i : bf) : lo = hi -> raw lo o i = raw hi o i.
  Proof. intros ->. reflexivity. Qed.
End Transfer.

(** binary64 and binary32 have a widening constant at least one ulp above 1 *)
Lemma widen_big_64 : widen_big 53 1024 Hprec53 Hmax1024.
Proof. unfold widen_big. change (B2R (wB _ _ _ _)) with (B2R (@widen b64 NumB64)). rewrite widen_64_R. simpl. lra. Qed.
Lemma widen_big_32 : widen_big 24 128 Hprec24 Hmax128.
Proof. unfold widen_big. change (B2R (wB _ _ _ _)) with (B2R (@widen b32 NumB32)). rewrite widen_32_R. simpl. lra. Qed.
