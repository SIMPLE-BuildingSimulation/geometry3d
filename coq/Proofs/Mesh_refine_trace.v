(** * Mesh_refine_trace (C08): the elementary steps that a [refine] pass performs, as a trace.
    [refine_pass_trace] / [refine_trace] follow the control flow of [refine_pass] / [refine] (Model/Triangulation.v) and list,
    in order, the steps whose outcome was Ok: [TStep (OSplitEdge i e mid)] (mid = midpoint of the longest edge),
    [TStep (ORestore m)], [TStep (OAddPoint c)] (c = the cached circumcentre), [TStep (OSplitTriangle i cen)] (the fall-back
    add_point_to_triangle at the cached centroid, location Inside), and [TSwallowed c] for an add_point whose Err was swallowed.
    [refine_tr] pairs the real function with the trace, so the erasure lemma is a definitional equality.
    [tr_ok side M tr] replays the trace from M and asks [side M_k op_k] of every step on the mesh it is applied to.
    Every number instance. *)
From Coq Require Import ZArith Bool List Arith Lia.
From G3 Require Import Model.Num Model.Base Model.Vec Model.Segment Model.Triangle Model.Loop Model.Polygon Model.Triangulation
  Proofs.Mesh_base Proofs.Mesh_wf Proofs.Mesh_sites Proofs.Mesh_conf Proofs.Mesh_region Proofs.Mesh_atomic.
Import ListNotations.
Local Open Scope num_scope.

Section Trace.
  Context {K : Type} {NK : Num K}.
  Notation V := (V3 K).
  Notation TP := (TriPiece K).
  Notation Mesh := (Mesh K).

  Inductive tev := TStep (op : mop K) | TSwallowed (p : V).

  Fixpoint refine_pass_trace (max_area max_aspect_ratio : K) (cnt i : nat) (l : list TP) (M : Mesh) : list tev :=
    match cnt with
    | O => []
    | S cnt' =>
      match l with
      | [] => []
      | t :: l' =>
        if negb (tp_valid t) then [] else
        if tarea (tp_tri t) <? c1em3 then refine_pass_trace max_area max_aspect_ratio cnt' (S i) l' M else
        if tp_ar t >? max_aspect_ratio then
          match longest_edge (tp_tri t) with
          | Ok (s_i, s) =>
            match edge_from_i s_i with
            | Ok ed =>
              match split_edge i ed (seg_midpoint s) M with
              | (M1, Ok _) =>
                TStep (OSplitEdge i s_i (seg_midpoint s)) ::
                match restore_delaunay max_aspect_ratio M1 with
                | (M2, Ok _) => TStep (ORestore max_aspect_ratio) :: refine_pass_trace max_area max_aspect_ratio cnt' (S i) (skipn (S i) (tris M2)) M2
                | _ => []
                end
              | _ => []
              end
            | _ => []
            end
          | _ => []
          end
        else if tarea (tp_tri t) >? max_area then
          match add_point (tp_cc t) M with
          | (M1, Ok did) =>
            TStep (OAddPoint (tp_cc t)) ::
            (if did then
               match restore_delaunay max_aspect_ratio M1 with
               | (M2, Ok _) => TStep (ORestore max_aspect_ratio) :: refine_pass_trace max_area max_aspect_ratio cnt' (S i) (skipn (S i) (tris M2)) M2
               | _ => []
               end
             else refine_pass_trace max_area max_aspect_ratio cnt' (S i) (skipn (S i) (tris M1)) M1)
          | (M1, Err _) =>
            TSwallowed (tp_cc t) ::
            match nth_error (tris M1) i with
            | Some t' =>
              match add_point_to_triangle i (tp_cen t') Inside M1 with
              | (M2, Ok did) =>
                TStep (OSplitTriangle i (tp_cen t')) ::
                (if did then
                   match restore_delaunay max_aspect_ratio M2 with
                   | (M3, Ok _) => TStep (ORestore max_aspect_ratio) :: refine_pass_trace max_area max_aspect_ratio cnt' (S i) (skipn (S i) (tris M3)) M3
                   | _ => []
                   end
                 else refine_pass_trace max_area max_aspect_ratio cnt' (S i) (skipn (S i) (tris M2)) M2)
              | _ => []
              end
            | None => []
            end
          | _ => []
          end
        else refine_pass_trace max_area max_aspect_ratio cnt' (S i) l' M
      end
    end.
  Fixpoint refine_trace (fuel : nat) (max_area max_aspect_ratio : K) (M : Mesh) : list tev :=
    match fuel with
    | O => []
    | S f =>
      refine_pass_trace max_area max_aspect_ratio (length (tris M)) 0 (tris M) M ++
      match refine_pass max_area max_aspect_ratio (length (tris M)) 0 (tris M) false M with
      | (M1, Ok true) => refine_trace f max_area max_aspect_ratio M1
      | _ => []
      end
    end.
  (** the instrumented functions; erasure is by definition *)
  Definition refine_pass_tr (a m : K) (cnt i : nat) (l : list TP) (any : bool) (M : Mesh) : Mesh * res bool * list tev :=
    (refine_pass a m cnt i l any M, refine_pass_trace a m cnt i l M).
  Definition refine_tr (fuel : nat) (a m : K) (M : Mesh) : Mesh * res rres * list tev := (refine fuel a m M, refine_trace fuel a m M).
  Lemma refine_pass_erase a m cnt i l any M : fst (refine_pass_tr a m cnt i l any M) = refine_pass a m cnt i l any M.
  Proof. reflexivity. Qed.
  Lemma refine_erase fuel a m M : fst (refine_tr fuel a m M) = refine fuel a m M.
  Proof. reflexivity. Qed.

  (** replay of a trace; [side] is asked of every step on the mesh it is applied to *)
  Fixpoint tr_ok (side : Mesh -> mop K -> Prop) (M : Mesh) (tr : list tev) : Prop :=
    match tr with
    | [] => True
    | TStep op :: tl => side M op /\ tr_ok side (fst (mesh_step op M)) tl
    | TSwallowed p :: tl => tr_ok side (fst (add_point p M)) tl
    end.
  Lemma tr_ok_app side M tr1 tr2 : tr_ok side M (tr1 ++ tr2) -> tr_ok side M tr1.
  Proof. revert M; induction tr1 as [|[op|p] tr1 IH]; intros M H; cbn [app tr_ok] in *; [exact I | destruct H as [A B]; split; [exact A | eapply IH; exact B] | eapply IH; exact H]. Qed.

  (** the final mesh of a replay *)
  Fixpoint tr_end (M : Mesh) (tr : list tev) : Mesh :=
    match tr with
    | [] => M
    | TStep op :: tl => tr_end (fst (mesh_step op M)) tl
    | TSwallowed p :: tl => tr_end (fst (add_point p M)) tl
    end.
  Lemma tr_ok_app2 side M tr1 tr2 : tr_ok side M (tr1 ++ tr2) -> tr_ok side (tr_end M tr1) tr2.
  Proof. revert M; induction tr1 as [|[op|p] tr1 IH]; intros M H; cbn [app tr_ok tr_end] in *; [exact H | destruct H as [A B]; eapply IH; exact B | eapply IH; exact H]. Qed.

  (** on a structurally sound mesh an Err of add_point (whatever its class) comes with the mesh unchanged *)
  Lemma aptt_err_struct (i : nat) (p : V) (loc : PIT) (M M' : Mesh) (c : N) :
    WF M -> CNT M -> LNK M -> add_point_to_triangle i p loc M = (M', Err c) -> M' = M.
  Proof.
    intros W C HL H. unfold add_point_to_triangle in H.
    apply bind_get_inv in H. destruct H as [(t & Et & H) | (-> & _)]; [|reflexivity].
    destruct (negb (tp_valid t)); [inversion H; reflexivity|].
    destruct (pit_is_vertex loc); [inversion H|].
    destruct (pit_is_edge loc).
    - apply bind_lift_inv in H. destruct H as [(ed & _ & H) | (-> & _)]; [|reflexivity].
      apply mbind_inv in H. destruct H as [([] & M1 & H1 & H) | [(c' & H1 & E) | (s & H1 & E)]]; [inversion H | | discriminate].
      destruct (split_edge_struct _ _ _ _ _ _ W C HL H1) as [(Q & _) | [Q | Q]]; [discriminate | exact Q | discriminate].
    - destruct loc; try (inversion H; reflexivity).
      apply mbind_inv in H. destruct H as [([] & M1 & H1 & H) | [(c' & H1 & E) | (s & H1 & E)]]; [inversion H | | discriminate].
      destruct (split_triangle_struct _ _ _ _ _ W C HL H1) as [(Q & _) | [Q | Q]]; [discriminate | exact Q | discriminate].
  Qed.
  Lemma add_point_err_struct (p : V) (M M' : Mesh) (c : N) : WF M -> CNT M -> LNK M -> add_point p M = (M', Err c) -> M' = M.
  Proof.
    intros W C HL H. unfold add_point in H. destruct (find_container (tris M) 0 p) as [[i loc]|]; [|inversion H; reflexivity].
    eapply aptt_err_struct; eassumption.
  Qed.
  (** the fall-back [add_point_to_triangle i p Inside] returning Ok is [split_triangle i p] *)
  Lemma aptt_inside_ok (i : nat) (p : V) (M M' : Mesh) (did : bool) :
    add_point_to_triangle i p Inside M = (M', Ok did) -> split_triangle i p M = (M', Ok tt) /\ did = true.
  Proof.
    intros H. unfold add_point_to_triangle in H. apply bind_get_ok in H. destruct H as (t & _ & H).
    destruct (negb (tp_valid t)); [discriminate|]. cbn [pit_is_vertex pit_is_edge] in H.
    apply mbind_ok in H. destruct H as ([] & M1 & H1 & H). inversion H; subst. split; [exact H1 | reflexivity].
  Qed.
  (** counter and indices after an add_point returning Ok, on a sound mesh *)
  Lemma add_point_ok_struct (p : V) (M M' : Mesh) (b : bool) : WF M -> CNT M -> LNK M -> add_point p M = (M', Ok b) -> WF M' /\ CNT M'.
  Proof.
    intros W C HL H. split; [exact (proj2 (wf_add_point p M M' _ H) W)|]. unfold add_point in H.
    destruct (find_container (tris M) 0 p) as [[i loc]|]; [|discriminate]. unfold add_point_to_triangle in H.
    apply bind_get_ok in H. destruct H as (t & _ & H). destruct (negb (tp_valid t)); [discriminate|].
    destruct (pit_is_vertex loc); [inversion H; subst; exact C|].
    destruct (pit_is_edge loc).
    - apply bind_lift_ok in H. destruct H as (ed & _ & H). apply mbind_ok in H. destruct H as ([] & M1 & H1 & H). inversion H; subst.
      destruct (split_edge_struct _ _ _ _ _ _ W C HL H1) as [(_ & _ & Q & _) | [Q | Q]]; [exact Q | subst; exact C | discriminate].
    - destruct loc; try discriminate. apply mbind_ok in H. destruct H as ([] & M1 & H1 & H). inversion H; subst.
      exact (proj1 (cnt_split_triangle _ _ _ _ _ C H1)).
  Qed.
  (** [mesh_polygon] is [from_polygon], then [refine] *)
  Lemma mesh_polygon_inv (fuel : nat) (P : Poly K) (a m : K) (M' : Mesh) (r : rres) :
    mesh_polygon fuel P a m = Ok (M', r) <-> exists M0, from_polygon P = Ok M0 /\ refine fuel a m M0 = (M', Ok r).
  Proof.
    unfold mesh_polygon. split.
    - destruct (from_polygon P) as [M0| |]; cbn [rbind]; try discriminate. destruct (refine fuel a m M0) as [M1 [x| |]] eqn:E; cbn [rbind]; try discriminate.
      intros H. inversion H; subst. exists M0. split; [reflexivity | exact E].
    - intros (M0 & -> & E). cbn [rbind]. rewrite E. reflexivity.
  Qed.
End Trace.
Arguments tev K : clear implicits.
