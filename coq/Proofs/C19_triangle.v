(** * C19 proofs, part 3: Triangle3D (non-ray part) on the real instance. *)
From Coq Require Import ZArith Reals Lra Bool List.
From G3 Require Import Model.Num Model.Base Model.Vec Model.BBox Model.Transform Model.Hit Model.Segment Model.Triangle Theory.RInst Proofs.C19_vec.
Local Open Scope R_scope.

Notation T := (Tri R).

Definition tri_e1 (t : T) : V := vsub (tb t) (ta t).
Definition tri_e2 (t : T) : V := vsub (tc t) (ta t).
Definition tri_det (t : T) : R := vdot (tri_e1 t) (tri_e1 t) * vdot (tri_e2 t) (tri_e2 t) - vdot (tri_e2 t) (tri_e1 t) * vdot (tri_e2 t) (tri_e1 t).
Definition tri_alpha (t : T) (p : V) : R :=
  (vdot (tri_e2 t) (tri_e2 t) * vdot (tri_e1 t) (vsub p (ta t)) - vdot (tri_e2 t) (tri_e1 t) * vdot (tri_e2 t) (vsub p (ta t))) / tri_det t.
Definition tri_beta (t : T) (p : V) : R :=
  (- vdot (tri_e2 t) (tri_e1 t) * vdot (tri_e1 t) (vsub p (ta t)) + vdot (tri_e1 t) (tri_e1 t) * vdot (tri_e2 t) (vsub p (ta t))) / tri_det t.
Definition tri_w (t : T) (p : V) : R := 1 - tri_alpha t p - tri_beta t p.
(** the point of the triangle's plane with coordinates (al, be) *)
Definition tri_pt (t : T) (al be : R) : V := vadd (vadd (ta t) (vscale (tri_e1 t) al)) (vscale (tri_e2 t) be).

(** the determinant is |e1 x e2|^2 = (2 area)^2: non-zero exactly for a non-degenerate triangle *)
Lemma tri_det_cross (t : T) : tri_det t = vlen2 (vcross (tri_e1 t) (tri_e2 t)).
Proof. unfold tri_det. rewrite <- lagrange, !vlen2_vdot, (vdot_comm (tri_e2 t) (tri_e1 t)). ring. Qed.
Lemma tri_residual_dot (t : T) (p w : V) (al be : R) :
  vdot (vsub p (tri_pt t al be)) w = vdot w (vsub p (ta t)) - al * vdot (tri_e1 t) w - be * vdot (tri_e2 t) w.
Proof. unfold tri_pt. vring. Qed.
(** the residual is orthogonal to both edges exactly when (al, be) solve the normal equations of the Gram matrix
    of (e1, e2), whose determinant is [tri_det]: Cramer's rule gives (alpha, beta) *)
Lemma tri_bary_unique (t : T) (p : V) (al be : R) : tri_det t <> 0 ->
  vdot (vsub p (tri_pt t al be)) (tri_e1 t) = 0 -> vdot (vsub p (tri_pt t al be)) (tri_e2 t) = 0 ->
  al = tri_alpha t p /\ be = tri_beta t p.
Proof.
  rewrite !tri_residual_dot, (vdot_comm (tri_e1 t) (tri_e2 t)). unfold tri_alpha, tri_beta, tri_det. intros H E1 E2.
  assert (N1 : vdot (tri_e1 t) (vsub p (ta t)) = al * vdot (tri_e1 t) (tri_e1 t) + be * vdot (tri_e2 t) (tri_e1 t)) by lra.
  assert (N2 : vdot (tri_e2 t) (vsub p (ta t)) = al * vdot (tri_e2 t) (tri_e1 t) + be * vdot (tri_e2 t) (tri_e2 t)) by lra.
  rewrite N1, N2. split; field; exact H.
Qed.
Lemma tri_bary_projection (t : T) (p : V) : tri_det t <> 0 ->
  let q := tri_pt t (tri_alpha t p) (tri_beta t p) in
  vdot (vsub p q) (tri_e1 t) = 0 /\ vdot (vsub p q) (tri_e2 t) = 0.
Proof.
  intros H. cbv zeta. rewrite !tri_residual_dot, (vdot_comm (tri_e1 t) (tri_e2 t)). unfold tri_alpha, tri_beta, tri_det in *.
  split; field; exact H.
Qed.
(** for a point of the plane they are its coordinates *)
Lemma tri_bary_in_plane (t : T) (al be : R) : tri_det t <> 0 ->
  tri_alpha t (tri_pt t al be) = al /\ tri_beta t (tri_pt t al be) = be /\ tri_w t (tri_pt t al be) = 1 - al - be.
Proof.
  intros H. unfold tri_w. destruct (tri_bary_unique t (tri_pt t al be) al be H) as (<- & <-); [vring .. | auto].
Qed.

(** ** the classification cascade, as a sign pattern of (alpha, beta, w) at tolerance 100 eps *)
Lemma tri_test_point_coords (t : T) (p : V) :
  tri_test_point t p =
  let al := tri_alpha t p in let be := tri_beta t p in let w := tri_w t p in
  if Rleb (- tinyR) al && Rleb (- tinyR) be && Rleb (- tinyR) w then
    if Rleb al tinyR && Rleb be tinyR then VertexA
    else if Rleb al tinyR && Rleb w tinyR then VertexC
    else if Rleb be tinyR && Rleb w tinyR then VertexB
    else if Rleb al tinyR then EdgeAC
    else if Rleb w tinyR then EdgeBC
    else if Rleb be tinyR then EdgeAB
    else Inside
  else Outside.
Proof. reflexivity. Qed.

Definition nonneg3 (al be w : R) : Prop := - tinyR <= al /\ - tinyR <= be /\ - tinyR <= w.
Lemma tri_test_point_spec (t : T) (p : V) :
  let al := tri_alpha t p in let be := tri_beta t p in let w := tri_w t p in
  (tri_test_point t p = Outside <-> (al < - tinyR \/ be < - tinyR \/ w < - tinyR)) /\
  (tri_test_point t p = Inside  <-> (tinyR < al /\ tinyR < be /\ tinyR < w)) /\
  (tri_test_point t p = VertexA <-> (nonneg3 al be w /\ al <= tinyR /\ be <= tinyR)) /\
  (tri_test_point t p = VertexC <-> (nonneg3 al be w /\ al <= tinyR /\ tinyR < be /\ w <= tinyR)) /\
  (tri_test_point t p = VertexB <-> (nonneg3 al be w /\ tinyR < al /\ be <= tinyR /\ w <= tinyR)) /\
  (tri_test_point t p = EdgeAC  <-> (nonneg3 al be w /\ al <= tinyR /\ tinyR < be /\ tinyR < w)) /\
  (tri_test_point t p = EdgeBC  <-> (nonneg3 al be w /\ tinyR < al /\ tinyR < be /\ w <= tinyR)) /\
  (tri_test_point t p = EdgeAB  <-> (nonneg3 al be w /\ tinyR < al /\ be <= tinyR /\ tinyR < w)).
Proof.
  rewrite tri_test_point_coords. cbv zeta. unfold nonneg3. pose proof tinyR_pos as Ht.
  set (al := tri_alpha t p). set (be := tri_beta t p). set (w := tri_w t p).
  rcase_le (- tinyR) al A0; rcase_le (- tinyR) be B0; rcase_le (- tinyR) w W0; cbn [andb];
    try (repeat split; intros; first [discriminate | lra]).
  rcase_le al tinyR La; rcase_le be tinyR Lb; rcase_le w tinyR Lw; cbn [andb];
    repeat split; intros; first [discriminate | reflexivity | lra].
Qed.
(** in exact arithmetic alpha + beta + w = 1, so two "zero" coordinates force the third to be 1:
    the vertex classes are the points with two coordinates within 100 eps of 0 *)
Lemma tri_w_sum (t : T) (p : V) : tri_alpha t p + tri_beta t p + tri_w t p = 1.
Proof. unfold tri_w. ring. Qed.

(** ** area: Heron's formula equals half the norm of the cross product *)
Lemma heron_sq (x y z : R) :
  (z + y + x) * ((z + y + x) / 2 - x) * ((z + y + x) / 2 - y) * ((z + y + x) / 2 - z) / 2 =
  (2 * (x * x) * (y * y) + 2 * (y * y) * (z * z) + 2 * (z * z) * (x * x) - (x * x) * (x * x) - (y * y) * (y * y) - (z * z) * (z * z)) / 16.
Proof. field. Qed.
Lemma tri_area_heron (a b c : V) :
  heron (pdist a b) (pdist b c) (pdist c a) = vlen (vcross (vsub b a) (vsub c a)) / 2.
Proof.
  unfold heron. rnum. rewrite heron_sq.
  rewrite !pdist_vsub, !vlen_sqr.
  replace (vlen (vcross (vsub b a) (vsub c a)) / 2) with (sqrt (vlen2 (vcross (vsub b a) (vsub c a)) / 4)).
  - f_equal. vcbn. field.
  - unfold vlen. rnum. unfold Rdiv. rewrite sqrt_mult by (try apply vlen2_nonneg; lra). f_equal.
    replace (/ 4) with (Rsqr (/ 2)) by (unfold Rsqr; lra). apply sqrt_Rsqr. lra.
Qed.
Lemma tri_new_ok (a b c : V) (t : T) : tri_new a b c = Ok t ->
  ta t = a /\ tb t = b /\ tc t = c /\ tarea t = vlen (vcross (vsub b a) (vsub c a)) / 2 /\ tnormal t = tri_normal_of a b c /\
  vcompare a b = false /\ vcompare a c = false /\ vcompare b c = false /\ e5 <= vlen (vcross (vsub b a) (vsub c b)).
Proof.
  unfold tri_new. destruct (vcompare a b) eqn:E1; [discriminate|]. destruct (vcompare a c) eqn:E2; [discriminate|].
  destruct (vcompare b c) eqn:E3; [discriminate|]. cbn [orb].
  unfold is_collinear. rewrite E1, E2, E3. cbn [andb orb unwrap rbind]. rewrite c1em5_e5. rnum.
  rcase (vlen (vcross (vsub b a) (vsub c b))) e5 H; [discriminate|]. intros E. inversion E. cbn [ta tb tc tarea tnormal].
  repeat split; try reflexivity; try assumption. apply tri_area_heron.
Qed.
Lemma tri_new_accepts (a b c : V) :
  vcompare a b = false -> vcompare a c = false -> vcompare b c = false -> e5 <= vlen (vcross (vsub b a) (vsub c b)) ->
  exists t, tri_new a b c = Ok t.
Proof.
  intros E1 E2 E3 H. unfold tri_new. rewrite E1, E2, E3. cbn [orb]. unfold is_collinear. rewrite E1, E2, E3. cbn [andb orb unwrap rbind].
  rewrite c1em5_e5. rnum. rewrite Rltb_ge by exact H. eauto.
Qed.
(** [Triangle3D::new] never panics (the unwrap is dead) and fails exactly on the two documented classes *)
Lemma tri_new_total (a b c : V) :
  (forall s, tri_new a b c <> Panic s) /\
  (tri_new a b c = Err 10%N <-> (vcompare a b = true \/ vcompare a c = true \/ vcompare b c = true)) /\
  (tri_new a b c = Err 11%N <-> (vcompare a b = false /\ vcompare a c = false /\ vcompare b c = false /\ vlen (vcross (vsub b a) (vsub c b)) < e5)).
Proof.
  unfold tri_new. destruct (vcompare a b) eqn:E1; [cbn [orb]; repeat split; try discriminate; try tauto; intros (?&_); discriminate|].
  destruct (vcompare a c) eqn:E2; [cbn [orb]; repeat split; try discriminate; try tauto; intros (_&?&_); discriminate|].
  destruct (vcompare b c) eqn:E3; [cbn [orb]; repeat split; try discriminate; try tauto; intros (_&_&?&_); discriminate|].
  cbn [orb]. unfold is_collinear. rewrite E1, E2, E3. cbn [andb orb unwrap rbind]. rewrite c1em5_e5. rnum.
  rcase (vlen (vcross (vsub b a) (vsub c b))) e5 H; repeat split; try discriminate; try tauto; try (intros [?|[?|?]]; discriminate).
  intros (_ & _ & _ & ?). lra.
Qed.

(** ** normal: unit, right-handed ((b - a) x (c - a) scaled by a positive factor) *)
Lemma cross_shift (a b c : V) : vcross (vsub b a) (vsub c b) = vcross (vsub b a) (vsub c a).
Proof. vring. Qed.
Lemma tri_normal_spec (a b c : V) : vlen2 (vcross (vsub b a) (vsub c a)) <> 0 ->
  let n := vcross (vsub b a) (vsub c a) in
  vlen (tri_normal_of a b c) = 1 /\ tri_normal_of a b c = vscale n (/ vlen n) /\ 0 < / vlen n /\
  vdot (tri_normal_of a b c) (vsub b a) = 0 /\ vdot (tri_normal_of a b c) (vsub c a) = 0.
Proof.
  intros H n. unfold tri_normal_of. rewrite cross_shift. fold n. destruct (vnormalize_unit n H) as (U & E & P).
  split; [exact U|]. split; [exact E|]. split; [exact P|]. rewrite E, !vdot_vscale_l.
  destruct (vcross_perp (vsub b a) (vsub c a)) as (P1 & P2). fold n in P1, P2. rewrite P1, P2. split; ring.
Qed.

(** ** circumcentre, circumradius, centroid, aspect ratio *)
Definition tri_nondeg (t : T) : Prop := vlen2 (vcross (tri_e1 t) (tri_e2 t)) <> 0.
(** the offset a -> circumcentre, as the code writes it, for edge vectors u = b - a, v = c - a *)
Definition cc_w (u v : V) : V :=
  vdivs (vadd (vscale (vcross (vcross u v) u) (vlen2 v)) (vscale (vcross v (vcross u v)) (vlen2 u))) (2 * vlen2 (vcross u v)).
(** ... it is the combination al u + be v with the textbook coefficients *)
Lemma cc_comb (u v : V) : vlen2 (vcross u v) <> 0 ->
  let N := vlen2 (vcross u v) in
  cc_w u v = vadd (vscale u (vlen2 v * (vlen2 u - vdot u v) / (2 * N))) (vscale v (vlen2 u * (vlen2 v - vdot u v) / (2 * N))).
Proof.
  intros H N. unfold cc_w, N. apply v3_eq; vcbn; field; exact H.
Qed.
Lemma cc_core (u v : V) : vlen2 (vcross u v) <> 0 ->
  let w := cc_w u v in
  vlen2 w = vlen2 (vsub w u) /\ vlen2 w = vlen2 (vsub w v) /\ vdot w (vcross u v) = 0 /\
  vlen2 w * (4 * vlen2 (vcross u v)) = vlen2 u * vlen2 v * vlen2 (vsub v u).
Proof.
  intros H w. unfold w. rewrite (cc_comb u v H). cbv zeta.
  set (N := vlen2 (vcross u v)) in *.
  set (al := vlen2 v * (vlen2 u - vdot u v) / (2 * N)). set (be := vlen2 u * (vlen2 v - vdot u v) / (2 * N)).
  destruct (comb_dots u v al be) as (D1 & D2 & L & P). cbv zeta in *.
  rewrite !vlen2_vsub_expand, D1, D2, L, P.
  assert (EN : N = vlen2 u * vlen2 v - vdot u v * vdot u v) by (unfold N; rewrite <- lagrange; reflexivity).
  rewrite (vdot_comm v u).
  set (p := vlen2 u) in *. set (q := vlen2 v) in *. set (r := vdot u v) in *.
  assert (Hn : p * q - r * r <> 0) by (rewrite <- EN; exact H).
  unfold al, be. rewrite EN. repeat split; try reflexivity; field; exact Hn.
Qed.
Lemma tri_circumcenter_cc (t : T) : tri_circumcenter t = vadd (ta t) (cc_w (tri_e1 t) (tri_e2 t)).
Proof. unfold tri_circumcenter, cc_w, tri_e1, tri_e2. cbv zeta. rewrite !vlen_sqr. reflexivity. Qed.
Lemma tri_circumcenter_spec (t : T) : tri_nondeg t ->
  let o := tri_circumcenter t in
  psqdist o (ta t) = psqdist o (tb t) /\ psqdist o (ta t) = psqdist o (tc t) /\
  vdot (vsub o (ta t)) (vcross (tri_e1 t) (tri_e2 t)) = 0.
Proof.
  intros H. cbv zeta. rewrite tri_circumcenter_cc, !psqdist_vsub, vsub_vadd, !vsub_shift.
  destruct (cc_core _ _ H) as (E1 & E2 & E3 & _). cbv zeta in *. auto.
Qed.
Lemma tri_circumradius_sq (t : T) : tri_nondeg t ->
  tri_circumradius t * tri_circumradius t = psqdist (tri_circumcenter t) (ta t) /\ 0 <= tri_circumradius t.
Proof.
  intros H. destruct (cc_core _ _ H) as (_ & _ & _ & E4). cbv zeta in E4. unfold tri_nondeg in H.
  rewrite tri_circumcenter_cc, psqdist_vsub, vsub_vadd.
  unfold tri_circumradius, tri_ab, tri_bc, tri_ca, seg_new. cbn [slength]. rnum.
  set (x := pdist (ta t) (tb t)). set (y := pdist (tb t) (tc t)). set (z := pdist (tc t) (ta t)).
  assert (Hx : x * x = vlen2 (tri_e1 t)).
  { unfold x. rewrite pdist_sym, pdist_vsub. apply vlen_sqr. }
  assert (Hy : y * y = vlen2 (vsub (tri_e2 t) (tri_e1 t))).
  { unfold y. rewrite pdist_sym, pdist_vsub, vlen_sqr. f_equal. unfold tri_e1, tri_e2. vring. }
  assert (Hz : z * z = vlen2 (tri_e2 t)) by (unfold z; rewrite pdist_vsub; apply vlen_sqr).
  assert (Px : 0 <= x) by (unfold x, pdist; rnum; apply sqrt_pos).
  assert (Py : 0 <= y) by (unfold y, pdist; rnum; apply sqrt_pos).
  assert (Pz : 0 <= z) by (unfold z, pdist; rnum; apply sqrt_pos).
  set (u := tri_e1 t) in *. set (v := tri_e2 t) in *. set (N := vlen2 (vcross u v)) in *.
  assert (HN : 0 < N) by (pose proof (vlen2_nonneg (vcross u v)) as Q; fold N in Q; lra).
  assert (Hs : (x + y + z) * (y + z - x) * (z + x - y) * (x + y - z) = 4 * N).
  { replace ((x + y + z) * (y + z - x) * (z + x - y) * (x + y - z)) with
      (2 * (x * x) * (y * y) + 2 * (y * y) * (z * z) + 2 * (z * z) * (x * x) - (x * x) * (x * x) - (y * y) * (y * y) - (z * z) * (z * z)) by ring.
    rewrite Hx, Hy, Hz, vlen2_vsub_expand, (vdot_comm v u). unfold N. rewrite <- lagrange. ring. }
  rewrite Hs. assert (Hq : 0 < sqrt (4 * N)) by (apply sqrt_lt_R0; lra).
  split.
  - replace (x * y * z / sqrt (4 * N) * (x * y * z / sqrt (4 * N))) with ((x * x) * (y * y) * (z * z) / (sqrt (4 * N) * sqrt (4 * N))) by (field; lra).
    rewrite sqrt_sqrt by lra. rewrite Hx, Hy, Hz.
    apply Rmult_eq_reg_r with (4 * N); [|lra]. rewrite E4. field. lra.
  - apply Rmult_le_pos; [repeat apply Rmult_le_pos; assumption | left; apply Rinv_0_lt_compat; exact Hq].
Qed.
(** circumradius = distance from the circumcentre to each vertex *)
Lemma tri_circumradius_spec (t : T) : tri_nondeg t ->
  tri_circumradius t = pdist (tri_circumcenter t) (ta t) /\
  tri_circumradius t = pdist (tri_circumcenter t) (tb t) /\
  tri_circumradius t = pdist (tri_circumcenter t) (tc t).
Proof.
  intros H. destruct (tri_circumradius_sq t H) as (E & P). destruct (tri_circumcenter_spec t H) as (E1 & E2 & _). cbv zeta in *.
  assert (A : tri_circumradius t = pdist (tri_circumcenter t) (ta t)).
  { unfold pdist. rnum. rewrite <- E. replace (tri_circumradius t * tri_circumradius t) with (Rsqr (tri_circumradius t)) by reflexivity.
    rewrite sqrt_Rsqr by exact P. reflexivity. }
  split; [exact A|]. unfold pdist in *. rnum. rewrite <- E1, <- E2. auto.
Qed.
Lemma tri_centroid_spec (t : T) :
  tri_centroid t = vdivs (vadd (vadd (ta t) (tb t)) (tc t)) 3 /\
  vadd (vadd (vsub (ta t) (tri_centroid t)) (vsub (tb t) (tri_centroid t))) (vsub (tc t) (tri_centroid t)) = mkV3 0 0 0.
Proof.
  split; [reflexivity|]. unfold tri_centroid. apply v3_eq; vcbn; field.
Qed.
Definition e19 : R := 10000000000 * 1000000000.
Lemma tri_aspect_ratio_spec (t : T) :
  tri_aspect_ratio t = tri_circumradius t / Rmin (Rmin (Rmin e19 (pdist (ta t) (tb t))) (pdist (tb t) (tc t))) (pdist (tc t) (ta t)).
Proof.
  unfold tri_aspect_ratio, tri_ab, tri_bc, tri_ca, seg_new, c1e19. cbn [slength]. rnum. fold e19. f_equal.
  assert (M : forall l m : R, (if Rltb l m then l else m) = Rmin m l).
  { intros l m. unfold Rmin. rcase l m H; destruct (Rle_dec m l); try reflexivity; lra. }
  rewrite !M. reflexivity.
Qed.
(** metre-scale triangles: the sentinel 1e19 never wins *)
Lemma tri_aspect_ratio_shortest (t : T) : pdist (ta t) (tb t) <= e19 ->
  tri_aspect_ratio t = tri_circumradius t / Rmin (Rmin (pdist (ta t) (tb t)) (pdist (tb t) (tc t))) (pdist (tc t) (ta t)).
Proof. intros H. rewrite tri_aspect_ratio_spec. rewrite (Rmin_right e19) by exact H. reflexivity. Qed.

(** edge lookup and comparison are tolerance comparisons of end points *)
Lemma tri_has_vertex_spec (t : T) (p : V) :
  tri_has_vertex t p = true <-> (vcompare (ta t) p = true \/ vcompare (tb t) p = true \/ vcompare (tc t) p = true).
Proof. unfold tri_has_vertex. rewrite !orb_true_iff. tauto. Qed.
Lemma tri_compare_spec (t u : T) :
  tri_compare t u = true <-> (tri_has_vertex u (ta t) = true /\ tri_has_vertex u (tb t) = true /\ tri_has_vertex u (tc t) = true).
Proof. unfold tri_compare. rewrite !andb_true_iff. tauto. Qed.
Lemma seg_compare_spec (s o : Seg R) :
  seg_compare s o = true <-> ((vcompare (sstart s) (sstart o) = true /\ vcompare (send s) (send o) = true) \/
                              (vcompare (send s) (sstart o) = true /\ vcompare (sstart s) (send o) = true)).
Proof. unfold seg_compare. rewrite orb_true_iff, !andb_true_iff. tauto. Qed.
Lemma tri_edge_index_spec (t : T) (a b : V) (k : N) :
  tri_get_edge_index_from_points t a b = Some k ->
  (k = 0%N /\ seg_compare (seg_new a b) (tri_ab t) = true) \/
  (k = 1%N /\ seg_compare (seg_new a b) (tri_ab t) = false /\ seg_compare (seg_new a b) (tri_bc t) = true) \/
  (k = 2%N /\ seg_compare (seg_new a b) (tri_ab t) = false /\ seg_compare (seg_new a b) (tri_bc t) = false /\ seg_compare (seg_new a b) (tri_ca t) = true).
Proof.
  unfold tri_get_edge_index_from_points, tri_get_edge_index_from_segment.
  destruct (seg_compare _ (tri_ab t)); [intros E; inversion E; auto|].
  destruct (seg_compare _ (tri_bc t)); [intros E; inversion E; auto|].
  destruct (seg_compare _ (tri_ca t)); [intros E; inversion E; auto 10|discriminate].
Qed.
