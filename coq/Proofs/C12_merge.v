(** * C12 proofs: get_closed_loop -- index arithmetic of the hole walk, and the vertex sequence it produces.
    Instance-generic (reals, Flocq floats, primitive floats alike). *)
From Coq Require Import ZArith Bool List Arith Lia.
From G3 Require Import Model.Num Model.Base Model.Vec Model.Segment Model.Loop Model.Polygon Model.PolyAux Proofs.C04_loop Proofs.C04_reach Proofs.C04_reach_live.
Import ListNotations.

(** ** (b) the repaired index arithmetic visits every vertex of the hole and returns to its start *)
Section HoleIndex.
  Lemma back_idx (id j n : nat) : id < n -> j <= n -> (id + n - j) mod n = if Nat.leb j id then id - j else id + n - j.
  Proof.
    intros Hi Hj. destruct (Nat.leb j id) eqn:E.
    - apply Nat.leb_le in E. replace (id + n - j) with ((id - j) + 1 * n) by lia. rewrite Nat.mod_add by lia. apply Nat.mod_small; lia.
    - apply Nat.leb_gt in E. apply Nat.mod_small; lia.
  Qed.
  Lemma fwd_idx (id j n : nat) : id < n -> j <= n -> (id + j) mod n = if Nat.ltb (id + j) n then id + j else id + j - n.
  Proof.
    intros Hi Hj. destruct (Nat.ltb (id + j) n) eqn:E.
    - apply Nat.ltb_lt in E. apply Nat.mod_small; lia.
    - apply Nat.ltb_ge in E. replace (id + j) with ((id + j - n) + 1 * n) at 1 by lia. rewrite Nat.mod_add by lia. apply Nat.mod_small; lia.
  Qed.
  Lemma hole_index_eq (sd : bool) (id j n : nat) : id < n -> j <= n ->
    hole_index false sd id j n = if sd then (if Nat.leb j id then id - j else id + n - j) else (if Nat.ltb (id + j) n then id + j else id + j - n).
  Proof. intros Hi Hj. unfold hole_index. destruct sd; [apply back_idx | apply fwd_idx]; assumption. Qed.

  Lemma hole_index_lt (sd : bool) (id j n : nat) : n <> 0 -> hole_index false sd id j n < n.
  Proof. intros Hn. unfold hole_index. destruct sd; apply Nat.mod_upper_bound; exact Hn. Qed.
  (** the walk starts at the nearest vertex [id] and, after n steps, is back there *)
  Lemma hole_index_start (sd : bool) (id n : nat) : id < n -> hole_index false sd id 0 n = id.
  Proof.
    intros Hi. rewrite hole_index_eq by lia. destruct sd.
    - cbn [Nat.leb]. lia.
    - destruct (Nat.ltb (id + 0) n) eqn:E; [lia | apply Nat.ltb_ge in E; lia].
  Qed.
  Lemma hole_index_return (sd : bool) (id n : nat) : id < n -> hole_index false sd id n n = id.
  Proof.
    intros Hi. rewrite hole_index_eq by lia. destruct sd.
    - destruct (Nat.leb n id) eqn:E; [apply Nat.leb_le in E; lia | lia].
    - destruct (Nat.ltb (id + n) n) eqn:E; [apply Nat.ltb_lt in E; lia | lia].
  Qed.
  (** each step moves to the cyclic predecessor (same direction as the outline: the hole is walked
      backwards) or to the cyclic successor (opposite direction: forwards) *)
  Lemma hole_index_step_back (id j n : nat) : id < n -> j < n ->
    hole_index false true id (S j) n = (hole_index false true id j n + n - 1) mod n.
  Proof.
    intros Hi Hj. rewrite !hole_index_eq by lia.
    destruct (Nat.leb_spec (S j) id) as [E1|E1]; destruct (Nat.leb_spec j id) as [E2|E2]; try lia.
    - replace (id - j + n - 1) with ((id - S j) + 1 * n) by lia. rewrite Nat.mod_add by lia. symmetry; apply Nat.mod_small; lia.
    - assert (id = j) by lia. subst. replace (j - j + n - 1) with (n - 1) by lia. rewrite Nat.mod_small by lia. lia.
    - symmetry. replace (id + n - j + n - 1) with ((id + n - S j) + 1 * n) by lia. rewrite Nat.mod_add by lia. apply Nat.mod_small; lia.
  Qed.
  Lemma hole_index_step_fwd (id j n : nat) : id < n -> j < n ->
    hole_index false false id (S j) n = (hole_index false false id j n + 1) mod n.
  Proof.
    intros Hi Hj. rewrite !hole_index_eq by lia.
    destruct (Nat.ltb_spec (id + S j) n) as [E1|E1]; destruct (Nat.ltb_spec (id + j) n) as [E2|E2]; try lia.
    - symmetry. rewrite Nat.mod_small by lia. lia.
    - assert (id + S j = n) by lia. replace (id + j + 1) with (0 + 1 * n) by lia. rewrite Nat.mod_add by lia. rewrite Nat.mod_small by lia. lia.
    - symmetry. rewrite Nat.mod_small by lia. lia.
  Qed.
  (** every vertex of the hole is visited, exactly once among the first n steps *)
  Lemma hole_index_visits (sd : bool) (id n r : nat) : id < n -> r < n -> exists j, j < n /\ hole_index false sd id j n = r.
  Proof.
    intros Hi Hr. destruct sd.
    - destruct (Nat.le_gt_cases r id) as [H|H].
      + exists (id - r). split; [lia|]. rewrite hole_index_eq by lia. destruct (Nat.leb (id - r) id) eqn:E; [lia | apply Nat.leb_gt in E; lia].
      + exists (id + n - r). split; [lia|]. rewrite hole_index_eq by lia. destruct (Nat.leb (id + n - r) id) eqn:E; [apply Nat.leb_le in E; lia | lia].
    - destruct (Nat.le_gt_cases id r) as [H|H].
      + exists (r - id). split; [lia|]. rewrite hole_index_eq by lia. destruct (Nat.ltb (id + (r - id)) n) eqn:E; [lia | apply Nat.ltb_ge in E; lia].
      + exists (r + n - id). split; [lia|]. rewrite hole_index_eq by lia. destruct (Nat.ltb (id + (r + n - id)) n) eqn:E; [apply Nat.ltb_lt in E; lia | lia].
  Qed.
  Lemma hole_index_inj (sd : bool) (id n j j' : nat) : id < n -> j < n -> j' < n ->
    hole_index false sd id j n = hole_index false sd id j' n -> j = j'.
  Proof.
    intros Hi Hj Hj'. rewrite !hole_index_eq by lia. destruct sd.
    - destruct (Nat.leb_spec j id) as [E1|E1]; destruct (Nat.leb_spec j' id) as [E2|E2]; lia.
    - destruct (Nat.ltb_spec (id + j) n) as [E1|E1]; destruct (Nat.ltb_spec (id + j') n) as [E2|E2]; lia.
  Qed.

  (** the pinned arithmetic `(id as i32 - j as i32) as usize % n` is not `(id + n - j) mod n` *)
  Lemma pinned_hole_index_refuted : exists id j n, id < n /\ j <= n /\ hole_index true true id j n <> (id + n - j) mod n.
  Proof. exists 0, 1, 3. split; [lia|]. split; [lia|]. vm_compute. discriminate. Qed.
  (** ... it agrees whenever no wrap-around happens (j <= id) *)
  Lemma pinned_hole_index_no_wrap (id j n : nat) : j <= id -> id < n -> hole_index true true id j n = (id + n - j) mod n.
  Proof.
    intros Hj Hi. unfold hole_index. assert ((Z.of_nat id - Z.of_nat j <? 0)%Z = false) as -> by (apply Z.ltb_ge; lia).
    rewrite back_idx by lia. assert (Nat.leb j id = true) as -> by (apply Nat.leb_le; lia).
    rewrite <- Nat2Z.inj_sub by lia. rewrite Z.mod_small by lia. apply Nat2Z.id.
  Qed.
End HoleIndex.

Section AnyNum.
  Context {K : Type} {NK : Num K}.
  Notation V := (V3 K).

  (** ** what one push does to the vertex list *)
  Lemma replace_last_length (vs : list V) (p : V) : vs <> [] -> length (replace_last vs p) = length vs.
  Proof.
    intros H. unfold replace_last. rewrite app_length. cbn [length].
    rewrite (app_removelast_last p H) at 2. rewrite app_length. reflexivity.
  Qed.
  Lemma set_normal_ok (L L' : Loop K) : loop_set_normal L = Ok L' -> 3 <= llen L /\
    L' = set_normal_field L (tri_normal (verts L)).
  Proof. unfold loop_set_normal, llen. destruct (verts L) as [|a [|b [|c l]]]; try discriminate. intros H; injection H as <-. cbn [length]. split; [lia | reflexivity]. Qed.
  (** (a push may shorten the list by any number of vertices: the popped spike, or every
      trailing vertex that the new point makes redundant) *)
  Lemma push_cases (L L' : Loop K) (p : V) : loop_push L p = Ok L' ->
    (exists keep, keep <= llen L /\ verts L' = firstn keep (verts L) ++ [p]) \/
    (verts L' = removelast (verts L) /\ 2 <= llen L).
  Proof.
    intros H. destruct (push_live_effect _ _ _ H) as (_ & [Hl E|r a b Er _ E|keep _ Hk _ E] & _).
    - left. exists (llen L). split; [lia|]. unfold llen. rewrite firstn_all. exact E.
    - right. split; [exact E|]. apply (f_equal (@length _)) in Er. rewrite rev_length in Er. unfold llen. rewrite Er. cbn [length]. lia.
    - left. exists keep. split; [exact Hk | exact E].
  Qed.
  Lemma push_len (L L' : Loop K) (p : V) : loop_push L p = Ok L' ->
    llen L' <= S (llen L) /\ (llen L' = S (llen L) -> verts L' = verts L ++ [p]).
  Proof.
    intros H. destruct (push_cases _ _ _ H) as [(keep & Hk & E)|[E H2]]; unfold llen in *; rewrite E.
    - rewrite app_length, firstn_length. cbn [length]. split; [lia|]. intros C.
      assert (keep = length (verts L)) by lia. subst keep. rewrite firstn_all. reflexivity.
    - rewrite length_removelast. split; [lia|]. intros C; lia.
  Qed.

  Lemma unwrap_ok {A} s (r : res A) (a : A) : unwrap s r = Ok a -> r = Ok a.
  Proof. destruct r; cbn; intros H; [exact H | discriminate..]. Qed.
  Lemma unwrap_of_ok {A} s (a : A) : unwrap s (Ok a) = Ok a. Proof. reflexivity. Qed.
  Lemma rbind_assoc {A B C} (r : res A) (f : A -> res B) (g : B -> res C) : rbind (rbind r f) g = rbind r (fun a => rbind (f a) g).
  Proof. destruct r; reflexivity. Qed.

  Lemma push_seq_app (s : N) (a b : list V) : forall L : Loop K, push_seq s L (a ++ b) = rbind (push_seq s L a) (fun L' => push_seq s L' b).
  Proof. induction a as [|p a IH]; intros L; cbn [app push_seq]; [reflexivity|]. rewrite rbind_assoc. destruct (unwrap s (loop_push L p)); cbn [rbind]; [apply IH | reflexivity..]. Qed.
  (** pushing k points adds at most k vertices; if it adds exactly k, every push appended *)
  Lemma push_try_len (ps : list V) : forall L L' : Loop K, push_try L ps = Ok L' ->
    llen L' <= llen L + length ps /\ (llen L' = llen L + length ps -> verts L' = verts L ++ ps).
  Proof.
    induction ps as [|p tl IH]; intros L L'; cbn [push_try length].
    - intros H; inversion H; subst. split; [lia|]. intros _. rewrite app_nil_r. reflexivity.
    - destruct (loop_push L p) as [L1| |] eqn:E; cbn [rbind]; try discriminate. intros H.
      destruct (push_len _ _ _ E) as (H1 & H3). destruct (IH _ _ H) as (I1 & I2). split; [lia|]. intros Hl.
      rewrite I2 by lia. rewrite H3 by lia. rewrite <- app_assoc. reflexivity.
  Qed.
  (** a successful [push_seq] is a successful [push_try]: [unwrap] only renames the failures *)
  Lemma push_seq_try (s : N) (ps : list V) : forall L L' : Loop K, push_seq s L ps = Ok L' -> push_try L ps = Ok L'.
  Proof.
    induction ps as [|p tl IH]; intros L L'; cbn [push_seq push_try]; [exact (fun H => H)|].
    destruct (unwrap s (loop_push L p)) as [L1| |] eqn:E; cbn [rbind]; try discriminate.
    rewrite (unwrap_ok _ _ _ E). exact (IH L1 L').
  Qed.
  Lemma push_seq_len (s : N) (ps : list V) (L L' : Loop K) : push_seq s L ps = Ok L' ->
    llen L' <= llen L + length ps /\ (llen L' = llen L + length ps -> verts L' = verts L ++ ps).
  Proof. intros H. exact (push_try_len ps L L' (push_seq_try s ps L L' H)). Qed.

  (** ** the hole walk and the rebuild are "push this list of points" *)
  Lemma hole_walk_is_push_seq (hole : Loop K) (sd : bool) (id : nat) : llen hole <> 0 ->
    forall count j aux, push_hole_walk false aux hole sd id (llen hole) j count =
      push_seq 41 aux (map (fun j' => vnth (verts hole) (hole_index false sd id j' (llen hole))) (seq j count)).
  Proof.
    intros Hn. induction count as [|c IH]; intros j aux; cbn [push_hole_walk seq map push_seq]; [reflexivity|].
    pose proof (hole_index_lt sd id j (llen hole) Hn) as Hlt. apply Nat.leb_gt in Hlt. rewrite Hlt.
    destruct (unwrap 41 (loop_push aux _)); cbn [rbind]; [apply IH | reflexivity..].
  Qed.
  Lemma rebuild_is_push_seq (on : V) (hole : Loop K) (iv me : nat) : llen hole <> 0 ->
    forall evs i aux, rebuild false on evs i me hole iv aux =
      push_seq 41 aux (splice evs i me (walk_list false (vis_same_direction on (lnormal hole)) (verts hole) iv)).
  Proof.
    intros Hn. induction evs as [|ev tl IH]; intros i aux; cbn [rebuild splice]; [reflexivity|].
    destruct (Nat.eqb i me).
    - apply Nat.eqb_neq in Hn. rewrite Hn. cbn [push_seq]. destruct (unwrap 41 (loop_push aux ev)) as [aux1| |]; cbn [rbind]; try reflexivity.
      rewrite push_seq_app. rewrite hole_walk_is_push_seq by (apply Nat.eqb_neq; exact Hn). unfold walk_list. fold (llen hole).
      rewrite rbind_assoc. destruct (push_seq 41 aux1 _) as [a| |]; cbn [rbind push_seq]; try reflexivity.
      destruct (unwrap 41 (loop_push a ev)); cbn [rbind]; [apply IH | reflexivity..].
    - cbn [push_seq]. destruct (unwrap 41 (loop_push aux ev)); cbn [rbind]; [apply IH | reflexivity..].
  Qed.

  (** ** (a) the merged outline, when no push replaced a collinear predecessor and none was refused *)
  Theorem merge_characterised : forall count (P : Poly K) (ret : Loop K) processed il iv,
    merge_clean false P count ret processed il iv = true ->
    exists L, merge_holes false P count ret processed il iv = Ok L /\ merge_spec false P count (verts ret) processed il iv = Some (verts L).
  Proof.
    induction count as [|c IH]; intros P ret processed il iv; cbn [merge_clean merge_holes merge_spec].
    - intros _. exists ret. split; reflexivity.
    - destruct (scan_ext (verts ret) 0 (pinner P) processed (scan_start false, 0, 0, il, iv)) as [[[[md me0] ml] il'] iv'].
      destruct (nth_error (pinner P) ml) as [hole|]; [|discriminate].
      destruct (Nat.eqb (llen hole) 0) eqn:En; [discriminate|]. cbn [negb andb]. apply Nat.eqb_neq in En.
      destruct (attach_index false P (verts ret) me0 hole iv') as [me| |]; try discriminate. cbn [rbind].
      destruct (rebuild false (lnormal (pouter P)) (verts ret) 0 me hole iv' loop_new) as [aux| |] eqn:Er; try discriminate.
      cbn [rbind]. intros H. apply andb_prop in H. destruct H as [Hl Hc]. apply Nat.eqb_eq in Hl.
      rewrite rebuild_is_push_seq in Er by exact En. destruct (push_seq_len _ _ _ _ Er) as [_ Hv]. cbn [llen verts loop_new length] in Hv.
      specialize (Hv Hl). cbn [app] in Hv. rewrite <- Hv. apply IH. exact Hc.
  Qed.
  Theorem closed_loop_characterised (P : Poly K) : closed_loop_clean false P = true ->
    exists L, poly_get_closed_loop P = Ok L /\ closed_loop_spec false P = Some (verts L).
  Proof. intros H. apply (merge_characterised _ P (loop_open (pouter P))). exact H. Qed.

  (** (c) a polygon without holes is returned unchanged (opened) *)
  Theorem no_holes_unchanged (P : Poly K) : pinner P = [] -> poly_get_closed_loop P = Ok (loop_open (pouter P)).
  Proof. intros H. unfold poly_get_closed_loop, poly_get_closed_loop_gen. rewrite H. reflexivity. Qed.
End AnyNum.
