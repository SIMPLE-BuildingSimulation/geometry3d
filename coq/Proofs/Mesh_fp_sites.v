(** * Mesh_fp_sites (C09 b): the certified enumeration of the panic sites of [from_polygon] and [mesh_polygon].
    Every number instance (no property of the arithmetic is used: only the control structure of the model).

    - the Loop3D leaves used by the ear clipping never panic: [loop_sanitize], [loop_test_point], [loop_push],
      [loop_close] never; [loop_is_diagonal] only at site 22 and only on an EMPTY loop;
    - [mark_neighbourhouds] never panics (sites 96, 62, 63, 64, 60 unreachable from it);
    - the capped ear-clipping loop [fp_loop] never panics when entered with a non-empty loop that is open when it
      has a single vertex (sites 21, 22, 25, 93, 95, 96, 62, 63, 64, 10, 60 unreachable);
    - [poly_get_closed_loop] can only panic at site 41 (push(..).unwrap()) or, when the polygon has an EMPTY hole,
      at site 42 ([% 0]) or, when its OUTLINE is empty, at site 21 (`ret_loop[min_ext_vertex_id]` in the attachment
      search of fix bcb072e); the other occurrences of site 21 are unreachable; with no hole it returns Ok;
    - hence [from_polygon P = Panic s -> s = 41] for every polygon whose outline and holes are non-empty, and never for a
      polygon without holes; [mesh_polygon] adds the sites of [refine] only, of which 67, 73 (neighbour look-ups),
      85 and 90 (sweep cursors) are unreachable because the initial mesh is well formed ([WF]);
    - every polygon built through the API (Loop3D push/close histories, Polygon3D::new, cut_hole histories) has
      a non-empty outline and non-empty holes: a closed Loop3D is never empty. *)
From Coq Require Import ZArith Bool List Arith Lia.
From G3 Require Import Model.Num Model.Base Model.Vec Model.Segment Model.Triangle Model.Loop Model.Polygon Model.Triangulation
  Proofs.C04_loop Proofs.C04_reach Proofs.C11_cut_hole Proofs.C12_merge
  Proofs.Mesh_base Proofs.Mesh_wf Proofs.Mesh_sites Proofs.Mesh_fp Proofs.Mesh_conf Proofs.Mesh_init.
Import ListNotations.

Section FpSites.
  Context {K : Type} {NK : Num K}.
  Notation V := (V3 K).
  Notation TP := (TriPiece K).
  Notation Mesh := (Mesh K).

  (** ** 1. the Loop3D leaves *)
  Lemma np_seg_contains (s input : Seg K) : no_panic (seg_contains s input).
  Proof.
    unfold seg_contains. apply np_if; [apply np_err|].
    apply C04_loop.np_bind; [apply is_collinear_no_panic|]. intros c1. apply np_if; [apply np_ok|].
    apply C04_loop.np_bind; [apply is_collinear_no_panic|]. intros c2. apply np_if; [apply np_ok|].
    repeat (apply np_if; [apply np_ok|]). apply np_err.
  Qed.
  Lemma np_diag_edge_blocks (s : Seg K) (a b : V) : no_panic (diag_edge_blocks s a b).
  Proof. unfold diag_edge_blocks. apply C04_loop.np_bind; [apply np_seg_contains|]. intros c. apply np_ok. Qed.
  Lemma np_diag_scan (s : Seg K) (vs : list V) (n : nat) : forall count i, no_panic (diag_scan s vs n i count).
  Proof.
    induction count as [|c IH]; intros i; cbn [diag_scan]; [apply np_ok|].
    apply C04_loop.np_bind; [apply np_diag_edge_blocks|]. intros blk. apply np_if; [apply np_ok | apply IH].
  Qed.
  (** [is_diagonal]: the only panic is the [% 0] on an empty loop *)
  Lemma is_diagonal_panic (L : Loop K) (s : Seg K) (k : N) : loop_is_diagonal L s = Panic k -> k = 22%N /\ llen L = 0.
  Proof.
    unfold loop_is_diagonal. destruct (nltb _ _); [discriminate|]. destruct (Nat.eqb_spec (llen L) 0) as [E|E].
    - intros H; inversion H; subst. split; [reflexivity | exact E].
    - intros H. exfalso. revert H. apply C04_loop.np_bind; [apply np_diag_scan|]. intros blocked.
      apply np_if; [apply np_ok|]. apply C04_loop.np_bind; [apply np_loop_test_point|]. intros inside. apply np_ok.
  Qed.
  Lemma np_is_diagonal (L : Loop K) (s : Seg K) : llen L <> 0 -> no_panic (loop_is_diagonal L s).
  Proof. intros Hn k H. apply is_diagonal_panic in H. destruct H as [_ H]. exact (Hn H). Qed.
  (** an OPEN loop has no diagonal: the final [test_point] refuses it (Err 34) *)
  Lemma is_diagonal_open (L : Loop K) (s : Seg K) : lclosed L = false -> loop_is_diagonal L s <> Ok true.
  Proof.
    intros Ho. unfold loop_is_diagonal. destruct (nltb _ _); [discriminate|]. destruct (Nat.eqb _ 0); [discriminate|].
    destruct (diag_scan _ _ _ _ _) as [blocked| |]; cbn [rbind]; try discriminate. destruct blocked; [discriminate|].
    unfold loop_test_point. rewrite Ho. cbn [negb rbind]. discriminate.
  Qed.

  Lemma np_push_all : forall (vs : list V) (L : Loop K), no_panic (push_all L vs).
  Proof.
    induction vs as [|v vs IH]; intros L; cbn [push_all]; [apply np_ok|].
    apply C04_loop.np_bind; [apply push_no_panic | intros L'; apply IH].
  Qed.
  Theorem sanitize_no_panic (L : Loop K) : forall s, loop_sanitize L <> Panic s.
  Proof.
    unfold loop_sanitize. apply C04_loop.np_bind; [apply np_push_all|]. intros nw.
    destruct (lclosed L && Nat.leb 3 (llen nw)); [|apply np_ok].
    pose proof (close_no_panic nw) as H. destruct (loop_close nw) as [nw' r]. apply C04_loop.np_bind; [exact H | intros u; apply np_ok].
  Qed.

  (** ** 2. what [push] / [sanitize] / [remove] do to the length and to the [closed] flag *)
  Lemma push_open (L L' : Loop K) (p : V) : loop_push L p = Ok L' -> lclosed L' = false.
  Proof. rewrite loop_push_eq. intros H. destruct (push_with_ok _ _ _ _ _ H) as (_ & _ & ->). reflexivity. Qed.
  Lemma push_nonempty (L L' : Loop K) (p : V) : loop_push L p = Ok L' -> 1 <= llen L'.
  Proof.
    intros H. destruct (push_cases _ _ _ H) as [(keep & Hk & E)|[E H2]]; unfold llen in *; rewrite E.
    - rewrite app_length. cbn [length]. lia.
    - rewrite length_removelast. lia.
  Qed.
  Lemma push_all_shape : forall (vs : list V) (L L' : Loop K), push_all L vs = Ok L' -> vs <> [] -> 1 <= llen L' /\ lclosed L' = false.
  Proof.
    induction vs as [|v vs IH]; intros L L' H Hne; [exfalso; apply Hne; reflexivity|]. cbn [push_all] in H.
    destruct (loop_push L v) as [L1| |] eqn:E1; cbn [rbind] in H; try discriminate.
    destruct vs as [|w vs'].
    - cbn [push_all] in H. inversion H; subst. split; [eapply push_nonempty; exact E1 | eapply push_open; exact E1].
    - eapply IH; [exact H | discriminate].
  Qed.
  (** the shape invariant of the outline inside the ear-clipping loop: never empty, and open when reduced to one
      vertex ([sanitize] returns an open loop when fewer than three vertices survive) *)
  Definition LoopInv (L : Loop K) : Prop := 1 <= llen L /\ (llen L = 1 -> lclosed L = false).
  Lemma sanitize_inv (L L' : Loop K) : 1 <= llen L -> loop_sanitize L = Ok L' -> LoopInv L'.
  Proof.
    intros Hn. unfold loop_sanitize. destruct (push_all loop_new (verts L)) as [nw| |] eqn:E; cbn [rbind]; try discriminate.
    apply push_all_shape in E; [|intros C; unfold llen in Hn; rewrite C in Hn; cbn in Hn; lia]. destruct E as [E1 E2].
    destruct (lclosed L && Nat.leb 3 (llen nw)).
    - pose proof (close_ok_invariants nw) as C. destruct (loop_close nw) as [nw' r]. cbn [fst snd] in C.
      destruct r as [[]| |]; cbn [rbind]; try discriminate. intros H; inversion H; subst. destruct (C eq_refl) as [_ C3].
      split; [lia | intros C1; lia].
    - intros H; inversion H; subst. split; [exact E1 | intros _; exact E2].
  Qed.

  (** ** 3. [mark_neighbourhouds] never panics *)
  (** the inner loop `for edge_i in 0..3` of [mark_edge_pair], named *)
  Fixpoint mep_go (this_i other_i : nat) (js : list N) : MR (K:=K) unit :=
    match js with
    | [] => mret tt
    | edge_i :: js' =>
      mbind (mget 96%N this_i) (fun t =>
      mbind (mlift (tri_segment (tp_tri t) edge_i)) (fun edge =>
      mbind (mget 96%N other_i) (fun o =>
      match tri_get_edge_index_from_segment (tp_tri o) edge with
      | Some _ => mbind (mlift (edge_from_i edge_i)) (fun e => mark_as_neighbours this_i e other_i)
      | None => mep_go this_i other_i js'
      end)))
    end.
  Lemma mark_edge_pair_eq (a b : nat) : mark_edge_pair (K:=K) a b = mep_go a b [0%N; 1%N; 2%N].
  Proof. reflexivity. Qed.
  Lemma edge_from_i_as_i (i : N) (e : Edge) : edge_from_i i = Ok e -> edge_as_i e = i.
  Proof. destruct i as [|[[]|[]|]]; cbn; intros H; inversion H; reflexivity. Qed.

  (** [mark_as_neighbours] on two slots in range, when the second triangle has the segment of the first: no panic *)
  Lemma mark_no_panic (i1 i2 : nat) (e : Edge) (t1 t2 : TP) (sg : Seg K) (k : N) (M M' : Mesh) (s : N) :
    nth_error (tris M) i1 = Some t1 -> nth_error (tris M) i2 = Some t2 ->
    tri_segment (tp_tri t1) (edge_as_i e) = Ok sg -> tri_get_edge_index_from_segment (tp_tri t2) sg = Some k ->
    mark_as_neighbours i1 e i2 M <> (M', Panic s).
  Proof.
    intros E1 E2 Es Ek. unfold mark_as_neighbours. destruct (Nat.eqb i1 i2); [discriminate|].
    unfold mbind at 1. unfold mget at 1. rewrite E1. destruct (negb (tp_valid t1)); [discriminate|].
    unfold mbind at 1. unfold mlift at 1. rewrite Es.
    unfold mbind at 1. unfold mget at 1. rewrite E2. destruct (negb (tp_valid t2)); [discriminate|].
    unfold mbind at 1. unfold mlift at 1. rewrite Ek.
    destruct (edge_from_i_lt k (edge_index_lt _ _ _ Ek)) as [e2 Ee2].
    unfold mbind at 1. unfold mlift at 1. rewrite Ee2.
    assert (L1 : Nat.ltb i1 (length (tris M)) = true) by (apply Nat.ltb_lt; apply nth_error_Some; congruence).
    assert (L2 : Nat.ltb i2 (length (tris M)) = true) by (apply Nat.ltb_lt; apply nth_error_Some; congruence).
    unfold mbind, mupd. rewrite L1. cbn [tris nvalid]. rewrite upd_length, L2. discriminate.
  Qed.
  Lemma mep_go_no_panic (a b : nat) : forall (js : list N) (M M' : Mesh) (s : N),
    (forall j, In j js -> (j < 3)%N) -> a < length (tris M) -> b < length (tris M) -> mep_go a b js M <> (M', Panic s).
  Proof.
    induction js as [|j js IH]; intros M M' s Hj Ha Hb; cbn [mep_go]; [discriminate|].
    destruct (nth_error (tris M) a) as [t|] eqn:Ea; [|exfalso; apply nth_error_None in Ea; lia].
    destruct (nth_error (tris M) b) as [o|] eqn:Eb; [|exfalso; apply nth_error_None in Eb; lia].
    unfold mbind at 1. unfold mget at 1. rewrite Ea.
    destruct (tri_segment (tp_tri t) j) as [edge| |s'] eqn:Es.
    2:{ unfold mbind, mlift. discriminate. }
    2:{ exfalso. eapply (np_tri_segment (fun _ => false)) in Es. discriminate. }
    unfold mbind at 1. unfold mlift at 1. unfold mbind at 1. unfold mget at 1. rewrite Eb.
    destruct (tri_get_edge_index_from_segment (tp_tri o) edge) as [k|] eqn:Ek.
    - destruct (edge_from_i_lt j (Hj j (or_introl eq_refl))) as [e Ee]. unfold mbind at 1. unfold mlift at 1. rewrite Ee.
      eapply mark_no_panic; try eassumption. rewrite (edge_from_i_as_i _ _ Ee). exact Es.
    - apply IH; try assumption. intros j' Hj'. apply Hj. right. exact Hj'.
  Qed.
  Lemma pair_no_panic (a b : nat) (M M' : Mesh) (s : N) :
    a < length (tris M) -> b < length (tris M) -> mark_edge_pair a b M <> (M', Panic s).
  Proof. rewrite mark_edge_pair_eq. apply mep_go_no_panic. intros j [<-|[<-|[<-|[]]]]; lia. Qed.

  Lemma inner_no_panic (a : nat) : forall (cnt b : nat) (M M' : Mesh) (s : N),
    a < length (tris M) -> b + cnt <= length (tris M) -> mn_inner a b cnt M <> (M', Panic s).
  Proof.
    induction cnt as [|c IH]; intros b M M' s Ha Hb; cbn [mn_inner]; [discriminate|].
    intros H. apply mbind_inv in H. destruct H as [(u & M1 & H1 & H2) | [(c' & H1 & H3) | (s' & H1 & H3)]].
    - pose proof (rtri_length _ _ (pres_pair Rtri Rtri_refl Rtri_trans rtri_mark a b _ _ _ H1)) as Hl. revert H2. apply IH; lia.
    - discriminate.
    - revert H1. apply pair_no_panic; lia.
  Qed.
  Lemma outer_no_panic : forall (cnt a : nat) (M M' : Mesh) (s : N),
    a + cnt <= length (tris M) -> mn_outer (length (tris M)) a cnt M <> (M', Panic s).
  Proof.
    induction cnt as [|c IH]; intros a M M' s Ha; cbn [mn_outer]; [discriminate|].
    intros H. apply mbind_inv in H. destruct H as [(u & M1 & H1 & H2) | [(c' & H1 & H3) | (s' & H1 & H3)]].
    - pose proof (rtri_length _ _ (pres_inner Rtri Rtri_refl Rtri_trans rtri_mark a _ _ _ _ _ H1)) as Hl. rewrite <- Hl in H2. revert H2. apply IH. lia.
    - discriminate.
    - revert H1. apply inner_no_panic; lia.
  Qed.
  Theorem mark_neighbourhouds_no_panic (M M' : Mesh) : forall s, mark_neighbourhouds M <> (M', Panic s).
  Proof. intros s. unfold mark_neighbourhouds. apply outer_no_panic. lia. Qed.

  (** ** 4. the capped ear-clipping loop never panics *)
  Lemma loop_index_mod (L : Loop K) (k : nat) : llen L <> 0 -> exists v, loop_index L (k mod llen L) = Ok v.
  Proof.
    intros Hn. unfold loop_index. pose proof (Nat.mod_upper_bound k (llen L) Hn) as Hlt. unfold llen in Hlt.
    destruct (nth_error (verts L) (k mod llen L)) as [v|] eqn:E; [exists v; reflexivity|].
    apply nth_error_None in E. unfold llen in E. lia.
  Qed.
  Lemma ear_test_no_panic (P : Poly K) (L : Loop K) (v0 v1 v2 : V) (il idg : bool) : forall s, ear_test P L v0 v1 v2 il idg <> Panic s.
  Proof.
    intros s. unfold ear_test. destruct (negb (negb il && idg)); [discriminate|]. destruct (negb (ear_convex P v0 v1 v2)); [discriminate|].
    pose proof (tri_new_no_panic v0 v1 v2) as H. destruct (tri_new v0 v1 v2) as [t| |s']; cbn [rbind]; try discriminate.
    intros E; inversion E; subst. exact (H s eq_refl).
  Qed.
  Lemma ear_test_true (P : Poly K) (L : Loop K) (v0 v1 v2 : V) (il idg : bool) : ear_test P L v0 v1 v2 il idg = Ok true -> idg = true.
  Proof. unfold ear_test. destruct idg; [reflexivity|]. rewrite andb_false_r. cbn [negb]. discriminate. Qed.

  Theorem fp_loop_no_panic (P : Poly K) : forall (fuel count anchor : nat) (L : Loop K) (t : Mesh) (s : N),
    LoopInv L -> fp_loop P fuel count anchor L t <> Panic s.
  Proof.
    set (okb := fun _ : N => false).
    enough (G : forall fuel count anchor L t, LoopInv L -> np_res okb (fp_loop P fuel count anchor L t))
      by (intros fuel count anchor L t s HL H; discriminate (G _ _ _ _ _ HL s H)).
    induction fuel as [|fuel IH]; intros count anchor L t HL; cbn [fp_loop]; [apply np_res_err|].
    apply np_res_bind_eq; [destruct (Nat.eqb _ 0); [apply np_res_never, sanitize_no_panic | apply np_res_ok]|]. intros L1 EL1.
    assert (HL1 : LoopInv L1) by (destruct (Nat.eqb _ 0); [eapply sanitize_inv; [apply HL | exact EL1] | inversion EL1; subst; exact HL]).
    destruct HL1 as [N1 O1].
    destruct (Nat.eqb_spec (llen L1) 2) as [_|E2].
    { apply np_res_let_eq; [|intros; apply np_res_ok]. intros t' s E. destruct (mark_neighbourhouds_no_panic _ _ _ E). }
    destruct (Nat.eqb_spec (llen L1) 0) as [E0|E0]; [lia|].
    assert (Hi : forall k, np_res okb (loop_index L1 (k mod llen L1))) by (intros k; destruct (loop_index_mod L1 k E0) as [v ->]; apply np_res_ok).
    apply np_res_bind; [apply Hi|]. intros v0. apply np_res_bind; [apply Hi|]. intros v1. apply np_res_bind; [apply Hi|]. intros v2.
    apply np_res_bind; [apply np_res_never, is_collinear_no_panic|]. intros is_line.
    apply np_res_bind_eq; [apply np_res_never, np_is_diagonal, E0|]. intros is_diag Ed.
    apply np_res_bind_eq; [apply np_res_never, ear_test_no_panic|]. intros [|] Ee; [|apply IH; split; assumption].
    (* an ear: the loop is closed, hence has at least three vertices *)
    assert (N3 : 3 <= llen L1).
    { apply ear_test_true in Ee. subst is_diag. destruct (lclosed L1) eqn:Ec.
      - destruct (Nat.eq_dec (llen L1) 1) as [C|C]; [specialize (O1 C); discriminate | lia].
      - exfalso. exact (is_diagonal_open L1 _ Ec Ed). }
    apply np_res_let_eq; [exact (np_push okb _ _ _ _ t)|]. intros t1 n Ep.
    unfold n_triangles in Ep. apply push_at_end in Ep. destruct Ep as (tp & Etp & _).
    assert (Hl1 : length (tris t1) = S (length (tris t))) by (rewrite Etp, app_length; cbn [length]; lia).
    (* the three constrain steps hit the slot just pushed *)
    assert (Hc : forall (sg : Seg K) (e : Edge) (m : Mesh) (k : Mesh -> res Mesh), length (tris m) = S (length (tris t)) ->
               (forall m', length (tris m') = S (length (tris t)) -> np_res okb (k m')) ->
               np_res okb (let '(m', r) := if poly_contains_segment P sg then mupd 95%N (n_triangles t) (tp_constrain e) m else (m, Ok tt) in rbind r (fun _ => k m'))).
    { intros sg e m k Hm Hk. destruct (poly_contains_segment P sg); [|apply Hk, Hm]. unfold mupd, n_triangles.
      replace (Nat.ltb (length (tris t)) (length (tris m))) with true by (symmetry; apply Nat.ltb_lt; lia).
      apply Hk. cbn [tris]. rewrite upd_length. exact Hm. }
    apply Hc; [exact Hl1|]. intros t2 Hl2. apply Hc; [exact Hl2|]. intros t3 Hl3. apply Hc; [exact Hl3|]. intros t4 _.
    apply np_res_bind_eq.
    - intros s Er. unfold loop_remove in Er. pose proof (Nat.mod_upper_bound (anchor + 1) (llen L1) E0) as Hlt. apply Nat.ltb_lt in Hlt. rewrite Hlt in Er. discriminate.
    - intros L2 Er. apply loop_remove_verts in Er. destruct Er as [_ Er]. apply IH. split; lia.
  Qed.

  (** ** 5. get_closed_loop: site 41, or 42 when the polygon has an empty hole, or 21 when the outline is empty *)
  (** the positions (outline vertex, hole) returned by the scan: the initial ones, or indices of a scanned pair *)
  Definition st_pos (st : Sst (K:=K)) : nat * nat := let '(_, me, ml, _, _) := st in (me, ml).
  Lemma siv_pos (ev : V) (j k : nat) : forall (ivs : list V) (l : nat) (st : Sst),
    st_pos (scan_inner_vertices ev j k ivs l st) = st_pos st \/ st_pos (scan_inner_vertices ev j k ivs l st) = (j, k).
  Proof.
    induction ivs as [|iv ivs IH]; intros l st; cbn [scan_inner_vertices]; [left; reflexivity|].
    destruct st as [[[[md me] ml] il] iv_id]. destruct (nltb (psqdist ev iv) md).
    - destruct (IH (S l) (psqdist ev iv, j, k, k, l)) as [E|E]; [right; rewrite E; reflexivity | right; exact E].
    - apply IH.
  Qed.
  Lemma sil_pos (ev : V) (j : nat) (processed : list nat) : forall (hs : list (Loop K)) (k : nat) (st : Sst),
    let r := st_pos (scan_inner_loops ev j hs k processed st) in r = st_pos st \/ (fst r = j /\ k <= snd r < k + length hs).
  Proof.
    induction hs as [|h hs IH]; intros k st; cbn [scan_inner_loops]; [left; reflexivity|].
    set (st' := if existsb (Nat.eqb k) processed then st else scan_inner_vertices ev j k (verts h) 0 st).
    assert (G : st_pos st' = st_pos st \/ st_pos st' = (j, k)) by (unfold st'; destruct (existsb _ _); [left; reflexivity | apply siv_pos]).
    cbn [length]. destruct (IH (S k) st') as [E|E]; cbv zeta; [rewrite E; destruct G as [G|G]; [left; exact G | right; rewrite G; cbn [fst snd]; lia] | right; lia].
  Qed.
  Lemma se_pos (hs : list (Loop K)) (processed : list nat) : forall (evs : list V) (j : nat) (st : Sst),
    let r := st_pos (scan_ext evs j hs processed st) in r = st_pos st \/ (j <= fst r < j + length evs /\ snd r < length hs).
  Proof.
    induction evs as [|ev evs IH]; intros j st; cbn [scan_ext]; [left; reflexivity|]. cbn [length].
    destruct (IH (S j) (scan_inner_loops ev j hs 0 processed st)) as [E|E]; cbv zeta; [|right; lia].
    rewrite E. destruct (sil_pos ev j processed hs 0 st) as [G|G]; [left; exact G | right; lia].
  Qed.

  Lemma unwrap41_push (aux : Loop K) (p : V) (s : N) : unwrap 41%N (loop_push aux p) = Panic s -> s = 41%N.
  Proof.
    pose proof (push_no_panic aux p) as H. destruct (loop_push aux p) as [a|c|s']; cbn [unwrap]; intros E; inversion E; subst; [reflexivity|].
    exfalso. exact (H s eq_refl).
  Qed.
  Lemma walk_panic (hole : Loop K) (sd : bool) (id : nat) (s : N) : llen hole <> 0 ->
    forall count j aux, push_hole_walk false aux hole sd id (llen hole) j count = Panic s -> s = 41%N.
  Proof.
    intros Hn. induction count as [|c IH]; intros j aux; cbn [push_hole_walk]; [discriminate|].
    pose proof (hole_index_lt sd id j (llen hole) Hn) as Hlt. apply Nat.leb_gt in Hlt. rewrite Hlt.
    apply rbind_panic; [apply unwrap41_push | intros a _; apply IH].
  Qed.
  Lemma rebuild_panic (on : V) (hole : Loop K) (iv me : nat) (s : N) :
    forall evs i aux, rebuild false on evs i me hole iv aux = Panic s -> s = 41%N \/ (s = 42%N /\ llen hole = 0).
  Proof.
    induction evs as [|ev tl IH]; intros i aux; cbn [rebuild]; [discriminate|].
    apply rbind_panic; [intros E; left; exact (unwrap41_push _ _ _ E)|]. intros aux1 _.
    apply rbind_panic; [|intros a2 _; apply IH]. destruct (Nat.eqb i me); [|discriminate].
    destruct (Nat.eqb_spec (llen hole) 0) as [E0|E0].
    - intros H; inversion H; subst. right. split; [reflexivity | exact E0].
    - intros E. left. revert E. apply rbind_panic; [apply walk_panic; exact E0 | intros a _; apply unwrap41_push].
  Qed.
  (** [attach_index] (fix bcb072e): the index `ret_loop[min_ext_vertex_id]` is out of bounds only if the outline is empty *)
  Lemma attach_panic (P : Poly K) (vs : list V) (me0 : nat) (hole : Loop K) (iv' : nat) (s : N) :
    attach_index false P vs me0 hole iv' = Panic s -> s = 21%N /\ length vs <= me0.
  Proof.
    unfold attach_index. destruct (_ && _); [|discriminate]. destruct (Nat.leb_spec (length vs) me0) as [C|C].
    - intros H; inversion H; subst. split; [reflexivity | exact C].
    - destruct (find_visit _ _ _ _ _ _ _); discriminate.
  Qed.
  (** a rebuilt outline is never empty: its last operation is a successful push *)
  Lemma rebuild_nonempty (on : V) (hole : Loop K) (iv me : nat) :
    forall evs i aux aux', rebuild false on evs i me hole iv aux = Ok aux' -> evs <> [] -> 1 <= llen aux'.
  Proof.
    induction evs as [|ev tl IH]; intros i aux aux' H Hne; [exfalso; apply Hne; reflexivity|]. cbn [rebuild] in H.
    destruct (unwrap 41 (loop_push aux ev)) as [aux1| |] eqn:E1; cbn [rbind] in H; try discriminate. apply unwrap_ok in E1.
    match type of H with rbind ?x _ = _ => destruct x as [aux2| |] eqn:E2; cbn [rbind] in H; try discriminate end.
    assert (N2 : 1 <= llen aux2).
    { destruct (Nat.eqb i me).
      - destruct (Nat.eqb (llen hole) 0); [discriminate|].
        destruct (push_hole_walk false aux1 hole _ iv (llen hole) 0 (S (llen hole))) as [a| |]; cbn [rbind] in E2; try discriminate.
        apply unwrap_ok in E2. eapply push_nonempty; exact E2.
      - inversion E2; subst. eapply push_nonempty; exact E1. }
    destruct tl as [|ev' tl'].
    - cbn [rebuild] in H. inversion H; subst. exact N2.
    - eapply IH; [exact H | discriminate].
  Qed.
  Lemma merge_panic (P : Poly K) (s : N) : forall count (ret : Loop K) processed il iv,
    count <= length (pinner P) -> (llen ret = 0 -> llen (pouter P) = 0) ->
    merge_holes false P count ret processed il iv = Panic s ->
    s = 41%N \/ (s = 42%N /\ exists h, In h (pinner P) /\ llen h = 0) \/ (s = 21%N /\ llen (pouter P) = 0).
  Proof.
    induction count as [|c IH]; intros ret processed il iv Hc Hret; cbn [merge_holes]; [discriminate|].
    pose proof (se_pos (pinner P) processed (verts ret) 0 (scan_start false, 0, 0, il, iv)) as Hpos.
    destruct (scan_ext (verts ret) 0 (pinner P) processed (scan_start false, 0, 0, il, iv)) as [[[[md me0] ml] il'] iv'].
    cbn [st_pos fst snd] in Hpos.
    assert (Hme : me0 = 0 \/ me0 < length (verts ret)) by (destruct Hpos as [Q|Q]; [inversion Q; left; reflexivity | right; lia]).
    assert (Hlt : ml < length (pinner P)) by (destruct Hpos as [Q|Q]; [inversion Q; lia | lia]).
    destruct (nth_error (pinner P) ml) as [hole|] eqn:Eh; [|apply nth_error_None in Eh; lia].
    apply rbind_panic.
    { intros Ea. apply attach_panic in Ea. destruct Ea as [-> Ea]. right; right. split; [reflexivity|].
      apply Hret. unfold llen. destruct Hme as [->|Hme]; lia. }
    intros me _. apply rbind_panic.
    - intros Er. apply rebuild_panic in Er. destruct Er as [Er|[Er E0]]; [left; exact Er | right; left].
      split; [exact Er|]. exists hole. split; [eapply nth_error_In; exact Eh | exact E0].
    - intros aux Er. apply IH; [lia|]. intros E0. apply Hret. destruct (verts ret) as [|v vs] eqn:Ev; [unfold llen; rewrite Ev; reflexivity|].
      exfalso. apply rebuild_nonempty in Er; [lia | discriminate].
  Qed.
  Theorem closed_loop_panic (P : Poly K) (s : N) : poly_get_closed_loop P = Panic s ->
    s = 41%N \/ (s = 42%N /\ exists h, In h (pinner P) /\ llen h = 0) \/ (s = 21%N /\ llen (pouter P) = 0).
  Proof. apply merge_panic; [lia|]. intros H. exact H. Qed.
  (** true of every polygon built through the API: section 7 *)
  Definition holes_nonempty (P : Poly K) : Prop := forall h, In h (pinner P) -> llen h <> 0.
  Corollary closed_loop_panic_41 (P : Poly K) (s : N) : llen (pouter P) <> 0 -> holes_nonempty P -> poly_get_closed_loop P = Panic s -> s = 41%N.
  Proof.
    intros Ho Hh H. apply closed_loop_panic in H. destruct H as [H|[[_ (h & Hin & E0)]|[_ E0]]]; [exact H | exfalso; exact (Hh h Hin E0) | exfalso; exact (Ho E0)].
  Qed.

  (** ** 6. from_polygon and mesh_polygon *)
  (** a panic of [from_polygon] is a panic of [get_closed_loop]: [close] and the ear-clipping loop never panic *)
  Theorem from_polygon_panic_origin (P : Poly K) (s : N) : from_polygon P = Panic s -> poly_get_closed_loop P = Panic s.
  Proof.
    unfold from_polygon. destruct (poly_get_closed_loop P) as [Lm| |s']; cbn [rbind]; try discriminate; [|intros H; inversion H; reflexivity].
    pose proof (close_no_panic Lm) as Hc. pose proof (close_ok_invariants Lm) as Hi.
    destruct (loop_close Lm) as [L r]. cbn [fst snd] in Hc, Hi. destruct r as [[]| |s']; cbn [rbind]; try discriminate.
    2:{ intros _. exfalso. exact (Hc s' eq_refl). }
    destruct (Hi eq_refl) as [_ H3]. destruct (Nat.ltb_spec (llen L) 2) as [C|C]; [lia|].
    intros H. exfalso. revert H. apply fp_loop_no_panic. split; [lia | intros C1; lia].
  Qed.
  Theorem from_polygon_panic_sites (P : Poly K) (s : N) : from_polygon P = Panic s ->
    s = 41%N \/ (s = 42%N /\ exists h, In h (pinner P) /\ llen h = 0) \/ (s = 21%N /\ llen (pouter P) = 0).
  Proof. intros H. apply closed_loop_panic. apply from_polygon_panic_origin. exact H. Qed.
  Theorem from_polygon_panic_41 (P : Poly K) (s : N) : llen (pouter P) <> 0 -> holes_nonempty P -> from_polygon P = Panic s -> s = 41%N.
  Proof. intros Ho Hh H. eapply closed_loop_panic_41; [exact Ho | exact Hh | apply from_polygon_panic_origin; exact H]. Qed.
  Theorem from_polygon_no_holes_no_panic (P : Poly K) : pinner P = [] -> forall s, from_polygon P <> Panic s.
  Proof. intros Hp s H. apply from_polygon_panic_origin in H. rewrite (no_holes_unchanged P Hp) in H. discriminate. Qed.
End FpSites.

(** ** 6b. the sites of [refine] on a well-formed mesh: the neighbour look-ups (67, 73) and the sweep cursors
    (85, 90) are unreachable.  [okb] lists the sites that remain. *)
Section WfSites.
  Context {K : Type} {NK : Num K}.
  Notation V := (V3 K).
  Notation TP := (TriPiece K).
  Notation Mesh := (Mesh K).
  Variable okb : N -> bool.
  Definition okl (xs : list N) (s : N) : bool := existsb (N.eqb s) xs || okb s.
  Lemma okl_mono (xs : list N) (s : N) : okb s = true -> okl xs s = true.
  Proof. intros H. unfold okl. rewrite H. apply orb_true_r. Qed.
  Lemma okl_elim (xs : list N) (s : N) : okl xs s = true -> ~ In s xs -> okb s = true.
  Proof.
    unfold okl. intros H Hn. apply orb_true_iff in H. destruct H as [H|H]; [|exact H].
    apply existsb_exists in H. destruct H as (x & Hx & E). apply N.eqb_eq in E. subst. contradiction.
  Qed.
  Ltac okl_side := first [reflexivity | apply okl_mono; assumption].

  Hypothesis H61 : okb 61%N = true.
  Hypothesis H62 : okb 62%N = true.
  Hypothesis H63 : okb 63%N = true.
  Hypothesis H64 : okb 64%N = true.
  Hypothesis H65 : okb 65%N = true.
  Hypothesis H66 : okb 66%N = true.
  Hypothesis H68 : okb 68%N = true.
  Hypothesis H69 : okb 69%N = true.
  Hypothesis H70 : okb 70%N = true.
  Hypothesis H71 : okb 71%N = true.
  Hypothesis H72 : okb 72%N = true.
  Hypothesis H74 : okb 74%N = true.
  Hypothesis H75 : okb 75%N = true.
  Hypothesis H76 : okb 76%N = true.
  Hypothesis H77 : okb 77%N = true.
  Hypothesis H78 : okb 78%N = true.
  Hypothesis H79 : okb 79%N = true.
  Hypothesis H80 : okb 80%N = true.
  Hypothesis H81 : okb 81%N = true.
  Hypothesis H82 : okb 82%N = true.
  Hypothesis H83 : okb 83%N = true.
  Hypothesis H84 : okb 84%N = true.
  Hypothesis H86 : okb 86%N = true.
  Hypothesis H87 : okb 87%N = true.
  Hypothesis H91 : okb 91%N = true.

  Lemma gfar_w (M : Mesh) (i : nat) (e : Edge) : WF M -> np_res okb (get_flipped_aspect_ratio M i e).
  Proof.
    intros W s H. apply (okl_elim [67%N]).
    - revert H. apply (np_gfar (okl [67%N])); okl_side.
    - intros [<-|[]]. exact (gfar_wf M i e W H).
  Qed.
  Lemma flip_wf_73 (i : nat) (e : Edge) (M M' : Mesh) : WF M -> flip_diagonal i e M <> (M', Panic 73%N).
  Proof.
    intros W H. unfold flip_diagonal in H.
    apply bind_get_inv in H. destruct H as [(t & Et & H) | (_ & H & _)]; [|discriminate].
    destruct (negb (tp_valid t)); [discriminate|].
    destruct (tp_neighbour t e) as [ni|] eqn:En; [|discriminate].
    destruct (W i t Et e ni En) as [Hlt _].
    apply bind_get_inv in H. destruct H as [(nb & Enb & H) | (_ & _ & Hnone)]; [|apply nth_error_None in Hnone; lia].
    revert H. match goal with |- ?f M = _ -> _ =>
      assert (G : NP (fun s => negb (N.eqb s 73)) f) by (repeat first [np_step_g | apply np_tri_new | apply np_tp_new]) end.
    intros H. specialize (G _ _ _ H). discriminate.
  Qed.
  Lemma flip_w (i : nat) (e : Edge) (M M' : Mesh) (s : N) : WF M -> flip_diagonal i e M = (M', Panic s) -> okb s = true.
  Proof.
    intros W H. apply (okl_elim [73%N]).
    - revert H. apply (np_flip (okl [73%N])); okl_side.
    - intros [<-|[]]. exact (flip_wf_73 _ _ _ _ W H).
  Qed.

  Lemma restore_w (m : K) (M M' : Mesh) (s : N) : WF M -> restore_delaunay m M = (M', Panic s) -> okb s = true.
  Proof.
    intros W H.
    refine (proj2 (proj2 (restore_all WF (fun M M' => length (tris M) <= length (tris M')) okb (fun _ => le_n _) (fun _ _ _ => Nat.le_trans _ _ _) gfar_w _ _ m M M' _ W H)) s eq_refl).
    - intros i e M0 M1 r W0 H1. destruct (wf_flip _ _ _ _ _ H1) as [Hlen W1]. split; [exact (W1 W0) | split; [exact Hlen|]]. intros s' ->. exact (flip_w _ _ _ _ _ W0 H1).
    - intros; lia.
  Qed.

  Lemma refine_pass_w (a m : K) : forall cnt i l any (M M' : Mesh) (s : N),
    WF M -> l = skipn i (tris M) -> cnt <= length l ->
    refine_pass a m cnt i l any M = (M', Panic s) -> okb s = true.
  Proof.
    induction cnt as [|cnt IH]; intros i l any M M' s W Hl Hc H; cbn [refine_pass] in H; [discriminate|].
    destruct l as [|t l']; [cbn [length] in Hc; lia|].
    destruct (skipn_cons _ _ _ _ (eq_sym Hl)) as [Hn Hl']. assert (Hi : i < length (tris M)) by (apply nth_error_Some; congruence). cbn [length] in Hc.
    destruct (negb (tp_valid t)); [inversion H; subst; exact H91|].
    destruct (nltb (tarea (tp_tri t)) c1em3); [eapply IH; try eassumption; lia|].
    (* the continuation after a mutation: the cursor is re-read from the (longer) mesh *)
    assert (Hcont : forall b (M1 M2 : Mesh) (s1 : N), WF M1 -> length (tris M) <= length (tris M1) ->
              refine_pass a m cnt (S i) (skipn (S i) (tris M1)) b M1 = (M2, Panic s1) -> okb s1 = true).
    { intros b M1 M2 s1 W1 Hlen H1. eapply IH; [exact W1 | reflexivity | | exact H1].
      rewrite skipn_length. subst l'. rewrite skipn_length in Hc. lia. }
    assert (Hrc : forall b (M1 M2 : Mesh) (s1 : N), WF M1 -> length (tris M) <= length (tris M1) ->
              (mbind (restore_delaunay m) (fun _ => fun M0 : Mesh => refine_pass a m cnt (S i) (skipn (S i) (tris M0)) b M0)) M1 = (M2, Panic s1) -> okb s1 = true).
    { intros b M1 M2 s1 W1 Hlen H1. apply mbind_inv in H1. destruct H1 as [(u & M3 & H3 & H4) | [(c & H3 & E) | (s' & H3 & E)]].
      - pose proof (wf_restore m _ _ _ H3) as [Hlen3 W3]. eapply Hcont; [exact (W3 W1) | | exact H4]. lia.
      - discriminate.
      - inversion E; subst s'. eapply restore_w; [exact W1 | exact H3]. }
    destruct (nltb m (tp_ar t)).
    { apply bind_lift_inv in H. destruct H as [([s_i sg] & Hle & H) | (_ & [(c & E) | (s' & E & Hs)])]; [|discriminate|].
      2:{ exfalso. revert Hs. unfold longest_edge. cbn [tri_segment rbind]. destruct (nltb _ _); destruct (nltb _ _); discriminate. }
      apply bind_lift_inv in H. destruct H as [(ed & _ & H) | (_ & [(c & E) | (s' & E & Hs)])]; [|discriminate|].
      2:{ inversion E; subst s'. revert Hs. apply np_edge_from_lt. eapply longest_edge_lt. exact Hle. }
      apply mbind_inv in H. destruct H as [(u & M1 & H1 & H) | [(c & H1 & E) | (s' & H1 & E)]].
      - pose proof (wf_split_edge _ _ _ _ _ _ H1) as [Hlen1 W1]. eapply Hrc; [exact (W1 W) | exact Hlen1 | exact H].
      - discriminate.
      - inversion E; subst s'. revert H1. apply np_split_edge; assumption. }
    destruct (nltb a (tarea (tp_tri t))); [|eapply IH; try eassumption; lia].
    destruct (add_point (tp_cc t) M) as [M1 [did| c | s']] eqn:Eadd.
    - pose proof (wf_add_point _ _ _ _ Eadd) as [Hlen1 W1]. destruct did.
      + eapply Hrc; [exact (W1 W) | exact Hlen1 | exact H].
      + eapply Hcont; [exact (W1 W) | exact Hlen1 | exact H].
    - pose proof (wf_add_point _ _ _ _ Eadd) as [Hlen1 W1].
      apply bind_get_inv in H. destruct H as [(t' & Et' & H) | (_ & _ & Hnone)]; [|apply nth_error_None in Hnone; lia].
      apply mbind_inv in H. destruct H as [(did & M2 & H2 & H) | [(c' & H2 & E) | (s'' & H2 & E)]].
      + pose proof (wf_aptt _ _ _ _ _ _ H2) as [Hlen2 W2]. destruct did.
        * eapply Hrc; [exact (W2 (W1 W)) | | exact H]. lia.
        * eapply Hcont; [exact (W2 (W1 W)) | | exact H]. lia.
      + discriminate.
      + inversion E; subst s''. revert H2. apply np_aptt; try assumption. discriminate.
    - inversion H; subst. revert Eadd. apply np_add_point; assumption.
  Qed.
  Theorem refine_w (a m : K) : forall fuel (M M' : Mesh) (s : N), WF M -> refine fuel a m M = (M', Panic s) -> okb s = true.
  Proof.
    induction fuel as [|f IH]; intros M M' s W H; cbn [refine] in H; [discriminate|].
    apply mbind_inv in H. destruct H as [(any & M1 & H1 & H) | [(c & H1 & E) | (s' & H1 & E)]].
    - pose proof (wf_refine_pass a m _ _ _ _ _ _ _ H1) as [_ W1]. destruct any; [|discriminate]. eapply IH; [exact (W1 W) | exact H].
    - discriminate.
    - inversion E; subst s'. eapply refine_pass_w; [exact W | reflexivity | | exact H1]. cbn [skipn]. lia.
  Qed.
End WfSites.

(** ** 6c. the concrete lists, and [mesh_polygon] *)
Definition in_sites (l : list N) (s : N) : bool := existsb (N.eqb s) l.
(** the sites [refine] can reach on a well-formed mesh: those of Properties/C09_mesh.v minus 67, 73, 85, 90 *)
Definition sites_refine_wf : list N :=
  [61; 62; 63; 64; 65; 66; 68; 69; 70; 71; 72; 74; 75; 76; 77; 78; 79; 80; 81; 82; 83; 84; 86; 87; 91]%N.

Section Top.
  Context {K : Type} {NK : Num K}.
  Notation V := (V3 K).
  Notation Mesh := (Mesh K).

  Theorem refine_wf_sites (fuel : nat) (a m : K) (M M' : Mesh) (s : N) :
    WF M -> refine fuel a m M = (M', Panic s) -> in_sites sites_refine_wf s = true.
  Proof. intros W H. revert W H. apply (refine_w (in_sites sites_refine_wf)); reflexivity. Qed.

  (** a panic of [mesh_polygon] is a panic of [from_polygon], or a panic of [refine] on the well-formed initial mesh *)
  Theorem mesh_polygon_panic_origin (fuel : nat) (P : Poly K) (a m : K) (s : N) : mesh_polygon fuel P a m = Panic s ->
    from_polygon P = Panic s \/ exists t t', from_polygon P = Ok t /\ WF t /\ CNT t /\ refine fuel a m t = (t', Panic s).
  Proof.
    unfold mesh_polygon. destruct (from_polygon P) as [t| |s'] eqn:Ef; cbn [rbind]; try discriminate.
    - destruct (refine fuel a m t) as [t' r] eqn:Er. destruct r as [o| |s']; cbn [rbind]; try discriminate.
      intros H; inversion H; subst. right. exists t, t'. destruct (from_polygon_invariants P t Ef) as [W C]. split; [reflexivity|]. split; [exact W|]. split; [exact C|]. exact Er.
    - intros H; inversion H; subst. left. reflexivity.
  Qed.
  Theorem mesh_polygon_panic_sites (fuel : nat) (P : Poly K) (a m : K) (s : N) : mesh_polygon fuel P a m = Panic s ->
    s = 41%N \/ (s = 42%N /\ exists h, In h (pinner P) /\ llen h = 0) \/ (s = 21%N /\ llen (pouter P) = 0) \/ in_sites sites_refine_wf s = true.
  Proof.
    intros H. apply mesh_polygon_panic_origin in H. destruct H as [H|(t & t' & _ & W & _ & H)].
    - apply from_polygon_panic_sites in H. destruct H as [H|[H|H]]; [left; exact H | right; left; exact H | right; right; left; exact H].
    - right; right; right. eapply refine_wf_sites; eassumption.
  Qed.
  Theorem mesh_polygon_panic_41 (fuel : nat) (P : Poly K) (a m : K) (s : N) : llen (pouter P) <> 0 -> holes_nonempty P -> mesh_polygon fuel P a m = Panic s ->
    s = 41%N \/ in_sites sites_refine_wf s = true.
  Proof.
    intros Ho Hh H. apply mesh_polygon_panic_sites in H.
    destruct H as [H|[[_ (h & Hin & E0)]|[[_ E0]|H]]]; [left; exact H | exfalso; exact (Hh h Hin E0) | exfalso; exact (Ho E0) | right; exact H].
  Qed.
  Theorem mesh_polygon_no_holes_sites (fuel : nat) (P : Poly K) (a m : K) (s : N) : pinner P = [] -> mesh_polygon fuel P a m = Panic s ->
    in_sites sites_refine_wf s = true.
  Proof.
    intros Hp H. apply mesh_polygon_panic_origin in H. destruct H as [H|(t & t' & _ & W & _ & H)].
    - exfalso. exact (from_polygon_no_holes_no_panic P Hp s H).
    - eapply refine_wf_sites; eassumption.
  Qed.

  (** ** 7. polygons built through the API have non-empty holes: a closed Loop3D is never empty *)
  Definition closed_nonempty (L : Loop K) : Prop := lclosed L = true -> llen L <> 0.
  Lemma step_closed_nonempty (L : Loop K) (op : lop K) : closed_nonempty L -> closed_nonempty (fst (loop_step L op)).
  Proof.
    intros HL. destruct op as [p|]; cbn [loop_step].
    - destruct (loop_push L p) as [L'| |] eqn:E; cbn [fst]; try exact HL. intros Hc. rewrite (push_open _ _ _ E) in Hc. discriminate.
    - destruct (loop_close_cases L) as [(_ & [->|(Ho & H)])|(_ & _ & _ & _ & H2 & ->)]; [exact HL| |].
      + intros Hc. exfalso. destruct H as [H|(_ & H)]; rewrite H in Hc; cbn [lclosed set_verts] in Hc; congruence.
      + intros _. unfold llen in *. rewrite (proj1 (close_finish_cases _)). cbn [verts set_verts]. lia.
  Qed.
  Theorem run_closed_nonempty (ops : list (lop K)) : forall L : Loop K, closed_nonempty L -> closed_nonempty (fst (loop_run L ops)).
  Proof.
    induction ops as [|op ops IH]; intros L HL; cbn [loop_run]; [exact HL|].
    pose proof (step_closed_nonempty L op HL) as H1. destruct (loop_step L op) as [L' o]. cbn [fst] in H1.
    specialize (IH L' H1). destruct (loop_run L' ops) as [L'' os]. exact IH.
  Qed.
  Lemma new_closed_nonempty : closed_nonempty (loop_new (K:=K)).
  Proof. intros H. discriminate. Qed.

  Lemma cut_hole_holes (P P' : Poly K) (h : Loop K) : poly_cut_hole P h = Ok P' -> pinner P' = pinner P ++ [h] /\ lclosed h = true.
  Proof.
    unfold poly_cut_hole. destruct (negb _); [discriminate|]. destruct (all_inside P (verts h)) as [ins| |]; cbn [rbind]; try discriminate.
    destruct (negb ins); [discriminate|]. destruct (encloses_any h (pinner P)) as [enc| |]; cbn [rbind]; try discriminate.
    destruct enc; [discriminate|]. unfold loop_area. destruct (lclosed h); cbn [rbind]; [|discriminate].
    intros H; inversion H; subst. split; reflexivity.
  Qed.
  Lemma step_holes_nonempty (P : Poly K) (h : Loop K) : holes_nonempty P -> closed_nonempty h -> holes_nonempty (fst (poly_step P h)).
  Proof.
    intros HP Hh. unfold poly_step. destruct (poly_cut_hole P h) as [P'| |] eqn:E; cbn [fst]; try exact HP.
    apply cut_hole_holes in E. destruct E as [E Hc]. intros h' Hin. rewrite E in Hin. apply in_app_or in Hin.
    destruct Hin as [Hin|[<-|[]]]; [exact (HP h' Hin) | exact (Hh Hc)].
  Qed.
  Theorem run_holes_nonempty (hs : list (Loop K)) : forall P : Poly K,
    holes_nonempty P -> (forall h, In h hs -> closed_nonempty h) -> holes_nonempty (fst (poly_run P hs)).
  Proof.
    induction hs as [|h hs IH]; intros P HP Hhs; cbn [poly_run]; [exact HP|].
    pose proof (step_holes_nonempty P h HP (Hhs h (or_introl eq_refl))) as H1. destruct (poly_step P h) as [P' o]. cbn [fst] in H1.
    specialize (IH P' H1 (fun h' Hin => Hhs h' (or_intror Hin))). destruct (poly_run P' hs) as [P'' os]. exact IH.
  Qed.
  Lemma new_holes_nonempty (outer : Loop K) (P : Poly K) : poly_new outer = Ok P -> holes_nonempty P.
  Proof.
    unfold poly_new. destruct (negb _); [discriminate|]. destruct (loop_area outer); cbn [rbind]; try discriminate.
    intros H; inversion H; subst. intros h [].
  Qed.
  (** Polygon3D::new of any loop, then any history of cut_hole calls (accepted or refused) whose candidate holes were
      each produced by a history of push / close calls on a fresh Loop3D: every hole is non-empty *)
  Theorem api_holes_nonempty (outer : Loop K) (P : Poly K) (hs : list (Loop K)) :
    poly_new outer = Ok P -> (forall h, In h hs -> exists ops, h = fst (loop_run loop_new ops)) ->
    holes_nonempty (fst (poly_run P hs)).
  Proof.
    intros Hn Hhs. apply run_holes_nonempty; [eapply new_holes_nonempty; exact Hn|].
    intros h Hin. destruct (Hhs h Hin) as [ops ->]. apply run_closed_nonempty. apply new_closed_nonempty.
  Qed.
  (** the outline is the loop given to Polygon3D::new (closed, hence non-empty when it comes from the Loop3D API); cut_hole keeps it *)
  Lemma cut_hole_outer (P P' : Poly K) (h : Loop K) : poly_cut_hole P h = Ok P' -> pouter P' = pouter P.
  Proof.
    unfold poly_cut_hole. destruct (negb _); [discriminate|]. destruct (all_inside P (verts h)) as [ins| |]; cbn [rbind]; try discriminate.
    destruct (negb ins); [discriminate|]. destruct (encloses_any h (pinner P)) as [enc| |]; cbn [rbind]; try discriminate.
    destruct enc; [discriminate|]. destruct (loop_area h); cbn [rbind]; try discriminate. intros H; inversion H; reflexivity.
  Qed.
  Lemma run_outer (hs : list (Loop K)) : forall P : Poly K, pouter (fst (poly_run P hs)) = pouter P.
  Proof.
    induction hs as [|h hs IH]; intros P; cbn [poly_run]; [reflexivity|].
    assert (H1 : pouter (fst (poly_step P h)) = pouter P).
    { unfold poly_step. destruct (poly_cut_hole P h) as [P'| |] eqn:E; cbn [fst]; try reflexivity. eapply cut_hole_outer; exact E. }
    destruct (poly_step P h) as [P' o]. cbn [fst] in H1. specialize (IH P'). destruct (poly_run P' hs) as [P'' os]. cbn [fst] in *. congruence.
  Qed.
  Lemma new_outer (outer : Loop K) (P : Poly K) : poly_new outer = Ok P -> pouter P = outer /\ lclosed outer = true.
  Proof.
    unfold poly_new. destruct (lclosed outer); cbn [negb]; [|discriminate]. destruct (loop_area outer); cbn [rbind]; try discriminate.
    intros H; inversion H; subst. split; reflexivity.
  Qed.
  Theorem api_outer_nonempty (ops0 : list (lop K)) (P : Poly K) (hs : list (Loop K)) :
    poly_new (fst (loop_run loop_new ops0)) = Ok P -> llen (pouter (fst (poly_run P hs))) <> 0.
  Proof.
    intros Hn. rewrite run_outer. apply new_outer in Hn. destruct Hn as [-> Hc].
    exact (run_closed_nonempty ops0 loop_new new_closed_nonempty Hc).
  Qed.
  Theorem api_from_polygon_panic_41 (ops0 : list (lop K)) (P : Poly K) (hs : list (Loop K)) (s : N) :
    poly_new (fst (loop_run loop_new ops0)) = Ok P -> (forall h, In h hs -> exists ops, h = fst (loop_run loop_new ops)) ->
    from_polygon (fst (poly_run P hs)) = Panic s -> s = 41%N.
  Proof. intros Hn Hhs. apply from_polygon_panic_41; [eapply api_outer_nonempty; exact Hn | eapply api_holes_nonempty; eassumption]. Qed.
  Theorem api_mesh_polygon_panic (ops0 : list (lop K)) (P : Poly K) (hs : list (Loop K)) (fuel : nat) (a m : K) (s : N) :
    poly_new (fst (loop_run loop_new ops0)) = Ok P -> (forall h, In h hs -> exists ops, h = fst (loop_run loop_new ops)) ->
    mesh_polygon fuel (fst (poly_run P hs)) a m = Panic s -> s = 41%N \/ in_sites sites_refine_wf s = true.
  Proof. intros Hn Hhs. apply mesh_polygon_panic_41; [eapply api_outer_nonempty; exact Hn | eapply api_holes_nonempty; eassumption]. Qed.
End Top.

(** ** 8. witnesses on the executed instance (binary64), evaluated by vm_compute *)
From Coq Require Import Floats.
From G3 Require Import Model.NumF Proofs.Mesh_witness.
Set Warnings "-inexact-float".

Lemma holes_nonempty_b {K : Type} {NK : Num K} (P : Poly K) :
  forallb (fun h => negb (Nat.eqb (llen h) 0)) (pinner P) = true -> holes_nonempty P.
Proof.
  intros H h Hin E. rewrite forallb_forall in H. specialize (H h Hin). rewrite E in H. discriminate.
Qed.

(** W41 -- site 41 IS reachable, from a VALID polygon built through the API (a genuine defect of the crate, reproduced
    through the harness: "called `Result::unwrap()` on an `Err` value: Trying to push a point that would make the Loop3D
    intersect with itself").  The outline is the square [-100,100]^2 with a thin notch whose tip is A = (0,0); the hole
    is the triangle B = (0,1.5), C = (-50,0.7), D = (50,0.7).  The nearest outline/hole VERTEX pair is (A, B), but the
    hole's own edge C-D passes between them: the bridge A-B crosses it, the rebuilt outline A, B, C, D is refused by
    Loop3D::push (self-intersection) and get_closed_loop unwraps the Err. *)
Definition w41_outer : list (V3 float) :=
  [p2 (-100) (-100); p2 (-1) (-100); p2 0 0; p2 1 (-100); p2 100 (-100); p2 100 100; p2 (-100) 100]%float.
Definition w41_hole : list (V3 float) := [p2 0 1.5; p2 (-50) 0.7; p2 50 0.7]%float.
Definition w41_poly : Poly float := get dummy_poly (build_poly w41_outer [w41_hole]).
Lemma w41_panics :
  build_poly w41_outer [w41_hole] = Ok w41_poly /\ holes_nonempty w41_poly /\ length (pinner w41_poly) = 1 /\
  from_polygon w41_poly = Panic 41%N /\ forall fuel a m, mesh_polygon fuel w41_poly a m = Panic 41%N.
Proof.
  assert (F : from_polygon w41_poly = Panic 41%N) by (vm_compute; reflexivity).
  split; [vm_compute; reflexivity|]. split; [apply holes_nonempty_b; vm_compute; reflexivity|].
  split; [vm_compute; reflexivity|]. split; [exact F|]. intros fuel a m. unfold mesh_polygon. rewrite F. reflexivity.
Qed.

(** W42 -- the side condition of [from_polygon_panic_41] is necessary: a polygon RECORD with an empty (closed) hole,
    which no sequence of API calls produces, makes get_closed_loop compute [% 0] *)
Definition w42_poly : Poly float :=
  mkPoly (pouter w4_poly) [mkLoop [] (mkV3 0 0 1) true 0 0]%float (parea w4_poly) (pnormal w4_poly).
Lemma w42_panics : from_polygon w42_poly = Panic 42%N.
Proof. vm_compute. reflexivity. Qed.

(** W21 -- so is "the outline is not empty" since fix bcb072e: a RECORD with an empty outline and two (non-empty) holes
    makes get_closed_loop index `ret_loop[min_ext_vertex_id]` out of bounds (the API cannot produce it either) *)
Definition w21_poly : Poly float :=
  mkPoly (mkLoop [] (mkV3 0 0 1) true 0 0)%float (pinner w5_poly ++ pinner w5_poly) 0%float (mkV3 0 0 1)%float.
Lemma w21_panics : from_polygon w21_poly = Panic 21%N /\ llen (pouter w21_poly) = 0 /\ holes_nonempty w21_poly /\ length (pinner w21_poly) = 2.
Proof. split; [vm_compute; reflexivity|]. split; [reflexivity|]. split; [apply holes_nonempty_b; vm_compute; reflexivity | vm_compute; reflexivity]. Qed.

(** non-vacuity: a hole-free polygon and a polygon with a (non-empty) hole on which from_polygon returns Ok *)
Lemma w_sites_nonvacuous :
  (pinner w4_poly = [] /\ exists M, from_polygon w4_poly = Ok M) /\
  (llen (pouter w5_poly) <> 0 /\ holes_nonempty w5_poly /\ length (pinner w5_poly) = 1 /\ exists M, from_polygon w5_poly = Ok M).
Proof.
  split.
  - split; [vm_compute; reflexivity|]. destruct w_square_ok as (M & H & _). exists M. exact H.
  - split; [vm_compute; discriminate|]. split; [apply holes_nonempty_b; vm_compute; reflexivity|]. destruct w5_from_polygon_ok as (M & H1 & _ & H3). split; [exact H3|]. exists M. exact H1.
Qed.
