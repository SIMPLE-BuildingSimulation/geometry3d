(** * C17_width: how far the computed bounds of [b*b] and [a*c*4.] can be from the exact products,
    hence a sufficient margin on the discriminant for the solver to return roots.
    Every format; underflow is covered by the absolute term [eta]. *)
From Coq Require Import ZArith Reals Bool Lra Lia Psatz.
From Flocq Require Import Core BinarySingleNaN.
From G3 Require Import Model.Num Model.Base Model.RoundError Model.Quadratic
  Theory.IntervalSpec Theory.QuadraticSpec Proofs.C07_interval Proofs.C17_quadratic.
Local Open Scope R_scope.

Section Width.
  Variable prec emax : Z.
  Context (Hprec : FLX.Prec_gt_0 prec) (Hmax : Prec_lt_emax prec emax).
  Notation bf := (binary_float prec emax).
  Notation emin := (3 - emax - prec)%Z.
  Notation fexp := (FLT_exp emin prec).
  Local Instance NBw : Num bf := NumB prec emax Hprec Hmax.
  Implicit Types I J A B C : AF bf.
  Implicit Types v w p f : bf.
  Implicit Types t x y c : R.

  (** one rounding, or one step to the neighbouring float, moves a value by at most [u |t| + eta] *)
  Notation uu := (rel_u prec emax).
  Notation eta := (abs_eta prec emax).
  Notation upf := (QuadraticSpec.upf prec emax).
  Notation dnf := (QuadraticSpec.dnf prec emax).

  Lemma uu_pos : 0 < uu. Proof. apply bpow_gt_0. Qed.
  Lemma uu_le_1 : uu <= 1.
  Proof.
    unfold rel_u. replace 1 with (bpow radix2 0) by reflexivity. apply bpow_le.
    pose proof Hprec as P. unfold FLX.Prec_gt_0 in P. lia.
  Qed.
  Lemma eta_pos : 0 < eta. Proof. apply bpow_gt_0. Qed.

  (** [dnf] mirrors [upf]; the facts about [dnf] below are those about [upf] read through this *)
  Lemma dnf_opp : forall t, dnf t = - upf (- t).
  Proof. intros t. unfold QuadraticSpec.dnf, QuadraticSpec.upf. rewrite Rabs_Ropp. ring. Qed.

  Lemma upf_mono : forall t t', t <= t' -> upf t <= upf t'.
  Proof.
    intros t t' H. unfold QuadraticSpec.upf. pose proof uu_pos. pose proof uu_le_1.
    unfold Rabs. destruct (Rcase_abs t); destruct (Rcase_abs t'); nra.
  Qed.
  Lemma upf_ge : forall t, t <= upf t.
  Proof. intros t. unfold QuadraticSpec.upf. pose proof uu_pos. pose proof eta_pos. pose proof (Rabs_pos t). nra. Qed.
  Lemma dnf_le : forall t, dnf t <= t.
  Proof. intros t. rewrite dnf_opp. pose proof (upf_ge (- t)). lra. Qed.

  Lemma ulp_bound : forall x, ulp radix2 fexp x <= uu * Rabs x + eta.
  Proof.
    intros x. pose proof uu_pos. pose proof eta_pos. pose proof (Rabs_pos x).
    destruct (Rle_lt_dec (bpow radix2 (emin + prec - 1)) (Rabs x)) as [N|S].
    - pose proof (ulp_FLT_le radix2 emin prec x N). unfold rel_u. nra.
    - rewrite (ulp_FLT_small radix2 emin prec x).
      + change (bpow radix2 emin) with eta. nra.
      + apply Rlt_trans with (1 := S). apply bpow_lt. lia.
  Qed.

  Lemma succ_upf : forall x, succ radix2 fexp x <= upf x.
  Proof.
    intros x. apply Rle_trans with (x + ulp radix2 fexp x).
    - apply succ_le_plus_ulp. apply FLT_exp_monotone.
    - pose proof (ulp_bound x). unfold QuadraticSpec.upf. lra.
  Qed.
  Lemma RN_upf : forall c, RN prec emax c <= upf c.
  Proof.
    intros c. pose proof (error_le_ulp radix2 fexp ZnearestE c) as E. pose proof (ulp_bound c).
    unfold RN. unfold QuadraticSpec.upf. apply Rabs_le_inv in E. lra.
  Qed.

  Lemma Bsucc_val : forall v, is_finite v = true -> is_finite (Bsucc v) = true ->
    B2R (Bsucc v) = succ radix2 fexp (B2R v).
  Proof.
    intros v Fv Fs. destruct (Bsucc_cases prec emax Hprec Hmax v Fv) as [[E _]|[_ H]]; [|exact H].
    rewrite E in Fs. discriminate.
  Qed.
  Lemma Bsucc_fin_inv : forall v, is_finite (Bsucc v) = true -> is_finite v = true \/ v = B754_infinity true.
  Proof. intros [s|[|]| |s m e H] F; simpl in *; try discriminate; auto. Qed.
  Lemma Bsucc_not_minf : forall v, Bsucc v <> B754_infinity true.
  Proof.
    intros v E. destruct (is_finite v) eqn:F.
    - destruct (Bsucc_cases prec emax Hprec Hmax v F) as [[E' _]|[Ff _]]; rewrite E in *; discriminate.
    - destruct v as [s|[|]| |s m e H]; discriminate.
  Qed.
  Lemma bmax_cases : forall v w, bmax prec emax v w = v \/ bmax prec emax v w = w.
  Proof. intros v w. unfold bmax. destruct (Bltb v w); auto. Qed.
  Lemma max4_cases : forall a0 a1 a2 a3 : bf, let m := bmax prec emax (bmax prec emax (bmax prec emax a0 a1) a2) a3 in
    m = a0 \/ m = a1 \/ m = a2 \/ m = a3.
  Proof.
    intros a0 a1 a2 a3 m. subst m. destruct (bmax_cases (bmax prec emax (bmax prec emax a0 a1) a2) a3) as [->| ->]; [|auto].
    destruct (bmax_cases (bmax prec emax a0 a1) a2) as [->| ->]; [|auto]. destruct (bmax_cases a0 a1) as [->| ->]; auto.
  Qed.
  Lemma le_lb_inf : forall v, is_nan v = false -> le_lb prec emax v (B754_infinity true) -> v = B754_infinity true.
  Proof.
    intros v N H. destruct v as [s|[|]| |s m e Hb]; try discriminate; try reflexivity; exfalso.
    - pose proof (H (-1) I) as U. simpl in U. lra.
    - exact (H 0 I).
    - pose proof (H (B2R (B754_finite s m e Hb) - 1) I) as U. simpl in U. lra.
  Qed.

  Lemma Bsucc_upf : forall v, is_finite v = true -> is_finite (Bsucc v) = true -> B2R (Bsucc v) <= upf (B2R v).
  Proof. intros v Fv Fs. rewrite (Bsucc_val _ Fv Fs). apply succ_upf. Qed.
  Lemma rnd_succ_upf : forall p c, is_rnd prec emax p c -> p <> B754_infinity true -> is_finite (Bsucc p) = true ->
    B2R (Bsucc p) <= upf (upf c).
  Proof.
    intros p c Rp NI Fs. destruct (Bsucc_fin_inv _ Fs) as [F0|E0]; [|exfalso; exact (NI E0)].
    destruct Rp as (_ & _ & [[_ V]|[s [E _]]]); [|rewrite E in F0; discriminate].
    apply Rle_trans with (1 := Bsucc_upf _ F0 Fs). rewrite V. apply upf_mono, RN_upf.
  Qed.
  Section Corners.
    Variables p0 p1 p2 p3 : bf.
    Variables c0 c1 c2 c3 : R.
    Hypothesis R0 : is_rnd prec emax p0 c0.
    Hypothesis R1 : is_rnd prec emax p1 c1.
    Hypothesis R2 : is_rnd prec emax p2 c2.
    Hypothesis R3 : is_rnd prec emax p3 c3.

    Let hi := Bsucc (bmax prec emax (bmax prec emax (bmax prec emax (Bsucc p0) (Bsucc p1)) (Bsucc p2)) (Bsucc p3)).
    Let lo := Bpred (bmin prec emax (bmin prec emax (bmin prec emax (Bpred p0) (Bpred p1)) (Bpred p2)) (Bpred p3)).

    Lemma corners_hi_le : forall Mx, is_finite hi = true -> is_finite lo = true ->
      c0 <= Mx -> c1 <= Mx -> c2 <= Mx -> c3 <= Mx -> B2R hi <= upf (upf (upf Mx)).
    Proof.
      intros Mx Fh Fl H0 H1 H2 H3.
      pose proof (rnd_lb0 prec emax Hprec Hmax _ _ R0) as L0. pose proof (rnd_lb0 prec emax Hprec Hmax _ _ R1) as L1.
      pose proof (rnd_lb0 prec emax Hprec Hmax _ _ R2) as L2. pose proof (rnd_lb0 prec emax Hprec Hmax _ _ R3) as L3.
      destruct (min4_spec prec emax _ _ _ _ (lb_not_nan _ _ _ _ L0) (lb_not_nan _ _ _ _ L1) (lb_not_nan _ _ _ _ L2) (lb_not_nan _ _ _ _ L3)) as (Nm & M0 & M1 & M2 & M3).
      (* the selected corner, stepped up twice; it is not -inf, otherwise lo = -inf *)
      assert (K : forall p c, is_rnd prec emax p c -> c <= Mx ->
                    le_lb prec emax (bmin prec emax (bmin prec emax (bmin prec emax (Bpred p0) (Bpred p1)) (Bpred p2)) (Bpred p3)) (Bpred p) ->
                    is_finite (Bsucc (Bsucc p)) = true -> B2R (Bsucc (Bsucc p)) <= upf (upf (upf Mx))).
      { intros p c Rp Hc Hle F2.
        destruct (Bsucc_fin_inv _ F2) as [F1|E1]; [|exfalso; exact (Bsucc_not_minf _ E1)].
        apply Rle_trans with (1 := Bsucc_upf _ F1 F2). apply upf_mono.
        apply Rle_trans with (upf (upf c)); [|apply upf_mono, upf_mono, Hc].
        apply rnd_succ_upf with (1 := Rp); [|exact F1].
        intros E. subst p. unfold lo in Fl. rewrite (le_lb_inf _ Nm Hle) in Fl. discriminate. }
      unfold hi in *.
      destruct (max4_cases (Bsucc p0) (Bsucc p1) (Bsucc p2) (Bsucc p3)) as [E|[E|[E|E]]]; rewrite E in *;
        [exact (K _ _ R0 H0 M0 Fh)|exact (K _ _ R1 H1 M1 Fh)|exact (K _ _ R2 H2 M2 Fh)|exact (K _ _ R3 H3 M3 Fh)].
    Qed.

  End Corners.

  Lemma lo_hi_opp : forall q0 q1 q2 q3 : bf,
    Bpred (bmin prec emax (bmin prec emax (bmin prec emax (Bpred q0) (Bpred q1)) (Bpred q2)) (Bpred q3)) =
    Bopp (Bsucc (bmax prec emax (bmax prec emax (bmax prec emax (Bsucc (Bopp q0)) (Bsucc (Bopp q1))) (Bsucc (Bopp q2))) (Bsucc (Bopp q3)))).
  Proof. intros q0 q1 q2 q3. unfold Bpred. rewrite !Bopp_bmin, !Bopp_involutive. reflexivity. Qed.

  Lemma corners_lo_ge : forall p0 p1 p2 p3 c0 c1 c2 c3,
    is_rnd prec emax p0 c0 -> is_rnd prec emax p1 c1 -> is_rnd prec emax p2 c2 -> is_rnd prec emax p3 c3 ->
    forall mn,
    is_finite (Bsucc (bmax prec emax (bmax prec emax (bmax prec emax (Bsucc p0) (Bsucc p1)) (Bsucc p2)) (Bsucc p3))) = true ->
    is_finite (Bpred (bmin prec emax (bmin prec emax (bmin prec emax (Bpred p0) (Bpred p1)) (Bpred p2)) (Bpred p3))) = true ->
    mn <= c0 -> mn <= c1 -> mn <= c2 -> mn <= c3 ->
    dnf (dnf (dnf mn)) <= B2R (Bpred (bmin prec emax (bmin prec emax (bmin prec emax (Bpred p0) (Bpred p1)) (Bpred p2)) (Bpred p3))).
  Proof.
    intros p0 p1 p2 p3 c0 c1 c2 c3 R0 R1 R2 R3 mn Fh Fl H0 H1 H2 H3.
    pose proof (corners_hi_le _ _ _ _ _ _ _ _ (is_rnd_opp _ _ _ _ R0) (is_rnd_opp _ _ _ _ R1)
                  (is_rnd_opp _ _ _ _ R2) (is_rnd_opp _ _ _ _ R3) (- mn)) as K.
    rewrite lo_hi_opp in Fl |- *. rewrite lo_hi_opp, !Bopp_involutive in K.
    rewrite is_finite_Bopp in Fl, K. rewrite B2R_Bopp, !dnf_opp, !Ropp_involutive.
    apply Ropp_le_contravar, K; try assumption; lra.
  Qed.

  Lemma wf_bounds : forall I, wf I -> contains I (B2R (low I)) /\ contains I (B2R (high I)).
  Proof.
    intros I (Fl & Fh & L). split; split.
    - apply lb_finite. exact Fl. lra.
    - apply ub_finite. exact Fh. exact L.
    - apply lb_finite. exact Fl. exact L.
    - apply ub_finite. exact Fh. lra.
  Qed.

  Lemma af_mul_bounds : forall I J, wf I -> wf J -> wf (af_mul I J) ->
    (forall mn, (forall x y, contains I x -> contains J y -> mn <= x * y) ->
       dnf (dnf (dnf mn)) <= B2R (low (af_mul I J))) /\
    (forall Mx, (forall x y, contains I x -> contains J y -> x * y <= Mx) ->
       B2R (high (af_mul I J)) <= upf (upf (upf Mx))).
  Proof.
    intros I J WI WJ (Fl & Fh & _).
    destruct (wf_bounds I WI) as [CIl CIh]. destruct (wf_bounds J WJ) as [CJl CJh].
    destruct WI as (FIl & FIh & _). destruct WJ as (FJl & FJh & _).
    pose proof (is_rnd_mult prec emax Hprec Hmax _ _ FIl FJl) as R0.
    pose proof (is_rnd_mult prec emax Hprec Hmax _ _ FIh FJl) as R1.
    pose proof (is_rnd_mult prec emax Hprec Hmax _ _ FIl FJh) as R2.
    pose proof (is_rnd_mult prec emax Hprec Hmax _ _ FIh FJh) as R3.
    revert Fl Fh. unfold af_mul. rewrite !(max_min4_eq prec emax Hprec Hmax). cbn [low high]. intros Fl Fh.
    split.
    - intros mn Hc. apply (corners_lo_ge _ _ _ _ _ _ _ _ R0 R1 R2 R3 mn Fh Fl).
      apply (Hc _ _ CIl CJl). apply (Hc _ _ CIh CJl). apply (Hc _ _ CIl CJh). apply (Hc _ _ CIh CJh).
    - intros Mx Hc. apply (corners_hi_le _ _ _ _ _ _ _ _ R0 R1 R2 R3 Mx Fh Fl).
      apply (Hc _ _ CIl CJl). apply (Hc _ _ CIh CJl). apply (Hc _ _ CIl CJh). apply (Hc _ _ CIh CJh).
  Qed.

  Lemma af_mul_f_high_le : forall I f Mx, wf I -> is_finite f = true -> wf (af_mul_f I f) ->
    (forall x, contains I x -> x * B2R f <= Mx) ->
    B2R (high (af_mul_f I f)) <= upf (upf Mx).
  Proof.
    intros I f Mx WI Ff (Fl & Fh & _) Hc.
    destruct (wf_bounds I WI) as [CIl CIh]. destruct WI as (FIl & FIh & _).
    pose proof (is_rnd_mult prec emax Hprec Hmax _ _ FIl Ff) as Rl.
    pose proof (is_rnd_mult prec emax Hprec Hmax _ _ FIh Ff) as Rh.
    pose proof (is_rnd_not_nan _ _ _ _ Rl) as Nl. pose proof (is_rnd_not_nan _ _ _ _ Rh) as Nh.
    revert Fl Fh. rewrite (af_mul_f_eq prec emax Hprec Hmax). cbn [low high]. intros Fl Fh.
    destruct (bmin_spec prec emax _ _ Nl Nh) as (Nm & Ml & Mh).
    (* the selected product, stepped up; it is not -inf, otherwise the lower bound is -inf *)
    assert (K : forall p c, is_rnd prec emax p c -> c <= Mx ->
                le_lb prec emax (bmin prec emax (Bmult mode_NE (low I) f) (Bmult mode_NE (high I) f)) p ->
                is_finite (Bsucc p) = true -> B2R (Bsucc p) <= upf (upf Mx)).
    { intros p c Rp Hle Hm Fs. apply Rle_trans with (upf (upf c)); [|apply upf_mono, upf_mono, Hle].
      apply rnd_succ_upf with (1 := Rp); [|exact Fs].
      intros E. subst p. rewrite (le_lb_inf _ Nm Hm) in Fl. discriminate. }
    destruct (bmax_cases (Bmult mode_NE (high I) f) (Bmult mode_NE (low I) f)) as [E|E]; rewrite E in *;
      [exact (K _ _ Rh (Hc _ CIh) Mh Fh)|exact (K _ _ Rl (Hc _ CIl) Ml Fh)].
  Qed.

  (** *** acceptance under a margin: the solver returns roots as soon as the smallest exact [b*b']
      (b, b' in B) exceeds four times the largest exact [a*c] by the accumulated rounding slack:
      three roundings/steps below for [b*b], three above for [a*c], two more for [* 4.] *)
  Lemma steps_some_when_margin : forall A B C (s : QSteps bf) (Mx mn : R), steps_of prec emax Hprec Hmax A B C s ->
    wf A -> wf B -> wf C -> disc_ok_of prec emax s ->
    (forall a c, contains A a -> contains C c -> a * c <= Mx) ->
    (forall b b', contains B b -> contains B b' -> mn <= b * b') ->
    upf (upf (upf (upf (upf Mx)) * 4)) < dnf (dnf (dnf mn)) ->
    exists XX : AF bf * AF bf, quad_result s = Some XX.
  Proof.
    intros A B C s Mx mn E WA WB WC DO Hac Hbb Hm.
    apply (steps_some_iff prec emax Hprec Hmax A B C s E DO).
    destruct (const_four prec emax Hprec Hmax (steps_fmt prec emax Hprec Hmax A B C s E DO)) as [F4 V4].
    destruct DO as (Wbb & Wac & Wac4). destruct E as [Ebb Eac Eac4 _ _ _ _ _ _ _].
    rewrite Eac4 in Wac4 |- *. rewrite Eac in Wac, Wac4 |- *. rewrite Ebb in Wbb |- *.
    assert (Lbb : dnf (dnf (dnf mn)) <= B2R (low (af_mul B B))) by (apply af_mul_bounds; assumption).
    assert (Uac : B2R (high (af_mul A C)) <= upf (upf (upf Mx))) by (apply af_mul_bounds; assumption).
    assert (Uac4 : B2R (high (af_mul_f (af_mul A C) (nofZ 4))) <= upf (upf (upf (upf (upf Mx)) * 4))).
    { apply af_mul_f_high_le; try assumption.
      intros x Cx. replace (B2R (nofZ 4 : bf)) with 4 by (symmetry; exact V4). destruct (wf_contains _ _ _ _ Wac Cx) as (_ & _ & Hx).
      apply Rmult_le_compat_r; [lra|]. apply Rle_trans with (1 := proj2 Hx). exact Uac. }
    apply Rle_lt_trans with (1 := Uac4). apply Rlt_le_trans with (1 := Hm). exact Lbb.
  Qed.

  Theorem some_when_margin_af : forall A B C (Mx mn : R),
    wf A -> wf B -> wf C -> disc_ok prec emax Hprec Hmax A B C ->
    (forall a c, contains A a -> contains C c -> a * c <= Mx) ->
    (forall b b', contains B b -> contains B b' -> mn <= b * b') ->
    upf (upf (upf (upf (upf Mx)) * 4)) < dnf (dnf (dnf mn)) ->
    exists XX : AF bf * AF bf, af_solve_quadratic A B C = Some XX.
  Proof.
    intros A B C Mx mn WA WB WC DO. rewrite solve_steps_eq.
    exact (steps_some_when_margin A B C _ Mx mn (quad_steps_of prec emax Hprec Hmax A B C) WA WB WC DO).
  Qed.

  (** Slack is tracked as one number [d]: a value within [d] above [M], and within [d] of [M] in absolute
      value, stays so after a step with [d] grown to [slack |M| d]. *)
  Definition slack (a d : R) : R := (1 + uu) * d + uu * a + eta.

  Lemma upf_step : forall M d t, t <= M + d -> Rabs t <= Rabs M + d ->
    upf t <= M + slack (Rabs M) d /\ Rabs (upf t) <= Rabs M + slack (Rabs M) d.
  Proof.
    intros M d t HV HB. pose proof eta_pos as Ep.
    pose proof (Rmult_le_compat_l uu _ _ (Rlt_le _ _ uu_pos) HB) as Hu.
    pose proof (Rmult_le_pos uu _ (Rlt_le _ _ uu_pos) (Rabs_pos t)) as Hp.
    unfold slack, QuadraticSpec.upf. split; [lra|].
    apply Rle_trans with (1 := Rabs_triang _ _). apply Rle_trans with (1 := Rplus_le_compat_r _ _ _ (Rabs_triang _ _)).
    rewrite (Rabs_pos_eq _ Hp), (Rabs_pos_eq eta) by lra. lra.
  Qed.
  Lemma dnf_step : forall M d t, M - d <= t -> Rabs t <= Rabs M + d ->
    M - slack (Rabs M) d <= dnf t /\ Rabs (dnf t) <= Rabs M + slack (Rabs M) d.
  Proof.
    intros M d t HV HB. rewrite dnf_opp, Rabs_Ropp.
    destruct (upf_step (- M) d (- t)) as [V B]; rewrite ?Rabs_Ropp; try lra.
    rewrite Rabs_Ropp in V, B. split; lra.
  Qed.
  Lemma scale4_step : forall M d t, t <= M + d -> Rabs t <= Rabs M + d ->
    t * 4 <= M * 4 + d * 4 /\ Rabs (t * 4) <= Rabs (M * 4) + d * 4.
  Proof. intros M d t HV HB. rewrite !Rabs_mult, (Rabs_pos_eq 4) by lra. lra. Qed.

  (** with w = 1 + u: the slack of the [a*c*4.] chain is 4a (w^5 - 1) + eta (4 w^2 (w^2+w+1) + w + 1),
      that of the [b*b] chain b (w^3 - 1) + eta (w^2+w+1) *)
  Lemma slack_total : uu <= / 8 -> forall a b, 0 <= a -> 0 <= b ->
    slack (a * 4) (slack (a * 4) (slack a (slack a (slack a 0)) * 4)) + slack b (slack b (slack b 0))
    <= 7 * uu * (b + 4 * a) + 24 * eta.
  Proof.
    intros Hu a b Ha Hb. unfold slack. pose proof uu_pos as Up. pose proof (Rlt_le _ _ eta_pos) as Hh.
    set (u := uu) in *. set (h := eta) in *.
    assert (P5 : (1 + u) * (1 + u) * (1 + u) * (1 + u) * (1 + u) - 1 <= 7 * u) by nra.
    assert (P3 : (1 + u) * (1 + u) * (1 + u) - 1 <= 7 * u) by nra.
    assert (Q : 4 * (1 + (1 + u) + (1 + u) * (1 + u)) * ((1 + u) * (1 + u)) + (1 + (1 + u)) + (1 + (1 + u) + (1 + u) * (1 + u)) <= 24) by nra.
    pose proof (Rmult_le_compat_l _ _ _ Ha P5). pose proof (Rmult_le_compat_l _ _ _ Hb P3).
    pose proof (Rmult_le_compat_l _ _ _ Hh Q). lra.
  Qed.

  Lemma margin_closed_form : uu <= / 8 -> forall Mx mn : R,
    7 * uu * (Rabs mn + 4 * Rabs Mx) + 24 * eta < mn - 4 * Mx ->
    upf (upf (upf (upf (upf Mx)) * 4)) < dnf (dnf (dnf mn)).
  Proof.
    intros Hu Mx mn Hm.
    destruct (upf_step Mx 0 Mx) as [V1 B1]; [lra..|].
    destruct (upf_step _ _ _ V1 B1) as [V2 B2]. destruct (upf_step _ _ _ V2 B2) as [V3 B3].
    destruct (scale4_step _ _ _ V3 B3) as [V4 B4].
    destruct (upf_step _ _ _ V4 B4) as [V5 B5]. destruct (upf_step _ _ _ V5 B5) as [V6 _].
    destruct (dnf_step mn 0 mn) as [W1 C1]; [lra..|].
    destruct (dnf_step _ _ _ W1 C1) as [W2 C2]. destruct (dnf_step _ _ _ W2 C2) as [W3 _].
    apply Rle_lt_trans with (1 := V6). apply Rlt_le_trans with (2 := W3).
    pose proof (slack_total Hu _ _ (Rabs_pos Mx) (Rabs_pos mn)) as S.
    rewrite Rabs_mult, (Rabs_pos_eq 4) by lra. lra.
  Qed.

  (** acceptance, closed form: with [m] a lower bound of every product of two members of B (for a B
      that excludes zero: the smaller squared bound) and [M] an upper bound of every a*c, the solver
      returns roots whenever  m - 4 M > 7 u (|m| + 4 |M|) + 24 eta,
      u = 2^(1-prec) (2.2e-16 in binary64), eta = 2^emin (4.9e-324). *)
  Theorem some_when_relative_margin_af : (4 <= prec)%Z -> forall A B C (Mx mn : R),
    wf A -> wf B -> wf C -> disc_ok prec emax Hprec Hmax A B C ->
    (forall a c, contains A a -> contains C c -> a * c <= Mx) ->
    (forall b b', contains B b -> contains B b' -> mn <= b * b') ->
    7 * uu * (Rabs mn + 4 * Rabs Mx) + 24 * eta < mn - 4 * Mx ->
    exists XX : AF bf * AF bf, af_solve_quadratic A B C = Some XX.
  Proof.
    intros H4 A B C Mx mn WA WB WC DO Hac Hbb Hm.
    apply (some_when_margin_af A B C Mx mn); try assumption.
    apply margin_closed_form; [|exact Hm].
    unfold rel_u. replace (/ 8) with (bpow radix2 (-3)) by (simpl; lra). apply bpow_le. lia.
  Qed.
End Width.
