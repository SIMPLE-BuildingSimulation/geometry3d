(** * Mesh_cache (C18): the values cached in a slot (aspect ratio, circumcentre, centroid) are the ones
    Triangle3D computes from the slot's own triangle.  [CC] holds of the empty mesh and is preserved by every
    operation whatever its outcome, hence it holds of every mesh [from_polygon] / [refine] return.
    Every number instance. *)
From Coq Require Import ZArith Bool List Arith Lia.
From G3 Require Import Model.Num Model.Base Model.Vec Model.Segment Model.Triangle Model.Loop Model.Polygon Model.Triangulation
  Proofs.Mesh_base.
Import ListNotations.

Section Cache.
  Context {K : Type} {NK : Num K}.
  Notation V := (V3 K).
  Notation TP := (TriPiece K).
  Notation Mesh := (Mesh K).

  Definition coherent (t : TP) : Prop :=
    tp_ar t = tri_aspect_ratio (tp_tri t) /\ tp_cc t = tri_circumcenter (tp_tri t) /\ tp_cen t = tri_centroid (tp_tri t).
  Definition CC (M : Mesh) : Prop := Forall coherent (tris M).
  Definition Rcc (M M' : Mesh) : Prop := CC M -> CC M'.
  Lemma Rcc_refl M : Rcc M M. Proof. intros H; exact H. Qed.
  Lemma Rcc_trans M1 M2 M3 : Rcc M1 M2 -> Rcc M2 M3 -> Rcc M1 M3. Proof. unfold Rcc; tauto. Qed.
  Notation PCC := (Pres Rcc).

  Lemma Forall_upd (P : TP -> Prop) (i : nat) (f : TP -> TP) (l : list TP) : (forall t, P t -> P (f t)) -> Forall P l -> Forall P (upd i f l).
  Proof. intros Hf. revert i; induction l as [|t l IH]; intros [|i] H; cbn [upd]; try assumption; inversion H; subst; constructor; auto. Qed.
  Lemma Forall_set_nth (P : TP -> Prop) (i : nat) (x : TP) (l : list TP) : P x -> Forall P l -> Forall P (set_nth i x l).
  Proof. intros Hx. revert i; induction l as [|t l IH]; intros [|i] H; cbn [set_nth]; try assumption; inversion H; subst; constructor; auto. Qed.
  Lemma coh_set_neighbour e i t : coherent t -> coherent (tp_set_neighbour e i t). Proof. destruct e; exact (fun H => H). Qed.
  Lemma coh_constrain e t : coherent t -> coherent (tp_constrain e t). Proof. destruct e; exact (fun H => H). Qed.
  Lemma coh_invalidate t : coherent t -> coherent (tp_invalidate t). Proof. exact (fun H => H). Qed.
  Lemma tp_new_coherent (a b c : V) (n : nat) (t : TP) : tp_new a b c n = Ok t -> coherent t.
  Proof. unfold tp_new. destruct (tri_new a b c); cbn [rbind]; try discriminate. intros H; inversion H; subst. repeat split. Qed.

  Lemma cc_mupd s i (f : TP -> TP) : (forall t, coherent t -> coherent (f t)) -> PCC (mupd s i f).
  Proof. intros Hf M M' r H C. unfold mupd in H. destruct (Nat.ltb _ _); inversion H; subst; [|exact C]. unfold CC; cbn [tris]. apply Forall_upd; assumption. Qed.
  Lemma cc_invalidate i : PCC (mesh_invalidate (K:=K) i).
  Proof.
    intros M M' r H C. destruct (invalidate_inv _ _ _ _ H) as [(_ & -> & _) | (_ & E & _)]; [exact C|].
    unfold CC. rewrite E. apply Forall_upd; [apply coh_invalidate | exact C].
  Qed.
  Lemma cc_push (a b c : V) (la : nat) : PCC (mesh_push a b c la).
  Proof.
    intros M M' r H C. destruct (push_inv _ _ _ _ _ _ _ H) as (n & [[-> _] | (t & Et & _ & _ & Hs)]); [exact C|].
    apply tp_new_coherent in Et. unfold CC. destruct Hs as [(_ & _ & _ & ->) | (_ & ->)].
    - apply Forall_set_nth; assumption.
    - apply Forall_app. split; [exact C | constructor; [exact Et | constructor]].
  Qed.
  Lemma cc_stable : Stable Rcc.
  Proof.
    constructor; [exact Rcc_refl | exact Rcc_trans | | intros s i e; apply cc_mupd; intros t; apply coh_constrain | exact cc_invalidate | exact cc_push].
    apply (pres_mark_upd Rcc Rcc_refl Rcc_trans). intros s i e j. apply cc_mupd. intros t. apply coh_set_neighbour.
  Qed.
  Theorem from_polygon_coherent (P : Poly K) (M : Mesh) : from_polygon P = Ok M -> CC M.
  Proof.
    intros H. destruct (from_polygon_reach CC (fun a b c la M1 M2 n Hp => cc_push _ _ _ _ _ _ _ Hp)
      (fun s i e M1 M2 r Hc => st_constrain Rcc cc_stable _ _ _ _ _ _ Hc) P M (Forall_nil coherent) H) as (t & Ct & Hm).
    exact (pres_neighbourhouds Rcc Rcc_refl Rcc_trans (st_mark Rcc cc_stable) _ _ _ Hm Ct).
  Qed.
  Theorem mesh_polygon_coherent (fuel : nat) (P : Poly K) (a m : K) (M : Mesh) (o : rres) : mesh_polygon fuel P a m = Ok (M, o) -> CC M.
  Proof.
    unfold mesh_polygon. destruct (from_polygon P) as [t| |] eqn:E; cbn [rbind]; try discriminate.
    destruct (refine fuel a m t) as [t' r] eqn:Er. destruct r; cbn [rbind]; try discriminate. intros H; inversion H; subst.
    eapply (pres_refine Rcc cc_stable); [exact Er | eapply from_polygon_coherent; exact E].
  Qed.
End Cache.
