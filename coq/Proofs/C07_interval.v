(** * C07_interval: proofs that the interval operators of Model/RoundError.v enclose the exact
    result, over every Flocq binary format.  Statements are in Properties/C07.v. *)
From Coq Require Import ZArith Reals Bool Lra Lia Psatz.
From Coq Require Export Floats.SpecFloat.
From Flocq Require Import Core BinarySingleNaN.
From G3 Require Import Model.Num Model.Base Model.RoundError Model.Pinned Theory.IntervalSpec.
Local Open Scope R_scope.

Lemma mul_corners : forall a b c d x y : R,
  a <= x <= b -> c <= y <= d ->
  (a * c <= x * y \/ b * c <= x * y \/ a * d <= x * y \/ b * d <= x * y) /\
  (x * y <= a * c \/ x * y <= b * c \/ x * y <= a * d \/ x * y <= b * d).
Proof.
  intros a b c d x y [Hax Hxb] [Hcy Hyd].
  destruct (Rle_dec 0 y) as [Hy|Hy]; destruct (Rle_dec 0 a) as [Ha|Ha];
    destruct (Rle_dec 0 b) as [Hb|Hb]; split.
  all: try (apply Rnot_le_lt in Hy); try (apply Rnot_le_lt in Ha); try (apply Rnot_le_lt in Hb).
  all: first [ left; nra | right; left; nra | right; right; left; nra | right; right; right; nra ].
Qed.

Lemma inv_interval : forall c d y : R, c <= y <= d -> (0 < c \/ d < 0) ->
  y <> 0 /\ / d <= / y <= / c.
Proof.
  intros c d y [Hcy Hyd] [Hc|Hd].
  - split. lra. split; apply Rinv_le_contravar; lra.
  - assert (Hy : y <> 0) by lra. split. exact Hy.
    assert (Hc : c <> 0) by lra. assert (Hd0 : d <> 0) by lra.
    assert (H1 : / - y <= / - d) by (apply Rinv_le_contravar; lra).
    assert (H2 : / - c <= / - y) by (apply Rinv_le_contravar; lra).
    rewrite !Rinv_opp in H1, H2. lra.
Qed.

Lemma div_corners : forall a b c d x y : R,
  a <= x <= b -> c <= y <= d -> (0 < c \/ d < 0) ->
  y <> 0 /\
  (a / c <= x / y \/ b / c <= x / y \/ a / d <= x / y \/ b / d <= x / y) /\
  (x / y <= a / c \/ x / y <= b / c \/ x / y <= a / d \/ x / y <= b / d).
Proof.
  intros a b c d x y Hx Hy Hz.
  destruct (inv_interval c d y Hy Hz) as [Hy0 Hi].
  split. exact Hy0.
  destruct (mul_corners a b (/ d) (/ c) x (/ y) Hx Hi) as [HL HU].
  unfold Rdiv. split.
  - destruct HL as [H|[H|[H|H]]]; auto.
  - destruct HU as [H|[H|[H|H]]]; auto.
Qed.

Section C07_interval.
  Variable prec emax : Z.
  Context (Hprec : FLX.Prec_gt_0 prec) (Hmax : Prec_lt_emax prec emax).
  Notation bf := (binary_float prec emax).
  Notation emin := (3 - emax - prec)%Z.
  Notation fexp := (FLT_exp emin prec).
  Notation AFb := (AF bf).
  Local Instance NB : Num bf := NumB prec emax Hprec Hmax.
  Implicit Types I J : AF bf.
  Implicit Types x y r : R.
  Implicit Types f v l h : bf.

  Definition RN (r : R) : R := round radix2 fexp ZnearestE r.

  Lemma contains_ext_wf : forall I x, contains I x -> ext_wf I.
  Proof.
    intros [l h] x [HL HU]. unfold ext_wf. simpl in *.
    destruct l as [sl|sl| |sl ml el Hl]; destruct h as [sh|sh| |sh mh eh Hh];
      try destruct sl; try destruct sh; simpl in *; try tauto; try lra.
  Qed.

  Lemma lb_mono : forall l r r', lb l r -> r <= r' -> lb l r'.
  Proof. intros [s|[|]| |s m e H] r r' Hl Hr; simpl in *; try tauto; lra. Qed.
  Lemma ub_mono : forall h r r', ub h r -> r' <= r -> ub h r'.
  Proof. intros [s|[|]| |s m e H] r r' Hl Hr; simpl in *; try tauto; lra. Qed.

  Lemma lb_finite : forall l r, is_finite l = true -> (lb l r <-> B2R l <= r).
  Proof. intros [s|[|]| |s m e H] r Hf; simpl in *; try discriminate; tauto. Qed.
  Lemma ub_finite : forall h r, is_finite h = true -> (ub h r <-> r <= B2R h).
  Proof. intros [s|[|]| |s m e H] r Hf; simpl in *; try discriminate; tauto. Qed.

  Lemma Bsign_sign : forall v, is_finite v = true -> if Bsign v then B2R v <= 0 else 0 <= B2R v.
  Proof.
    intros [s|s| |s m e H] Hf; try discriminate; simpl.
    - destruct s; lra.
    - destruct s; [apply F2R_le_0|apply F2R_ge_0]; simpl; lia.
  Qed.

  (** [v] is the IEEE round-to-nearest-even result of an operation whose exact value is [r] *)
  Definition is_rnd (v : bf) (r : R) : Prop :=
    (Bsign v = false -> 0 <= r) /\ (Bsign v = true -> r <= 0) /\
    ((is_finite v = true /\ B2R v = RN r) \/
     (exists s, v = B754_infinity s /\ bpow radix2 emax <= Rabs (RN r))).

  Lemma RN_le : forall r r', r <= r' -> RN r <= RN r'.
  Proof. intros r r' H. apply round_le; auto with typeclass_instances. Qed.
  Lemma RN_id : forall r, generic_format radix2 fexp r -> RN r = r.
  Proof. intros r F. apply round_generic; auto with typeclass_instances. Qed.
  Lemma RN_B2R : forall v, RN (B2R v) = B2R v.
  Proof. intros v. apply RN_id, generic_format_B2R. Qed.
  Lemma RN_0 : RN 0 = 0.
  Proof. apply round_0; auto with typeclass_instances. Qed.
  Lemma RN_nonneg : forall r, 0 <= r -> 0 <= RN r.
  Proof. intros r H. rewrite <- RN_0. apply RN_le, H. Qed.
  Lemma RN_opp : forall r, RN (- r) = - RN r.
  Proof. intros r. apply round_NE_opp. Qed.
  Lemma RN_format : forall r, generic_format radix2 fexp (RN r).
  Proof. intros r. apply generic_format_round; auto with typeclass_instances. Qed.
  Lemma B2R_lt_emax : forall v, B2R v < bpow radix2 emax.
  Proof.
    intros v. generalize (abs_B2R_lt_emax prec emax v). intros H.
    apply Rle_lt_trans with (2 := H). apply RRle_abs.
  Qed.

  Lemma ovf_pos : forall v r, 0 <= r -> bpow radix2 emax <= Rabs (RN r) -> B2R v <= r.
  Proof.
    intros v r Hr Hov.
    destruct (Rle_lt_dec (B2R v) r) as [H|H]; [exact H|exfalso].
    assert (H1 : RN r <= B2R v) by (rewrite <- RN_B2R; apply RN_le; lra).
    rewrite Rabs_pos_eq in Hov by exact (RN_nonneg r Hr).
    generalize (B2R_lt_emax v). lra.
  Qed.

  Lemma B2SF_inf : forall v s, B2SF v = S754_infinity s -> v = B754_infinity s.
  Proof. intros [s'|s'| |s' m e H] s E; simpl in E; try discriminate. now inversion E. Qed.

  Lemma Bpred_cases : forall v, is_finite v = true ->
    (Bpred v = B754_infinity true /\ pred radix2 fexp (B2R v) <= - bpow radix2 emax) \/
    (is_finite (Bpred v) = true /\ B2R (Bpred v) = pred radix2 fexp (B2R v)).
  Proof.
    intros v Fv. generalize (Bpred_correct prec emax Hprec Hmax v Fv). case Rlt_bool_spec.
    - intros _ (HR & HF & _). right. split; assumption.
    - intros Hle E. left. split. exact (B2SF_inf _ _ E). exact Hle.
  Qed.
  Lemma Bsucc_cases : forall v, is_finite v = true ->
    (Bsucc v = B754_infinity false /\ bpow radix2 emax <= succ radix2 fexp (B2R v)) \/
    (is_finite (Bsucc v) = true /\ B2R (Bsucc v) = succ radix2 fexp (B2R v)).
  Proof.
    intros v Fv. generalize (Bsucc_correct prec emax Hprec Hmax v Fv). case Rlt_bool_spec.
    - intros _ (HR & HF & _). right. split; assumption.
    - intros Hle E. left. split. exact (B2SF_inf _ _ E). exact Hle.
  Qed.

  Lemma rnd_lb0 : forall v r, is_rnd v r -> lb (Bpred v) r.
  Proof.
    intros v r (Hs0 & Hs1 & [[Hf Hv] | [s [-> Hov]]]).
    - destruct (Bpred_cases v Hf) as [[-> _]|[HF HR]]; [exact I|].
      apply lb_finite. exact HF. rewrite HR, Hv. apply pred_round_le_id; auto with typeclass_instances.
    - destruct s; [exact I|].
      replace (Bpred (B754_infinity false)) with (@Bmax_float prec emax Hprec Hmax) by reflexivity.
      apply lb_finite. reflexivity. apply ovf_pos. apply Hs0. reflexivity. exact Hov.
  Qed.

  Implicit Types a b : bf.
  Lemma finite_not_nan : forall v, is_finite v = true -> is_nan v = false.
  Proof. intros [s|s| |s m e H] Hf; simpl in *; try discriminate; reflexivity. Qed.

  (** the two outcomes of Flocq's [B*_correct] lemmas *)
  Lemma is_rnd_intro : forall v r (s : bool), (if s then r <= 0 else 0 <= r) ->
    (is_finite v = true /\ B2R v = RN r /\ Bsign v = s) \/
    (B2SF v = S754_infinity s /\ bpow radix2 emax <= Rabs (RN r)) ->
    is_rnd v r.
  Proof.
    intros v r s Hs H.
    assert (S : Bsign v = s) by (destruct H as [(_ & _ & S)|(E & _)]; [exact S|rewrite (B2SF_inf _ _ E); reflexivity]).
    unfold is_rnd. rewrite S. split; [|split].
    - intros ->. exact Hs.
    - intros ->. exact Hs.
    - destruct H as [(F & V & _)|(E & O)]; [left; split; assumption|].
      right. exists s. split. exact (B2SF_inf _ _ E). exact O.
  Qed.

  Lemma is_rnd_not_nan : forall v r, is_rnd v r -> is_nan v = false.
  Proof.
    intros v r (_ & _ & [[Hf _] | [s [-> _]]]). apply finite_not_nan, Hf. reflexivity.
  Qed.

  (** upper bounds are lower bounds seen through [Bopp]: each fact about [ub], [Bsucc], [le_ub] below is
      the one about [lb], [Bpred], [le_lb] at the opposite floats *)
  Lemma ub_opp : forall h r, ub h r <-> lb (Bopp h) (- r).
  Proof.
    intros h r. destruct (is_finite h) eqn:F.
    - rewrite ub_finite, lb_finite, B2R_Bopp by (rewrite ?is_finite_Bopp; exact F). split; lra.
    - destruct h as [s|[|]| |s m e H]; try discriminate; simpl; tauto.
  Qed.
  Lemma Bsucc_opp : forall v, Bsucc v = Bopp (Bpred (Bopp v)).
  Proof. intros v. unfold Bpred. rewrite !Bopp_involutive. reflexivity. Qed.
  Lemma is_rnd_opp : forall v r, is_rnd v r -> is_rnd (Bopp v) (- r).
  Proof.
    intros v r Rv. pose proof (is_rnd_not_nan _ _ Rv) as N. destruct Rv as (S0 & S1 & H).
    apply is_rnd_intro with (negb (Bsign v)).
    - destruct (Bsign v); [specialize (S1 eq_refl)|specialize (S0 eq_refl)]; simpl; lra.
    - rewrite RN_opp, Rabs_Ropp. destruct H as [[F V]|[s [-> O]]].
      + left. rewrite is_finite_Bopp, B2R_Bopp, V, (Bsign_Bopp _ _ _ N). auto.
      + right. split. reflexivity. exact O.
  Qed.

  Lemma rnd_ub0 : forall v r, is_rnd v r -> ub (Bsucc v) r.
  Proof. intros v r Rv. rewrite ub_opp, Bsucc_opp, Bopp_involutive. exact (rnd_lb0 _ _ (is_rnd_opp _ _ Rv)). Qed.

  Lemma is_rnd_plus : forall a b, is_finite a = true -> is_finite b = true ->
    is_rnd (Bplus mode_NE a b) (B2R a + B2R b).
  Proof.
    intros a b Fa Fb. generalize (Bplus_correct prec emax Hprec Hmax mode_NE a b Fa Fb).
    case Rlt_bool_spec.
    - intros _ (HR & HF & HS). eapply is_rnd_intro; [|left; split; [exact HF|split; [exact HR|exact HS]]].
      case Rcompare_spec; intros Hc; simpl; [|destruct (_ && _)|]; lra.
    - intros Hov (E & Hs). apply is_rnd_intro with (Bsign a); [|right; split; [exact E|exact Hov]].
      pose proof (Bsign_sign a Fa) as Sa. pose proof (Bsign_sign b Fb) as Sb.
      rewrite <- Hs in Sb. destruct (Bsign a); lra.
  Qed.

  Lemma is_rnd_minus : forall a b, is_finite a = true -> is_finite b = true ->
    is_rnd (Bminus mode_NE a b) (B2R a - B2R b).
  Proof.
    intros a b Fa Fb. generalize (Bminus_correct prec emax Hprec Hmax mode_NE a b Fa Fb).
    case Rlt_bool_spec.
    - intros _ (HR & HF & HS). eapply is_rnd_intro; [|left; split; [exact HF|split; [exact HR|exact HS]]].
      case Rcompare_spec; intros Hc; simpl; [|destruct (_ && _)|]; lra.
    - intros Hov (E & Hs). apply is_rnd_intro with (Bsign a); [|right; split; [exact E|exact Hov]].
      pose proof (Bsign_sign a Fa) as Sa. pose proof (Bsign_sign b Fb) as Sb.
      destruct (Bsign a); destruct (Bsign b); try discriminate Hs; lra.
  Qed.

  Lemma sign_mul : forall a b, is_finite a = true -> is_finite b = true ->
    if xorb (Bsign a) (Bsign b) then B2R a * B2R b <= 0 else 0 <= B2R a * B2R b.
  Proof.
    intros a b Fa Fb. pose proof (Bsign_sign a Fa) as Sa. pose proof (Bsign_sign b Fb) as Sb.
    destruct (Bsign a); destruct (Bsign b); simpl; nra.
  Qed.

  Lemma sign_div : forall a b, is_finite a = true -> is_finite b = true -> B2R b <> 0 ->
    if xorb (Bsign a) (Bsign b) then B2R a / B2R b <= 0 else 0 <= B2R a / B2R b.
  Proof.
    intros a b Fa Fb Hb. pose proof (Bsign_sign a Fa) as Sa. pose proof (Bsign_sign b Fb) as Sb.
    unfold Rdiv. destruct (Bsign a); destruct (Bsign b); simpl.
    1,3: assert (H : / B2R b < 0) by (apply Rinv_lt_0_compat; lra); nra.
    all: assert (H : 0 < / B2R b) by (apply Rinv_0_lt_compat; lra); nra.
  Qed.

  Lemma is_rnd_mult : forall a b, is_finite a = true -> is_finite b = true ->
    is_rnd (Bmult mode_NE a b) (B2R a * B2R b).
  Proof.
    intros a b Fa Fb. pose proof (Bmult_correct prec emax Hprec Hmax mode_NE a b) as H.
    apply is_rnd_intro with (1 := sign_mul a b Fa Fb). revert H.
    case Rlt_bool_spec.
    - intros _ (HR & HF & HS). rewrite Fa, Fb in HF. left. auto using finite_not_nan.
    - intros Hov E. right. split. exact E. exact Hov.
  Qed.

  Lemma is_rnd_div : forall a b, is_finite a = true -> is_finite b = true -> B2R b <> 0 ->
    is_rnd (Bdiv mode_NE a b) (B2R a / B2R b).
  Proof.
    intros a b Fa Fb Hb. pose proof (Bdiv_correct prec emax Hprec Hmax mode_NE a b Hb) as H.
    apply is_rnd_intro with (1 := sign_div a b Fa Fb Hb). revert H.
    case Rlt_bool_spec.
    - intros _ (HR & HF & HS). rewrite Fa in HF. left. auto using finite_not_nan.
    - intros Hov E. right. split. exact E. exact Hov.
  Qed.

  Lemma is_rnd_sqrt : forall a, is_finite a = true -> 0 <= B2R a ->
    is_rnd (Bsqrt mode_NE a) (sqrt (B2R a)).
  Proof.
    intros a Fa Ha. destruct (Bsqrt_correct prec emax Hprec Hmax mode_NE a) as (HR & HF & HS).
    assert (HF' : is_finite (Bsqrt mode_NE a) = true).
    { rewrite HF. destruct a as [s|s| |s m e H]; simpl in *; try discriminate; try reflexivity.
      destruct s; [|reflexivity]. exfalso.
      assert (F2R (Float radix2 (cond_Zopp true (Z.pos m)) e) < 0) by (apply F2R_lt_0; simpl; lia).
      lra. }
    apply is_rnd_intro with (Bsign a); [|left; auto using finite_not_nan].
    pose proof (Bsign_sign a Fa) as Sa. destruct (Bsign a); [|apply sqrt_pos].
    replace (B2R a) with 0 by lra. rewrite sqrt_0. lra.
  Qed.

  Lemma rnd_inv : forall v r, is_rnd v r -> is_finite v = true -> B2R v = RN r.
  Proof. intros v r (_ & _ & [[_ E]|[s [E _]]]) F. exact E. rewrite E in F. discriminate. Qed.
  Lemma rnd_fwd : forall v r, is_rnd v r -> Rabs (RN r) < bpow radix2 emax -> is_finite v = true /\ B2R v = RN r.
  Proof. intros v r (_ & _ & [H|[s [_ E]]]) L. exact H. lra. Qed.

  Lemma Bplus_fin : forall a b, is_finite (Bplus mode_NE a b) = true ->
    is_finite a = true /\ is_finite b = true /\ B2R (Bplus mode_NE a b) = RN (B2R a + B2R b).
  Proof.
    intros a b H.
    assert (Fab : is_finite a = true /\ is_finite b = true).
    { destruct a as [sa|sa| |sa ma ea Ha], b as [sb|sb| |sb mb eb Hb]; try (split; reflexivity); simpl in H; try discriminate.
      destruct sa, sb; discriminate. }
    destruct Fab as [Fa Fb]. exact (conj Fa (conj Fb (rnd_inv _ _ (is_rnd_plus a b Fa Fb) H))).
  Qed.
  Lemma Bmult_fin : forall a b, is_finite (Bmult mode_NE a b) = true ->
    is_finite a = true /\ is_finite b = true /\ B2R (Bmult mode_NE a b) = RN (B2R a * B2R b).
  Proof.
    intros a b H.
    assert (Fab : is_finite a = true /\ is_finite b = true).
    { destruct a as [sa|sa| |sa ma ea Ha], b as [sb|sb| |sb mb eb Hb]; try (split; reflexivity); simpl in H; discriminate. }
    destruct Fab as [Fa Fb]. exact (conj Fa (conj Fb (rnd_inv _ _ (is_rnd_mult a b Fa Fb) H))).
  Qed.

  Definition le_lb a b : Prop := forall r, lb b r -> lb a r.
  Definition le_ub a b : Prop := forall r, ub a r -> ub b r.

  Lemma lb_not_nan : forall l r, lb l r -> is_nan l = false.
  Proof. intros [s|[|]| |s m e H] r Hl; simpl in *; try tauto. Qed.
  Lemma ub_not_nan : forall h r, ub h r -> is_nan h = false.
  Proof. intros [s|[|]| |s m e H] r Hl; simpl in *; try tauto. Qed.

  Lemma le_ub_opp : forall a b, le_ub a b -> le_lb (Bopp b) (Bopp a).
  Proof.
    intros a b H r L. rewrite <- (Ropp_involutive r) in L |- *.
    apply ub_opp, H, ub_opp, L.
  Qed.

  Lemma Bleb_finite : forall v w, is_finite v = true -> is_finite w = true ->
    (Bleb v w = true <-> B2R v <= B2R w).
  Proof.
    intros v w Fv Fw. rewrite Bleb_correct by assumption.
    case Rle_bool_spec; intros H; split; intros H'; try reflexivity; try discriminate; lra.
  Qed.
  Lemma Bltb_finite : forall v w, is_finite v = true -> is_finite w = true ->
    (Bltb v w = true <-> B2R v < B2R w).
  Proof.
    intros v w Fv Fw. rewrite Bltb_correct by assumption.
    case Rlt_bool_spec; intros H; split; intros H'; try reflexivity; try discriminate; lra.
  Qed.

  Lemma Beqb_fin : forall v w, is_finite w = true -> Beqb v w = true -> is_finite v = true /\ B2R v = B2R w.
  Proof.
    intros v w Fw E.
    assert (Fv : is_finite v = true).
    { destruct v as [s|s| |s m e H]; try reflexivity; exfalso;
        destruct w as [s'|s'| |s' m' e' H']; try discriminate; revert E; unfold Beqb, SFeqb; simpl; try destruct s; discriminate. }
    split. exact Fv. rewrite Beqb_correct in E by assumption. revert E. case Req_bool_spec; [auto|discriminate].
  Qed.

  Lemma Bleb_le : forall v w, Bleb v w = true -> le_lb v w /\ le_ub v w.
  Proof.
    intros v w H.
    destruct v as [sv|[|]| |sv mv ev Hv]; destruct w as [sw|[|]| |sw mw ew Hw]; try discriminate H;
      split; intros r Hr; simpl in Hr |- *; try tauto;
      apply Bleb_finite in H; try reflexivity; simpl in H; lra.
  Qed.

  Lemma Bltb_Bleb : forall v w, Bltb v w = true -> Bleb v w = true.
  Proof. intros v w. unfold Bltb, Bleb, SFltb, SFleb. destruct (SFcompare _ _) as [[| |]|]; auto. Qed.

  Lemma Bcompare_None_nan : forall v w, is_nan v = false -> is_nan w = false -> Bcompare v w <> None.
  Proof.
    intros [sv|sv| |sv mv ev Hv] [sw|sw| |sw mw ew Hw] Nv Nw; try discriminate;
      unfold Bcompare; simpl; try destruct sv; try destruct sw; try discriminate.
    all: try (destruct (Z.compare _ _); try discriminate; destruct (Pos.compare_cont _ _ _); discriminate).
  Qed.

  Lemma Bltb_negb_Bleb : forall v w, is_nan v = false -> is_nan w = false -> Bltb w v = negb (Bleb v w).
  Proof.
    intros v w Nv Nw.
    pose proof (Bcompare_None_nan v w Nv Nw) as HN.
    unfold Bltb, SFltb, Bleb, SFleb.
    change (SFcompare (B2SF w) (B2SF v)) with (Bcompare w v).
    change (SFcompare (B2SF v) (B2SF w)) with (Bcompare v w).
    rewrite (Bcompare_swap _ _ v w). destruct (Bcompare v w) as [[| |]|]; try reflexivity.
    exfalso. apply HN. reflexivity.
  Qed.

  Lemma Bltb_false_Bleb : forall v w, is_nan v = false -> is_nan w = false ->
    Bltb w v = false -> Bleb v w = true.
  Proof. intros v w Nv Nw H. rewrite (Bltb_negb_Bleb v w Nv Nw) in H. exact (proj1 (negb_false_iff _) H). Qed.
  Lemma Bleb_false_Bltb : forall v w, is_nan v = false -> is_nan w = false ->
    Bleb v w = false -> Bltb w v = true.
  Proof. intros v w Nv Nw H. rewrite (Bltb_negb_Bleb v w Nv Nw), H. reflexivity. Qed.

  Lemma ltb_true_le : forall a b, Bltb a b = true -> le_lb a b /\ le_ub a b.
  Proof. intros a b H. exact (Bleb_le _ _ (Bltb_Bleb _ _ H)). Qed.
  Lemma ltb_false_le : forall a b, is_nan a = false -> is_nan b = false ->
    Bltb a b = false -> le_lb b a /\ le_ub b a.
  Proof. intros a b Na Nb H. exact (Bleb_le _ _ (Bltb_false_Bleb _ _ Nb Na H)). Qed.

  Definition bmin (mn v : bf) : bf := if Bltb v mn then v else mn.
  Definition bmax (mx v : bf) : bf := if Bltb mx v then v else mx.

  Lemma Bltb_opp : forall a b, Bltb (Bopp a) (Bopp b) = Bltb b a.
  Proof.
    intros a b. destruct (is_finite a) eqn:Fa; destruct (is_finite b) eqn:Fb.
    2-4: destruct a as [sa|[|]| |sa ma ea Ha]; destruct b as [sb|[|]| |sb mb eb Hb]; try discriminate; reflexivity.
    rewrite !Bltb_correct, !B2R_Bopp by (rewrite ?is_finite_Bopp; assumption).
    do 2 case Rlt_bool_spec; intros; try reflexivity; lra.
  Qed.
  Lemma Bopp_bmin : forall a b, Bopp (bmin a b) = bmax (Bopp a) (Bopp b).
  Proof. intros a b. unfold bmin, bmax. rewrite Bltb_opp. destruct (Bltb b a); reflexivity. Qed.

  Lemma bmin_spec : forall a b, is_nan a = false -> is_nan b = false ->
    is_nan (bmin a b) = false /\ le_lb (bmin a b) a /\ le_lb (bmin a b) b.
  Proof.
    intros a b Na Nb. unfold bmin. destruct (Bltb b a) eqn:E.
    - split. exact Nb. split. apply (ltb_true_le _ _ E). intros r H; exact H.
    - split. exact Na. split. intros r H; exact H. apply (ltb_false_le _ _ Nb Na E).
  Qed.
  Lemma bmax_spec : forall a b, is_nan a = false -> is_nan b = false ->
    is_nan (bmax a b) = false /\ le_ub a (bmax a b) /\ le_ub b (bmax a b).
  Proof.
    intros a b Na Nb. unfold bmax. destruct (Bltb a b) eqn:E.
    - split. exact Nb. split. apply (ltb_true_le _ _ E). intros r H; exact H.
    - split. exact Na. split. intros r H; exact H. apply (ltb_false_le _ _ Na Nb E).
  Qed.

  Lemma max_min4_eq : forall a0 a1 a2 a3 : bf,
    max_min4 a0 a1 a2 a3 =
    (bmax (bmax (bmax a0 a1) a2) a3, bmin (bmin (bmin a0 a1) a2) a3).
  Proof. reflexivity. Qed.

  Lemma min4_spec : forall a0 a1 a2 a3 : bf,
    is_nan a0 = false -> is_nan a1 = false -> is_nan a2 = false -> is_nan a3 = false ->
    let m := bmin (bmin (bmin a0 a1) a2) a3 in
    is_nan m = false /\ le_lb m a0 /\ le_lb m a1 /\ le_lb m a2 /\ le_lb m a3.
  Proof.
    intros a0 a1 a2 a3 N0 N1 N2 N3 m.
    destruct (bmin_spec a0 a1 N0 N1) as (M1 & L10 & L11).
    destruct (bmin_spec _ a2 M1 N2) as (M2 & L20 & L22).
    destruct (bmin_spec _ a3 M2 N3) as (M3 & L30 & L33).
    unfold le_lb in *. subst m. repeat split; auto.
  Qed.
  Lemma max4_spec : forall a0 a1 a2 a3 : bf,
    is_nan a0 = false -> is_nan a1 = false -> is_nan a2 = false -> is_nan a3 = false ->
    let m := bmax (bmax (bmax a0 a1) a2) a3 in
    is_nan m = false /\ le_ub a0 m /\ le_ub a1 m /\ le_ub a2 m /\ le_ub a3 m.
  Proof.
    intros a0 a1 a2 a3 N0 N1 N2 N3 m.
    destruct (bmax_spec a0 a1 N0 N1) as (M1 & L10 & L11).
    destruct (bmax_spec _ a2 M1 N2) as (M2 & L20 & L22).
    destruct (bmax_spec _ a3 M2 N3) as (M3 & L30 & L33).
    unfold le_ub in *. subst m. repeat split; auto.
  Qed.

  Lemma lb_pred : forall v r, lb v r -> lb (Bpred v) r.
  Proof.
    intros v r Hl. destruct (is_finite v) eqn:Fv.
    - apply lb_finite in Hl; [|exact Fv].
      destruct (Bpred_cases v Fv) as [[-> _]|[HF HR]]; [exact I|].
      apply lb_finite. exact HF. rewrite HR. apply Rle_trans with (2 := Hl). apply pred_le_id.
    - destruct v as [s|[|]| |s m e H]; try discriminate; simpl in Hl; tauto.
  Qed.
  Lemma ub_succ : forall v r, ub v r -> ub (Bsucc v) r.
  Proof. intros v r H. rewrite ub_opp, Bsucc_opp, Bopp_involutive. apply lb_pred, ub_opp, H. Qed.

  Lemma le_lb_RN : forall p p' c, is_finite p' = true -> is_rnd p c -> le_lb p' p -> B2R p' <= RN c.
  Proof.
    intros p p' c Fp' (Hs0 & Hs1 & [[Hf Hv] | [s [-> Hov]]]) Hle.
    - rewrite <- Hv. apply lb_finite. exact Fp'. apply Hle. apply lb_finite. exact Hf. lra.
    - destruct s.
      + exfalso. assert (H : lb p' (B2R p' - 1)) by (apply Hle; exact I).
        apply lb_finite in H; [lra|exact Fp'].
      + rewrite Rabs_pos_eq in Hov by exact (RN_nonneg c (Hs0 eq_refl)).
        generalize (B2R_lt_emax p'). lra.
  Qed.

  (** the outward step of the smallest (largest) of several rounded results bounds every
      exact value *)
  Lemma pred_lb_le : forall p p' c, is_rnd p c -> is_nan p' = false -> le_lb p' p ->
    lb (Bpred p') c.
  Proof.
    intros p p' c Hr Np' Hle. pose proof (rnd_lb0 p c Hr) as H0.
    destruct (is_finite p') eqn:Fp'.
    - pose proof (le_lb_RN p p' c Fp' Hr Hle) as HRN.
      destruct (Bpred_cases p' Fp') as [[-> _]|[HF HR]]; [exact I|].
      apply lb_finite. exact HF. rewrite HR.
      apply Rle_trans with (pred radix2 fexp (RN c)).
      + exact (@pred_le radix2 fexp (fexp_correct prec emax Hprec) _ _
                 (generic_format_B2R prec emax p') (RN_format c) HRN).
      + apply pred_round_le_id; auto with typeclass_instances.
    - destruct p' as [s'|[|]| |s' m' e' H']; try discriminate.
      + exact I.
      + destruct Hr as (Hs0 & Hs1 & [[Hf Hv] | [s [-> Hov]]]).
        * exfalso. apply (Hle (B2R p)). apply lb_finite. exact Hf. lra.
        * destruct s. exfalso. apply (Hle 0). exact I. exact H0.
  Qed.
  Lemma succ_ub_le : forall p p' c, is_rnd p c -> is_nan p' = false -> le_ub p p' ->
    ub (Bsucc p') c.
  Proof.
    intros p p' c Hr Np' Hle. rewrite ub_opp, Bsucc_opp, Bopp_involutive.
    apply pred_lb_le with (1 := is_rnd_opp _ _ Hr). rewrite is_nan_Bopp. exact Np'. exact (le_ub_opp _ _ Hle).
  Qed.

  (** The value forms select among the corners after stepping each outward ([dn] = [Bpred], [up] = [Bsucc]),
      the in-place forms among the corners themselves ([dn] = [up] = identity); either way the selected
      bound is stepped outward once more. *)
  Definition corners4 (op : bf -> bf -> bf) (dn up : bf -> bf) I J : AF bf :=
    let p0 := op (low I) (low J) in let p1 := op (high I) (low J) in
    let p2 := op (low I) (high J) in let p3 := op (high I) (high J) in
    mkAF (Bpred (bmin (bmin (bmin (dn p0) (dn p1)) (dn p2)) (dn p3)))
         (Bsucc (bmax (bmax (bmax (up p0) (up p1)) (up p2)) (up p3))).

  Section Corners.
    Variables dn up : bf -> bf.
    Hypothesis Hdn : forall p c, is_rnd p c -> is_nan (dn p) = false /\ le_lb (dn p) p.
    Hypothesis Hup : forall p c, is_rnd p c -> is_nan (up p) = false /\ le_ub p (up p).
    Variables p0 p1 p2 p3 : bf.
    Variables c0 c1 c2 c3 : R.
    Hypothesis R0 : is_rnd p0 c0.
    Hypothesis R1 : is_rnd p1 c1.
    Hypothesis R2 : is_rnd p2 c2.
    Hypothesis R3 : is_rnd p3 c3.

    Lemma corners_contains : forall r,
      (c0 <= r \/ c1 <= r \/ c2 <= r \/ c3 <= r) -> (r <= c0 \/ r <= c1 \/ r <= c2 \/ r <= c3) ->
      contains (mkAF (Bpred (bmin (bmin (bmin (dn p0) (dn p1)) (dn p2)) (dn p3)))
                     (Bsucc (bmax (bmax (bmax (up p0) (up p1)) (up p2)) (up p3)))) r.
    Proof.
      intros r HL HU.
      destruct (Hdn _ _ R0) as [N0 L0]. destruct (Hdn _ _ R1) as [N1 L1].
      destruct (Hdn _ _ R2) as [N2 L2]. destruct (Hdn _ _ R3) as [N3 L3].
      destruct (Hup _ _ R0) as [N0' U0]. destruct (Hup _ _ R1) as [N1' U1].
      destruct (Hup _ _ R2) as [N2' U2]. destruct (Hup _ _ R3) as [N3' U3].
      destruct (min4_spec _ _ _ _ N0 N1 N2 N3) as (Nm & M0 & M1 & M2 & M3).
      destruct (max4_spec _ _ _ _ N0' N1' N2' N3') as (NM & X0 & X1 & X2 & X3).
      set (m := bmin (bmin (bmin (dn p0) (dn p1)) (dn p2)) (dn p3)) in *.
      set (M := bmax (bmax (bmax (up p0) (up p1)) (up p2)) (up p3)) in *.
      (* the selected bound is beyond the rounded corner [p] of [c], whichever corner bounds [r] *)
      assert (KL : forall p q c, is_rnd p c -> le_lb q p -> le_lb m q -> c <= r -> lb (Bpred m) r).
      { intros p q c Rp Lq Mq H. apply lb_mono with (2 := H).
        apply pred_lb_le with (1 := Rp). exact Nm. intros t Ht. apply Mq, Lq, Ht. }
      assert (KU : forall p q c, is_rnd p c -> le_ub p q -> le_ub q M -> r <= c -> ub (Bsucc M) r).
      { intros p q c Rp Uq Xq H. apply ub_mono with (2 := H).
        apply succ_ub_le with (1 := Rp). exact NM. intros t Ht. apply Xq, Uq, Ht. }
      split; cbn [low high].
      - destruct HL as [H|[H|[H|H]]];
          [exact (KL _ _ _ R0 L0 M0 H)|exact (KL _ _ _ R1 L1 M1 H)|exact (KL _ _ _ R2 L2 M2 H)|exact (KL _ _ _ R3 L3 M3 H)].
      - destruct HU as [H|[H|[H|H]]];
          [exact (KU _ _ _ R0 U0 X0 H)|exact (KU _ _ _ R1 U1 X1 H)|exact (KU _ _ _ R2 U2 X2 H)|exact (KU _ _ _ R3 U3 X3 H)].
    Qed.
  End Corners.

  Lemma step_out_dn : forall p c, is_rnd p c -> is_nan (Bpred p) = false /\ le_lb (Bpred p) p.
  Proof. intros p c Rp. split. exact (lb_not_nan _ _ (rnd_lb0 _ _ Rp)). exact (lb_pred p). Qed.
  Lemma step_out_up : forall p c, is_rnd p c -> is_nan (Bsucc p) = false /\ le_ub p (Bsucc p).
  Proof. intros p c Rp. split. exact (ub_not_nan _ _ (rnd_ub0 _ _ Rp)). exact (ub_succ p). Qed.
  Lemma step_id_dn : forall p c, is_rnd p c -> is_nan p = false /\ le_lb p p.
  Proof. intros p c Rp. split. exact (is_rnd_not_nan _ _ Rp). intros r H; exact H. Qed.
  Lemma step_id_up : forall p c, is_rnd p c -> is_nan p = false /\ le_ub p p.
  Proof. intros p c Rp. split. exact (is_rnd_not_nan _ _ Rp). intros r H; exact H. Qed.

  Lemma wf_contains : forall I x, wf I -> contains I x ->
    is_finite (low I) = true /\ is_finite (high I) = true /\ B2R (low I) <= x <= B2R (high I).
  Proof.
    intros I x (Fl & Fh & _) (L & U).
    apply lb_finite in L; [|exact Fl]. apply ub_finite in U; [|exact Fh]. tauto.
  Qed.

  Lemma af_neg_correct : forall I x, wf I -> contains I x -> contains (af_neg I) (- x).
  Proof.
    intros I x W C. destruct (wf_contains I x W C) as (Fl & Fh & Hx).
    split; simpl.
    - apply lb_finite. rewrite is_finite_Bopp. exact Fh. rewrite B2R_Bopp. lra.
    - apply ub_finite. rewrite is_finite_Bopp. exact Fl. rewrite B2R_Bopp. lra.
  Qed.

  Lemma outward_contains : forall pl ph cl ch r, is_rnd pl cl -> is_rnd ph ch -> cl <= r <= ch ->
    contains (mkAF (Bpred pl) (Bsucc ph)) r.
  Proof.
    intros pl ph cl ch r Rl Rh [Hl Hh]. split; cbn [low high].
    - exact (lb_mono _ _ _ (rnd_lb0 _ _ Rl) Hl).
    - exact (ub_mono _ _ _ (rnd_ub0 _ _ Rh) Hh).
  Qed.

  Lemma af_add_correct : forall I J x y, wf I -> wf J -> contains I x -> contains J y ->
    contains (af_add I J) (x + y).
  Proof.
    intros I J x y WI WJ CI CJ.
    destruct (wf_contains I x WI CI) as (FIl & FIh & Hx).
    destruct (wf_contains J y WJ CJ) as (FJl & FJh & Hy).
    apply (outward_contains _ _ _ _ _ (is_rnd_plus _ _ FIl FJl) (is_rnd_plus _ _ FIh FJh)). lra.
  Qed.

  Lemma af_sub_correct : forall I J x y, wf I -> wf J -> contains I x -> contains J y ->
    contains (af_sub I J) (x - y).
  Proof.
    intros I J x y WI WJ CI CJ.
    destruct (wf_contains I x WI CI) as (FIl & FIh & Hx).
    destruct (wf_contains J y WJ CJ) as (FJl & FJh & Hy).
    apply (outward_contains _ _ _ _ _ (is_rnd_minus _ _ FIl FJh) (is_rnd_minus _ _ FIh FJl)). lra.
  Qed.

  Lemma af_sqrt_correct : forall I x, wf I -> 0 <= B2R (low I) -> contains I x ->
    contains (af_sqrt I) (sqrt x).
  Proof.
    intros I x W H0 C. destruct (wf_contains I x W C) as (Fl & Fh & Hx).
    apply (outward_contains _ _ _ _ _ (is_rnd_sqrt _ Fl H0) (is_rnd_sqrt _ Fh ltac:(lra))).
    split; apply sqrt_le_1_alt; lra.
  Qed.

  Lemma corners4_mul : forall dn up,
    (forall p c, is_rnd p c -> is_nan (dn p) = false /\ le_lb (dn p) p) ->
    (forall p c, is_rnd p c -> is_nan (up p) = false /\ le_ub p (up p)) ->
    forall I J x y, wf I -> wf J -> contains I x -> contains J y ->
    contains (corners4 (Bmult mode_NE) dn up I J) (x * y).
  Proof.
    intros dn up Hdn Hup I J x y WI WJ CI CJ.
    destruct (wf_contains I x WI CI) as (FIl & FIh & Hx).
    destruct (wf_contains J y WJ CJ) as (FJl & FJh & Hy).
    destruct (mul_corners _ _ _ _ x y Hx Hy) as [HL HU].
    apply (corners_contains dn up Hdn Hup) with (5 := HL) (6 := HU); apply is_rnd_mult; assumption.
  Qed.

  Lemma corners4_div : forall dn up,
    (forall p c, is_rnd p c -> is_nan (dn p) = false /\ le_lb (dn p) p) ->
    (forall p c, is_rnd p c -> is_nan (up p) = false /\ le_ub p (up p)) ->
    forall I J x y, wf I -> wf J -> no_zero J -> contains I x -> contains J y ->
    contains (corners4 (Bdiv mode_NE) dn up I J) (x / y).
  Proof.
    intros dn up Hdn Hup I J x y WI WJ NZ CI CJ.
    destruct (wf_contains I x WI CI) as (FIl & FIh & Hx).
    destruct (wf_contains J y WJ CJ) as (FJl & FJh & Hy).
    assert (Z : 0 < B2R (low J) \/ B2R (high J) < 0) by exact NZ.
    destruct (div_corners _ _ _ _ x y Hx Hy Z) as (_ & HL & HU).
    apply (corners_contains dn up Hdn Hup) with (5 := HL) (6 := HU); apply is_rnd_div; try assumption; lra.
  Qed.

  Lemma af_mul_correct : forall I J x y, wf I -> wf J -> contains I x -> contains J y ->
    contains (af_mul I J) (x * y).
  Proof. exact (corners4_mul Bpred Bsucc step_out_dn step_out_up). Qed.

  Lemma af_mul_assign_correct : forall I J x y, wf I -> wf J -> contains I x -> contains J y ->
    contains (af_mul_assign I J) (x * y).
  Proof. exact (corners4_mul (fun p => p) (fun p => p) step_id_dn step_id_up). Qed.

  Lemma af_div_correct : forall I J x y, wf I -> wf J -> no_zero J -> contains I x -> contains J y ->
    contains (af_div I J) (x / y).
  Proof. exact (corners4_div Bpred Bsucc step_out_dn step_out_up). Qed.

  Lemma af_div_assign_correct : forall I J x y, wf I -> wf J -> no_zero J -> contains I x -> contains J y ->
    contains (af_div_assign I J) (x / y).
  Proof. exact (corners4_div (fun p => p) (fun p => p) step_id_dn step_id_up). Qed.

  Lemma af_mul_f_eq : forall I f,
    af_mul_f I f =
    mkAF (Bpred (bmin (Bmult mode_NE (low I) f) (Bmult mode_NE (high I) f)))
         (Bsucc (bmax (Bmult mode_NE (high I) f) (Bmult mode_NE (low I) f))).
  Proof.
    intros I f. unfold af_mul_f, bmin, bmax. simpl.
    destruct (Bltb (Bmult mode_NE (high I) f) (Bmult mode_NE (low I) f)); reflexivity.
  Qed.

  Lemma af_mul_f_correct : forall I f x, wf I -> is_finite f = true -> contains I x ->
    contains (af_mul_f I f) (x * B2R f).
  Proof.
    intros I f x W Ff C. destruct (wf_contains I x W C) as (Fl & Fh & Hx).
    pose proof (is_rnd_mult (low I) f Fl Ff) as Rl.
    pose proof (is_rnd_mult (high I) f Fh Ff) as Rh.
    pose proof (is_rnd_not_nan _ _ Rl) as Nl. pose proof (is_rnd_not_nan _ _ Rh) as Nh.
    rewrite af_mul_f_eq. split; simpl.
    - destruct (bmin_spec _ _ Nl Nh) as (N & Ml & Mh).
      destruct (Rle_dec 0 (B2R f)) as [P|P].
      + apply lb_mono with (B2R (low I) * B2R f). apply pred_lb_le with (1 := Rl); assumption. nra.
      + apply lb_mono with (B2R (high I) * B2R f). apply pred_lb_le with (1 := Rh); assumption. nra.
    - destruct (bmax_spec _ _ Nh Nl) as (N & Mh & Ml).
      destruct (Rle_dec 0 (B2R f)) as [P|P].
      + apply ub_mono with (B2R (high I) * B2R f). apply succ_ub_le with (1 := Rh); assumption. nra.
      + apply ub_mono with (B2R (low I) * B2R f). apply succ_ub_le with (1 := Rl); assumption. nra.
  Qed.

  (** with this the literals [m * 2^e] of the model are exact *)
  Lemma Bnorm_exact : forall mx ex : Z, generic_format radix2 fexp (F2R (Float radix2 mx ex)) ->
    Rabs (F2R (Float radix2 mx ex)) < bpow radix2 emax ->
    let v := binary_normalize prec emax Hprec Hmax mode_NE mx ex false in
    is_finite v = true /\ B2R v = F2R (Float radix2 mx ex).
  Proof.
    intros mx ex Ff Hlt v.
    generalize (binary_normalize_correct prec emax Hprec Hmax mode_NE mx ex false). simpl.
    change (round radix2 (SpecFloat.fexp prec emax) ZnearestE (F2R (Float radix2 mx ex))) with (RN (F2R (Float radix2 mx ex))).
    rewrite (RN_id _ Ff). rewrite Rlt_bool_true by exact Hlt. intros (HR & HF & _). split; assumption.
  Qed.
  Lemma Bofz_exact : forall z : Z, generic_format radix2 fexp (IZR z) -> Rabs (IZR z) < bpow radix2 emax ->
    is_finite (Bofz prec emax Hprec Hmax z) = true /\ B2R (Bofz prec emax Hprec Hmax z) = IZR z.
  Proof.
    intros z. replace (IZR z) with (F2R (Float radix2 z 0)) by (unfold F2R; simpl; ring). exact (Bnorm_exact z 0).
  Qed.

  Lemma Bofz0 : is_finite (Bofz prec emax Hprec Hmax 0) = true /\ B2R (Bofz prec emax Hprec Hmax 0) = 0.
  Proof. split; reflexivity. Qed.

  Lemma af_from_spec : forall f, is_finite f = true ->
    is_finite (low (af_from f)) = true /\ is_finite (high (af_from f)) = true /\
    B2R (low (af_from f)) = B2R f /\ B2R (high (af_from f)) = B2R f.
  Proof.
    intros f Ff. destruct Bofz0 as [F0 V0].
    unfold af_from, af_from_value_and_error, n0. simpl.
    generalize (Bminus_correct prec emax Hprec Hmax mode_NE f _ Ff F0).
    generalize (Bplus_correct prec emax Hprec Hmax mode_NE f _ Ff F0).
    rewrite V0. rewrite Rplus_0_r, Rminus_0_r. simpl round_mode.
    change (round radix2 (SpecFloat.fexp prec emax) ZnearestE (B2R f)) with (RN (B2R f)).
    rewrite RN_B2R. rewrite Rlt_bool_true by apply abs_B2R_lt_emax.
    intros (HR1 & HF1 & _) (HR2 & HF2 & _). tauto.
  Qed.

  Lemma af_from_wf : forall f, is_finite f = true -> wf (af_from f) /\ contains (af_from f) (B2R f).
  Proof.
    intros f Ff. destruct (af_from_spec f Ff) as (Fl & Fh & Vl & Vh).
    split. repeat split; try assumption. lra.
    split. apply lb_finite. exact Fl. lra. apply ub_finite. exact Fh. lra.
  Qed.
  Lemma af_from_no_zero : forall f, is_finite f = true -> B2R f <> 0 -> no_zero (af_from f).
  Proof.
    intros f Ff Z. destruct (af_from_spec f Ff) as (Fl & Fh & Vl & Vh).
    unfold no_zero. rewrite Vl, Vh. lra.
  Qed.

  Lemma af_add_f_correct : forall I f x, wf I -> is_finite f = true -> contains I x ->
    contains (af_add_f I f) (x + B2R f).
  Proof.
    intros I f x W Ff C. destruct (af_from_wf f Ff) as [WJ CJ].
    apply af_add_correct; assumption.
  Qed.
  Lemma af_sub_f_correct : forall I f x, wf I -> is_finite f = true -> contains I x ->
    contains (af_sub_f I f) (x - B2R f).
  Proof.
    intros I f x W Ff C. destruct (af_from_wf f Ff) as [WJ CJ].
    apply af_sub_correct; assumption.
  Qed.
  Lemma af_div_f_correct : forall I f x, wf I -> is_finite f = true -> B2R f <> 0 -> contains I x ->
    contains (af_div_f I f) (x / B2R f).
  Proof.
    intros I f x W Ff Z C. destruct (af_from_wf f Ff) as [WJ CJ].
    apply af_div_correct; try assumption. apply af_from_no_zero; assumption.
  Qed.
  Lemma af_mul_assign_f_correct : forall I f x, wf I -> is_finite f = true -> contains I x ->
    contains (af_mul_assign_f I f) (x * B2R f).
  Proof.
    intros I f x W Ff C. destruct (af_from_wf f Ff) as [WJ CJ].
    apply af_mul_assign_correct; assumption.
  Qed.
  Lemma af_div_assign_f_correct : forall I f x, wf I -> is_finite f = true -> B2R f <> 0 -> contains I x ->
    contains (af_div_assign_f I f) (x / B2R f).
  Proof.
    intros I f x W Ff Z C. destruct (af_from_wf f Ff) as [WJ CJ].
    apply af_div_assign_correct; try assumption. apply af_from_no_zero; assumption.
  Qed.

  Lemma ext_wf_finite : forall I, is_finite (low I) = true -> is_finite (high I) = true ->
    (ext_wf I <-> B2R (low I) <= B2R (high I)).
  Proof.
    intros [l h]. unfold ext_wf. simpl.
    destruct l as [sl|sl| |sl ml el Hl]; destruct h as [sh|sh| |sh mh eh Hh];
      simpl; intros Fl Fh; try discriminate; tauto.
  Qed.

End C07_interval.
Arguments RN_id {prec emax}. Arguments RN_nonneg {prec emax Hprec}. Arguments rnd_inv {prec emax}. Arguments rnd_fwd {prec emax}. Arguments Bplus_fin {prec emax Hprec Hmax}.
Arguments Bmult_fin {prec emax Hprec Hmax}.
Arguments Beqb_fin {prec emax}. Arguments Bleb_finite {prec emax}. Arguments Bltb_finite {prec emax}. Arguments Bleb_le {prec emax}.
Arguments Bltb_Bleb {prec emax}. Arguments Bltb_false_Bleb {prec emax}. Arguments Bleb_false_Bltb {prec emax}.

(** ** binary64: non-vacuity and machine-checked refutations of the pinned operator forms *)
Lemma B2R_of_SF : forall (x : b64) s, B2SF x = s -> B2R x = SF2R radix2 s.
Proof. intros x s <-. symmetry. apply SF2R_B2SF. Qed.

Lemma SF2R_fin_neg : forall s m e,
  SF2R radix2 (S754_finite s m (Zneg e)) = IZR (cond_Zopp s (Zpos m)) / IZR (Z.pow_pos 2 e).
Proof. reflexivity. Qed.

Lemma SF2R_fin_pos : forall m e, 0 < SF2R radix2 (S754_finite false m e).
Proof. intros m e. apply F2R_gt_0. reflexivity. Qed.
Lemma SF2R_fin_lt0 : forall m e, SF2R radix2 (S754_finite true m e) < 0.
Proof. intros m e. apply F2R_lt_0. reflexivity. Qed.

Ltac norm_pow :=
  repeat match goal with
  | |- context [Z.pow_pos 2 ?e] =>
      let v := eval vm_compute in (Z.pow_pos 2 e) in change (Z.pow_pos 2 e) with v
  | H : context [Z.pow_pos 2 ?e] |- _ =>
      let v := eval vm_compute in (Z.pow_pos 2 e) in change (Z.pow_pos 2 e) with v in H
  end.
Ltac b2r_lit := rewrite ?SF2R_fin_neg in *; cbn [cond_Zopp Z.opp] in *; norm_pow.

Lemma sf_finite_B2R : forall (v : b64) s m e, B2SF v = S754_finite s m e ->
  is_finite v = true /\ B2R v = SF2R radix2 (S754_finite s m e).
Proof.
  intros v s m e H. split.
  - rewrite <- is_finite_SF_B2SF, H. reflexivity.
  - apply B2R_of_SF. exact H.
Qed.
Lemma lit64 : forall (v : b64) s m e x, B2SF v = S754_finite s m e -> SF2R radix2 (S754_finite s m e) = x ->
  is_finite v = true /\ B2R v = x.
Proof. intros v s m e x H <-. exact (sf_finite_B2R v s m e H). Qed.
Ltac lit64 s m e := apply (lit64 _ s m e); [vm_compute; reflexivity | b2r_lit; lra].

Lemma wf_finite : forall (lo hi : b64) l h, is_finite lo = true /\ B2R lo = l ->
  is_finite hi = true /\ B2R hi = h -> l <= h -> wf (mkAF lo hi).
Proof. intros lo hi l h [Fl <-] [Fh <-] H. repeat split; assumption. Qed.
Lemma contains_finite : forall (lo hi : b64) l h x, is_finite lo = true /\ B2R lo = l ->
  is_finite hi = true /\ B2R hi = h -> l <= x <= h -> contains (mkAF lo hi) x.
Proof.
  intros lo hi l h x [Fl <-] [Fh <-] H.
  split; [apply lb_finite|apply ub_finite]; try assumption; apply H.
Qed.
Lemma not_contains_below : forall (I : AF b64) s m e x,
  B2SF (low I) = S754_finite s m e -> x < SF2R radix2 (S754_finite s m e) -> ~ contains I x.
Proof.
  intros I s m e x H G [L _]. destruct (sf_finite_B2R _ _ _ _ H) as [F V].
  apply lb_finite in L; [|exact F]. rewrite <- V in G. exact (Rlt_irrefl _ (Rlt_le_trans _ _ _ G L)).
Qed.

Definition w1 : b64 := B64ofSF (S754_finite false 4503599627370496 (-52)).
Definition w2 : b64 := B64ofSF (S754_finite false 4503599627370496 (-51)).
Lemma w1_lit : is_finite w1 = true /\ B2R w1 = 1. Proof. lit64 false 4503599627370496%positive (-52)%Z. Qed.
Lemma w2_lit : is_finite w2 = true /\ B2R w2 = 2. Proof. lit64 false 4503599627370496%positive (-51)%Z. Qed.

Lemma C07_nonvacuous_proof :
  let one := B64ofSF (S754_finite false 4503599627370496 (-52)) in
  let two := B64ofSF (S754_finite false 4503599627370496 (-51)) in
  wf (mkAF one two) /\ contains (mkAF one two) 1.5%R /\ no_zero (mkAF one two).
Proof.
  change (wf (mkAF w1 w2) /\ contains (mkAF w1 w2) 1.5 /\ no_zero (mkAF w1 w2)).
  split; [|split].
  - apply (wf_finite _ _ _ _ w1_lit w2_lit). lra.
  - apply (contains_finite _ _ _ _ _ w1_lit w2_lit). lra.
  - left. cbn [low]. rewrite (proj2 w1_lit). lra.
Qed.

Lemma pinned_neg_refuted : exists I : AF b64, wf I /\ ~ ext_wf (af_neg_pinned I).
Proof.
  exists (mkAF w1 w2). destruct w1_lit as [F1 V1]. destruct w2_lit as [F2 V2].
  split.
  - apply (wf_finite _ _ _ _ w1_lit w2_lit). lra.
  - unfold af_neg_pinned. cbn [low high]. intros H.
    apply ext_wf_finite in H; cbn [low high] in *.
    + change (B2R (Bopp w1) <= B2R (Bopp w2)) in H.
      rewrite !B2R_Bopp, V1, V2 in H. lra.
    + change (is_finite (Bopp w1) = true). rewrite is_finite_Bopp. exact F1.
    + change (is_finite (Bopp w2) = true). rewrite is_finite_Bopp. exact F2.
Qed.

Definition w10 : b64 := B64ofSF (S754_finite false 10 0).
Definition w20 : b64 := B64ofSF (S754_finite false 20 0).
Lemma w10_lit : is_finite w10 = true /\ B2R w10 = 10. Proof. lit64 false 5629499534213120%positive (-49)%Z. Qed.
Lemma w20_lit : is_finite w20 = true /\ B2R w20 = 20. Proof. lit64 false 5629499534213120%positive (-48)%Z. Qed.

Lemma pinned_sub_refuted :
  exists (I J : AF b64) (x y : R), wf I /\ wf J /\ contains I x /\ contains J y /\
    ~ contains (af_sub_pinned I J) (x - y).
Proof.
  exists (mkAF w10 w20), (mkAF w1 w2), 10, 2.
  split. apply (wf_finite _ _ _ _ w10_lit w20_lit). lra.
  split. apply (wf_finite _ _ _ _ w1_lit w2_lit). lra.
  split. apply (contains_finite _ _ _ _ _ w10_lit w20_lit). lra.
  split. apply (contains_finite _ _ _ _ _ w1_lit w2_lit). lra.
  apply not_contains_below with false 5066549580791807%positive (-49)%Z; [vm_compute; reflexivity|].
  b2r_lit. lra.
Qed.

Definition wh : b64 := B64ofSF (S754_finite false 1 (-1)).
Definition wa : b64 := B64ofSF (S754_finite false 4503599627370497 (-52)).
Definition wf_ : b64 := B64ofSF (S754_finite true 4503599627370497 (-52)).
Lemma wh_lit : is_finite wh = true /\ B2R wh = 1 / 2. Proof. lit64 false 4503599627370496%positive (-53)%Z. Qed.
Lemma wa_lit : is_finite wa = true /\ B2R wa = 4503599627370497 / 4503599627370496.
Proof. lit64 false 4503599627370497%positive (-52)%Z. Qed.
Lemma wf_lit : is_finite wf_ = true /\ B2R wf_ = - 4503599627370497 / 4503599627370496.
Proof. lit64 true 4503599627370497%positive (-52)%Z. Qed.

Lemma pinned_mul_f_refuted :
  exists (I : AF b64) (f : b64) (x : R), wf I /\ is_finite f = true /\ contains I x /\
    ~ contains (af_mul_f_pinned I f) (x * B2R f).
Proof.
  exists (mkAF wh wa), wf_, (4503599627370497 / 4503599627370496).
  split. apply (wf_finite _ _ _ _ wh_lit wa_lit). lra.
  split. exact (proj1 wf_lit).
  split. apply (contains_finite _ _ _ _ _ wh_lit wa_lit). lra.
  rewrite (proj2 wf_lit).
  apply not_contains_below with true 4503599627370498%positive (-52)%Z; [vm_compute; reflexivity|].
  b2r_lit. lra.
Qed.

Definition wmz : b64 := B754_zero true.
Definition wt : b64 := B64ofSF (S754_finite false 1 (-548)).
Definition wnt : b64 := B64ofSF (S754_finite true 1 (-548)).

Lemma pinned_mul_assign_refuted :
  exists (I J : AF b64) (x y : R), wf I /\ wf J /\ contains I x /\ contains J y /\
    ~ contains (af_mul_assign_pinned 53 1024 Hprec53 Hmax1024 I J) (x * y).
Proof.
  exists (mkAF wmz wt), (mkAF wnt wnt), (B2R wt), (B2R wnt).
  assert (Lz : is_finite wmz = true /\ B2R wmz = 0) by (split; reflexivity).
  destruct (sf_finite_B2R wt false 4503599627370496 (-600)) as [Ft Vt]; [vm_compute; reflexivity|].
  destruct (sf_finite_B2R wnt true 4503599627370496 (-600)) as [Fn Vn]; [vm_compute; reflexivity|].
  assert (Pt : 0 < B2R wt) by (rewrite Vt; apply SF2R_fin_pos).
  assert (Nt : B2R wnt < 0) by (rewrite Vn; apply SF2R_fin_lt0).
  split. apply (wf_finite _ _ _ _ Lz (conj Ft eq_refl)). lra.
  split. apply (wf_finite _ _ _ _ (conj Fn eq_refl) (conj Fn eq_refl)). lra.
  split. apply (contains_finite _ _ _ _ _ Lz (conj Ft eq_refl)). lra.
  split. apply (contains_finite _ _ _ _ _ (conj Fn eq_refl) (conj Fn eq_refl)). lra.
  intros [L _].
  apply -> lb_finite in L; [|vm_compute; reflexivity].
  match type of L with B2R ?v <= _ =>
    rewrite (B2R_of_SF v (S754_zero false)) in L by (vm_compute; reflexivity) end.
  change (SF2R radix2 (S754_zero false)) with 0 in L. nra.
Qed.
