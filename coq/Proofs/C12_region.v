(** * C12 proofs, part 3: the REGION theorems -- merging the holes preserves the region.

    [poly_get_closed_loop] processes the holes one at a time: at every stage its own nearest-pair scan chooses
    an attachment vertex [me0] of the CURRENT outline (outer outline + the holes merged so far), a hole [ml]
    and a start vertex [iv'] of that hole; since fix bcb072e the position [me] = [attach_index ..] at which the hole's walk
    is spliced in is the visit of that vertex whose interior angle contains the bridge ([attach_same_vertex],
    [attach_index_cases], [in_cone_orient]); the region identities below hold for any position of the current outline.  [merge_trace] records these
    choices ([mstep]); [apply_steps] replays them; [trace_spec] says that this is [merge_spec], i.e.
    (under [closed_loop_clean]) the vertex list of the code's result.

    Everything that is an "edge functional summed around the outline" -- the winding number about a point
    (Theory/Winding.v [wn]), the planar shoelace area (Theory/Shoelace.v [area2]), the Newell vector of the model
    ([sum_cross], Theory/LoopGeom.v [newell]) -- is additive over a splice, the two bridge edges cancelling
    (Theory/Cyclic.v [csum_bridge]).  Folding this over the trace gives, for ANY number of holes, any vertex
    counts, either stored winding, any start vertex:

        F (merged) = F (outer) - sum over the holes of F (hole oriented like the outer outline)

    Side conditions (both decidable, both evaluated by [vm_compute] on the float instance in Properties/C12_region.v):
    - [closed_loop_clean false P = true] (Model/PolyAux.v; the property's general-position quantifier);
    - [closed_loop_wf P = true] (below): at every stage the attachment index is a position of the current outline,
      the start index is a position of the chosen hole, and no hole is chosen twice.  [scan_ext_cases] /
      [hits_wf] show that this can only fail at a stage whose scan finds NO pair of vertices closer than the value
      the scan starts from.  Since fix f0d596d that value is Float::MAX ([scan_start false] = [nmaxf]), so over the reals
      the condition holds whenever every loop has a vertex and the coordinates are below 2^500 ([within_reach_wf],
      [bounded_coords_wf]).  Before the fix the scan started from 9e14 = (3e7)^2 and a hole farther than 3e7 from every
      vertex of the current outline was never chosen (hole 0 was re-merged instead): [far_holes_pinned_refuted] at the
      end of this file (binary64, pinned merge, a clean run); [far_holes_now_merged] is the same polygon on the live model. *)
From Coq Require Import ZArith Reals Lra Lia Bool List Arith Permutation Floats Psatz.
From G3 Require Import Model.Num Model.NumF Model.Base Model.Vec Model.Segment Model.Loop Model.Polygon Model.PolyAux Theory.RInst Theory.LoopGeom
  Proofs.C04_loop Proofs.C04_reach Proofs.C04_reach_live Proofs.C10_measures Proofs.C11_cut_hole Proofs.C12_merge Proofs.C12_edge_sum.
From G3 Require Theory.Cyclic Theory.Winding Theory.Shoelace Proofs.C05_pointtest Proofs.C05_winding Proofs.C10_planar.
Import ListNotations.

(** ** the trace of the merge *)
Section Trace.
  Context {K : Type} {NK : Num K}.
  Notation V := (V3 K).

  (** one stage: attach hole number [ms_ml] (= [ms_hole]) at position [ms_me] of the current outline, walking it
      from its vertex [ms_id].  [ms_me0] is the position found by the nearest-pair scan; since fix bcb072e the
      attachment position [ms_me] = [attach_index] is the visit of that same vertex whose interior angle contains the
      bridge (it can differ from [ms_me0] when the vertex already carries a bridge). *)
  Record mstep := mkStep { ms_me : nat; ms_ml : nat; ms_hole : Loop K; ms_id : nat; ms_me0 : nat }.
  Definition step_walk (on : V) (s : mstep) : list V :=
    walk_list false (vis_same_direction on (lnormal (ms_hole s))) (verts (ms_hole s)) (ms_id s).
  Fixpoint apply_steps (on : V) (vs : list V) (tr : list mstep) : list V :=
    match tr with
    | [] => vs
    | s :: tl => apply_steps on (splice vs 0 (ms_me s) (step_walk on s)) tl
    end.
  Fixpoint merge_trace (P : Poly K) (count : nat) (vs : list V) (processed : list nat) (il iv_id : nat) : option (list mstep) :=
    match count with
    | O => Some []
    | S c =>
      let '(md, me0, ml, il', iv') := scan_ext vs 0 (pinner P) processed (scan_start false, O, O, il, iv_id) in
      match nth_error (pinner P) ml with
      | None => None
      | Some hole =>
        match attach_index false P vs me0 hole iv' with
        | Ok me =>
          let s := mkStep me ml hole iv' me0 in
          option_map (cons s) (merge_trace P c (splice vs 0 me (step_walk (lnormal (pouter P)) s)) (processed ++ [il']) il' iv')
        | _ => None
        end
      end
    end.
  Definition closed_loop_trace (P : Poly K) : option (list mstep) :=
    merge_trace P (length (pinner P)) (verts (pouter P)) [] 0 0.

  Lemma trace_spec (P : Poly K) : forall count vs processed il iv,
    merge_spec false P count vs processed il iv =
    option_map (apply_steps (lnormal (pouter P)) vs) (merge_trace P count vs processed il iv).
  Proof.
    induction count as [|c IH]; intros vs processed il iv; cbn [merge_spec merge_trace]; [reflexivity|].
    destruct (scan_ext vs 0 (pinner P) processed (scan_start false, 0, 0, il, iv)) as [[[[md me0] ml] il'] iv'].
    destruct (nth_error (pinner P) ml) as [hole|]; [|reflexivity].
    destruct (attach_index false P vs me0 hole iv') as [me| |]; try reflexivity.
    rewrite IH. unfold step_walk at 1. cbn [ms_hole ms_id].
    destruct (merge_trace P c _ (processed ++ [il']) il' iv') as [tr|]; reflexivity.
  Qed.
  Lemma trace_facts (P : Poly K) : forall count vs processed il iv tr,
    merge_trace P count vs processed il iv = Some tr ->
    length tr = count /\ Forall (fun s => nth_error (pinner P) (ms_ml s) = Some (ms_hole s)) tr.
  Proof.
    induction count as [|c IH]; intros vs processed il iv tr; cbn [merge_trace].
    - intros H; injection H as H; subst tr. split; [reflexivity | constructor].
    - destruct (scan_ext vs 0 (pinner P) processed (scan_start false, 0, 0, il, iv)) as [[[[md me0] ml] il'] iv'].
      destruct (nth_error (pinner P) ml) as [hole|] eqn:En; [|discriminate].
      destruct (attach_index false P vs me0 hole iv') as [me| |]; try discriminate.
      destruct (merge_trace P c _ (processed ++ [il']) il' iv') as [tr'|] eqn:Et; [|discriminate].
      cbn [option_map]. intros H; injection H as H; subst tr. destruct (IH _ _ _ _ _ Et) as [Hl Hf].
      split; [cbn [length]; f_equal; exact Hl|]. constructor; [exact En | exact Hf].
  Qed.

  (** the decidable well-formedness of the trace *)
  Fixpoint steps_bounds (on : V) (vs : list V) (tr : list mstep) : bool :=
    match tr with
    | [] => true
    | s :: tl => Nat.ltb (ms_me s) (length vs) && Nat.ltb (ms_id s) (llen (ms_hole s)) &&
                 steps_bounds on (splice vs 0 (ms_me s) (step_walk on s)) tl
    end.
  Fixpoint nodupb (l : list nat) : bool :=
    match l with [] => true | a :: tl => negb (existsb (Nat.eqb a) tl) && nodupb tl end.
  Definition closed_loop_wf (P : Poly K) : bool :=
    match closed_loop_trace P with
    | Some tr => steps_bounds (lnormal (pouter P)) (verts (pouter P)) tr && nodupb (map ms_ml tr)
    | None => false
    end.

  Lemma nodupb_NoDup (l : list nat) : nodupb l = true -> NoDup l.
  Proof.
    induction l as [|a l IH]; cbn [nodupb]; intros H; [constructor|]. apply andb_prop in H. destruct H as [H1 H2].
    constructor; [|apply IH; exact H2]. intros Hin. apply negb_true_iff in H1.
    assert (E : existsb (Nat.eqb a) l = true) by (apply existsb_exists; exists a; split; [exact Hin | apply Nat.eqb_refl]).
    rewrite E in H1. discriminate.
  Qed.

  (** the holes of the trace are the holes of the polygon, each exactly once *)
  Lemma map_nth_seq {A} (d : A) (l : list A) : map (fun k => nth k l d) (seq 0 (length l)) = l.
  Proof.
    induction l as [|a l IH]; [reflexivity|]. cbn [length seq map nth]. f_equal.
    rewrite <- seq_shift, map_map. exact IH.
  Qed.
  Lemma trace_holes_perm (P : Poly K) (tr : list mstep) :
    length tr = length (pinner P) -> Forall (fun s => nth_error (pinner P) (ms_ml s) = Some (ms_hole s)) tr ->
    NoDup (map ms_ml tr) -> Permutation (map ms_hole tr) (pinner P).
  Proof.
    intros Hl Hf Hn.
    assert (Hp : Permutation (map ms_ml tr) (seq 0 (length (pinner P)))).
    { apply NoDup_Permutation_bis; [exact Hn | rewrite seq_length, map_length; lia|].
      intros k Hk. apply in_map_iff in Hk. destruct Hk as [s [Es Is]]. subst k.
      rewrite Forall_forall in Hf. specialize (Hf s Is). apply in_seq. split; [lia|]. cbn.
      apply nth_error_Some. rewrite Hf. discriminate. }
    assert (E : map ms_hole tr = map (fun k => nth k (pinner P) loop_new) (map ms_ml tr)).
    { rewrite map_map. apply map_ext_in. intros s Is. rewrite Forall_forall in Hf. specialize (Hf s Is).
      symmetry. apply nth_error_nth. exact Hf. }
    rewrite E. pose proof (Permutation_map (fun k => nth k (pinner P) loop_new) Hp) as Hq. rewrite map_nth_seq in Hq. exact Hq.
  Qed.

  (** ** every vertex occurs *)
  Lemma In_splice (w : list V) (me : nat) (v : V) : forall evs i,
    In v (splice evs i me w) <-> In v evs \/ (In v w /\ i <= me < i + length evs).
  Proof.
    induction evs as [|a evs IH]; intros i; cbn [splice length In].
    - split; [intros [] | intros [[]|[_ H]]; lia].
    - destruct (Nat.eqb_spec i me); cbn [In]; rewrite ?in_app_iff; cbn [In]; rewrite IH; intuition lia.
  Qed.
  Lemma In_walk (sd : bool) (hvs : list V) (id : nat) (v : V) : id < length hvs -> In v hvs -> In v (walk_list false sd hvs id).
  Proof.
    intros Hid H. destruct sd.
    - rewrite walk_backward by exact Hid. apply in_or_app. left. apply -> in_rev.
      rewrite <- (firstn_skipn (S id) hvs) in H. apply in_app_or in H. apply in_or_app. tauto.
    - rewrite walk_forward by exact Hid. apply in_or_app. left.
      rewrite <- (firstn_skipn id hvs) in H. apply in_app_or in H. apply in_or_app. tauto.
  Qed.
  Lemma In_apply_steps_keep (on : V) (v : V) : forall tr vs, In v vs -> In v (apply_steps on vs tr).
  Proof. induction tr as [|s tr IH]; intros vs H; cbn [apply_steps]; [exact H|]. apply IH. apply In_splice. left. exact H. Qed.
  Lemma steps_bounds_cons (on : V) (vs : list V) (s : mstep) (tl : list mstep) : steps_bounds on vs (s :: tl) = true ->
    ms_me s < length vs /\ ms_id s < llen (ms_hole s) /\ steps_bounds on (splice vs 0 (ms_me s) (step_walk on s)) tl = true.
  Proof. cbn [steps_bounds]. rewrite !andb_true_iff, !Nat.ltb_lt. tauto. Qed.
  Lemma In_apply_steps_hole (on : V) (v : V) (s : mstep) : forall tr vs, steps_bounds on vs tr = true ->
    In s tr -> In v (verts (ms_hole s)) -> In v (apply_steps on vs tr).
  Proof.
    induction tr as [|s' tr IH]; intros vs Hb Is Iv; [destruct Is|]. cbn [apply_steps].
    destruct (steps_bounds_cons _ _ _ _ Hb) as (Hb1 & Hb2 & Hb3). destruct Is as [Is|Is].
    - subst s'. apply In_apply_steps_keep. apply In_splice. right. split; [|lia]. unfold step_walk. apply In_walk; assumption.
    - apply IH; assumption.
  Qed.

  (** the merged outline IS the replay of the trace (one stage per hole, holes looked up in the polygon) *)
  Theorem merged_is_trace (P : Poly K) : closed_loop_clean false P = true ->
    exists L tr, poly_get_closed_loop P = Ok L /\ closed_loop_trace P = Some tr /\
      verts L = apply_steps (lnormal (pouter P)) (verts (pouter P)) tr /\ length tr = length (pinner P) /\
      Forall (fun s => nth_error (pinner P) (ms_ml s) = Some (ms_hole s)) tr.
  Proof.
    intros Hc. destruct (closed_loop_characterised P Hc) as [L [HL Hs]]. exists L.
    unfold closed_loop_spec in Hs. rewrite trace_spec in Hs. unfold closed_loop_trace.
    destruct (merge_trace P (length (pinner P)) (verts (pouter P)) [] 0 0) as [tr|] eqn:Et; [|discriminate].
    cbn [option_map] in Hs. injection Hs as Hs. exists tr. destruct (trace_facts _ _ _ _ _ _ _ Et) as [Hl Hf].
    repeat split; [exact HL | symmetry; exact Hs | exact Hl | exact Hf].
  Qed.
  (** ... and when the trace is well formed it stays within bounds and takes every hole exactly once *)
  Lemma merged_wf_trace (P : Poly K) : closed_loop_clean false P = true -> closed_loop_wf P = true ->
    exists L tr, poly_get_closed_loop P = Ok L /\ verts L = apply_steps (lnormal (pouter P)) (verts (pouter P)) tr /\
      steps_bounds (lnormal (pouter P)) (verts (pouter P)) tr = true /\ Permutation (map ms_hole tr) (pinner P).
  Proof.
    intros Hc Hw. destruct (merged_is_trace P Hc) as (L & tr & HL & Et & Ev & Hl & Hf). exists L, tr.
    unfold closed_loop_wf in Hw. rewrite Et in Hw. apply andb_prop in Hw. destruct Hw as [Hb Hn].
    repeat split; [exact HL | exact Ev | exact Hb | apply trace_holes_perm; [exact Hl | exact Hf | apply nodupb_NoDup; exact Hn]].
  Qed.

  (** ** folding a splice-additive functional over the trace *)
  Definition oriented (on : V) (h : Loop K) : list V := if vis_same_direction on (lnormal h) then verts h else rev (verts h).

  Section Functional.
    Variable G : Type.
    Variables (gadd : G -> G -> G) (gopp : G -> G) (g0 : G).
    Hypothesis gadd_comm : forall x y, gadd x y = gadd y x.
    Hypothesis gadd_assoc : forall x y z, gadd (gadd x y) z = gadd x (gadd y z).
    Hypothesis gadd_0_r : forall x, gadd x g0 = x.
    Hypothesis gopp_opp : forall x, gopp (gopp x) = x.
    Hypothesis gopp_add : forall x y, gopp (gadd x y) = gadd (gopp x) (gopp y).
    Hypothesis gopp_0 : gopp g0 = g0.
    Variable F : list V -> G.
    Hypothesis F_splice : forall (evs hvs : list V) (me id : nat) (sd : bool), me < length evs -> id < length hvs ->
      F (splice evs 0 me (walk_list false sd hvs id)) = gadd (F evs) (if sd then gopp (F hvs) else F hvs).
    Hypothesis F_rev : forall l : list V, F (rev l) = gopp (F l).

    Definition gsum (l : list G) : G := fold_right gadd g0 l.
    Lemma gsum_perm (l l' : list G) : Permutation l l' -> gsum l = gsum l'.
    Proof.
      induction 1 as [|x l l' _ IH|x y l|l l' l'' _ IH1 _ IH2]; unfold gsum in *; cbn [fold_right] in *.
      - reflexivity.
      - rewrite IH. reflexivity.
      - rewrite <- !gadd_assoc, (gadd_comm y x). reflexivity.
      - rewrite IH1. exact IH2.
    Qed.
    Lemma gsum_opp (l : list G) : gsum (map gopp l) = gopp (gsum l).
    Proof. unfold gsum. induction l as [|x l IH]; cbn [map fold_right]; [symmetry; exact gopp_0|]. rewrite IH, gopp_add. reflexivity. Qed.

    Lemma F_steps (on : V) : forall tr vs, steps_bounds on vs tr = true ->
      F (apply_steps on vs tr) = gadd (F vs) (gopp (gsum (map (fun s => F (oriented on (ms_hole s))) tr))).
    Proof.
      induction tr as [|s tr IH]; intros vs Hb; cbn [apply_steps map gsum fold_right].
      - rewrite gopp_0, gadd_0_r. reflexivity.
      - destruct (steps_bounds_cons _ _ _ _ Hb) as (Hb1 & Hb2 & Hb3).
        rewrite IH by exact Hb3. unfold step_walk. rewrite F_splice by assumption.
        fold (gsum (map (fun s => F (oriented on (ms_hole s))) tr)). rewrite gopp_add, gadd_assoc. f_equal. f_equal.
        unfold oriented. destruct (vis_same_direction on (lnormal (ms_hole s))); [reflexivity|]. rewrite F_rev, gopp_opp. reflexivity.
    Qed.

    (** the fold: F(merged) = F(outer) - sum over ALL holes of F(hole oriented like the outer outline) *)
    Theorem F_merged (P : Poly K) :
      closed_loop_clean false P = true -> closed_loop_wf P = true ->
      exists L, poly_get_closed_loop P = Ok L /\
        F (verts L) = gadd (F (verts (pouter P))) (gopp (gsum (map (fun h => F (oriented (lnormal (pouter P)) h)) (pinner P)))).
    Proof.
      intros Hc Hw. destruct (merged_wf_trace P Hc Hw) as (L & tr & HL & Ev & Hb & Hp). exists L. split; [exact HL|].
      rewrite Ev, (F_steps _ _ _ Hb). f_equal. f_equal.
      rewrite <- (map_map ms_hole (fun h => F (oriented (lnormal (pouter P)) h))).
      apply gsum_perm. apply Permutation_map. exact Hp.
    Qed.
  End Functional.

  (** every vertex of the outer loop and of every hole occurs in the merged outline *)
  Theorem merged_has_every_vertex (P : Poly K) :
    closed_loop_clean false P = true -> closed_loop_wf P = true ->
    exists L, poly_get_closed_loop P = Ok L /\
      (forall v, In v (verts (pouter P)) -> In v (verts L)) /\
      (forall h v, In h (pinner P) -> In v (verts h) -> In v (verts L)).
  Proof.
    intros Hc Hw. destruct (merged_wf_trace P Hc Hw) as (L & tr & HL & Ev & Hb & Hp). exists L. split; [exact HL|]. rewrite Ev.
    split; [intros v Hv; apply In_apply_steps_keep; exact Hv|].
    intros h v Hh Hv.
    apply (Permutation_in _ (Permutation_sym Hp)) in Hh. apply in_map_iff in Hh. destruct Hh as [s [Es Is]]. subst h.
    apply (In_apply_steps_hole _ _ s _ _ Hb Is Hv).
  Qed.
  Lemma splice_length (w evs : list V) (me : nat) : me < length evs -> length (splice evs 0 me w) = length evs + length w + 1.
  Proof.
    intros H. rewrite splice_split by exact H. rewrite app_length. cbn [length]. rewrite app_length. cbn [length].
    rewrite firstn_length, skipn_length. lia.
  Qed.
End Trace.
Arguments mstep K : clear implicits.

(** ** the real instance: winding number, planar area, Newell vector, reported area and normal *)
Section Region.
  Local Open Scope R_scope.
  Notation P2 := Winding.P2.

  Definition zsum (l : list Z) : Z := fold_right Z.add 0%Z l.
  Definition rsum (l : list R) : R := fold_right Rplus 0 l.
  Lemma zsum_app (l1 l2 : list Z) : zsum (l1 ++ l2) = (zsum l1 + zsum l2)%Z.
  Proof. unfold zsum. induction l1 as [|a l1 IH]; cbn [app fold_right]; [reflexivity|]. rewrite IH. ring. Qed.
  Lemma zsum_nonneg (l : list Z) : (forall x, In x l -> (0 <= x)%Z) -> (0 <= zsum l)%Z.
  Proof.
    unfold zsum. induction l as [|x l IH]; intros H; cbn [fold_right]; [lia|].
    pose proof (H x (or_introl eq_refl)). pose proof (IH (fun y Hy => H y (or_intror Hy))). lia.
  Qed.
  Lemma zsum_member_le (l : list Z) (x : Z) : (forall y, In y l -> (0 <= y)%Z) -> In x l -> (x <= zsum l)%Z.
  Proof.
    induction l as [|y l IH]; intros H Hin; [destruct Hin|]. unfold zsum in *. cbn [fold_right]. destruct Hin as [->|Hin].
    - pose proof (zsum_nonneg l (fun z Hz => H z (or_intror Hz))). unfold zsum in *. lia.
    - pose proof (H y (or_introl eq_refl)). pose proof (IH (fun z Hz => H z (or_intror Hz)) Hin). lia.
  Qed.
  Lemma zsum_zero {A} (f : A -> Z) (l : list A) : (forall x, In x l -> f x = 0%Z) -> zsum (map f l) = 0%Z.
  Proof.
    unfold zsum. induction l as [|a l IH]; intros H; cbn [map fold_right]; [reflexivity|].
    rewrite (H a (or_introl eq_refl)). exact (IH (fun x Hx => H x (or_intror Hx))).
  Qed.
  Lemma zsum_all_zero (l : list Z) : (forall x, In x l -> x = 0%Z) -> zsum l = 0%Z.
  Proof. intros H. rewrite <- (map_id l). apply zsum_zero. exact H. Qed.

  (** *** 1. winding number, in the coordinates of ANY map [pr] of the vertices to the plane
      (in particular the plane frame [plane2 o e1 e2] of Proofs/C05_pointtest.v).  No genericity hypothesis on the
      ray is needed: the identity holds edge by edge. *)
  Section Planar.
    Variable pr : V -> P2.
    Definition wn_of (d q : P2) (l : list V) : Z := Winding.wn d (map pr l) q.
    Definition area2_of (l : list V) : R := Shoelace.area2 (map pr l).

    Lemma wn_of_splice (d q : P2) (evs hvs : list V) (me id : nat) (sd : bool) : (me < length evs)%nat -> (id < length hvs)%nat ->
      wn_of d q (splice evs 0 me (walk_list false sd hvs id)) = (wn_of d q evs + (if sd then - wn_of d q hvs else wn_of d q hvs))%Z.
    Proof.
      intros Hme Hid. unfold wn_of, Winding.wn. rewrite !Cyclic.csum_map.
      apply (csum_splice InitialRing.Zth); [|exact Hme | exact Hid]. intros a b. apply Winding.crd_antisym.
    Qed.
    Lemma wn_of_rev (d q : P2) (l : list V) : wn_of d q (rev l) = (- wn_of d q l)%Z.
    Proof. unfold wn_of. rewrite map_rev. apply Winding.wn_rev. Qed.
    (** one hole, as walked: the stored hole reversed exactly when the stored normals agree *)
    Theorem wn_one_hole (d q : P2) (on : V) (evs : list V) (hole : Loop R) (me id : nat) :
      (me < length evs)%nat -> (id < llen hole)%nat ->
      let sd := vis_same_direction on (lnormal hole) in
      Winding.wn d (map pr (splice evs 0 me (walk_list false sd (verts hole) id))) q =
      (Winding.wn d (map pr evs) q + Winding.wn d (map pr (if sd then rev (verts hole) else verts hole)) q)%Z /\
      Winding.wn d (map pr (splice evs 0 me (walk_list false sd (verts hole) id))) q =
      (Winding.wn d (map pr evs) q - Winding.wn d (map pr (oriented on hole)) q)%Z.
    Proof.
      intros Hme Hid sd. pose proof (wn_of_splice d q evs (verts hole) me id sd Hme Hid) as H. unfold wn_of in *.
      unfold oriented. fold sd. destruct sd; rewrite map_rev, Winding.wn_rev; (split; [exact H | rewrite H; ring]).
    Qed.
    Theorem wn_merged (P : Poly R) (d q : P2) :
      closed_loop_clean false P = true -> closed_loop_wf P = true ->
      exists L, poly_get_closed_loop P = Ok L /\
        Winding.wn d (map pr (verts L)) q =
        (Winding.wn d (map pr (verts (pouter P))) q -
         zsum (map (fun h => Winding.wn d (map pr (oriented (lnormal (pouter P)) h)) q) (pinner P)))%Z.
    Proof.
      intros Hc Hw.
      destruct (F_merged Z Z.add Z.opp 0%Z Z.add_comm (fun x y z => eq_sym (Z.add_assoc x y z)) Z.add_0_r Z.opp_involutive Z.opp_add_distr eq_refl
                  (wn_of d q) (wn_of_splice d q) (wn_of_rev d q) P Hc Hw) as [L [HL E]].
      exists L. split; [exact HL|]. unfold wn_of in E. rewrite E. unfold zsum, gsum. ring.
    Qed.

    (** region membership: a point in no hole keeps the outline's winding number; a point in exactly one hole
        (winding number 1 about that hole oriented like the outline, 0 about the others) loses 1 *)
    Corollary wn_merged_outside_holes (P : Poly R) (d q : P2) :
      closed_loop_clean false P = true -> closed_loop_wf P = true ->
      (forall h, In h (pinner P) -> Winding.wn d (map pr (oriented (lnormal (pouter P)) h)) q = 0%Z) ->
      exists L, poly_get_closed_loop P = Ok L /\ Winding.wn d (map pr (verts L)) q = Winding.wn d (map pr (verts (pouter P))) q.
    Proof.
      intros Hc Hw H0. destruct (wn_merged P d q Hc Hw) as [L [HL E]]. exists L. split; [exact HL|]. rewrite E.
      rewrite (zsum_zero (fun h => Winding.wn d (map pr (oriented (lnormal (pouter P)) h)) q) _ H0). ring.
    Qed.
    Corollary wn_merged_inside_one_hole (P : Poly R) (d q : P2) (l1 l2 : list (Loop R)) (h : Loop R) :
      closed_loop_clean false P = true -> closed_loop_wf P = true -> pinner P = l1 ++ h :: l2 ->
      Winding.wn d (map pr (oriented (lnormal (pouter P)) h)) q = 1%Z ->
      (forall h', In h' (l1 ++ l2) -> Winding.wn d (map pr (oriented (lnormal (pouter P)) h')) q = 0%Z) ->
      exists L, poly_get_closed_loop P = Ok L /\ Winding.wn d (map pr (verts L)) q = (Winding.wn d (map pr (verts (pouter P))) q - 1)%Z.
    Proof.
      intros Hc Hw Hs H1 H0. destruct (wn_merged P d q Hc Hw) as [L [HL E]]. exists L. split; [exact HL|]. rewrite E, Hs.
      rewrite map_app, zsum_app. cbn [map zsum fold_right]. fold (zsum (map (fun h => Winding.wn d (map pr (oriented (lnormal (pouter P)) h)) q) l2)).
      rewrite H1. rewrite !zsum_zero by (intros x Hx; apply H0; apply in_or_app; tauto). ring.
    Qed.

    Lemma area2_of_splice (evs hvs : list V) (me id : nat) (sd : bool) : (me < length evs)%nat -> (id < length hvs)%nat ->
      area2_of (splice evs 0 me (walk_list false sd hvs id)) = area2_of evs + (if sd then - area2_of hvs else area2_of hvs).
    Proof.
      intros Hme Hid. unfold area2_of, Shoelace.area2. rewrite !Cyclic.csum_map.
      rewrite (csum_splice RTheory) by (try assumption; intros a b; apply Shoelace.cross2_anti).
      destruct sd; ring.
    Qed.
    Lemma area2_of_rev (l : list V) : area2_of (rev l) = - area2_of l.
    Proof. unfold area2_of. rewrite map_rev. apply Shoelace.area2_rev. Qed.
    Theorem area2_merged (P : Poly R) :
      closed_loop_clean false P = true -> closed_loop_wf P = true ->
      exists L, poly_get_closed_loop P = Ok L /\
        Shoelace.area2 (map pr (verts L)) =
        Shoelace.area2 (map pr (verts (pouter P))) - rsum (map (fun h => Shoelace.area2 (map pr (oriented (lnormal (pouter P)) h))) (pinner P)).
    Proof.
      intros Hc Hw.
      destruct (F_merged R Rplus Ropp 0 Rplus_comm Rplus_assoc Rplus_0_r Ropp_involutive Ropp_plus_distr Ropp_0
                  area2_of area2_of_splice area2_of_rev P Hc Hw) as [L [HL E]].
      exists L. split; [exact HL|]. unfold area2_of in E. rewrite E. unfold rsum, gsum. ring.
    Qed.
  End Planar.

  (** *** 2. the Newell vector of the model ([sum_cross], the numerator of Loop3D::set_area) *)
  Lemma newell_is (vs : list V) : C12_edge_sum.newell vs = LoopGeom.newell vs.
  Proof. unfold C12_edge_sum.newell. apply sum_cross_newell. Qed.
  Lemma newell3_splice (evs hvs : list V) (me id : nat) (sd : bool) : (me < length evs)%nat -> (id < length hvs)%nat ->
    LoopGeom.newell (splice evs 0 me (walk_list false sd hvs id)) =
    vadd (LoopGeom.newell evs) (if sd then vneg (LoopGeom.newell hvs) else LoopGeom.newell hvs).
  Proof. rewrite <- !newell_is. apply C12_edge_sum.newell3_splice. Qed.
  Theorem newell_one_hole (on : V) (evs : list V) (hole : Loop R) (me id : nat) :
    (me < length evs)%nat -> (id < llen hole)%nat ->
    LoopGeom.newell (splice evs 0 me (walk_list false (vis_same_direction on (lnormal hole)) (verts hole) id)) =
    vadd (LoopGeom.newell evs) (vneg (LoopGeom.newell (oriented on hole))).
  Proof.
    intros Hme Hid. rewrite newell3_splice by assumption. unfold oriented.
    destruct (vis_same_direction on (lnormal hole)); [reflexivity|]. rewrite LoopGeom.newell_rev, vneg_neg. reflexivity.
  Qed.
  Theorem newell_merged (P : Poly R) :
    closed_loop_clean false P = true -> closed_loop_wf P = true ->
    exists L, poly_get_closed_loop P = Ok L /\
      LoopGeom.newell (verts L) =
      vadd (LoopGeom.newell (verts (pouter P))) (vneg (vsum (map (fun h => LoopGeom.newell (oriented (lnormal (pouter P)) h)) (pinner P)))).
  Proof.
    intros Hc Hw.
    exact (F_merged V vadd vneg vzero vadd_comm vadd_assoc vadd_zero_r vneg_neg vneg_add vneg_zero
             LoopGeom.newell newell3_splice LoopGeom.newell_rev P Hc Hw).
  Qed.
End Region.

(** *** 3. net area, reported area and normal of the closed merged outline *)
Section Area.
  Local Open Scope R_scope.

  Lemma vis_zero_unit (n : V) : vdot n n = 1 -> vis_zero n = false.
  Proof.
    destruct n as [a b c]. unfold vis_zero, vdot. cbn [vx vy vz]. rnum. intros H. pose proof ctiny_small as T.
    set (t := ctiny) in *.
    rcase (Rabs a) t Ha; cbn [andb]; [|reflexivity]. rcase (Rabs b) t Hb; cbn [andb]; [|reflexivity]. rcase (Rabs c) t Hc; [|reflexivity].
    exfalso. assert (Q : forall x, Rabs x < /2 -> x * x < /4). { intros x Hx. apply Rabs_def2 in Hx. nra. }
    pose proof (Q a ltac:(lra)). pose proof (Q b ltac:(lra)). pose proof (Q c ltac:(lra)). lra.
  Qed.
  (** for a unit vector the code's same-direction test is decisive on n and -n *)
  Lemma same_dir_unit (n : V) : vdot n n = 1 -> vis_same_direction n n = true /\ vis_same_direction n (vneg n) = false.
  Proof.
    intros H. pose proof (vis_zero_unit n H) as Z1.
    assert (H' : vdot (vneg n) (vneg n) = 1) by (rewrite vdot_neg_l, vdot_neg_r; lra).
    pose proof (vis_zero_unit _ H') as Z2.
    unfold vis_same_direction, vis_parallel. rewrite Z1, Z2. cbn [orb].
    assert (L1 : vlen2 n = 1) by exact H. assert (L2 : vlen2 (vneg n) = 1) by exact H'.
    rewrite L1, L2, vdot_neg_r, H. unfold c1em5. rnum.
    replace (1 * 1 - 1 * 1) with 0 by ring. replace (-(1) * -(1) - 1 * 1) with 0 by ring. rewrite Rabs_R0.
    assert (E : Rltb 0 (1 / 100000) = true) by (apply Rltb_true; lra). rewrite E. cbn [negb].
    split; [apply Rltb_true; lra | apply Rltb_false; lra].
  Qed.

  (** what a successful [close] reports, in signed form: area = n . S / 2 with its own (right-hand-rule) normal n *)
  Lemma closed_signed_area (L0 : Loop R) : snd (loop_close L0) = Ok tt ->
    let L := fst (loop_close L0) in
    larea L = vdot (lnormal L) (LoopGeom.newell (verts L)) / 2 /\ 0 <= vdot (lnormal L) (LoopGeom.newell (verts L)).
  Proof.
    intros H. destruct (close_measures L0 H) as (_ & _ & Ha & Hn & Hs & _). cbn zeta in *. split; [|exact Hs].
    rewrite Ha. destruct Hn as [Hn|Hn]; rewrite Hn in *.
    - rewrite Rabs_pos_eq by exact Hs. reflexivity.
    - rewrite vdot_neg_l in Hs. rewrite vdot_neg_l. rewrite Rabs_left1 by lra. reflexivity.
  Qed.

  (** the holes lie in the outline's plane: their stored normals are + or - the outline's (unit) normal; and every
      loop's stored area is n . S / 2 with its OWN stored normal (true of every loop closed by [close]:
      [closed_signed_area]) *)
  Definition planar_normals (P : Poly R) : Prop :=
    forall h, In h (pinner P) -> lnormal h = lnormal (pouter P) \/ lnormal h = vneg (lnormal (pouter P)).
  Definition signed_areas (P : Poly R) : Prop :=
    larea (pouter P) = vdot (lnormal (pouter P)) (LoopGeom.newell (verts (pouter P))) / 2 /\
    forall h, In h (pinner P) -> larea h = vdot (lnormal h) (LoopGeom.newell (verts h)) / 2.

  Lemma oriented_area (n : V) (h : Loop R) : vdot n n = 1 -> (lnormal h = n \/ lnormal h = vneg n) ->
    larea h = vdot (lnormal h) (LoopGeom.newell (verts h)) / 2 -> vdot n (LoopGeom.newell (oriented n h)) = 2 * larea h.
  Proof.
    intros Hu Hn Ha. destruct (same_dir_unit n Hu) as [S1 S2]. unfold oriented. destruct Hn as [Hn|Hn]; rewrite Hn in *.
    - rewrite S1. lra.
    - rewrite S2. rewrite LoopGeom.newell_rev, vdot_neg_r. rewrite vdot_neg_l in Ha. lra.
  Qed.
  Lemma vdot_vsum (n : V) (l : list V) : vdot n (vsum l) = rsum (map (vdot n) l).
  Proof. induction l as [|a l IH]; cbn [vsum fold_right map rsum]; [apply vdot_zero_r|]. fold (vsum l). fold (rsum (map (vdot n) l)). rewrite vdot_add_r, IH. reflexivity. Qed.

  Theorem net_area_merged (P : Poly R) :
    let n := lnormal (pouter P) in
    closed_loop_clean false P = true -> closed_loop_wf P = true ->
    vdot n n = 1 -> planar_normals P -> signed_areas P ->
    exists L, poly_get_closed_loop P = Ok L /\
      vdot n (LoopGeom.newell (verts L)) / 2 = larea (pouter P) - rsum (map larea (pinner P)).
  Proof.
    intros n Hc Hw Hu Hp [Ho Hh]. destruct (newell_merged P Hc Hw) as [L [HL E]]. exists L. split; [exact HL|].
    rewrite E. fold n. rewrite vdot_add_r, vdot_neg_r, vdot_vsum, map_map. fold n in Ho. rewrite Ho.
    assert (Q : forall hs, (forall h, In h hs -> In h (pinner P)) ->
                rsum (map (fun h => vdot n (LoopGeom.newell (oriented n h))) hs) = 2 * rsum (map larea hs)).
    { induction hs as [|h hs IH]; intros Hin; cbn [map rsum fold_right]; [ring|].
      fold (rsum (map (fun h => vdot n (LoopGeom.newell (oriented n h))) hs)). fold (rsum (map larea hs)).
      rewrite IH by (intros h' Hh'; apply Hin; right; exact Hh').
      rewrite (oriented_area n h Hu (Hp h (Hin h (or_introl eq_refl))) (Hh h (Hin h (or_introl eq_refl)))). ring. }
    rewrite (Q (pinner P) (fun h H => H)). lra.
  Qed.

  (** the polygon's own accounting ([cut_hole]: area' = area - hole.area, Proofs/C11_cut_hole.v) in closed form *)
  Lemma sub_areas_rsum (hs : list (Loop R)) : forall a : R, sub_areas a hs = a - rsum (map larea hs).
  Proof.
    unfold sub_areas. induction hs as [|h hs IH]; intros a; cbn [fold_left map rsum fold_right]; [rnum; ring|].
    rewrite IH. fold (rsum (map larea hs)). rnum. ring.
  Qed.
  Lemma built_polygon_accounts (L : Loop R) (P0 : Poly R) (cands : list (Loop R)) : poly_new L = Ok P0 ->
    let P := fst (poly_run P0 cands) in
    parea P = larea (pouter P) - rsum (map larea (pinner P)) /\ pouter P = L /\ pnormal P = lnormal L.
  Proof.
    intros H0 P. destruct (poly_new_spec L P0 H0) as (Eo & Ei & Ea & En).
    destruct (history_accounting cands P0) as (H1 & H2 & H3 & H4 & _). cbn zeta in *. fold P in H1, H2, H3, H4.
    rewrite H1, H2, H3, H4, Ei, Eo, Ea, En. cbn [app]. rewrite sub_areas_rsum. repeat split; reflexivity.
  Qed.

  (** the closed merged loop reports the polygon's net area and the polygon's normal.
      Hypotheses about [close] (stated, not derived): it succeeds, keeps the vertex list (it may drop a collinear
      last or first vertex otherwise), and the merged loop's own normal (set by [push] from its first corner) is
      + or - the plane normal. *)
  Theorem merged_closed_area_normal (P : Poly R) :
    let n := lnormal (pouter P) in
    closed_loop_clean false P = true -> closed_loop_wf P = true ->
    vdot n n = 1 -> planar_normals P -> signed_areas P ->
    parea P = larea (pouter P) - rsum (map larea (pinner P)) ->
    exists L, poly_get_closed_loop P = Ok L /\
      (snd (loop_close L) = Ok tt -> verts (fst (loop_close L)) = verts L -> (lnormal L = n \/ lnormal L = vneg n) ->
       0 <= parea P ->
       larea (fst (loop_close L)) = parea P /\ (0 < parea P -> lnormal (fst (loop_close L)) = n)).
  Proof.
    intros n Hc Hw Hu Hp Hs Ha. destruct (net_area_merged P Hc Hw Hu Hp Hs) as [L [HL E]]. fold n in E. rewrite <- Ha in E.
    exists L. split; [exact HL|]. intros Hcl Hv Hn Hpos.
    destruct (close_measures L Hcl) as (_ & _ & A1 & A2 & A3 & _). cbn zeta in *. rewrite Hv in *.
    set (S := LoopGeom.newell (verts L)) in *. assert (ES : vdot n S = 2 * parea P) by lra.
    assert (N2 : vneg (vneg n) = n) by apply vneg_neg.
    split.
    - rewrite A1. destruct Hn as [Hn|Hn]; rewrite Hn.
      + rewrite ES, Rabs_pos_eq by lra. lra.
      + rewrite vdot_neg_l, ES, Rabs_left1 by lra. lra.
    - intros Hlt. destruct Hn as [Hn|Hn]; destruct A2 as [A2|A2]; rewrite A2, Hn in *; rewrite ?N2; try reflexivity.
      + exfalso. rewrite vdot_neg_l in A3. lra.
      + exfalso. rewrite vdot_neg_l in A3. lra.
  Qed.
End Area.

(** *** with no holes the outline is returned unchanged: same vertex list, hence the same winding numbers, area, Newell vector *)
Theorem no_holes_region {K : Type} {NK : Num K} (P : Poly K) : pinner P = [] ->
  exists L, poly_get_closed_loop P = Ok L /\ verts L = verts (pouter P).
Proof. intros H. exists (loop_open (pouter P)). split; [apply no_holes_unchanged; exact H | reflexivity]. Qed.

(** ** when is the trace well formed?  Whenever every stage's scan finds a pair of vertices closer than the
    value it starts from ([scan_start false] = Float::MAX since fix f0d596d; it was 9e14 = (3e7)^2 before).  A scan that
    finds none keeps its initial state: attachment index 0, hole index 0, the previous start index -- the code then
    merges hole 0 (again); this is what happened on the pinned tree for holes farther than 3e7 from the outline. *)
Section ScanFacts.
  Context {K : Type} {NK : Num K}.
  Notation V := (V3 K).
  Local Open Scope num_scope.

  Lemma siv_cases (ev : V) (j k : nat) : forall (ivs : list V) (l : nat) (st : Sst),
    scan_inner_vertices ev j k ivs l st = st \/
    exists d l', scan_inner_vertices ev j k ivs l st = (d, j, k, k, l') /\ l <= l' < l + length ivs.
  Proof.
    induction ivs as [|iv tl IH]; intros l st; cbn [scan_inner_vertices]; [left; reflexivity|].
    destruct st as [[[[md me] ml] il] iv_id].
    set (st1 := if psqdist ev iv <? md then (psqdist ev iv, j, k, k, l) else (md, me, ml, il, iv_id)).
    destruct (IH (S l) st1) as [E|[d [l' [E Hl]]]].
    - rewrite E. unfold st1. destruct (psqdist ev iv <? md); [|left; reflexivity].
      right. exists (psqdist ev iv), l. split; [reflexivity | cbn [length]; lia].
    - right. exists d, l'. split; [exact E | cbn [length]; lia].
  Qed.
  Lemma sil_cases (ev : V) (j : nat) (processed : list nat) : forall (hs : list (Loop K)) (k : nat) (st : Sst),
    scan_inner_loops ev j hs k processed st = st \/
    exists d k' l' h, scan_inner_loops ev j hs k processed st = (d, j, k', k', l') /\ k <= k' /\
      nth_error hs (k' - k) = Some h /\ l' < llen h /\ existsb (Nat.eqb k') processed = false.
  Proof.
    induction hs as [|h tl IH]; intros k st; cbn [scan_inner_loops]; [left; reflexivity|].
    set (st1 := if existsb (Nat.eqb k) processed then st else scan_inner_vertices ev j k (verts h) 0 st).
    destruct (IH (S k) st1) as [E|[d [k' [l' [h' [E [Hk [Hn [Hl Hp]]]]]]]]].
    - rewrite E. unfold st1. destruct (existsb (Nat.eqb k) processed) eqn:Ep; [left; reflexivity|].
      destruct (siv_cases ev j k (verts h) 0 st) as [E1|[d [l' [E1 Hl]]]]; [left; exact E1|].
      right. exists d, k, l', h. rewrite Nat.sub_diag. split; [exact E1|]. split; [lia|]. split; [reflexivity|]. split; [unfold llen; lia | exact Ep].
    - right. exists d, k', l', h'. replace (k' - k)%nat with (S (k' - S k))%nat by lia. cbn [nth_error]. split; [exact E|]. split; [lia|]. split; [exact Hn|]. split; [exact Hl | exact Hp].
  Qed.
  Lemma scan_ext_cases (hs : list (Loop K)) (processed : list nat) : forall (evs : list V) (j : nat) (st : Sst),
    scan_ext evs j hs processed st = st \/
    exists d j' k' l' h, scan_ext evs j hs processed st = (d, j', k', k', l') /\ j <= j' < j + length evs /\
      nth_error hs k' = Some h /\ l' < llen h /\ existsb (Nat.eqb k') processed = false.
  Proof.
    induction evs as [|ev tl IH]; intros j st; cbn [scan_ext]; [left; reflexivity|].
    destruct (IH (S j) (scan_inner_loops ev j hs 0 processed st)) as [E|[d [j' [k' [l' [h [E [Hj [Hn [Hl Hp]]]]]]]]]].
    - rewrite E. destruct (sil_cases ev j processed hs 0 st) as [E1|[d [k' [l' [h [E1 [Hk [Hn [Hl Hp]]]]]]]]]; [left; exact E1|].
      right. exists d, j, k', l', h. rewrite Nat.sub_0_r in Hn. split; [exact E1|]. split; [cbn [length]; lia|]. split; [exact Hn|]. split; [exact Hl | exact Hp].
    - right. exists d, j', k', l', h. split; [exact E|]. split; [cbn [length]; lia|]. split; [exact Hn|]. split; [exact Hl | exact Hp].
  Qed.

  (** *** the attachment position (fix bcb072e): a visit of the same vertex (up to Point3D::compare) whose interior angle,
      for the outer normal, contains the bridge; the scan's own position when there is none (or for a single hole) *)
  Lemma find_visit_spec (n e h : V) (vs : list V) (len : nat) : forall cnt j r, find_visit n e h vs len j cnt = Some r ->
    (j <= r < j + cnt)%nat /\ vcompare (vnth vs r) e = true /\
    in_cone n e (vnth vs (Nat.modulo (r + len - 1) len)) (vnth vs (Nat.modulo (r + 1) len)) h = true.
  Proof.
    induction cnt as [|c IH]; intros j r; cbn [find_visit]; [discriminate|].
    destruct (vcompare (vnth vs j) e && in_cone n e (vnth vs (Nat.modulo (j + len - 1) len)) (vnth vs (Nat.modulo (j + 1) len)) h) eqn:E.
    - intros H. injection H as H. subst r. apply andb_prop in E. destruct E as [E1 E2]. split; [lia|]. split; assumption.
    - intros H. destruct (IH _ _ H) as [Hr Hs]. split; [lia | exact Hs].
  Qed.
  Lemma attach_index_cases (P : Poly K) (vs : list V) (me0 : nat) (hole : Loop K) (iv me : nat) :
    attach_index false P vs me0 hole iv = Ok me ->
    me = me0 \/
    ((me < length vs)%nat /\ (me0 < length vs)%nat /\ (iv < llen hole)%nat /\ (1 < length (pinner P))%nat /\
     vcompare (vnth vs me) (vnth vs me0) = true /\
     in_cone (lnormal (pouter P)) (vnth vs me0) (vnth vs (Nat.modulo (me + length vs - 1) (length vs)))
             (vnth vs (Nat.modulo (me + 1) (length vs))) (vnth (verts hole) iv) = true).
  Proof.
    unfold attach_index. destruct (Nat.ltb 1 (length (pinner P)) && Nat.ltb iv (llen hole)) eqn:Eb; [|intros H; injection H as H; left; symmetry; exact H].
    apply andb_prop in Eb. destruct Eb as [E1 E2]. apply Nat.ltb_lt in E1. apply Nat.ltb_lt in E2.
    destruct (Nat.leb (length vs) me0) eqn:El; [discriminate|]. apply Nat.leb_gt in El.
    destruct (find_visit _ _ _ vs (length vs) 0 (length vs)) as [j|] eqn:Ef; intros H; injection H as H; subst me; [|left; reflexivity].
    destruct (find_visit_spec _ _ _ _ _ _ _ _ Ef) as [Hr [Hc Hi]]. right. repeat split; try assumption; lia.
  Qed.
  Lemma attach_index_lt (P : Poly K) (vs : list V) (me0 : nat) (hole : Loop K) (iv me : nat) :
    attach_index false P vs me0 hole iv = Ok me -> (me0 < length vs)%nat -> (me < length vs)%nat.
  Proof. intros H H0. destruct (attach_index_cases _ _ _ _ _ _ H) as [E|[E _]]; [subst; exact H0 | exact E]. Qed.
  Lemma attach_index_ok (P : Poly K) (vs : list V) (me0 : nat) (hole : Loop K) (iv : nat) :
    (me0 < length vs)%nat -> exists me, attach_index false P vs me0 hole iv = Ok me.
  Proof.
    intros H. unfold attach_index. destruct (Nat.ltb 1 (length (pinner P)) && Nat.ltb iv (llen hole)); [|eexists; reflexivity].
    assert (E : Nat.leb (length vs) me0 = false) by (apply Nat.leb_gt; exact H). rewrite E.
    destruct (find_visit _ _ _ vs (length vs) 0 (length vs)); eexists; reflexivity.
  Qed.
  (** what the fix is for, part 1: the chosen position is a visit of the SAME vertex, so the bridge still joins the nearest pair *)
  Theorem attach_same_vertex (P : Poly K) (vs : list V) (me0 : nat) (hole : Loop K) (iv me : nat) :
    attach_index false P vs me0 hole iv = Ok me -> vcompare (vnth vs me) (vnth vs me0) = true \/ me = me0.
  Proof. intros H. destruct (attach_index_cases _ _ _ _ _ _ H) as [E|(_ & _ & _ & _ & E & _)]; [right; exact E | left; exact E]. Qed.

  (** every stage hits: the minimum found is below the initial constant *)
  Fixpoint merge_hits (P : Poly K) (count : nat) (vs : list V) (processed : list nat) (il iv_id : nat) : bool :=
    match count with
    | O => true
    | S c =>
      let '(md, me0, ml, il', iv') := scan_ext vs 0 (pinner P) processed (scan_start false, O, O, il, iv_id) in
      (md <? scan_start false) &&
      match nth_error (pinner P) ml with
      | None => false
      | Some hole =>
        match attach_index false P vs me0 hole iv' with
        | Ok me =>
          merge_hits P c (splice vs 0 me (walk_list false (vis_same_direction (lnormal (pouter P)) (lnormal hole)) (verts hole) iv')) (processed ++ [il']) il' iv'
        | _ => false
        end
      end
    end.
  Definition closed_loop_hits (P : Poly K) : bool := merge_hits P (length (pinner P)) (verts (pouter P)) [] 0 0.

  Hypothesis lt_irrefl : ((scan_start false : K) <? scan_start false) = false.

  Lemma existsb_app_false (x : nat) (l1 l2 : list nat) : existsb (Nat.eqb x) (l1 ++ l2) = false ->
    existsb (Nat.eqb x) l1 = false /\ existsb (Nat.eqb x) l2 = false.
  Proof. rewrite existsb_app. apply orb_false_elim. Qed.

  Lemma merge_hits_wf (P : Poly K) : forall count vs processed il iv,
    merge_hits P count vs processed il iv = true ->
    exists tr, merge_trace P count vs processed il iv = Some tr /\
      steps_bounds (lnormal (pouter P)) vs tr = true /\ nodupb (map ms_ml tr) = true /\
      (forall s, In s tr -> existsb (Nat.eqb (ms_ml s)) processed = false).
  Proof.
    induction count as [|c IH]; intros vs processed il iv; cbn [merge_hits merge_trace].
    - intros _. exists []. repeat split. intros s [].
    - destruct (scan_ext_cases (pinner P) processed vs 0 (scan_start false, 0, 0, il, iv)) as [E|[d [j' [k' [l' [h [E [Hj [Hn [Hl Hp]]]]]]]]]]; rewrite E.
      + rewrite lt_irrefl. discriminate.
      + rewrite Hn. destruct (attach_index false P vs j' h l') as [me| |] eqn:Ea; try (rewrite andb_false_r; discriminate).
        assert (Hme : (me < length vs)%nat) by (apply (attach_index_lt _ _ _ _ _ _ Ea); lia).
        intros H. apply andb_prop in H. destruct H as [_ H].
        destruct (IH _ _ _ _ H) as [tr [Et [Hb [Hd Hq]]]]. unfold step_walk at 1. cbn [ms_hole ms_id]. rewrite Et. cbn [option_map].
        eexists. split; [reflexivity|]. cbn [steps_bounds map nodupb ms_me ms_id ms_hole ms_ml]. repeat split.
        * assert (E1 : Nat.ltb me (length vs) = true) by (apply Nat.ltb_lt; exact Hme).
          assert (E2 : Nat.ltb l' (llen h) = true) by (apply Nat.ltb_lt; exact Hl).
          rewrite E1, E2. cbn [andb]. exact Hb.
        * rewrite Hd, andb_true_r. apply negb_true_iff.
          destruct (existsb (Nat.eqb k') (map ms_ml tr)) eqn:Ex; [|reflexivity]. exfalso.
          apply existsb_exists in Ex. destruct Ex as [x [Ix Ex]]. apply Nat.eqb_eq in Ex. subst x.
          apply in_map_iff in Ix. destruct Ix as [s [Es Is]]. specialize (Hq s Is). rewrite Es in Hq.
          destruct (existsb_app_false _ _ _ Hq) as [_ Hq2]. cbn [existsb] in Hq2. rewrite Nat.eqb_refl in Hq2. discriminate.
        * intros s [Es|Is]; [subst s; exact Hp|]. specialize (Hq s Is). exact (proj1 (existsb_app_false _ _ _ Hq)).
  Qed.
  Theorem hits_wf (P : Poly K) : closed_loop_hits P = true -> closed_loop_wf P = true.
  Proof.
    intros H. destruct (merge_hits_wf P _ _ _ _ _ H) as [tr [Et [Hb [Hd _]]]].
    unfold closed_loop_wf, closed_loop_trace. rewrite Et, Hb, Hd. reflexivity.
  Qed.
End ScanFacts.

(** on the reals: [Float::MAX < Float::MAX] is false *)
Theorem hits_wf_R (P : Poly R) : closed_loop_hits P = true -> closed_loop_wf P = true.
Proof. apply hits_wf. apply Rltb_false. apply Rle_refl. Qed.

(** ** what the fix is for, part 2 (reals): the cone test of [attach_index] in the 2-D coordinates of the plane.
    With n = e1 x e2 and p' = [plane2 o e1 e2 p]:  [in_cone n e prev next h] holds iff
    - the corner (prev, e, next) is convex or straight for n ([orient e' next' prev' >= 0]) and the bridge direction e -> h lies
      STRICTLY inside the interior angle, i.e. strictly left of e -> next and strictly right of e -> prev; or
    - the corner is reflex and h does not lie in the closed exterior angle (between e -> prev and e -> next). *)
Section ConeR.
  Local Open Scope R_scope.
  Lemma cross_dot_orient (o e1 e2 e a b : V) :
    vdot (vcross (vsub a e) (vsub b e)) (vcross e1 e2) =
    Winding.orient (C05_pointtest.plane2 o e1 e2 e) (C05_pointtest.plane2 o e1 e2 a) (C05_pointtest.plane2 o e1 e2 b).
  Proof.
    rewrite vdot_comm, C05_pointtest.binet_cauchy, !(C05_pointtest.planev_sub o). rewrite <- C05_winding.orient2_is_orient. reflexivity.
  Qed.
  Lemma in_cone_orient_b (o e1 e2 e prev next h : V) :
    let O := fun a b => Winding.orient (C05_pointtest.plane2 o e1 e2 e) (C05_pointtest.plane2 o e1 e2 a) (C05_pointtest.plane2 o e1 e2 b) in
    in_cone (vcross e1 e2) e prev next h =
    if Rleb 0 (O next prev) then Rltb 0 (O next h) && Rltb 0 (O h prev) else negb (Rleb 0 (O prev h) && Rleb 0 (O h next)).
  Proof. cbn zeta. unfold in_cone. rewrite !(cross_dot_orient o). rnum. reflexivity. Qed.
  Theorem in_cone_orient (o e1 e2 e prev next h : V) :
    let O := fun a b => Winding.orient (C05_pointtest.plane2 o e1 e2 e) (C05_pointtest.plane2 o e1 e2 a) (C05_pointtest.plane2 o e1 e2 b) in
    in_cone (vcross e1 e2) e prev next h = true <->
    (0 <= O next prev /\ 0 < O next h /\ 0 < O h prev) \/ (O next prev < 0 /\ ~ (0 <= O prev h /\ 0 <= O h next)).
  Proof.
    cbn zeta. rewrite (in_cone_orient_b o). cbn zeta.
    set (x := Winding.orient _ (C05_pointtest.plane2 o e1 e2 next) (C05_pointtest.plane2 o e1 e2 prev)).
    set (y := Winding.orient _ (C05_pointtest.plane2 o e1 e2 next) (C05_pointtest.plane2 o e1 e2 h)).
    set (z := Winding.orient _ (C05_pointtest.plane2 o e1 e2 h) (C05_pointtest.plane2 o e1 e2 prev)).
    set (u := Winding.orient _ (C05_pointtest.plane2 o e1 e2 prev) (C05_pointtest.plane2 o e1 e2 h)).
    set (w := Winding.orient _ (C05_pointtest.plane2 o e1 e2 h) (C05_pointtest.plane2 o e1 e2 next)).
    destruct (Rleb 0 x) eqn:Ex; [apply Rleb_true in Ex | apply Rleb_false in Ex].
    - rewrite andb_true_iff, !Rltb_true. split; [intros [H1 H2]; left; repeat split; assumption | intros [[_ H]|[H _]]; [exact H | lra]].
    - rewrite negb_true_iff, andb_false_iff, !Rleb_false. split.
      + intros H. right. split; [exact Ex|]. intros [H1 H2]. destruct H; lra.
      + intros [[H _]|[_ H]]; [lra|]. destruct (Rlt_le_dec u 0) as [Hu|Hu]; [left; exact Hu|]. destruct (Rlt_le_dec w 0) as [Hw|Hw]; [right; exact Hw|].
        exfalso. apply H. split; assumption.
  Qed.
End ConeR.

(** ** no new vertices, and the merged loop's own normal *)
Section MergedNormal.
  Context {K : Type} {NK : Num K}.
  Notation V := (V3 K).

  Definition poly_verts (P : Poly K) : list V := verts (pouter P) ++ flat_map (@verts K) (pinner P).

  Lemma In_walk_inv (sd : bool) (hvs : list V) (id : nat) (v : V) : hvs <> [] -> In v (walk_list false sd hvs id) -> In v hvs.
  Proof.
    intros Hne H. unfold walk_list in H. apply in_map_iff in H. destruct H as [t [E _]]. subst v.
    unfold vnth. apply nth_In. apply hole_index_lt. destruct hvs; [contradiction | discriminate].
  Qed.
  Lemma In_apply_steps_inv (on : V) (v : V) : forall tr vs, Forall (fun s => verts (ms_hole s) <> []) tr ->
    In v (apply_steps on vs tr) -> In v vs \/ exists s, In s tr /\ In v (verts (ms_hole s)).
  Proof.
    induction tr as [|s tr IH]; intros vs Hf H; cbn [apply_steps] in H; [left; exact H|].
    inversion Hf as [|s' tr' Hs Hf']; subst. destruct (IH _ Hf' H) as [H1|[s1 [I1 H1]]].
    - apply In_splice in H1. destruct H1 as [H1|[H1 _]]; [left; exact H1|]. right. exists s. split; [left; reflexivity|].
      unfold step_walk in H1. apply In_walk_inv in H1; assumption.
    - right. exists s1. split; [right; exact I1 | exact H1].
  Qed.
  (** a clean run only merges holes that have a vertex *)
  Lemma clean_trace_nonempty : forall count (P : Poly K) (ret : Loop K) processed il iv tr,
    merge_clean false P count ret processed il iv = true ->
    merge_trace P count (verts ret) processed il iv = Some tr -> Forall (fun s => verts (ms_hole s) <> []) tr.
  Proof.
    induction count as [|c IH]; intros P ret processed il iv tr; cbn [merge_clean merge_trace].
    - intros _ H. injection H as H. subst tr. constructor.
    - destruct (scan_ext (verts ret) 0 (pinner P) processed (scan_start false, 0, 0, il, iv)) as [[[[md me0] ml] il'] iv'].
      destruct (nth_error (pinner P) ml) as [hole|]; [|discriminate].
      destruct (Nat.eqb (llen hole) 0) eqn:En; [discriminate|]. cbn [negb andb]. apply Nat.eqb_neq in En.
      destruct (attach_index false P (verts ret) me0 hole iv') as [me| |]; try discriminate. cbn [rbind].
      destruct (rebuild false (lnormal (pouter P)) (verts ret) 0 me hole iv' loop_new) as [aux| |] eqn:Er; try discriminate.
      intros H. apply andb_prop in H. destruct H as [Hl Hc]. apply Nat.eqb_eq in Hl.
      rewrite rebuild_is_push_seq in Er by exact En. destruct (push_seq_len _ _ _ _ Er) as [_ Hv]. cbn [llen verts loop_new length] in Hv.
      specialize (Hv Hl). cbn [app] in Hv. unfold step_walk. cbn [ms_hole ms_id]. rewrite <- Hv.
      destruct (merge_trace P c (verts aux) (processed ++ [il']) il' iv') as [tr'|] eqn:Et; [|discriminate].
      cbn [option_map]. intros H. injection H as H. subst tr. constructor; [|apply (IH _ _ _ _ _ _ Hc Et)].
      cbn [ms_hole]. intros C. apply En. unfold llen. rewrite C. reflexivity.
  Qed.
  Theorem merged_no_new_vertex (P : Poly K) : closed_loop_clean false P = true ->
    exists L, poly_get_closed_loop P = Ok L /\ forall v, In v (verts L) -> In v (poly_verts P).
  Proof.
    intros Hc. destruct (merged_is_trace P Hc) as [L [tr [HL [Et [Ev [_ Hf]]]]]]. exists L. split; [exact HL|].
    intros v Hv. rewrite Ev in Hv.
    pose proof (clean_trace_nonempty _ P (loop_open (pouter P)) [] 0 0 tr Hc Et) as Hne.
    unfold poly_verts. apply in_or_app. destruct (In_apply_steps_inv _ _ _ _ Hne Hv) as [H|[s [Is H]]]; [left; exact H|].
    right. apply in_flat_map. exists (ms_hole s). split; [|exact H].
    rewrite Forall_forall in Hf. exact (nth_error_In _ _ (Hf s Is)).
  Qed.

  Lemma push_append_normal (L L' : Loop K) (p : V) : loop_push L p = Ok L' -> llen L' = S (llen L) ->
    lnormal L = (if Nat.leb 3 (llen L) then tri_normal (verts L) else vzero) ->
    lnormal L' = (if Nat.leb 3 (llen L') then tri_normal (verts L') else vzero).
  Proof.
    intros H E I. pose proof (proj2 (push_len _ _ _ H) E) as Hv. rewrite (live_push_normal _ _ _ H), I, Hv, E. unfold llen.
    destruct (verts L) as [|a [|b [|c t]]]; reflexivity.
  Qed.
  Lemma push_seq_normal (s : N) : forall (ps : list V) (L L' : Loop K), push_seq s L ps = Ok L' -> llen L' = llen L + length ps ->
    lnormal L = (if Nat.leb 3 (llen L) then tri_normal (verts L) else vzero) ->
    lnormal L' = (if Nat.leb 3 (llen L') then tri_normal (verts L') else vzero).
  Proof.
    induction ps as [|p tl IH]; intros L L'; cbn [push_seq length].
    - intros H _ I. injection H as <-. exact I.
    - destruct (unwrap s (loop_push L p)) as [L1| |] eqn:E; cbn [rbind]; try discriminate. apply unwrap_ok in E. intros H Hlen I.
      pose proof (proj1 (push_len _ _ _ E)) as H1. pose proof (proj1 (push_seq_len _ _ _ _ H)) as I1.
      apply (IH _ _ H); [lia|]. apply (push_append_normal _ _ _ E); [lia | exact I].
  Qed.
  Lemma merge_normal : forall count (P : Poly K) (ret : Loop K) processed il iv (L : Loop K),
    merge_clean false P count ret processed il iv = true -> merge_holes false P count ret processed il iv = Ok L ->
    (count = 0 /\ L = ret) \/ lnormal L = (if Nat.leb 3 (llen L) then tri_normal (verts L) else vzero).
  Proof.
    induction count as [|c IH]; intros P ret processed il iv L; cbn [merge_clean merge_holes].
    - intros _ H. inversion H; subst. left. split; reflexivity.
    - destruct (scan_ext (verts ret) 0 (pinner P) processed (scan_start false, 0, 0, il, iv)) as [[[[md me0] ml] il'] iv'].
      destruct (nth_error (pinner P) ml) as [hole|]; [|discriminate].
      destruct (Nat.eqb (llen hole) 0) eqn:En; [discriminate|]. cbn [negb andb]. apply Nat.eqb_neq in En.
      destruct (attach_index false P (verts ret) me0 hole iv') as [me| |]; try discriminate. cbn [rbind].
      destruct (rebuild false (lnormal (pouter P)) (verts ret) 0 me hole iv' loop_new) as [aux| |] eqn:Er; try discriminate.
      cbn [rbind]. intros H HL. apply andb_prop in H. destruct H as [Hl Hc]. apply Nat.eqb_eq in Hl.
      rewrite rebuild_is_push_seq in Er by exact En.
      pose proof (push_seq_normal _ _ _ _ Er Hl eq_refl) as Hn.
      right. destruct (IH _ _ _ _ _ _ Hc HL) as [[_ E]|E]; [subst L; exact Hn | exact E].
  Qed.
  Theorem merged_normal_is_corner (P : Poly K) (L : Loop K) : closed_loop_clean false P = true -> poly_get_closed_loop P = Ok L ->
    (pinner P = [] /\ lnormal L = lnormal (pouter P)) \/ lnormal L = (if Nat.leb 3 (llen L) then tri_normal (verts L) else vzero).
  Proof.
    intros Hc HL. destruct (merge_normal _ _ _ _ _ _ _ Hc HL) as [[E1 E2]|E]; [left | right; exact E].
    split; [destruct (pinner P); [reflexivity | discriminate] | subst L; reflexivity].
  Qed.
End MergedNormal.

(** ** (reals) for a planar polygon the merged loop's own normal is + or - the plane normal *)
Section MergedNormalR.
  Local Open Scope R_scope.
  Lemma tri_normal_planar (n o : V) (vs : list V) : vdot n n = 1 -> (forall v, In v vs -> vdot n (vsub v o) = 0) ->
    tri_normal vs = n \/ tri_normal vs = vneg n \/ tri_normal vs = vzero.
  Proof.
    intros Hu Hp. destruct vs as [|a [|b [|c rest]]]; try (right; right; reflexivity). cbn [tri_normal].
    assert (Ha : vdot n (vsub a o) = 0) by (apply Hp; left; reflexivity).
    assert (Hb : vdot n (vsub b o) = 0) by (apply Hp; right; left; reflexivity).
    assert (Hc : vdot n (vsub c o) = 0) by (apply Hp; right; right; left; reflexivity).
    assert (U : vdot n (vsub b a) = 0) by (revert Ha Hb; vunf; rnum; intros; lra).
    assert (W : vdot n (vsub c b) = 0) by (revert Hb Hc; vunf; rnum; intros; lra).
    rewrite (C10_planar.cross_in_plane n _ _ Hu U W). rewrite (C10_planar.vnormalize_scale_unit n _ Hu).
    destruct (Rltb 0 _); [left; reflexivity|]. destruct (Rltb _ 0); [right; left; reflexivity | right; right; reflexivity].
  Qed.
  Lemma vis_zero_vzero : vis_zero (vzero : V) = true.
  Proof.
    unfold vis_zero, vzero. cbn [vx vy vz]. rnum. rewrite Rabs_R0, (proj2 (Rltb_true _ _) ctiny_pos). reflexivity.
  Qed.
  (** a successful [close] needs three vertices and a non-zero normal *)
  Lemma close_ok_facts (L : Loop R) : snd (loop_close L) = Ok tt -> vis_zero (lnormal L) = false /\ (3 <= llen L)%nat.
  Proof.
    intros H. destruct (close_ok L H) as (vs1 & vs2 & _ & _ & _ & _ & H3 & _ & E). rewrite E in H.
    destruct (close_finish_ok_steps _ H) as (L4 & E4 & _). apply set_area_ok in E4. split; [exact (proj1 (proj2 E4)) | exact H3].
  Qed.
  Theorem merged_normal_planar (P : Poly R) (o : V) (L : Loop R) :
    let n := lnormal (pouter P) in
    closed_loop_clean false P = true -> vdot n n = 1 -> (forall v, In v (poly_verts P) -> vdot n (vsub v o) = 0) ->
    poly_get_closed_loop P = Ok L -> snd (loop_close L) = Ok tt -> lnormal L = n \/ lnormal L = vneg n.
  Proof.
    intros n Hc Hu Hp HL Hcl. destruct (merged_normal_is_corner P L Hc HL) as [[_ E]|E]; [left; exact E|].
    destruct (close_ok_facts L Hcl) as [Hz H3]. assert (B : Nat.leb 3 (llen L) = true) by (apply Nat.leb_le; exact H3).
    rewrite B in E. destruct (merged_no_new_vertex P Hc) as [L' [HL' Hin]]. rewrite HL in HL'. injection HL' as HL'. subst L'.
    destruct (tri_normal_planar n o (verts L) Hu (fun v Hv => Hp v (Hin v Hv))) as [C|[C|C]]; rewrite C in E.
    - left; exact E.
    - right; exact E.
    - exfalso. rewrite E, vis_zero_vzero in Hz. discriminate.
  Qed.
End MergedNormalR.

(** ** (reals) the closed merged loop of a planar polygon reports the polygon's net area and the polygon's normal:
    [merged_closed_area_normal] with the hypothesis on the merged loop's own normal discharged by planarity *)
Theorem merged_closed_region (P : Poly R) (o : V) :
  let n := lnormal (pouter P) in
  closed_loop_clean false P = true -> closed_loop_wf P = true ->
  vdot n n = 1%R -> (forall v, In v (poly_verts P) -> vdot n (vsub v o) = 0%R) -> planar_normals P -> signed_areas P ->
  parea P = (larea (pouter P) - rsum (map larea (pinner P)))%R ->
  exists L, poly_get_closed_loop P = Ok L /\
    (snd (loop_close L) = Ok tt -> verts (fst (loop_close L)) = verts L -> (0 <= parea P)%R ->
     larea (fst (loop_close L)) = parea P /\ ((0 < parea P)%R -> lnormal (fst (loop_close L)) = n)).
Proof.
  intros n Hc Hw Hu Hpl Hp Hs Ha. destruct (merged_closed_area_normal P Hc Hw Hu Hp Hs Ha) as [L [HL H]].
  exists L. split; [exact HL|]. intros Hcl Hv Hpos. apply H; try assumption.
  apply (merged_normal_planar P o L Hc Hu Hpl HL Hcl).
Qed.

(** ** a sufficient condition (reals): if the outline and every hole have a vertex and any two vertices of the polygon
    are at squared distance below Float::MAX (the value the scan starts from since fix f0d596d; 2^1024 on the real instance),
    every stage's scan hits, hence the trace is well formed.  [bounded_coords_wf]: coordinates up to 2^500 suffice. *)
Section Bounded.
  Local Open Scope R_scope.
  Definition st_md (st : @Sst R) : R := fst (fst (fst (fst st))).

  Lemma siv_min (ev : V) (j k : nat) : forall (ivs : list V) (l : nat) (st : Sst),
    st_md (scan_inner_vertices ev j k ivs l st) <= st_md st /\
    forall iv, In iv ivs -> st_md (scan_inner_vertices ev j k ivs l st) <= psqdist ev iv.
  Proof.
    induction ivs as [|iv tl IH]; intros l st; cbn [scan_inner_vertices]; [split; [lra | intros ? []]|].
    destruct st as [[[[md me] ml] il] iv_id].
    set (st1 := if (psqdist ev iv <? md)%num then (psqdist ev iv, j, k, k, l) else (md, me, ml, il, iv_id)).
    assert (H1 : st_md st1 <= md /\ st_md st1 <= psqdist ev iv).
    { unfold st1. rnum. rcase (psqdist ev iv) md Hc; unfold st_md; cbn [fst]; lra. }
    destruct (IH (S l) st1) as [I1 I2]. unfold st_md at 2. cbn [fst]. split; [lra|].
    intros iv' [E|Hin]; [subst iv'; lra | apply I2; exact Hin].
  Qed.
  Lemma sil_min (ev : V) (j : nat) (processed : list nat) : forall (hs : list (Loop R)) (k : nat) (st : Sst),
    st_md (scan_inner_loops ev j hs k processed st) <= st_md st /\
    forall i h iv, nth_error hs i = Some h -> existsb (Nat.eqb (k + i)) processed = false -> In iv (verts h) ->
      st_md (scan_inner_loops ev j hs k processed st) <= psqdist ev iv.
  Proof.
    induction hs as [|h tl IH]; intros k st; cbn [scan_inner_loops]; [split; [lra | intros [|i] ? ? H; discriminate H]|].
    set (st1 := if existsb (Nat.eqb k) processed then st else scan_inner_vertices ev j k (verts h) 0 st).
    destruct (IH (S k) st1) as [I1 I2].
    assert (H1 : st_md st1 <= st_md st) by (unfold st1; destruct (existsb (Nat.eqb k) processed); [lra | apply siv_min]).
    split; [lra|]. intros [|i] h' iv Hn Hp Hin; cbn [nth_error] in Hn.
    - injection Hn as Hn. subst h'. rewrite Nat.add_0_r in Hp.
      assert (Es : st1 = scan_inner_vertices ev j k (verts h) 0 st) by (unfold st1; rewrite Hp; reflexivity).
      pose proof (proj2 (siv_min ev j k (verts h) 0 st) iv Hin) as Hm. rewrite <- Es in Hm. lra.
    - apply (I2 i h' iv Hn); [|exact Hin]. replace (S k + i)%nat with (k + S i)%nat by lia. exact Hp.
  Qed.
  Lemma sext_min (hs : list (Loop R)) (processed : list nat) : forall (evs : list V) (j : nat) (st : Sst),
    st_md (scan_ext evs j hs processed st) <= st_md st /\
    forall ev k h iv, In ev evs -> nth_error hs k = Some h -> existsb (Nat.eqb k) processed = false -> In iv (verts h) ->
      st_md (scan_ext evs j hs processed st) <= psqdist ev iv.
  Proof.
    induction evs as [|ev tl IH]; intros j st; cbn [scan_ext]; [split; [lra | intros ? ? ? ? []]|].
    destruct (IH (S j) (scan_inner_loops ev j hs 0 processed st)) as [I1 I2].
    destruct (sil_min ev j processed hs 0 st) as [J1 J2]. split; [lra|].
    intros ev' k h iv [E|Hin] Hn Hp Hiv.
    - subst ev'. pose proof (J2 k h iv Hn Hp Hiv). lra.
    - apply (I2 ev' k h iv Hin Hn Hp Hiv).
  Qed.

  Definition within_reach (P : Poly R) : Prop :=
    verts (pouter P) <> [] /\ (forall h, In h (pinner P) -> verts h <> []) /\
    forall a b, In a (poly_verts P) -> In b (poly_verts P) -> psqdist a b < nmaxf.

  Lemma unprocessed_exists (n : nat) (processed : list nat) : (length processed < n)%nat ->
    exists k, (k < n)%nat /\ existsb (Nat.eqb k) processed = false.
  Proof.
    intros Hl. destruct (existsb (fun k => negb (existsb (Nat.eqb k) processed)) (seq 0 n)) eqn:E.
    - apply existsb_exists in E. destruct E as [k [Ik Ek]]. apply in_seq in Ik. apply negb_true_iff in Ek. exists k. split; [lia | exact Ek].
    - exfalso. assert (I : incl (seq 0 n) processed).
      { intros k Ik. destruct (existsb (Nat.eqb k) processed) eqn:Ek.
        - apply existsb_exists in Ek. destruct Ek as [x [Ix Ex]]. apply Nat.eqb_eq in Ex. subst x. exact Ix.
        - assert (T : existsb (fun k => negb (existsb (Nat.eqb k) processed)) (seq 0 n) = true)
            by (apply existsb_exists; exists k; split; [exact Ik | rewrite Ek; reflexivity]).
          rewrite T in E. discriminate. }
      pose proof (NoDup_incl_length (seq_NoDup n 0) I) as Hle. rewrite seq_length in Hle. lia.
  Qed.

  Lemma within_reach_hits (P : Poly R) : within_reach P -> forall count vs processed il iv,
    vs <> [] -> (forall v, In v vs -> In v (poly_verts P)) -> (length processed + count = length (pinner P))%nat ->
    merge_hits P count vs processed il iv = true.
  Proof.
    intros [Ho [Hh Hd]]. induction count as [|c IH]; intros vs processed il iv Hne Hin Hlen; cbn [merge_hits]; [reflexivity|].
    destruct (unprocessed_exists (length (pinner P)) processed ltac:(lia)) as [k [Hk Hp]].
    destruct (nth_error (pinner P) k) as [h|] eqn:En; [|apply nth_error_None in En; lia].
    pose proof (nth_error_In _ _ En) as Ih.
    destruct vs as [|ev vs']; [contradiction|]. destruct (verts h) as [|hv hvs'] eqn:Ehv; [exfalso; apply (Hh h Ih); exact Ehv|].
    change (@scan_start R NumR false) with (@nmaxf R NumR).
    pose proof (proj2 (sext_min (pinner P) processed (ev :: vs') 0 (nmaxf, 0, 0, il, iv)%nat) ev k h hv (or_introl eq_refl) En Hp) as Hmin.
    rewrite Ehv in Hmin. specialize (Hmin (or_introl eq_refl)).
    assert (Hb : psqdist ev hv < nmaxf).
    { apply Hd; [apply Hin; left; reflexivity|]. unfold poly_verts. apply in_or_app. right. apply in_flat_map. exists h. split; [exact Ih|]. rewrite Ehv. left; reflexivity. }
    destruct (scan_ext_cases (pinner P) processed (ev :: vs') 0 (nmaxf, 0, 0, il, iv)%nat) as [E|[d [j' [k' [l' [h' [E [Hj [Hn' [Hl' Hp']]]]]]]]]]; rewrite E in *.
    - exfalso. unfold st_md in Hmin. cbn [fst] in Hmin. lra.
    - unfold st_md in Hmin. cbn [fst] in Hmin. rewrite Hn'.
      assert (Ed : (d <? nmaxf)%num = true) by (apply Rltb_true; lra). rewrite Ed. cbn [andb].
      pose proof (nth_error_In _ _ Hn') as Ih'.
      destruct (attach_index_ok P (ev :: vs') j' h' l' ltac:(lia)) as [me Ea]. rewrite Ea.
      apply IH.
      + intros C. assert (I0 : In ev (splice (ev :: vs') 0 me (walk_list false (vis_same_direction (lnormal (pouter P)) (lnormal h')) (verts h') l')))
          by (apply In_splice; left; left; reflexivity). rewrite C in I0. destruct I0.
      + intros v Hv. apply In_splice in Hv. destruct Hv as [Hv|[Hv _]]; [apply Hin; exact Hv|].
        apply In_walk_inv in Hv; [|apply Hh; exact Ih']. unfold poly_verts. apply in_or_app. right. apply in_flat_map. exists h'. split; assumption.
      + rewrite app_length. cbn [length]. lia.
  Qed.
  Theorem within_reach_wf (P : Poly R) : within_reach P -> closed_loop_hits P = true /\ closed_loop_wf P = true.
  Proof.
    intros H. assert (Hh : closed_loop_hits P = true).
    { unfold closed_loop_hits. apply within_reach_hits; [exact H | exact (proj1 H) | | reflexivity].
      intros v Hv. unfold poly_verts. apply in_or_app. left. exact Hv. }
    split; [exact Hh | apply hits_wf_R; exact Hh].
  Qed.
  (** the hypothesis is very weak: coordinates bounded by 2^500 in absolute value suffice *)
  Definition coord_bound (B : R) (v : V) : Prop := Rabs (vx v) <= B /\ Rabs (vy v) <= B /\ Rabs (vz v) <= B.
  Lemma abs_le_inv (x B : R) : Rabs x <= B -> - B <= x <= B.
  Proof. unfold Rabs. destruct (Rcase_abs x); lra. Qed.
  Lemma sq_diff_bound (x y B : R) : - B <= x <= B -> - B <= y <= B -> (x - y) * (x - y) <= 4 * (B * B).
  Proof. intros. nra. Qed.
  Lemma psqdist_bound (a b : V) : coord_bound (IZR (2 ^ 500)) a -> coord_bound (IZR (2 ^ 500)) b -> psqdist a b < nmaxf.
  Proof.
    destruct a as [a1 a2 a3], b as [b1 b2 b3]. unfold coord_bound, psqdist. cbn [vx vy vz]. rnum.
    intros (A1 & A2 & A3) (B1 & B2 & B3).
    apply abs_le_inv in A1, A2, A3, B1, B2, B3.
    assert (Q : IZR (2 ^ 500) * IZR (2 ^ 500) = IZR (2 ^ 1000)) by (rewrite <- mult_IZR; f_equal).
    assert (T : 12 * IZR (2 ^ 1000) < IZR (2 ^ 1024)) by (rewrite <- mult_IZR; apply IZR_lt; reflexivity).
    pose proof (sq_diff_bound _ _ _ A1 B1). pose proof (sq_diff_bound _ _ _ A2 B2). pose proof (sq_diff_bound _ _ _ A3 B3).
    rewrite Q in *. lra.
  Qed.
  Theorem bounded_coords_wf (P : Poly R) :
    verts (pouter P) <> [] -> (forall h, In h (pinner P) -> verts h <> []) ->
    (forall v, In v (poly_verts P) -> coord_bound (IZR (2 ^ 500)) v) ->
    closed_loop_hits P = true /\ closed_loop_wf P = true.
  Proof.
    intros Ho Hh Hb. apply within_reach_wf. split; [exact Ho|]. split; [exact Hh|].
    intros a b Ha Hb'. apply psqdist_bound; apply Hb; assumption.
  Qed.
End Bounded.

(** *** with no holes: the same vertex list, hence the same winding numbers, planar area and Newell vector *)
Theorem no_holes_region_R (pr : V -> Winding.P2) (P : Poly R) (d q : Winding.P2) : pinner P = [] ->
  exists L, poly_get_closed_loop P = Ok L /\ verts L = verts (pouter P) /\
    Winding.wn d (map pr (verts L)) q = Winding.wn d (map pr (verts (pouter P))) q /\
    Shoelace.area2 (map pr (verts L)) = Shoelace.area2 (map pr (verts (pouter P))) /\
    LoopGeom.newell (verts L) = LoopGeom.newell (verts (pouter P)).
Proof. intros H. destruct (no_holes_region P H) as [L [HL E]]. exists L. rewrite E. repeat split. exact HL. Qed.

(** ** the defect repaired by fix f0d596d (binary64).  The PINNED merge ([poly_get_closed_loop_gen true]: scan started from
    9e14, wrapped index cast) on a square of side 1e8 with hole 0 near the corner (1e8,1e8) and hole 1 at the centre, both
    wound AGAINST the outline (forward walk: the wrapped cast is not exercised, the only defect in play is the 9e14 start):
    the run is clean, the result has 14 vertices, contains hole 0 but no vertex of hole 1, and the closed merged loop reports an
    area more than 3e11 below the polygon's (hole 0 subtracted twice, hole 1 not at all).  Reproduced on the crate before the fix
    with `g3harness replay C12`.  The LIVE model on the same polygon: clean, hits, well formed, both holes present, closed
    area = the polygon's area. *)
Section FarHoles.
  Set Warnings "-inexact-float".
  Definition mkf (pts : list (V3 float)) : Loop float := fst (loop_run loop_new (map (fun p => LPush p) pts ++ [LClose])).
  Definition far_outer := mkf [mkV3 0 0 0; mkV3 1e8 0 0; mkV3 1e8 1e8 0; mkV3 0 1e8 0]%float.
  Definition far_hole0 := mkf [mkV3 9.8e7 9.7e7 0; mkV3 9.85e7 9.9e7 0; mkV3 9.9e7 9.75e7 0]%float.
  Definition far_hole1 := mkf [mkV3 5e7 5e7 0; mkV3 5e7 5.1e7 0; mkV3 5.1e7 5e7 0]%float.
  Definition far_witness : res (Poly float) := do P0 <- poly_new far_outer; do P1 <- poly_cut_hole P0 far_hole0; poly_cut_hole P1 far_hole1.
  Definition occurs_in (vs : list (V3 float)) (v : V3 float) : bool :=
    existsb (fun w => PrimFloat.eqb (vx v) (vx w) && PrimFloat.eqb (vy v) (vy w) && PrimFloat.eqb (vz v) (vz w)) vs.
  Theorem far_holes_pinned_refuted : exists (P : Poly float) (L : Loop float),
    far_witness = Ok P /\ pinner P = [far_hole0; far_hole1] /\
    map (fun h => vis_same_direction (lnormal (pouter P)) (lnormal h)) (pinner P) = [false; false] /\
    closed_loop_clean true P = true /\
    poly_get_closed_loop_gen true P = Ok L /\ llen L = 14 /\
    forallb (occurs_in (verts L)) (verts far_hole0) = true /\
    forallb (fun v => negb (occurs_in (verts L) v)) (verts far_hole1) = true /\
    snd (loop_close L) = Ok tt /\
    PrimFloat.ltb (larea (fst (loop_close L))) (parea P - 3e11)%float = true.
  Proof.
    eexists. eexists. split; [vm_compute; reflexivity|]. split; [vm_compute; reflexivity|].
    split; [vm_compute; reflexivity|]. split; [vm_compute; reflexivity|]. split; [vm_compute; reflexivity|].
    vm_compute. repeat split; reflexivity.
  Qed.
  Theorem far_holes_now_merged : exists (P : Poly float) (L : Loop float),
    far_witness = Ok P /\
    closed_loop_clean false P = true /\ closed_loop_hits P = true /\ closed_loop_wf P = true /\
    option_map (map ms_ml) (closed_loop_trace P) = Some [0; 1] /\
    poly_get_closed_loop P = Ok L /\ llen L = 14 /\
    forallb (occurs_in (verts L)) (verts far_hole0) = true /\ forallb (occurs_in (verts L)) (verts far_hole1) = true /\
    snd (loop_close L) = Ok tt /\
    PrimFloat.leb (PrimFloat.abs (larea (fst (loop_close L)) - parea P)) (1e-12 * parea P)%float = true.
  Proof.
    eexists. eexists. split; [vm_compute; reflexivity|]. split; [vm_compute; reflexivity|].
    split; [vm_compute; reflexivity|]. split; [vm_compute; reflexivity|]. split; [vm_compute; reflexivity|].
    split; [vm_compute; reflexivity|].
    vm_compute. repeat split; reflexivity.
  Qed.
End FarHoles.
