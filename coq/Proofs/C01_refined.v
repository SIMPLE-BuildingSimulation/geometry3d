(** * C01 for REFINED meshes (reals): the live triangles returned by [mesh_polygon] tile the polygon's region exactly.

    Composition of
    - Proofs/Mesh_links_init.v: the initial mesh M0 of a sanitize-stable run on a Jordan outline with separated, coplanar vertices
      satisfies INV (WF, CNT, exact links, vertices in the plane, every triangle counter-clockwise);
    - Proofs/Mesh_refine_region.v: from INV, along the trace of elementary steps of [refine] (side conditions [side] at every step)
      INV is kept, the doubled signed area of the live triangles is kept, and -- when the ray from q avoids every inserted point --
      the coverage [mesh_cover d . q] (sum of the live triangles' winding numbers) is kept;
    - Proofs/C01_tiling.v: for M0 (all of whose slots are live: [from_polygon_all_valid]) the coverage IS the winding number of the
      closed merged outline (for every ray and point: [ears_winding_identity]) and the area is its shoelace area;
    - Proofs/C01_polygon.v / C12_region.v: merged outline = outer outline minus the holes (winding number, area, stored area).
    The two notions of coverage are reconciled by [cover_count_segs]: for counter-clockwise triangles, a ray generic for each
    triangle's corners and q on no (closed) edge of a triangle, [cover d Ts q] = [count_inside Ts q] (C08's
    [cover_counts_inside] with [off_segs] instead of [off_lines], so that the hypothesis on q is the one C01 uses).
    "q generic" is asked of the RETURNED triangles only (ray through none of their corners, q on none of their edges) and of the
    refinement trace (ray through no inserted point); it is NOT asked of the input polygon: the winding identity of M0 holds for
    every ray. *)
From Coq Require Import ZArith Reals Lra Lia Bool List Arith Psatz.
From G3 Require Import Model.Num Model.Base Model.Vec Model.Segment Model.Triangle Model.Loop Model.Polygon Model.PolyAux Model.Triangulation
  Theory.RInst Theory.Cyclic Theory.Winding
  Proofs.Mesh_base Proofs.Mesh_wf Proofs.Mesh_conf Proofs.Mesh_region Proofs.Mesh_atomic Proofs.Mesh_fp Proofs.Mesh_init Proofs.Mesh_refine
  Proofs.Mesh_links Proofs.Mesh_links_steps Proofs.Mesh_links_region Proofs.Mesh_refine_trace Proofs.Mesh_refine_region
  Proofs.C05_pointtest Proofs.C12_region Proofs.C01_tiling Proofs.C01_polygon Proofs.Mesh_links_init.
From G3 Require Theory.Shoelace.
Import ListNotations.

(** * every number instance: all slots of the initial mesh are live; on RDone all slots of the refined mesh are *)
Section AllLive.
  Context {K : Type} {NK : Num K}.
  Notation Mesh := (Mesh K).
  Definition AllValid (M : Mesh) : Prop := forall t, In t (tris M) -> tp_valid t = true.
  Lemma AllValid_skel (M M' : Mesh) : skel (tris M') = skel (tris M) -> AllValid M -> AllValid M'.
  Proof.
    intros Hs H t Hin. assert (A : In (tp_tri t, tp_valid t) (skel (tris M'))) by (unfold skel; apply (in_map (fun t => (tp_tri t, tp_valid t))); exact Hin).
    rewrite Hs in A. unfold skel in A. apply in_map_iff in A. destruct A as (u & Eu & Hu). pose proof (H u Hu) as Vu. injection Eu as E1 E2. congruence.
  Qed.
  Lemma AllValid_push a b c la (M M' : Mesh) n : mesh_push a b c la M = (M', Ok n) -> AllValid M -> AllValid M'.
  Proof.
    intros H HA t Hin. destruct (push_slot _ _ _ _ _ _ _ H) as (_ & (t' & Et' & Vt') & _ & _ & Hold & _).
    apply In_nth_error in Hin. destruct Hin as [j Ej]. destruct (Nat.eq_dec j n) as [->|Hj].
    - rewrite Et' in Ej. inversion Ej; subst. exact Vt'.
    - apply HA. eapply nth_error_In. exact (Hold j t Hj Ej).
  Qed.
  Theorem from_polygon_all_valid (P : Poly K) (M : Mesh) : from_polygon P = Ok M -> AllValid M.
  Proof.
    intros H. destruct (from_polygon_reach AllValid AllValid_push) with (P := P) (M := M) as (t & At & Hm).
    - intros s i e M1 M2 r Hc. apply AllValid_skel. exact (sk_mupd s i (tp_constrain e) (constrain_tri e) (constrain_valid e) _ _ _ Hc).
    - intros t [].
    - exact H.
    - apply (AllValid_skel t M (sk_neighbourhouds _ _ _ Hm)). exact At.
  Qed.
  Lemma AllValid_live (M : Mesh) : AllValid M -> live_tris M = get_trilist M.
  Proof.
    unfold AllValid, live_tris, live_l, get_trilist. induction (tris M) as [|t l IH]; intros H; [reflexivity|]. cbn [filter].
    rewrite (H t (or_introl eq_refl)). cbn [map]. f_equal. apply IH. intros u Hu. apply H. right. exact Hu.
  Qed.
  (** what the user receives ([get_trilist]) is exactly the list of live triangles: initially, and after a refinement that ran to
      completion (C18: every slot is live on RDone) *)
  Theorem from_polygon_live_reported (P : Poly K) (M : Mesh) : from_polygon P = Ok M -> live_tris M = get_trilist M.
  Proof. intros H. apply AllValid_live. exact (from_polygon_all_valid P M H). Qed.
  Theorem mesh_polygon_live_reported (fuel : nat) (P : Poly K) (amax mar : K) (M : Mesh) :
    mesh_polygon fuel P amax mar = Ok (M, RDone) -> live_tris M = get_trilist M.
  Proof.
    intros H. apply mesh_polygon_inv in H. destruct H as (M0 & _ & E).
    apply AllValid_live. intros t Ht. pose proof (refine_ok_all_valid _ _ _ _ _ E) as F. rewrite forallb_forall in F. apply F. exact Ht.
  Qed.
  (** [tr_ok] is monotone in the side condition *)
  Lemma tr_ok_mono (s1 s2 : Mesh -> mop K -> Prop) : (forall M op, s1 M op -> s2 M op) ->
    forall (tr : list (tev K)) (M : Mesh), tr_ok s1 M tr -> tr_ok s2 M tr.
  Proof.
    intros Hs. induction tr as [|[op|p] tr IH]; intros M H; cbn [tr_ok] in *; [exact I | destruct H as [A B]; split; [apply Hs; exact A | apply IH; exact B] | apply IH; exact H].
  Qed.
End AllLive.

(** * the two notions of coverage *)
Local Open Scope R_scope.
Notation PP := Winding.P2.
Notation T2 := (PP * PP * PP)%type.

Lemma cover_count_segs (d q : PP) (Ts : list T2) :
  (forall a b c, In (a, b, c) Ts -> 0 < orient a b c /\ generic d q [a; b; c] /\ off_segs a b c q) ->
  cover d Ts q = Z.of_nat (count_inside Ts q).
Proof.
  intros H. unfold cover. rewrite <- tsum_index_count by (intros a b c Hin; apply (H a b c Hin)).
  apply tsum_ext_in. intros a b c Hin. destruct (H a b c Hin) as (_ & Hg & Hoff). apply wn_triangle_index_seg; [exact Hg | intros _; exact Hoff].
Qed.
Lemma sum_abs_area_pos (Ts : list T2) : (forall a b c, In (a, b, c) Ts -> 0 < orient a b c) ->
  tsum 0 Rplus (fun a b c => Rabs (Shoelace.area2 [a; b; c])) Ts = / 2 * area2sum Ts.
Proof.
  induction Ts as [|[[a b] c] Ts IH]; intros H; [unfold area2sum, tsum; cbn [fold_right]; ring|].
  rewrite tsum_cons, area2sum_cons, IH by (intros; apply H; right; assumption).
  pose proof (H a b c (or_introl eq_refl)) as Hp. rewrite Shoelace.area2_tri, Rabs_right by lra. ring.
Qed.
Lemma outline_of_fun {K : Type} {NK : Num K} (P : Poly K) (L L' : Loop K) : outline_of P L -> outline_of P L' -> L = L'.
Proof. intros (Lm & E1 & _ & ->) (Lm' & E1' & _ & ->). rewrite E1 in E1'. inversion E1'. reflexivity. Qed.

(** * the refined mesh *)
Section Refined.
  Variables (o e1 e2 : V3 R).
  Notation pr := (plane2 o e1 e2).
  Hypothesis E11 : vdot e1 e1 = 1.
  Hypothesis E22 : vdot e2 e2 = 1.
  Hypothesis E12 : vdot e1 e2 = 0.
  Variables (P : Poly R) (fuel : nat) (amax mar : R) (M0 M' : Mesh R) (r : rres) (L : Loop R).
  Hypothesis Hrun : stable_run P M0.
  Hypothesis Hout : outline_of P L.
  Hypothesis Hn : frame_normal e1 e2 P.
  Hypothesis HJ : jordan_le1 (proj_outline o e1 e2 L).
  Hypothesis HV : VSEP (fun x : V3 R => In x (verts L)).
  Hypothesis HP : forall v : V3 R, In v (verts L) -> in_plane o e1 e2 v.
  Hypothesis Hmp : mesh_polygon fuel P amax mar = Ok (M', r).
  Notation L2 := (proj_outline o e1 e2 L).
  Notation Ts' := (tris2 o e1 e2 M').
  Notation trace := (refine_trace fuel amax mar M0).
  (** side conditions of the trace without / with "the ray from q avoids the inserted point" *)
  Notation side0 := (side o e1 e2 (fun _ => True)).
  Notation sideq d q := (side o e1 e2 (fun p => hgt d q (pr p) <> 0)).

  Lemma refined_inv0 : INV o e1 e2 M0.
  Proof. exact (initial_INV o e1 e2 P M0 L Hrun Hout Hn HJ HV HP). Qed.
  Lemma refined_refine : refine fuel amax mar M0 = (M', Ok r).
  Proof.
    destruct (proj1 (mesh_polygon_inv _ _ _ _ _ _) Hmp) as (M1 & E0 & E). rewrite (stable_run_ok P M0 Hrun) in E0. inversion E0; subst M1. exact E.
  Qed.
  Lemma sideq_side0 (d q : PP) : forall (tr : list (tev R)) (M : Mesh R), tr_ok (sideq d q) M tr -> tr_ok side0 M tr.
  Proof.
    apply tr_ok_mono. intros M op H. destruct op; cbn [side] in *; try exact H.
    - destruct H as [A _]. split; [exact A | exact I].
    - destruct H as (A & B & C & D & _). split; [exact A | split; [exact B | split; [exact C | split; [exact D | exact I]]]].
  Qed.
  Lemma tris2_initial : tris2 o e1 e2 M0 = proj_tris o e1 e2 M0.
  Proof.
    unfold tris2, proj_tris. rewrite (from_polygon_live_reported P M0 (stable_run_ok P M0 Hrun)). unfold get_trilist. rewrite map_map. reflexivity.
  Qed.
  (** the initial mesh: coverage = winding number of the merged outline (every ray, every point); doubled area = its shoelace area *)
  Lemma initial_cover (d q : PP) : mesh_cover o e1 e2 d M0 q = wn d L2 q.
  Proof. unfold mesh_cover. rewrite tris2_initial. symmetry. exact (ears_winding_identity o e1 e2 P M0 L Hrun Hout d q). Qed.
  Lemma initial_area : mesh_area2 o e1 e2 M0 = 2 * Shoelace.area2 L2.
  Proof. unfold mesh_area2. rewrite tris2_initial. symmetry. exact (ears_area_identity o e1 e2 P M0 L Hrun Hout). Qed.

  (** ** orientation, invariants *)
  Theorem refined_INV : tr_ok side0 M0 trace -> INV o e1 e2 M'.
  Proof. intros Htr. exact (refine_INV o e1 e2 E11 E22 E12 fuel amax mar M0 M' r refined_inv0 refined_refine Htr). Qed.
  Theorem refined_positive : tr_ok side0 M0 trace -> forall a b c, In (a, b, c) Ts' -> 0 < orient a b c.
  Proof.
    intros Htr a b c Hin. destruct (refined_INV Htr) as (_ & _ & _ & _ & HA). unfold AllPos in HA. rewrite Forall_forall in HA.
    exact (HA _ Hin).
  Qed.

  (** ** the count, against the merged outline *)
  Theorem refined_count_merged (d q : PP) : tr_ok (sideq d q) M0 trace ->
    (forall a b c, In (a, b, c) Ts' -> generic d q [a; b; c] /\ off_segs a b c q) ->
    Z.of_nat (count_inside Ts' q) = wn d L2 q.
  Proof.
    intros Htr Hg. pose proof (sideq_side0 d q _ _ Htr) as Htr0.
    rewrite <- initial_cover, <- (refine_cover o e1 e2 E11 E22 E12 d q fuel amax mar M0 M' r refined_inv0 refined_refine Htr).
    unfold mesh_cover. symmetry. apply cover_count_segs. intros a b c Hin. destruct (Hg a b c Hin) as [A B].
    split; [exact (refined_positive Htr0 a b c Hin) | split; assumption].
  Qed.
  (** ** the areas, against the merged outline *)
  Theorem refined_area_merged : tr_ok side0 M0 trace ->
    tsum 0 Rplus (fun a b c => Rabs (Shoelace.area2 [a; b; c])) Ts' = Shoelace.area2 L2.
  Proof.
    intros Htr. rewrite (sum_abs_area_pos _ (refined_positive Htr)).
    change (area2sum Ts') with (mesh_area2 o e1 e2 M').
    rewrite (refine_area o e1 e2 E11 E22 E12 fuel amax mar M0 M' r refined_inv0 refined_refine Htr), initial_area. field.
  Qed.

  (** ** the same against the polygon's own loops: outer outline and holes *)
  Hypothesis Hclean : closed_loop_clean false P = true.
  Hypothesis Hwf : closed_loop_wf P = true.
  Hypothesis Hkeep : close_keeps P.
  Notation O2 := (poly_outer2 o e1 e2 P).
  Notation H2 := (poly_holes2 o e1 e2 P).

  Lemma merged_wn_polygon (d q : PP) : wn d L2 q = (wn d O2 q - holes_wn d q H2)%Z.
  Proof.
    destruct (merged_wn o e1 e2 P M0 Hclean Hwf Hrun Hkeep d q) as (L' & Ho' & Ew & _).
    rewrite (outline_of_fun P L L' Hout Ho'). exact Ew.
  Qed.
  Lemma merged_area_polygon : Shoelace.area2 L2 = Shoelace.area2 O2 - holes_area2 H2.
  Proof.
    rewrite (ears_area_sum_proved o e1 e2 P M0 L Hrun Hout Hn). exact (polygon_area_sum o e1 e2 P M0 Hclean Hwf Hrun Hkeep Hn).
  Qed.

  Theorem refined_count (d q : PP) : tr_ok (sideq d q) M0 trace ->
    (forall a b c, In (a, b, c) Ts' -> generic d q [a; b; c] /\ off_segs a b c q) ->
    Z.of_nat (count_inside Ts' q) = (wn d O2 q - holes_wn d q H2)%Z.
  Proof. intros Htr Hg. rewrite (refined_count_merged d q Htr Hg). apply merged_wn_polygon. Qed.

  (** ** the exact tiling: Jordan hypotheses on the input loops at q *)
  Theorem refined_tile_exactly (d q : PP) : tr_ok (sideq d q) M0 trace ->
    (forall a b c, In (a, b, c) Ts' -> generic d q [a; b; c] /\ off_segs a b c q) ->
    (0 <= wn d O2 q <= 1)%Z -> (forall l, In l H2 -> (0 <= wn d l q)%Z) -> (holes_wn d q H2 <= wn d O2 q)%Z ->
    (wn d O2 q = 1%Z -> (forall l, In l H2 -> wn d l q = 0%Z) ->
       count_inside Ts' q = 1%nat /\ exists a b c, In (a, b, c) Ts' /\ inside_tri a b c q) /\
    (wn d O2 q = 0%Z \/ (exists l, In l H2 /\ (0 < wn d l q)%Z) ->
       count_inside Ts' q = 0%nat /\ forall a b c, In (a, b, c) Ts' -> ~ inside_tri a b c q) /\
    (forall (l1 l2 l3 : list T2) (a b c a' b' c' : PP), Ts' = l1 ++ (a, b, c) :: l2 ++ (a', b', c') :: l3 ->
       inside_tri a b c q -> inside_tri a' b' c' q -> False) /\
    count_inside Ts' q = Z.to_nat (wn d O2 q - holes_wn d q H2).
  Proof.
    intros Htr Hg Ho Hh Hle. pose proof (refined_count d q Htr Hg) as Ec.
    assert (Hh0 : (0 <= holes_wn d q H2)%Z).
    { unfold holes_wn. apply zsum_nonneg. intros x Hx. apply in_map_iff in Hx. destruct Hx as (l & <- & Hl). apply Hh. exact Hl. }
    split; [|split; [|split]].
    - intros H1 Hz. assert (E0 : holes_wn d q H2 = 0%Z).
      { unfold holes_wn. apply zsum_all_zero. intros x Hx. apply in_map_iff in Hx. destruct Hx as (l & <- & Hl). apply Hz. exact Hl. }
      assert (C1 : count_inside Ts' q = 1%nat) by lia. split; [exact C1|]. apply count_pos_cover. lia.
    - intros Hout'. assert (C0 : count_inside Ts' q = 0%nat).
      { destruct Hout' as [H0|(l & Hl & Hpos)]; [lia|].
        assert (wn d l q <= holes_wn d q H2)%Z.
        { unfold holes_wn. apply zsum_member_le; [|apply (in_map (fun l0 : list PP => wn d l0 q)); exact Hl].
          intros y Hy. apply in_map_iff in Hy. destruct Hy as (l' & <- & Hl'). apply Hh. exact Hl'. }
        lia. }
      split; [exact C0 | apply count_zero_none; exact C0].
    - intros l1 l2 l3 a b c a' b' c' E. apply (count_le1_no_overlap q l1 l2 l3). rewrite <- E. lia.
    - lia.
  Qed.

  (** ** the areas *)
  Theorem refined_area_sum : tr_ok side0 M0 trace ->
    tsum 0 Rplus (fun a b c => Rabs (Shoelace.area2 [a; b; c])) Ts' = Shoelace.area2 O2 - holes_area2 H2.
  Proof. intros Htr. rewrite (refined_area_merged Htr). exact merged_area_polygon. Qed.
  Theorem refined_area_parea : tr_ok side0 M0 trace ->
    lnormal (pouter P) = vcross e1 e2 -> planar_normals P -> signed_areas P ->
    parea P = larea (pouter P) - rsum (map larea (pinner P)) ->
    tsum 0 Rplus (fun a b c => Rabs (Shoelace.area2 [a; b; c])) Ts' = parea P.
  Proof.
    intros Htr En Hpl Hsa Hacc. rewrite (refined_area_merged Htr), (ears_area_sum_proved o e1 e2 P M0 L Hrun Hout Hn).
    exact (polygon_area_parea o e1 e2 P M0 Hclean Hwf Hrun Hkeep Hn En (frame_unit_normal e1 e2 E11 E22 E12) Hpl Hsa Hacc).
  Qed.

  (** the global Jordan hypothesis on the merged outline follows from the one on the input loops (where the ray is generic for the
      merged outline and q is off its edges): outer winds at most once, every hole (oriented like the outer) at least 0 times *)
  Lemma jordan_of_input :
    (forall d q : PP, generic d q L2 -> off_edges L2 q -> (wn d O2 q <= 1)%Z /\ forall l, In l H2 -> (0 <= wn d l q)%Z) -> jordan_le1 L2.
  Proof.
    intros H d q Hg Hoff. destruct (H d q Hg Hoff) as [A B]. rewrite merged_wn_polygon.
    assert (0 <= holes_wn d q H2)%Z; [|lia].
    unfold holes_wn. apply zsum_nonneg. intros x Hx. apply in_map_iff in Hx. destruct Hx as (l & <- & Hl). apply B. exact Hl.
  Qed.
End Refined.
