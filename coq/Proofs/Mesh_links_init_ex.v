(** * Mesh_links_init_ex: non-vacuity of the hypotheses of Proofs/Mesh_links_init.v.
    binary64 (vm_compute): [from_polygon] of the unit square ([Mesh_witness.w4_poly]) succeeds, the run is sanitize-stable,
    its mesh satisfies SEP and EM -- hence, by B1, LNKG and DIST -- and two links are indeed set.
    reals: the outline of the same square (0,0,0) (1,0,0) (1,1,0) (0,1,0) in the frame ((0,0,0), (1,0,0), (0,1,0)) meets the
    hypotheses of B2 / of the composition that speak of the outline: orthonormal frame, Jordan hypothesis (any parallelogram
    winds at most once around any point, for any ray), separation of the vertices, vertices in the plane. *)
From Coq Require Import ZArith Reals Lra Lia List Bool Arith Floats.
Set Warnings "-inexact-float".
From G3 Require Import Model.Num Model.NumF Model.Base Model.Vec Model.Segment Model.Triangle Model.Loop Model.Polygon Model.Triangulation
  Theory.RInst Theory.Cyclic Theory.Winding
  Proofs.Mesh_base Proofs.Mesh_wf Proofs.Mesh_conf Proofs.Mesh_region Proofs.Mesh_atomic Proofs.Mesh_region_ex
  Proofs.Mesh_links Proofs.Mesh_links_steps Proofs.Mesh_links_region Proofs.Mesh_links_ex Proofs.Mesh_witness
  Proofs.C05_pointtest Proofs.C01_tiling Proofs.Mesh_links_init.
Import ListNotations.

(** ** binary64 *)
Definition w4_mesh : Mesh float := match from_polygon w4_poly with Ok m => m | _ => mesh_new end.
Lemma w4_mesh_lit : w4_mesh = w4_lit.
Proof. unfold w4_mesh. rewrite w4_from_polygon. reflexivity. Qed.
Lemma w4_run : from_polygon w4_poly = Ok w4_mesh.
Proof. rewrite w4_mesh_lit. exact w4_from_polygon. Qed.
Lemma w4_stable : stable_run w4_poly w4_mesh.
Proof. rewrite w4_mesh_lit. eexists. split; [vm_compute; reflexivity | vm_compute; repeat constructor]. Qed.
Lemma w4_verts (x : V3 float) : mesh_vert w4_mesh x -> In x sq_pts.
Proof.
  rewrite w4_mesh_lit. intros (j & T & L & Hx). lv_cases L j; inversion L; subst T; cbn [ta tb tc] in Hx; destruct Hx as [-> | [-> | ->]]; vm_compute; auto.
Qed.
Lemma w4_SEP : SEP w4_mesh.
Proof. refine (VSEP_sub _ _ _ sq_pts_sep). intros x Hx. right. apply w4_verts. exact Hx. Qed.
Ltac pair_neq E :=
  match type of E with
  | ?X = _ => apply (f_equal (fun p : V3 float * V3 float => andb (vcompare (fst p) (fst X)) (vcompare (snd p) (snd X)))) in E; vm_compute in E; discriminate E
  end.
Lemma w4_EM : EM w4_mesh.
Proof.
  rewrite w4_mesh_lit. intros i j Ti Tj e e' Hij Li Lj E.
  lv_cases Li i; lv_cases Lj j; try (exfalso; apply Hij; reflexivity); inversion Li; inversion Lj; subst Ti Tj;
    destruct e, e'; cbn [edge_pts ta tb tc] in E; pair_neq E.
Qed.
Lemma init_links_float_nonvacuous :
  exists M : Mesh float, from_polygon w4_poly = Ok M /\ stable_run w4_poly M /\ SEP M /\ EM M /\ LNKG M /\ DIST M /\
    length (tris M) = 2%nat /\ (exists e e', lk M 0 e = Some 1%nat /\ lk M 1 e' = Some 0%nat).
Proof.
  exists w4_mesh. destruct (from_polygon_links w4_poly w4_mesh w4_run w4_SEP w4_EM) as [HL HD].
  split; [exact w4_run|]. split; [exact w4_stable|]. split; [exact w4_SEP|]. split; [exact w4_EM|]. split; [exact HL|]. split; [exact HD|].
  rewrite w4_mesh_lit. split; [reflexivity|]. exists Ca, Ab. split; reflexivity.
Qed.

(** ** reals *)
Local Open Scope R_scope.
Notation PP := Winding.P2.

(** the upward crossings alone bound the winding number *)
Definition up (ha hb : R) : Z := if rlt ha 0 && rlt 0 hb then 1%Z else 0%Z.
Lemma crdR_le_up (ha hb o : R) : (crdR ha hb o <= up ha hb)%Z.
Proof. unfold crdR, up. destruct (rlt ha 0), (rlt 0 hb), (rlt 0 o), (rlt hb 0), (rlt 0 ha), (rlt o 0); cbn [andb]; lia. Qed.
Lemma up_cases (ha hb : R) : up ha hb = 0%Z \/ up ha hb = 1%Z /\ ha < 0 < hb.
Proof. unfold up, rlt. destruct (Rlt_dec ha 0), (Rlt_dec 0 hb); cbn [andb]; auto. Qed.
(** a parallelogram (p0 + p2 = p1 + p3) winds at most once around any point, whatever the ray: the heights h_i over the ray
    satisfy h0 + h2 = h1 + h3, so two edges cannot both cross it upwards (adjacent ones disagree on the sign of the shared
    height, opposite ones on the sign of the common sum) *)
Lemma jordan_parallelogram (p0 p1 p2 p3 : PP) :
  fst p0 + fst p2 = fst p1 + fst p3 -> snd p0 + snd p2 = snd p1 + snd p3 -> jordan_le1 [p0; p1; p2; p3].
Proof.
  intros Hx Hy d q _ _. unfold wn, csum, edges_closed, edges_to, esum. cbn [fold_right hd fst snd]. unfold crd.
  pose proof (crdR_le_up (hgt d q p0) (hgt d q p1) (orient p0 p1 q)) as B0.
  pose proof (crdR_le_up (hgt d q p1) (hgt d q p2) (orient p1 p2 q)) as B1.
  pose proof (crdR_le_up (hgt d q p2) (hgt d q p3) (orient p2 p3 q)) as B2.
  pose proof (crdR_le_up (hgt d q p3) (hgt d q p0) (orient p3 p0 q)) as B3.
  assert (E : hgt d q p0 + hgt d q p2 = hgt d q p1 + hgt d q p3) by (unfold hgt; nra).
  revert B0 B1 B2 B3 E. generalize (hgt d q p0) (hgt d q p1) (hgt d q p2) (hgt d q p3). intros h0 h1 h2 h3.
  destruct (up_cases h0 h1) as [-> | [-> ?]], (up_cases h1 h2) as [-> | [-> ?]], (up_cases h2 h3) as [-> | [-> ?]], (up_cases h3 h0) as [-> | [-> ?]];
    intros B0 B1 B2 B3 E; first [lia | exfalso; lra].
Qed.

Definition r3 (x y : R) : V3 R := mkV3 x y 0.
Definition sqL : list (V3 R) := [r3 0 0; r3 1 0; r3 1 1; r3 0 1].
Lemma sqL_sep : VSEP (fun x => In x sqL).
Proof.
  apply sepb_sound. cbn [sepb forallb sqL]. rewrite !vcompare_refl_R.
  repeat match goal with |- context [vcompare ?a ?b] => replace (vcompare a b) with false by (symmetry; unfold r3; vcdec) end.
  reflexivity.
Qed.
Lemma init_links_real_nonvacuous :
  let o := r3 0 0 in let e1 := r3 1 0 in let e2 := r3 0 1 in
  vdot e1 e1 = 1 /\ vdot e2 e2 = 1 /\ vdot e1 e2 = 0 /\
  map (plane2 o e1 e2) sqL = [(0, 0); (1, 0); (1, 1); (0, 1)] /\
  jordan_le1 (map (plane2 o e1 e2) sqL) /\
  VSEP (fun x : V3 R => In x sqL) /\
  (forall v : V3 R, In v sqL -> in_plane o e1 e2 v).
Proof.
  cbn zeta.
  assert (Epr : map (plane2 (r3 0 0) (r3 1 0) (r3 0 1)) sqL = [(0, 0); (1, 0); (1, 1); (0, 1)]).
  { unfold sqL, plane2, r3, vdot, vsub. cbn [map vx vy vz]. rnum. repeat (f_equal; try (f_equal; ring)). }
  split; [unfold r3, vdot; cbn [vx vy vz]; rnum; ring|]. split; [unfold r3, vdot; cbn [vx vy vz]; rnum; ring|].
  split; [unfold r3, vdot; cbn [vx vy vz]; rnum; ring|]. split; [exact Epr|]. split; [|split].
  - rewrite Epr. apply jordan_parallelogram; cbn [fst snd]; ring.
  - exact sqL_sep.
  - intros v Hv. cbn [In sqL] in Hv. unfold in_plane, emb.
    repeat (destruct Hv as [<- | Hv]); try contradiction;
      [exists 0, 0 | exists 1, 0 | exists 1, 1 | exists 0, 1]; unfold r3, vadd, vscale; cbn [vx vy vz]; rnum; f_equal; ring.
Qed.

(** ** EM is needed (binary64): three triangles on one edge, two of them holding it in the same direction.  SEP and DIST hold, no
    link is set, [mark_neighbourhouds] returns Ok -- and the links are not reciprocal: the pair (0,2) overwrote the entry
    (0, Ab) written by the pair (0,1), then the pair (1,2) overwrote (1, Ab) and (2, Ab). *)
Local Open Scope float_scope.
Definition fan_build : MR (K:=float) unit :=
  mbind (mesh_push (q2 0 0) (q2 1 0) (q2 0 1) 0) (fun _ =>
  mbind (mesh_push (q2 1 0) (q2 0 0) (q2 0 (-1)) 0) (fun _ =>
  mbind (mesh_push (q2 1 0) (q2 0 0) (q2 1 (-1)) 0) (fun _ => mret tt))).
Definition fanM : Mesh float := fst (fan_build mesh_new).
Definition fanM' : Mesh float := fst (mark_neighbourhouds fanM).
Definition fan_pts : list (V3 float) := [q2 0 0; q2 1 0; q2 0 1; q2 0 (-1); q2 1 (-1)].
Ltac v_neq E := match type of E with ?X = _ => apply (f_equal (fun v : V3 float => vcompare v X)) in E; vm_compute in E; discriminate E end.
Lemma fan_pts_sep : VSEP (fun x => In x fan_pts).
Proof. apply sepb_sound. vm_compute. reflexivity. Qed.
Lemma EM_is_needed :
  SEP fanM /\ DIST fanM /\ LNKG fanM /\ (forall j e, lk fanM j e = None) /\
  mark_neighbourhouds fanM = (fanM', Ok tt) /\ ~ LNKG fanM' /\ ~ EM fanM.
Proof.
  assert (HV : forall x, mesh_vert fanM x -> In x fan_pts).
  { intros x (j & T & L & Hx). lv_cases L j; inversion L; subst T; cbn [ta tb tc] in Hx; destruct Hx as [-> | [-> | ->]]; vm_compute; auto 10. }
  assert (HN : forall j e, lk fanM j e = None).
  { intros j e. destruct j as [|[|[|j]]]; destruct e; try (vm_compute; reflexivity);
      unfold lk; replace (nth_error (tris fanM) (S (S (S j)))) with (@None (TriPiece float)); try reflexivity;
      symmetry; apply nth_error_None; vm_compute; lia. }
  split; [exact (VSEP_sub _ _ HV fan_pts_sep)|]. split; [|split; [|split; [exact HN | split; [|split]]]].
  - intros j T L. lv_cases L j; inversion L; subst T; cbn [tri_distinct ta tb tc]; repeat split; intros E; v_neq E.
  - intros j T L e k E. rewrite HN in E. discriminate E.
  - vm_compute. reflexivity.
  - (* the link (0, Ab) -> 2 has no mate: no entry of slot 2 points to 0 *)
    intros H. assert (E : lk fanM' 0 Ab = Some 2%nat) by (vm_compute; reflexivity).
    assert (L0 : exists T, lvM fanM' 0 T) by (eexists; unfold lvM, lvT; vm_compute; reflexivity). destruct L0 as [T L0].
    destruct (H 0%nat T L0 Ab 2%nat E) as (_ & T' & U & e' & _ & _ & A4 & _). destruct e'; vm_compute in A4; discriminate A4.
  - (* slots 1 and 2 hold the directed edge (1,0) -> (0,0) *)
    intros H. assert (L1 : exists T, lvM fanM 1 T /\ edge_pts T Ab = (q2 1 0, q2 0 0)) by (eexists; split; [unfold lvM, lvT; vm_compute; reflexivity | reflexivity]).
    assert (L2 : exists T, lvM fanM 2 T /\ edge_pts T Ab = (q2 1 0, q2 0 0)) by (eexists; split; [unfold lvM, lvT; vm_compute; reflexivity | reflexivity]).
    destruct L1 as (T1 & L1 & E1). destruct L2 as (T2 & L2 & E2).
    apply (H 1%nat 2%nat T1 T2 Ab Ab); [discriminate | exact L1 | exact L2 | rewrite E1, E2; reflexivity].
Qed.
