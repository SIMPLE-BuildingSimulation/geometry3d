(** * Mesh_conf (C08 bookkeeping part, C09 b): the counter invariant, reciprocity of [mark_as_neighbours], and the
    panic sites that the invariants exclude.
    [Conf_struct M] = (i) [SYM]: every neighbour index of a live slot names a live slot that points back, and
                      (v) [CNT]: [n_valid_triangles] is the number of live slots.
    Proved here, for every number instance: (v) is preserved -- whatever the outcome -- by [push], by
    [invalidate] of a live slot, by [mark_as_neighbours], by [split_triangle], and by [flip_diagonal] and
    [restore_delaunay] on well-formed meshes; in these operations the usize underflow (site 61) is then
    unreachable; under [WF] the neighbour look-ups (sites 67, 73) are in range.  Of (i): a
    [mark_as_neighbours] call that returns Ok makes the two slots reference each other, and both are live.
    Where the rest of (i) and (v) is proved: header of Properties/C08_mesh.v. *)
From Coq Require Import ZArith Bool List Arith Lia.
From G3 Require Import Model.Num Model.Base Model.Vec Model.Segment Model.Triangle Model.Loop Model.Polygon Model.Triangulation
  Proofs.Mesh_base Proofs.Mesh_wf Proofs.Mesh_sites.
Import ListNotations.

Section Conf.
  Context {K : Type} {NK : Num K}.
  Notation V := (V3 K).
  Notation TP := (TriPiece K).
  Notation Mesh := (Mesh K).

  Definition live (M : Mesh) (i : nat) : Prop := exists t, nth_error (tris M) i = Some t /\ tp_valid t = true.
  Fixpoint count_valid (l : list TP) : nat :=
    match l with [] => 0 | t :: tl => (if tp_valid t then 1 else 0) + count_valid tl end.
  Definition CNT (M : Mesh) : Prop := nvalid M = count_valid (tris M).
  Definition SYM (M : Mesh) : Prop :=
    forall i t, nth_error (tris M) i = Some t -> tp_valid t = true ->
    forall e j, tp_neighbour t e = Some j -> exists u, nth_error (tris M) j = Some u /\ tp_valid u = true /\ exists e', tp_neighbour u e' = Some i.
  Definition Conf_struct (M : Mesh) : Prop := SYM M /\ CNT M.

  Record flip_pre (M : Mesh) (i : nat) (e : Edge) (t nb : TP) (ni : nat) (a b c o : V) (e1 e2 e3 e4 : Edge) (T1 T2 : Tri K) : Prop := {
    fp_t : nth_error (tris M) i = Some t;
    fp_tv : tp_valid t = true;
    fp_ni : tp_neighbour t e = Some ni;
    fp_nb : nth_error (tris M) ni = Some nb;
    fp_nbv : tp_valid nb = true;
    fp_a : tri_vertex (tp_tri t) (N.modulo (edge_as_i e) 3) = Ok a;
    fp_b : tri_vertex (tp_tri t) (N.modulo (edge_as_i e + 1) 3) = Ok b;
    fp_c : tri_vertex (tp_tri t) (N.modulo (edge_as_i e + 2) 3) = Ok c;
    fp_o : get_opposite_vertex (tp_tri nb) (seg_new a b) = Ok o;
    fp_e1 : edge_of_points 75%N (tp_tri t) a c = Ok e1;
    fp_e2 : edge_of_points 76%N (tp_tri t) c b = Ok e2;
    fp_e3 : edge_of_points 77%N (tp_tri nb) b o = Ok e3;
    fp_e4 : edge_of_points 78%N (tp_tri nb) a o = Ok e4;
    fp_T1 : tri_new a o c = Ok T1;
    fp_T2 : tri_new c o b = Ok T2 }.
  Definition flip_links (i aoc cob : nat) (t nb : TP) (e1 e2 e3 e4 : Edge) : MR (K:=K) unit :=
    mbind (match tp_neighbour nb e4 with Some n => mark_as_neighbours i Ab n | None => mret tt end) (fun _ =>
    mbind (mwhen (tp_is_constrained nb e4) (mupd 79%N aoc (tp_constrain Ab))) (fun _ =>
    mbind (mark_as_neighbours aoc Bc cob) (fun _ =>
    mbind (match tp_neighbour t e1 with Some n => mark_as_neighbours i Ca n | None => mret tt end) (fun _ =>
    mbind (mwhen (tp_is_constrained t e1) (mupd 79%N aoc (tp_constrain Ca))) (fun _ =>
    mbind (match tp_neighbour nb e3 with Some n => mark_as_neighbours cob Bc n | None => mret tt end) (fun _ =>
    mbind (mwhen (tp_is_constrained nb e3) (mupd 79%N cob (tp_constrain Bc))) (fun _ =>
    mbind (match tp_neighbour t e2 with Some n => mark_as_neighbours cob Ca n | None => mret tt end) (fun _ =>
    mwhen (tp_is_constrained t e2) (mupd 79%N cob (tp_constrain Ca)))))))))).
  Definition flip_suffix (i ni : nat) (t nb : TP) (a b c o : V) (e1 e2 e3 e4 : Edge) : MR (K:=K) unit :=
    mbind (mesh_invalidate i) (fun _ => mbind (mesh_invalidate ni) (fun _ =>
    mbind (mesh_push a o c i) (fun aoc => mbind (mesh_push c o b ni) (fun cob =>
    flip_links i aoc cob t nb e1 e2 e3 e4)))).
  Definition okflip (s : N) : bool := negb (N.eqb s 61) && negb (N.eqb s 73).
  (** the read-only prefix of flip_diagonal fails with the mesh unchanged; its panic sites are neither 61 nor 73, but for
      the look-up of a neighbour index that is out of range *)
  Lemma flip_inv_sites (i : nat) (e : Edge) (M M' : Mesh) (r : res unit) :
    flip_diagonal i e M = (M', r) ->
    (M' = M /\ (forall x, r <> Ok x) /\
     forall s, r = Panic s -> okflip s = true \/ exists t ni, nth_error (tris M) i = Some t /\ tp_neighbour t e = Some ni /\ nth_error (tris M) ni = None) \/
    exists t nb ni a b c o e1 e2 e3 e4 T1 T2,
      flip_pre M i e t nb ni a b c o e1 e2 e3 e4 T1 T2 /\ flip_suffix i ni t nb a b c o e1 e2 e3 e4 M = (M', r).
  Proof.
    intros H. unfold flip_diagonal in H.
    apply bind_get_inv in H. destruct H as [(t & Et & H) | (-> & -> & _)];
      [|left; split; [reflexivity | split; [discriminate | intros s E; inversion E; left; reflexivity]]].
    destruct (tp_valid t) eqn:Ev; cbn [negb] in H; [|inversion H; left; repeat split; [discriminate | intros s E; inversion E; left; reflexivity]].
    destruct (tp_neighbour t e) as [ni|] eqn:En; [|inversion H; left; repeat split; [discriminate | intros s E; inversion E; left; reflexivity]].
    apply bind_get_inv in H. destruct H as [(nb & Enb & H) | (-> & -> & Enone)];
      [|left; split; [reflexivity | split; [discriminate | intros s _; right; exists t, ni; auto]]].
    destruct (tp_valid nb) eqn:Evn; cbn [negb] in H; [|inversion H; left; repeat split; [discriminate | intros s E; inversion E; left; reflexivity]].
    assert (Early : forall A (x : res A), np_res okflip x ->
              M' = M /\ (forall a, x <> Ok a) /\ (forall b, r <> Ok b) /\ (forall s, r = Panic s -> x = Panic s) ->
              M' = M /\ (forall b, r <> Ok b) /\
              forall s, r = Panic s -> okflip s = true \/ exists t ni, nth_error (tris M) i = Some t /\ tp_neighbour t e = Some ni /\ nth_error (tris M) ni = None).
    { intros A x Np (EM & _ & Fr & Fs). split; [exact EM | split; [exact Fr|]]. intros s E. left. exact (Np s (Fs s E)). }
    apply bind_lift_fail in H. destruct H as [(a & Ea & H) | F]; [|left; exact (Early _ _ (np_tri_vertex _ _ _) F)].
    apply bind_lift_fail in H. destruct H as [(b & Eb & H) | F]; [|left; exact (Early _ _ (np_tri_vertex _ _ _) F)].
    apply bind_lift_fail in H. destruct H as [(c & Ec & H) | F]; [|left; exact (Early _ _ (np_tri_vertex _ _ _) F)].
    apply bind_lift_fail in H. destruct H as [(o & Eo & H) | F]; [|left; exact (Early _ _ (np_opposite _ _ _) F)].
    apply bind_lift_fail in H. destruct H as [(e1 & Ee1 & H) | F]; [|left; exact (Early _ _ (np_edge_of_points _ 75%N _ _ _ eq_refl) F)].
    apply bind_lift_fail in H. destruct H as [(e2 & Ee2 & H) | F]; [|left; exact (Early _ _ (np_edge_of_points _ 76%N _ _ _ eq_refl) F)].
    apply bind_lift_fail in H. destruct H as [(e3 & Ee3 & H) | F]; [|left; exact (Early _ _ (np_edge_of_points _ 77%N _ _ _ eq_refl) F)].
    apply bind_lift_fail in H. destruct H as [(e4 & Ee4 & H) | F]; [|left; exact (Early _ _ (np_edge_of_points _ 78%N _ _ _ eq_refl) F)].
    (* the two constructibility checks of fix 361bbb9 (read only; Triangle3D::new cannot panic) *)
    apply bind_lift_fail in H. destruct H as [(T1 & ET1 & H) | F]; [|left; exact (Early _ _ (np_tri_new _ _ _ _) F)].
    apply bind_lift_fail in H. destruct H as [(T2 & ET2 & H) | F]; [|left; exact (Early _ _ (np_tri_new _ _ _ _) F)].
    right. exists t, nb, ni, a, b, c, o, e1, e2, e3, e4, T1, T2. split; [constructor; assumption | exact H].
  Qed.
  Lemma flip_inv (i : nat) (e : Edge) (M M' : Mesh) (r : res unit) :
    flip_diagonal i e M = (M', r) ->
    (M' = M /\ forall x, r <> Ok x) \/
    exists t nb ni a b c o e1 e2 e3 e4 T1 T2,
      flip_pre M i e t nb ni a b c o e1 e2 e3 e4 T1 T2 /\ flip_suffix i ni t nb a b c o e1 e2 e3 e4 M = (M', r).
  Proof. intros H. destruct (flip_inv_sites _ _ _ _ _ H) as [(E & F & _) | Q]; [left; exact (conj E F) | right; exact Q]. Qed.

  Lemma bind_invalidate_slot {B} (i : nat) (t : TP) (f : unit -> MR B) (M M' : Mesh) (r : res B) :
    nth_error (tris M) i = Some t -> mbind (mesh_invalidate i) f M = (M', r) ->
    (r = Panic 61%N /\ nvalid M = 0) \/
    exists M1, mesh_invalidate i M = (M1, Ok tt) /\ tris M1 = upd i tp_invalidate (tris M) /\ f tt M1 = (M', r).
  Proof.
    intros Et H. assert (L : i < length (tris M)) by (apply nth_error_Some; congruence).
    apply mbind_inv in H. destruct H as [([] & M1 & H1 & H) | [(c & H1 & ->) | (s & H1 & ->)]];
      destruct (invalidate_inv _ _ _ _ H1) as [(L' & _) | (_ & E & [[Q N] | (Q & N & _)])]; try lia; try discriminate Q.
    - right. exists M1. auto.
    - left. inversion Q. split; [reflexivity | exact N].
  Qed.
  Lemma push_checked (a b c : V) (la : nat) (T : Tri K) (M M' : Mesh) (r : res nat) :
    tri_new a b c = Ok T -> mesh_push a b c la M = (M', r) -> exists n, r = Ok n.
  Proof.
    intros E H. destruct (push_inv _ _ _ _ _ _ _ H) as (n & [[_ Q] | (_ & _ & -> & _)]); [|eexists; reflexivity].
    unfold tp_new in Q. rewrite E in Q. contradiction.
  Qed.
  Lemma bind_push_checked {B} (a b c : V) (la : nat) (T : Tri K) (f : nat -> MR B) (M M' : Mesh) (r : res B) :
    tri_new a b c = Ok T -> mbind (mesh_push a b c la) f M = (M', r) -> exists n M1, mesh_push a b c la M = (M1, Ok n) /\ f n M1 = (M', r).
  Proof.
    intros E H. apply mbind_inv in H. destruct H as [(n & M1 & H1 & H) | [(c' & H1 & _) | (s & H1 & _)]];
      [exists n, M1; split; assumption | destruct (push_checked _ _ _ _ _ _ _ _ E H1); discriminate ..].
  Qed.

  Definition st_links (cap abp bcp : nat) (t : TP) (e1 e2 e3 : Edge) : MR (K:=K) unit :=
    mbind (mark_as_neighbours cap Bc abp) (fun _ => mbind (mark_as_neighbours abp Bc bcp) (fun _ => mbind (mark_as_neighbours bcp Bc cap) (fun _ =>
    mbind (mwhen (tp_is_constrained t e3) (mupd 84%N cap (tp_constrain Ab))) (fun _ =>
    mbind (match tp_neighbour t e3 with Some n => mark_as_neighbours cap Ab n | None => mret tt end) (fun _ =>
    mbind (mwhen (tp_is_constrained t e1) (mupd 84%N abp (tp_constrain Ab))) (fun _ =>
    mbind (match tp_neighbour t e1 with Some n => mark_as_neighbours abp Ab n | None => mret tt end) (fun _ =>
    mbind (mwhen (tp_is_constrained t e2) (mupd 84%N bcp (tp_constrain Ab))) (fun _ =>
    match tp_neighbour t e2 with Some n => mark_as_neighbours bcp Ab n | None => mret tt end)))))))).
  Definition hemi_links (apc pbc : nat) (t : TP) (ed ea eb : Edge) : MR (K:=K) (nat * nat) :=
    mbind (mwhen (tp_is_constrained t ed) (mupd 82%N apc (tp_constrain Ab))) (fun _ =>
    mbind (mark_as_neighbours apc Bc pbc) (fun _ =>
    mbind (match tp_neighbour t eb with Some n => mark_as_neighbours apc Ca n | None => mret tt end) (fun _ =>
    mbind (mwhen (tp_is_constrained t eb) (mupd 82%N apc (tp_constrain Ca))) (fun _ =>
    mbind (mwhen (tp_is_constrained t ed) (mupd 82%N pbc (tp_constrain Ab))) (fun _ =>
    mbind (match tp_neighbour t ea with Some n => mark_as_neighbours pbc Bc n | None => mret tt end) (fun _ =>
    mbind (mwhen (tp_is_constrained t ea) (mupd 82%N pbc (tp_constrain Bc))) (fun _ =>
    mret (apc, pbc)))))))).
  Section LinkTails.
    Variable R : Mesh -> Mesh -> Prop.
    Hypothesis Rrefl : forall M, R M M.
    Hypothesis Rtrans : forall M1 M2 M3, R M1 M2 -> R M2 M3 -> R M1 M3.
    Hypothesis Hmark : forall i1 e1 i2, Pres R (mark_as_neighbours i1 e1 i2).
    Hypothesis Hcon : forall s i e, Pres R (mupd s i (tp_constrain e)).
    Ltac lk_tac := repeat pres_step R Rrefl Rtrans ltac:(first [apply Hmark | apply Hcon]).
    Lemma pres_flip_links i aoc cob t nb e1 e2 e3 e4 : Pres R (flip_links i aoc cob t nb e1 e2 e3 e4).
    Proof. unfold flip_links. lk_tac. Qed.
    Lemma pres_st_links cap abp bcp t e1 e2 e3 : Pres R (st_links cap abp bcp t e1 e2 e3).
    Proof. unfold st_links. lk_tac. Qed.
    Lemma pres_hemi_links apc pbc t ed ea eb : Pres R (hemi_links apc pbc t ed ea eb).
    Proof. unfold hemi_links. lk_tac. Qed.
  End LinkTails.

  Record st_pre (M : Mesh) (i : nat) (p : V) (t : TP) (e1 e2 e3 : Edge) (T1 T2 T3 : Tri K) : Prop := {
    sp_t : nth_error (tris M) i = Some t;
    sp_tv : tp_valid t = true;
    sp_e1 : edge_of_points_err (tp_tri t) (ta (tp_tri t)) (tb (tp_tri t)) = Ok e1;
    sp_e2 : edge_of_points_err (tp_tri t) (tb (tp_tri t)) (tc (tp_tri t)) = Ok e2;
    sp_e3 : edge_of_points_err (tp_tri t) (tc (tp_tri t)) (ta (tp_tri t)) = Ok e3;
    sp_T1 : tri_new (tc (tp_tri t)) (ta (tp_tri t)) p = Ok T1;
    sp_T2 : tri_new (ta (tp_tri t)) (tb (tp_tri t)) p = Ok T2;
    sp_T3 : tri_new (tb (tp_tri t)) (tc (tp_tri t)) p = Ok T3 }.
  Definition st_suffix (i : nat) (p : V) (t : TP) (e1 e2 e3 : Edge) : MR (K:=K) unit :=
    mbind (mesh_invalidate i) (fun _ => mbind (mesh_push (tc (tp_tri t)) (ta (tp_tri t)) p 0) (fun cap =>
    mbind (mesh_push (ta (tp_tri t)) (tb (tp_tri t)) p 0) (fun abp => mbind (mesh_push (tb (tp_tri t)) (tc (tp_tri t)) p 0) (fun bcp =>
    st_links cap abp bcp t e1 e2 e3)))).
  Lemma split_triangle_run (i : nat) (p : V) (M : Mesh) t e1 e2 e3 T1 T2 T3 :
    st_pre M i p t e1 e2 e3 T1 T2 T3 -> split_triangle i p M = st_suffix i p t e1 e2 e3 M.
  Proof.
    intros [Et Ev E1 E2 E3 ET1 ET2 ET3]. unfold split_triangle. rewrite (bind_get_Some _ _ t) by exact Et. rewrite Ev. cbn [negb].
    rewrite (bind_lift_Ok _ e1) by exact E1. rewrite (bind_lift_Ok _ e2) by exact E2. rewrite (bind_lift_Ok _ e3) by exact E3.
    rewrite (bind_lift_Ok _ T1) by exact ET1. rewrite (bind_lift_Ok _ T2) by exact ET2. rewrite (bind_lift_Ok _ T3) by exact ET3. reflexivity.
  Qed.
  Lemma split_triangle_inv (i : nat) (p : V) (M M' : Mesh) (r : res unit) :
    split_triangle i p M = (M', r) ->
    (M' = M /\ (forall x, r <> Ok x) /\ forall s, r = Panic s -> s = 83%N) \/
    exists t e1 e2 e3 T1 T2 T3, st_pre M i p t e1 e2 e3 T1 T2 T3 /\ st_suffix i p t e1 e2 e3 M = (M', r).
  Proof.
    intros H. unfold split_triangle in H.
    apply bind_get_inv in H. destruct H as [(t & Et & H) | (-> & -> & _)]; [|left; repeat split; [discriminate | intros s E; inversion E; reflexivity]].
    destruct (tp_valid t) eqn:Ev; cbn [negb] in H; [|inversion H; left; repeat split; discriminate].
    assert (Early : forall A (x : res A), np_res (fun _ => false) x ->
              M' = M /\ (forall a, x <> Ok a) /\ (forall b, r <> Ok b) /\ (forall s, r = Panic s -> x = Panic s) ->
              M' = M /\ (forall b, r <> Ok b) /\ forall s, r = Panic s -> s = 83%N).
    { intros A x Np (EM & _ & Fr & Fs). split; [exact EM | split; [exact Fr|]]. intros s E. discriminate (Np s (Fs s E)). }
    apply bind_lift_fail in H. destruct H as [(e1 & E1 & H) | F]; [|left; exact (Early _ _ (np_edge_of_points_err _ _ _ _) F)].
    apply bind_lift_fail in H. destruct H as [(e2 & E2 & H) | F]; [|left; exact (Early _ _ (np_edge_of_points_err _ _ _ _) F)].
    apply bind_lift_fail in H. destruct H as [(e3 & E3 & H) | F]; [|left; exact (Early _ _ (np_edge_of_points_err _ _ _ _) F)].
    apply bind_lift_fail in H. destruct H as [(T1 & ET1 & H) | F]; [|left; exact (Early _ _ (np_tri_new _ _ _ _) F)].
    apply bind_lift_fail in H. destruct H as [(T2 & ET2 & H) | F]; [|left; exact (Early _ _ (np_tri_new _ _ _ _) F)].
    apply bind_lift_fail in H. destruct H as [(T3 & ET3 & H) | F]; [|left; exact (Early _ _ (np_tri_new _ _ _ _) F)].
    right. exists t, e1, e2, e3, T1, T2, T3. split; [constructor; assumption | exact H].
  Qed.
  Lemma st_suffix_open (i : nat) (p : V) (M M' : Mesh) (r : res unit) t e1 e2 e3 T1 T2 T3 :
    st_pre M i p t e1 e2 e3 T1 T2 T3 -> st_suffix i p t e1 e2 e3 M = (M', r) ->
    (r = Panic 61%N /\ nvalid M = 0) \/
    exists M1 M2 M3 M4 cap abp bcp,
      mesh_invalidate i M = (M1, Ok tt) /\ mesh_push (tc (tp_tri t)) (ta (tp_tri t)) p 0 M1 = (M2, Ok cap) /\
      mesh_push (ta (tp_tri t)) (tb (tp_tri t)) p 0 M2 = (M3, Ok abp) /\ mesh_push (tb (tp_tri t)) (tc (tp_tri t)) p 0 M3 = (M4, Ok bcp) /\
      st_links cap abp bcp t e1 e2 e3 M4 = (M', r).
  Proof.
    intros [Et _ _ _ _ ET1 ET2 ET3] H. unfold st_suffix in H.
    destruct (bind_invalidate_slot _ _ _ _ _ _ Et H) as [Q | (M1 & H1 & _ & H')]; [left; exact Q | clear H; rename H' into H].
    apply (bind_push_checked _ _ _ _ _ _ _ _ _ ET1) in H. destruct H as (cap & M2 & H2 & H).
    apply (bind_push_checked _ _ _ _ _ _ _ _ _ ET2) in H. destruct H as (abp & M3 & H3 & H).
    apply (bind_push_checked _ _ _ _ _ _ _ _ _ ET3) in H. destruct H as (bcp & M4 & H4 & H).
    right. exists M1, M2, M3, M4, cap, abp, bcp. auto 6.
  Qed.
  Lemma split_triangle_open (i : nat) (p : V) (M M' : Mesh) (r : res unit) :
    split_triangle i p M = (M', r) ->
    (M' = M /\ (forall x, r <> Ok x) /\ forall s, r = Panic s -> s = 83%N) \/
    exists t e1 e2 e3 T1 T2 T3, st_pre M i p t e1 e2 e3 T1 T2 T3 /\
      ((r = Panic 61%N /\ nvalid M = 0) \/
       exists M1 M2 M3 M4 cap abp bcp,
         mesh_invalidate i M = (M1, Ok tt) /\ mesh_push (tc (tp_tri t)) (ta (tp_tri t)) p 0 M1 = (M2, Ok cap) /\
         mesh_push (ta (tp_tri t)) (tb (tp_tri t)) p 0 M2 = (M3, Ok abp) /\ mesh_push (tb (tp_tri t)) (tc (tp_tri t)) p 0 M3 = (M4, Ok bcp) /\
         st_links cap abp bcp t e1 e2 e3 M4 = (M', r)).
  Proof.
    intros H. destruct (split_triangle_inv _ _ _ _ _ H) as [Q | (t & e1 & e2 & e3 & T1 & T2 & T3 & Hp & H')]; [left; exact Q | right].
    exists t, e1, e2, e3, T1, T2, T3. split; [exact Hp | exact (st_suffix_open _ _ _ _ _ _ _ _ _ _ _ _ Hp H')].
  Qed.

  Lemma count_upd_same(i : nat) (f : TP -> TP) (l : list TP) : (forall t, tp_valid (f t) = tp_valid t) -> count_valid (upd i f l) = count_valid l.
  Proof. intros Hf. revert i; induction l as [|t l IH]; intros [|i]; cbn [upd count_valid]; try reflexivity; [rewrite Hf; reflexivity | rewrite IH; reflexivity]. Qed.
  Lemma count_invalidate (i : nat) (l : list TP) (t : TP) : nth_error l i = Some t -> tp_valid t = true -> S (count_valid (upd i tp_invalidate l)) = count_valid l.
  Proof.
    revert i; induction l as [|u l IH]; intros [|i] H Hv; cbn [upd count_valid nth_error] in *; try discriminate.
    - inversion H; subst. rewrite Hv. cbn [tp_invalidate tp_valid]. lia.
    - rewrite <- (IH i H Hv). lia.
  Qed.
  Lemma count_set_nth (i : nat) (x : TP) (l : list TP) (t : TP) :
    nth_error l i = Some t -> tp_valid t = false -> tp_valid x = true -> count_valid (set_nth i x l) = S (count_valid l).
  Proof.
    revert i; induction l as [|u l IH]; intros [|i] H Hv Hx; cbn [set_nth count_valid nth_error] in *; try discriminate.
    - inversion H; subst. rewrite Hv, Hx. lia.
    - rewrite (IH i H Hv Hx). lia.
  Qed.
  Lemma count_app (l l' : list TP) : count_valid (l ++ l') = count_valid l + count_valid l'.
  Proof. induction l as [|t l IH]; cbn [app count_valid]; [reflexivity | rewrite IH; lia]. Qed.
  Lemma count_pos (l : list TP) (i : nat) (t : TP) : nth_error l i = Some t -> tp_valid t = true -> 0 < count_valid l.
  Proof. revert i; induction l as [|u l IH]; intros [|i] H Hv; cbn [count_valid nth_error] in *; try discriminate; [inversion H; subst; rewrite Hv; lia | specialize (IH i H Hv); lia]. Qed.

  Definition Rcnt (M M' : Mesh) : Prop := CNT M -> CNT M'.
  Lemma Rcnt_refl M : Rcnt M M. Proof. intros H; exact H. Qed.
  Lemma Rcnt_trans M1 M2 M3 : Rcnt M1 M2 -> Rcnt M2 M3 -> Rcnt M1 M3. Proof. unfold Rcnt; tauto. Qed.
  Notation PC := (Pres Rcnt).

  Lemma tp_new_valid (a b c : V) (n : nat) (t : TP) : tp_new a b c n = Ok t -> tp_valid t = true.
  Proof. unfold tp_new. destruct (tri_new a b c); cbn [rbind]; try discriminate. intros H; inversion H; reflexivity. Qed.
  Lemma cnt_push (a b c : V) (la : nat) : PC (mesh_push a b c la).
  Proof.
    intros M M' r H C. destruct (push_inv _ _ _ _ _ _ _ H) as (n & [[-> _] | (t & Et & _ & En & Hs)]); [exact C|].
    apply tp_new_valid in Et. unfold CNT in *. rewrite En, C. destruct Hs as [(u & Hu & Hv & ->) | (_ & ->)].
    - rewrite (count_set_nth _ _ _ _ Hu Hv Et). reflexivity.
    - rewrite count_app. cbn [count_valid]. rewrite Et. lia.
  Qed.
  Lemma cnt_mupd s i (f : TP -> TP) : (forall t, tp_valid (f t) = tp_valid t) -> PC (mupd s i f).
  Proof.
    intros Hf M M' r H C. unfold mupd in H. destruct (Nat.ltb _ _); inversion H; subst; [|exact C].
    unfold CNT in *; cbn [nvalid tris]. rewrite count_upd_same; assumption.
  Qed.
  Lemma set_neighbour_valid e i (t : TP) : tp_valid (tp_set_neighbour e i t) = tp_valid t. Proof. destruct e; reflexivity. Qed.
  Lemma constrain_valid e (t : TP) : tp_valid (tp_constrain e t) = tp_valid t. Proof. destruct e; reflexivity. Qed.
  Lemma cnt_invalidate_live (i : nat) (M M' : Mesh) (r : res unit) :
    live M i -> CNT M -> mesh_invalidate i M = (M', r) ->
    CNT M' /\ r = Ok tt /\ tris M' = upd i tp_invalidate (tris M).
  Proof.
    intros (t & Ht & Hv) C H. pose proof (count_pos _ _ _ Ht Hv) as Hp. pose proof (count_invalidate _ _ _ Ht Hv) as Hi. unfold CNT in *.
    destruct (invalidate_inv _ _ _ _ H) as [(L & _) | (_ & E & [[-> En] | (_ & En & _)])];
      [assert (i < length (tris M)) by (apply nth_error_Some; congruence); lia | rewrite E; repeat split; lia | lia].
  Qed.

  Lemma bind_invalidate_live {B} (i : nat) (f : unit -> MR B) (M M' : Mesh) (r : res B) :
    live M i -> CNT M -> mbind (mesh_invalidate i) f M = (M', r) ->
    exists M1, CNT M1 /\ tris M1 = upd i tp_invalidate (tris M) /\ f tt M1 = (M', r).
  Proof.
    intros L C H. apply mbind_inv in H. destruct H as [([] & M1 & H1 & H) | [(c & H1 & _) | (s & H1 & _)]];
      destruct (cnt_invalidate_live _ _ _ _ L C H1) as (C1 & G & T1); [exists M1; auto | discriminate ..].
  Qed.

  Lemma cnt_constrain s i e : PC (mupd (K:=K) s i (tp_constrain e)).
  Proof. apply cnt_mupd. apply constrain_valid. Qed.
  Lemma cnt_mark i1 e1 i2 : PC (mark_as_neighbours (K:=K) i1 e1 i2).
  Proof. apply (pres_mark_upd Rcnt Rcnt_refl Rcnt_trans). intros s i e j. apply cnt_mupd. apply set_neighbour_valid. Qed.

  Definition not61 (s : N) : bool := negb (N.eqb s 61).
  (** ** split_triangle keeps the counter, whatever its outcome, and cannot underflow it *)
  Theorem cnt_split_triangle (i : nat) (p : V) (M M' : Mesh) (r : res unit) :
    CNT M -> split_triangle i p M = (M', r) -> CNT M' /\ r <> Panic 61%N.
  Proof.
    intros C H.
    destruct (split_triangle_open _ _ _ _ _ H) as [(-> & _ & Q) | (t & e1 & e2 & e3 & T1 & T2 & T3 & [Et Ev _ _ _ _ _ _] &
      [[_ N] | (M1 & M2 & M3 & M4 & cap & abp & bcp & H1 & H2 & H3 & H4 & H')])].
    - split; [exact C|]. intros E. discriminate (Q _ E).
    - exfalso. pose proof (count_pos _ _ _ Et Ev). unfold CNT in C. lia.
    - destruct (cnt_invalidate_live i M M1 _ (ex_intro _ t (conj Et Ev)) C H1) as (C1 & _ & _).
      pose proof (cnt_push _ _ _ _ _ _ _ H4 (cnt_push _ _ _ _ _ _ _ H3 (cnt_push _ _ _ _ _ _ _ H2 C1))) as C4.
      split; [exact (pres_st_links Rcnt Rcnt_refl Rcnt_trans cnt_mark cnt_constrain _ _ _ _ _ _ _ _ _ _ H' C4)|].
      assert (G : NP not61 (st_links cap abp bcp t e1 e2 e3)) by (unfold st_links; repeat np_step_g).
      intros E; subst r. discriminate (G _ _ _ H').
  Qed.

  (** ** under [WF] the neighbour look-up of get_flipped_aspect_ratio is in range *)
  Lemma gfar_wf (M : Mesh) (i : nat) (e : Edge) : WF M -> get_flipped_aspect_ratio M i e <> Panic 67%N.
  Proof.
    intros W. unfold get_flipped_aspect_ratio. destruct (nth_error (tris M) i) as [t|] eqn:Et; [|discriminate].
    destruct (negb (tp_valid t)); [discriminate|]. destruct (tp_is_constrained t e); [discriminate|].
    destruct (tp_neighbour t e) as [ni|] eqn:En; [|discriminate].
    destruct (W i t Et e ni En) as [Hlt _]. apply nth_error_Some in Hlt.
    destruct (nth_error (tris M) ni) as [nb|]; [|exfalso; apply Hlt; reflexivity].
    destruct (negb (tp_valid nb)); [discriminate|]. destruct (Nat.eqb _ _); [discriminate|].
    intros H.
    assert (G' : forall (x : res (option K)), np_res (fun s => negb (N.eqb s 67)) x -> x <> Panic 67%N)
      by (intros x Hx E; specialize (Hx _ E); discriminate).
    revert H. apply G'.
    repeat first [ apply np_tp_new | apply np_tri_vertex | apply np_opposite | apply np_res_ok
                 | match goal with |- np_res _ (if ?b then _ else _) => destruct b end
                 | match goal with |- np_res _ (rbind _ _) => apply np_res_bind; [|intros ?] end ].
  Qed.

  (** ** flip_diagonal on a well-formed mesh keeps the counter, cannot underflow it, and finds its neighbour *)
  Theorem cnt_flip (i : nat) (e : Edge) (M M' : Mesh) (r : res unit) :
    WF M -> CNT M -> flip_diagonal i e M = (M', r) -> CNT M' /\ (forall s, r = Panic s -> okflip s = true).
  Proof.
    intros W C H. destruct (flip_inv_sites _ _ _ _ _ H) as [(-> & _ & Q) |
      (t & nb & ni & a & b & c & o & e1 & e2 & e3 & e4 & T1 & T2 & [Et Ev En Enb Evn _ _ _ _ _ _ _ _ _ _] & H')].
    - split; [exact C|]. intros s E. destruct (Q s E) as [G | (t & ni & Et & En & Enone)]; [exact G | exfalso].
      exact (proj2 (nth_error_Some _ _) (proj1 (W i t Et e ni En)) Enone).
    - clear H. unfold flip_suffix, flip_links in H'. destruct (W i t Et e ni En) as [_ Hne].
      (* the two invalidations hit live slots *)
      destruct (bind_invalidate_live _ _ _ _ _ (ex_intro _ t (conj Et Ev)) C H') as (M1 & C1 & T1' & H1).
      assert (L1 : live M1 ni).
      { exists nb. split; [|exact Evn]. rewrite T1', nth_error_upd. destruct (Nat.eqb_spec i ni); [exfalso; apply Hne; congruence | exact Enb]. }
      destruct (bind_invalidate_live _ _ _ _ _ L1 C1 H1) as (M2 & C2 & _ & H).
      revert H. match goal with |- ?f M2 = _ -> _ => assert (G1 : Pres Rcnt f) by (repeat pres_step Rcnt Rcnt_refl Rcnt_trans ltac:(first [apply cnt_mark | apply cnt_constrain | apply cnt_push]));
                                                   assert (G2 : NP okflip f) by (repeat np_step_g) end.
      intros H. split; [exact (G1 _ _ _ H C2)|]. intros s E; subst r. exact (G2 _ _ _ H).
  Qed.

  Definition okrd (s : N) : bool := negb (N.eqb s 61) && negb (N.eqb s 73) && negb (N.eqb s 67) && negb (N.eqb s 85).
  Lemma gfar_okrd (M : Mesh) (i : nat) (e : Edge) : WF M -> np_res okrd (get_flipped_aspect_ratio M i e).
  Proof.
    intros W s E. pose proof (np_gfar (fun s => N.eqb s 67 || okrd s) eq_refl eq_refl eq_refl eq_refl eq_refl M i e s E) as G. cbn beta in G.
    destruct (N.eqb_spec s 67) as [->|_]; [destruct (gfar_wf M i e W E) | exact G].
  Qed.
  (** restore_delaunay: at most [MAX_LOOPS] = 30 sweeps (its fuel), counter and well-formedness kept, and
      none of the sites 61 (underflow), 67, 73 (neighbour look-ups), 85 (sweep index) is reachable *)
  Theorem cnt_restore (m : K) (M M' : Mesh) (r : res unit) :
    WF M -> CNT M -> restore_delaunay m M = (M', r) -> CNT M' /\ WF M' /\ (forall s, r = Panic s -> okrd s = true).
  Proof.
    intros W C H.
    assert (Hf : forall i e M0 M1 r0, WF M0 /\ CNT M0 -> flip_diagonal i e M0 = (M1, r0) ->
      (WF M1 /\ CNT M1) /\ length (tris M0) <= length (tris M1) /\ np_res okrd r0).
    { intros i e M0 M1 r0 [W0 C0] H1. destruct (cnt_flip _ _ _ _ _ W0 C0 H1) as [C1 G]. destruct (wf_flip _ _ _ _ _ H1) as [Hlen W1].
      split; [exact (conj (W1 W0) C1) | split; [exact Hlen|]]. intros s ->.
      change (okflip s && negb (N.eqb s 67) && negb (N.eqb s 85) = true). rewrite (G _ eq_refl).
      (* flip_diagonal cannot produce 67 or 85 *)
      exact (np_flip (fun s => negb (N.eqb s 67) && negb (N.eqb s 85)) eq_refl eq_refl eq_refl eq_refl eq_refl eq_refl eq_refl eq_refl eq_refl eq_refl eq_refl eq_refl eq_refl eq_refl i e M0 M1 s H1). }
    destruct (restore_all _ (fun M0 M1 => length (tris M0) <= length (tris M1)) okrd (fun _ => le_n _) (fun _ _ _ => Nat.le_trans _ _ _) (fun M0 i e H0 => gfar_okrd M0 i e (proj1 H0)) Hf
      ltac:(cbv beta; intros; lia) m M M' r (conj W C) H) as ((W' & C') & _ & G).
    split; [exact C' | split; [exact W' | exact G]].
  Qed.

  (** ** (i), one link: a [mark_as_neighbours] that returns Ok leaves two live slots that reference each other *)
  Theorem mark_reciprocal (i1 : nat) (e1 : Edge) (i2 : nat) (M M' : Mesh) :
    mark_as_neighbours i1 e1 i2 M = (M', Ok tt) ->
    i1 <> i2 /\
    (exists t1, nth_error (tris M') i1 = Some t1 /\ tp_valid t1 = true /\ tp_neighbour t1 e1 = Some i2) /\
    (exists t2 e2, nth_error (tris M') i2 = Some t2 /\ tp_valid t2 = true /\ tp_neighbour t2 e2 = Some i1).
  Proof.
    intros H. destruct (mark_inv _ _ _ _ _ _ H) as [(_ & Q & _) | (t1 & t2 & sg & k & ed2 & Hne & E1 & V1 & E2 & V2 & _ & _ & _ & _ & ET & _)];
      [destruct (Q tt eq_refl)|].
    rewrite ET. split; [exact Hne|]. split.
    - exists (tp_set_neighbour e1 i2 t1). rewrite !nth_error_upd.
      destruct (Nat.eqb_spec i2 i1); [exfalso; apply Hne; congruence|]. rewrite Nat.eqb_refl, E1. cbn [option_map].
      split; [reflexivity|]. split; [rewrite set_neighbour_valid; exact V1 | destruct e1; reflexivity].
    - exists (tp_set_neighbour ed2 i1 t2), ed2. rewrite !nth_error_upd. rewrite Nat.eqb_refl.
      destruct (Nat.eqb_spec i1 i2); [exfalso; apply Hne; assumption|]. rewrite E2. cbn [option_map].
      split; [reflexivity|]. split; [rewrite set_neighbour_valid; exact V2 | destruct ed2; reflexivity].
  Qed.
End Conf.
