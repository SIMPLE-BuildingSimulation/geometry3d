(** * C05 proofs: the last link -- the ray-crossing parity of [test_point] is the parity of the WINDING NUMBER
    of Theory/Winding.v (the general library of crossing numbers), which is independent of the ray and, for an
    outline with winding numbers in {0,1} (the input space of DESIGN D2), is membership in the region. *)
From Coq Require Import ZArith Reals Lra Lia Bool List Arith Psatz.
From G3 Require Import Model.Num Model.Base Model.Vec Model.Segment Model.Loop Model.PinnedLoop Theory.RInst Theory.LoopGeom Proofs.C05_pointtest.
From G3 Require Theory.Cyclic Theory.Winding.
Import ListNotations.
Local Open Scope R_scope.

(** the planar predicates of Theory/LoopGeom.v are those of Theory/Winding.v *)
Lemma hgt2_is_hgt (q d p : P2) : hgt2 q d p = Winding.hgt d q p.
Proof. destruct q, d, p. unfold hgt2, det2, sub2, Winding.hgt. cbn [fst snd]. ring. Qed.
Lemma orient2_is_orient (a b p : P2) : orient2 a b p = Winding.orient a b p.
Proof. destruct a, b, p. unfold orient2, det2, sub2, Winding.orient. cbn [fst snd]. ring. Qed.
Lemma cyc_edges2_is_edges_closed (vs : list P2) : cyc_edges2 vs = Cyclic.edges_closed vs.
Proof. unfold cyc_edges2, Cyclic.edges_closed. destruct vs as [|v tl]; [reflexivity|]. cbn [hd]. apply edges_from_is_edges_to. Qed.

(* the edge contributes +1 when it goes up across the ray's line with q on its left, -1 the other way round *)
Lemma cross_is_crdR (ha hb o : R) :
  o <> 0 -> Rltb (ha * hb) 0 && Rleb (o * (ha - hb)) 0 = negb (Z.eqb (Winding.crdR ha hb o) 0).
Proof.
  intros Ho. unfold Winding.crdR. change Winding.rlt with Rltb.
  assert (Hh : (ha < 0 /\ 0 < hb) \/ (hb < 0 /\ 0 < ha) \/ (0 <= ha /\ 0 <= hb) \/ (ha <= 0 /\ hb <= 0)) by lra.
  assert (Ho' : 0 < o \/ o < 0) by lra.
  destruct Hh as [[A B]|[[A B]|[[A B]|[A B]]]]; [destruct Ho' as [P|P] | destruct Ho' as [P|P] | |].
  1,2,3,4: assert (ha * hb < 0)%R by nra.
  5,6: assert (0 <= ha * hb)%R by nra.
  - assert (o * (ha - hb) < 0)%R by nra. rdec. reflexivity.
  - assert (0 < o * (ha - hb))%R by nra. rdec. reflexivity.
  - assert (0 < o * (ha - hb))%R by nra. rdec. reflexivity.
  - assert (o * (ha - hb) < 0)%R by nra. rdec. reflexivity.
  - rdec. rewrite ?andb_false_r. reflexivity.
  - rdec. rewrite ?andb_false_r. reflexivity.
Qed.
(** off the edge's line, "the ray properly crosses the edge" is "the edge contributes to the winding number" *)
Lemma ray_cross2_is_crd (q d a b : P2) :
  orient2 a b q <> 0 -> ray_cross2 q d a b = negb (Z.eqb (Winding.crd d a b q) 0).
Proof.
  intros Ho. unfold ray_cross2, Winding.crd.
  assert (ED : det2 (sub2 b a) d = (hgt2 q d a - hgt2 q d b)%R) by (destruct q, d, a, b; unfold hgt2, det2, sub2; cbn [fst snd]; ring).
  rewrite ED, <- (hgt2_is_hgt q d a), <- (hgt2_is_hgt q d b), <- (orient2_is_orient a b q). apply cross_is_crdR. exact Ho.
Qed.

Theorem ray_parity_is_wn_parity (q d : P2) (vs : list P2) :
  (forall a b, In (a, b) (cyc_edges2 vs) -> orient2 a b q <> 0) ->
  xpar (ray_cross2 q d) (cyc_edges2 vs) = Z.odd (Winding.wn d vs q).
Proof.
  intros He. rewrite <- Z.negb_even, Winding.wn_parity_xcount, Nat.negb_even. unfold Winding.xcount.
  rewrite <- cyc_edges2_is_edges_closed.
  change (length (filter (fun e => negb (Z.eqb (Winding.crd d (fst e) (snd e) q) 0)) (cyc_edges2 vs)))
    with (countb (fun a b => negb (Z.eqb (Winding.crd d a b q) 0)) (cyc_edges2 vs)).
  rewrite odd_countb. apply xpar_ext. intros a b Hin. apply ray_cross2_is_crd. apply He. exact Hin.
Qed.

(** the point test with any in-plane cast segment that passes every vertex = parity of the winding number of the outline
    about q (in plane coordinates), computed along that ray *)
Theorem test_point_gen_wn_parity (rayf : Loop R -> V -> V) (L : Loop R) (q o e1 e2 : V) :
  lclosed L = true -> (1 <= llen L)%nat ->
  let n := lnormal L in let d := rayf L q in
  let pr := plane2 o e1 e2 in let q' := pr q in let d' := planev e1 e2 d in
  vis_zero n = false -> 0 < vdot n n -> n = vcross e1 e2 -> vdot n d = 0 ->
  (forall a b, In (a, b) (cyc_edges (verts L)) -> seg_contains_point (seg_new a b) q = Ok false /\ edge_generic n q d a b) ->
  0 < vdot d d -> long_enough q d (verts L) ->
  (forall a b, In (a, b) (cyc_edges (verts L)) -> orient2 (pr a) (pr b) q' <> 0) ->
  loop_test_point_gen rayf L q = Ok (Z.odd (Winding.wn d' (map pr (verts L)) q')).
Proof.
  cbn zeta. intros Hc Hlen Hz Hnn Hn Hnd He Hdd Hlong Hed.
  rewrite (test_point_gen_counts_ray_crossings rayf L q Hc Hlen Hz Hnn Hnd He Hdd Hlong). f_equal. rewrite odd_countb.
  rewrite <- ray_parity_is_wn_parity.
  - rewrite cyc_edges_map, xpar_map. apply xpar_ext. intros a b _. rewrite Hn. apply rayb3_plane.
  - apply cyc_edges2_map_forall. exact Hed.
Qed.

(** ** the live code: [test_point] = parity of the winding number, along the code's ray ... *)
Theorem test_point_wn_parity (L : Loop R) (q o e1 e2 : V) :
  lclosed L = true -> (2 <= llen L)%nat ->
  let n := lnormal L in let d := test_ray L q in
  let pr := plane2 o e1 e2 in let q' := pr q in let d' := planev e1 e2 d in
  vis_zero n = false -> 0 < vdot n n -> n = vcross e1 e2 ->
  (forall a b, In (a, b) (cyc_edges (verts L)) -> seg_contains_point (seg_new a b) q = Ok false /\ edge_generic n q d a b) ->
  (forall a b, In (a, b) (cyc_edges (verts L)) -> orient2 (pr a) (pr b) q' <> 0) ->
  loop_test_point L q = Ok (Z.odd (Winding.wn d' (map pr (verts L)) q')).
Proof.
  cbn zeta. intros Hc Hlen Hz Hnn Hn He Hed. rewrite test_point_is_gen. unfold test_ray in *.
  destruct (loop_ray_facts L q Hlen (fun a b Hin => proj2 (He a b Hin))) as [Hnd [Hdd Hl]].
  apply (test_point_gen_wn_parity loop_ray); try assumption. lia.
Qed.

(** for an outline whose winding numbers are 0 or 1 (a valid polygon in the sense of DESIGN D2): inside <-> wn = 1 *)
Corollary test_point_is_membership (L : Loop R) (q o e1 e2 : V) :
  lclosed L = true -> (2 <= llen L)%nat ->
  let n := lnormal L in let d := test_ray L q in
  let pr := plane2 o e1 e2 in let q' := pr q in let d' := planev e1 e2 d in
  vis_zero n = false -> 0 < vdot n n -> n = vcross e1 e2 ->
  (forall a b, In (a, b) (cyc_edges (verts L)) -> seg_contains_point (seg_new a b) q = Ok false /\ edge_generic n q d a b) ->
  (forall a b, In (a, b) (cyc_edges (verts L)) -> orient2 (pr a) (pr b) q' <> 0) ->
  (0 <= Winding.wn d' (map pr (verts L)) q' <= 1)%Z ->
  (loop_test_point L q = Ok true <-> Winding.wn d' (map pr (verts L)) q' = 1%Z).
Proof.
  cbn zeta. intros Hc Hlen Hz Hnn Hn He Hed Hw.
  rewrite (test_point_wn_parity L q o e1 e2 Hc Hlen Hz Hnn Hn He Hed).
  set (w := Winding.wn _ _ _) in *. assert (H : w = 0%Z \/ w = 1%Z) by lia.
  destruct H as [H|H]; rewrite H; cbn; split; intros K; try discriminate; try lia; reflexivity.
Qed.

(** ... or along any other ray: any direction d2 that is generic for the projected outline gives the same winding number
    ([Winding.wn_ray_independent_strong]: q on no closed edge suffices, no Jordan-curve argument) *)
Corollary test_point_any_ray (L : Loop R) (q o e1 e2 : V) (d2 : P2) :
  lclosed L = true -> (2 <= llen L)%nat ->
  let n := lnormal L in let d := test_ray L q in
  let pr := plane2 o e1 e2 in let q' := pr q in let d' := planev e1 e2 d in
  vis_zero n = false -> 0 < vdot n n -> n = vcross e1 e2 ->
  (forall a b, In (a, b) (cyc_edges (verts L)) -> seg_contains_point (seg_new a b) q = Ok false /\ edge_generic n q d a b) ->
  (forall a b, In (a, b) (cyc_edges (verts L)) -> orient2 (pr a) (pr b) q' <> 0) ->
  Winding.generic d' q' (map pr (verts L)) -> Winding.generic d2 q' (map pr (verts L)) -> Winding.off_edges (map pr (verts L)) q' ->
  loop_test_point L q = Ok (Z.odd (Winding.wn d2 (map pr (verts L)) q')).
Proof.
  cbn zeta. intros Hc Hlen Hz Hnn Hn He Hed G1 G2 Off.
  rewrite (test_point_wn_parity L q o e1 e2 Hc Hlen Hz Hnn Hn He Hed).
  rewrite (Winding.wn_ray_independent_strong _ d2 _ _ G1 G2 Off). reflexivity.
Qed.

(** ** the code before fix 6f318c4: the same only under the length hypothesis *)
Theorem pinned_test_point_wn_parity (L : Loop R) (q o e1 e2 : V) :
  lclosed L = true -> (2 <= llen L)%nat ->
  let n := lnormal L in let d := pinned_ray L q in
  let pr := plane2 o e1 e2 in let q' := pr q in let d' := planev e1 e2 d in
  vis_zero n = false -> 0 < vdot n n -> n = vcross e1 e2 ->
  (forall a b, In (a, b) (cyc_edges (verts L)) -> seg_contains_point (seg_new a b) q = Ok false /\ edge_generic n q d a b) ->
  0 < vdot d d -> long_enough q d (verts L) ->
  (forall a b, In (a, b) (cyc_edges (verts L)) -> orient2 (pr a) (pr b) q' <> 0) ->
  loop_test_point_pinned L q = Ok (Z.odd (Winding.wn d' (map pr (verts L)) q')).
Proof.
  cbn zeta. intros Hc Hlen Hz Hnn Hn He Hdd Hl Hed. rewrite test_point_pinned_is_gen.
  apply (test_point_gen_wn_parity pinned_ray); try assumption; [lia|].
  apply (pinned_ray_in_plane L q Hlen). intros a b Hin. exact (proj2 (He a b Hin)).
Qed.
