(** * Bridge_C16: the float-tier theorems of C16, transferred to the primitive-float run.
    The four [*_with_error] / [*_propagate_error] functions (each serving a matrix and its stored inverse) and the four ray
    functions of Model/Transform.v on [NumF]
    (what Run/C06.v executes against the f64 build) return the [P2B]-preimages of what they return on [NumB64]
    ([Bridge_model.hom_pt_with_error] ... at [P2B_hom]); (S) and (M) of Proofs/C16_errbound.v are read back through
    such equalities, for any reading map (section [Read]; at [P2B] in Properties/C16_prim.v, at [to_b32] in
    Properties/C16_prim32.v).  [FR x = B2R (P2B x)], [FV], [FM]: the real values of a float, a vector, a matrix. *)
From Coq Require Import ZArith Reals Bool Floats Lia.
From Flocq Require Import Core BinarySingleNaN.
From G3 Require Import Model.Num Model.NumF Model.Base Model.Vec Model.BBox Model.Transform Theory.PrimBridge Proofs.Bridge_model.
From G3 Require Import Proofs.C16_errbound.
Local Open Scope R_scope.

Notation prim := Coq.Floats.PrimFloat.float (only parsing).

Lemma FV_eq (v : V3 prim) : FV v = B2V 53 1024 (pV v). Proof. reflexivity. Qed.
Lemma FM_eq (m : M4 prim) : FM m = B2M 53 1024 (pM m). Proof. reflexivity. Qed.
Lemma Ffin3_eq (v : V3 prim) : Ffin3 v = fin3 53 1024 (pV v). Proof. reflexivity. Qed.
Definition Faffine_last (m : M4 prim) : Prop := affine_last 53 1024 (pM m).
Lemma Hp8_53 : (8 <= 53)%Z. Proof. lia. Qed.

(** ** the run on primitive floats is the run on Flocq binary64: value and reported error *)
Theorem prim_pt_with_error (m : M4 prim) (p : V3 prim) :
  mapP pV pV (@pt_with_error _ NumF m p) = @pt_with_error _ NumB64 (pM m) (pV p).
Proof. symmetry. apply (hom_pt_with_error P2B). Qed.
Theorem prim_vec_with_error (m : M4 prim) (v : V3 prim) :
  mapP pV pV (@vec_with_error _ NumF m v) = @vec_with_error _ NumB64 (pM m) (pV v).
Proof. symmetry. apply (hom_vec_with_error P2B). Qed.
Theorem prim_pt_propagate_error (m : M4 prim) (p e : V3 prim) :
  mapP pV pV (@pt_propagate_error _ NumF m p e) = @pt_propagate_error _ NumB64 (pM m) (pV p) (pV e).
Proof. symmetry. apply (hom_pt_propagate_error P2B). Qed.
Theorem prim_vec_propagate_error (m : M4 prim) (v e : V3 prim) :
  mapP pV pV (@vec_propagate_error _ NumF m v e) = @vec_propagate_error _ NumB64 (pM m) (pV v) (pV e).
Proof. symmetry. apply (hom_vec_propagate_error P2B). Qed.
(** ** (S) and (M) read through a map into a Flocq format
    [rd] reads the floats of an instance [NK] as [binary_float prec emax].  Where the run on [NK], read entry by entry, is
    the Flocq run on the readings (the first hypothesis of each theorem), (S) and (M) of Proofs/C16_errbound.v hold of
    the readings.  [P2B] on [NumF] is such a map everywhere, [to_b32] on [NumF32] on binary32-valued entries. *)
Section Read.
  Context (prec emax : Z) (Hprec : FLX.Prec_gt_0 prec) (Hmax : Prec_lt_emax prec emax) (Hp8 : (8 <= prec)%Z).
  Context {K : Type} {NK : Num K} (rd : K -> binary_float prec emax).
  Notation rV := (mapV3 rd).
  Notation rM := (mapM4 rd).
  Notation NB := (NB16 prec emax Hprec Hmax).
  Notation RV v := (B2V prec emax (rV v)).
  Notation RM m := (B2M prec emax (rM m)).

  (** the theorem [T] about the Flocq run, the Flocq run being the reading of the run on [NK] by [E] *)
  Ltac read_back T E := generalize T; rewrite <- E; exact (fun H => H).

  Theorem read_S_vec (m : M4 K) (v : V3 K) :
    mapP rV rV (vec_with_error m v) = @vec_with_error _ NB (rM m) (rV v) ->
    let re := vec_with_error m v in
    fin3 prec emax (rV (snd re)) -> safe_prods prec emax (RM m) (RV v) ->
    fin3 prec emax (rV (fst re)) /\ within 1 (RV (fst re)) (img_vec (RM m) (RV v)) (RV (snd re)).
  Proof. intros E. read_back (S_vec prec emax Hprec Hmax Hp8 (rM m) (rV v)) E. Qed.

  Theorem read_S_pt (m : M4 K) (p : V3 K) :
    mapP rV rV (pt_with_error m p) = @pt_with_error _ NB (rM m) (rV p) ->
    let re := pt_with_error m p in
    affine_last prec emax (rM m) -> fin3 prec emax (rV (snd re)) -> safe_prods prec emax (RM m) (RV p) ->
    fin3 prec emax (rV (fst re)) /\ within 1 (RV (fst re)) (img_pt (RM m) (RV p)) (RV (snd re)).
  Proof. intros E. read_back (S_pt prec emax Hprec Hmax Hp8 (rM m) (rV p)) E. Qed.

  Theorem read_S_vec_box (m : M4 K) (v e : V3 K) :
    mapP rV rV (vec_propagate_error m v e) = @vec_propagate_error _ NB (rM m) (rV v) (rV e) ->
    let re := vec_propagate_error m v e in
    fin3 prec emax (rV (snd re)) -> safe_prods prec emax (RM m) (RV v) -> safe_prods prec emax (RM m) (RV e) ->
    fin3 prec emax (rV (fst re)) /\
    forall x' : V3 R, inbox (RV v) (RV e) x' -> within (1 + 4 * uro prec) (RV (fst re)) (img_vec (RM m) x') (RV (snd re)).
  Proof. intros E. read_back (S_vec_box prec emax Hprec Hmax Hp8 (rM m) (rV v) (rV e)) E. Qed.

  Theorem read_S_pt_box (m : M4 K) (p e : V3 K) :
    mapP rV rV (pt_propagate_error m p e) = @pt_propagate_error _ NB (rM m) (rV p) (rV e) ->
    let re := pt_propagate_error m p e in
    affine_last prec emax (rM m) -> fin3 prec emax (rV (snd re)) ->
    safe_prods prec emax (RM m) (RV p) -> safe_prods prec emax (RM m) (RV e) ->
    fin3 prec emax (rV (fst re)) /\
    forall x' : V3 R, inbox (RV p) (RV e) x' -> within (1 + 4 * uro prec) (RV (fst re)) (img_pt (RM m) x') (RV (snd re)).
  Proof. intros E. read_back (S_pt_box prec emax Hprec Hmax Hp8 (rM m) (rV p) (rV e)) E. Qed.

  Theorem read_M_with_error (m : M4 K) (p : V3 K) :
    mapP rV rV (pt_with_error m p) = @pt_with_error _ NB (rM m) (rV p) ->
    safe_prods prec emax (RM m) (RV p) -> safe_trans prec emax (RM m) ->
    fin3 prec emax (rV (snd (pt_with_error m p))) ->
    vle (RV (snd (pt_with_error m p))) (vscaleR 2 (first_order (gamma3 prec) (RM m) (RV p) V0)).
  Proof. intros E. read_back (M_with_error prec emax Hprec Hmax Hp8 (rM m) (rV p)) E. Qed.

  Theorem read_M_vec_with_error (m : M4 K) (v : V3 K) :
    mapP rV rV (vec_with_error m v) = @vec_with_error _ NB (rM m) (rV v) ->
    safe_prods prec emax (RM m) (RV v) -> fin3 prec emax (rV (snd (vec_with_error m v))) ->
    vle (RV (snd (vec_with_error m v))) (vscaleR 2 (vscaleR (gamma3 prec) (abs_img (RM m) (RV v)))).
  Proof. intros E. read_back (M_vec_with_error prec emax Hprec Hmax Hp8 (rM m) (rV v)) E. Qed.

  Theorem read_M_propagate (m : M4 K) (p e : V3 K) :
    mapP rV rV (pt_propagate_error m p e) = @pt_propagate_error _ NB (rM m) (rV p) (rV e) ->
    safe_prods prec emax (RM m) (RV p) -> safe_prods prec emax (RM m) (RV e) -> safe_trans prec emax (RM m) ->
    fin3 prec emax (rV (snd (pt_propagate_error m p e))) ->
    vle (RV (snd (pt_propagate_error m p e))) (vscaleR 2 (first_order (gamma3 prec) (RM m) (RV p) (RV e))).
  Proof. intros E. read_back (M_propagate prec emax Hprec Hmax Hp8 (rM m) (rV p) (rV e)) E. Qed.

  Theorem read_M_vec_propagate (m : M4 K) (v e : V3 K) :
    mapP rV rV (vec_propagate_error m v e) = @vec_propagate_error _ NB (rM m) (rV v) (rV e) ->
    safe_prods prec emax (RM m) (RV v) -> safe_prods prec emax (RM m) (RV e) ->
    fin3 prec emax (rV (snd (vec_propagate_error m v e))) ->
    vle (RV (snd (vec_propagate_error m v e))) (vscaleR 2 (first_order_vec (gamma3 prec) (RM m) (RV v) (RV e))).
  Proof. intros E. read_back (M_vec_propagate prec emax Hprec Hmax Hp8 (rM m) (rV v) (rV e)) E. Qed.
End Read.

(** ** the four ray functions on primitive floats: what they return, in terms of the point / vector functions the
    theorems above bound (the direction is the transformed vector, both reported errors are those of the point and vector
    functions, the origin is the nudged image) *)
Theorem prim_ray_by_parts (m : M4 prim) (r : Ray prim) :
  @ray_by _ NumF m r =
  (mkRay (@nudge _ NumF (fst (@pt_with_error _ NumF m (rorigin r))) (fst (@vec_with_error _ NumF m (rdir r)))
                        (snd (@pt_with_error _ NumF m (rorigin r))))
         (fst (@vec_with_error _ NumF m (rdir r))),
   snd (@pt_with_error _ NumF m (rorigin r)), snd (@vec_with_error _ NumF m (rdir r))).
Proof. unfold ray_by. destruct (pt_with_error m (rorigin r)), (vec_with_error m (rdir r)). reflexivity. Qed.
Theorem prim_ray_propagate_by_parts (m : M4 prim) (r : Ray prim) (oe de : V3 prim) :
  @ray_propagate_by _ NumF m r oe de =
  (mkRay (@nudge _ NumF (fst (@pt_propagate_error _ NumF m (rorigin r) oe)) (fst (@vec_propagate_error _ NumF m (rdir r) de))
                        (snd (@pt_propagate_error _ NumF m (rorigin r) oe)))
         (fst (@vec_propagate_error _ NumF m (rdir r) de)),
   snd (@pt_propagate_error _ NumF m (rorigin r) oe), snd (@vec_propagate_error _ NumF m (rdir r) de)).
Proof.
  unfold ray_propagate_by. destruct (pt_propagate_error m (rorigin r) oe), (vec_propagate_error m (rdir r) de). reflexivity.
Qed.

(** ** non-vacuity on primitive floats: the witness of the former (S) finding, as primitive floats *)
Notation pZ := (0%float).
Definition wF_m : M4 prim := mkM4
  (pS false 8463998673628444 (-53)) (pS true 5047030972679166 (-54)) (pS false 7067938265295672 (-55)) (pS false 7205759403792794 (-56))
  (pS false 6161287160138741 (-54)) (pS false 6933301816362055 (-53)) (pS true 4854750196499783 (-53)) pZ
  pZ (pS false 5166317250038136 (-53)) (pS false 7378265682839367 (-53)) pZ
  pZ pZ pZ (pS false 4503599627370496 (-52)).
Definition wF_p : V3 prim := mkV3 (pS false 4792630619583628 (-53)) (pS true 8037362843012956 (-52)) (pS false 5739845789036042 (-103)).
Definition wF_e : V3 prim := mkV3 (pS false 4835703278458517 (-82)) (pS false 4835703278458517 (-82)) (pS false 4835703278458517 (-82)).
Lemma wF_m_eq : pM wF_m = wS_m.
Proof. unfold wF_m, wS_m, mapM4. cbn [m00 m01 m02 m03 m10 m11 m12 m13 m20 m21 m22 m23 m30 m31 m32 m33].
  p2b_consts. reflexivity. Qed.
Lemma wF_p_eq : pV wF_p = wS_p.
Proof. unfold wF_p, wS_p, mapV3. cbn [vx vy vz]. p2b_consts. reflexivity. Qed.
Lemma wF_e_eq : pV wF_e = wS_e.
Proof. unfold wF_e, wS_e, mapV3. cbn [vx vy vz]. p2b_consts. reflexivity. Qed.

Lemma Ffin3_map (x : V3 prim * V3 prim) (y : V3 b64 * V3 b64) : mapP pV pV x = y -> fin3 53 1024 (snd y) -> Ffin3 (snd x).
Proof. intros <-. exact (fun H => H). Qed.

Lemma prim_C16_nonvacuous :
  Faffine_last wF_m /\ Ffin3 (snd (@pt_with_error _ NumF wF_m wF_p)) /\
  Ffin3 (snd (@vec_with_error _ NumF wF_m wF_p)) /\
  Ffin3 (snd (@pt_propagate_error _ NumF wF_m wF_p wF_e)) /\
  Ffin3 (snd (@vec_propagate_error _ NumF wF_m wF_p wF_e)) /\
  safe_prods 53 1024 (FM wF_m) (FV wF_p) /\ safe_prods 53 1024 (FM wF_m) (FV wF_e) /\
  safe_trans 53 1024 (FM wF_m) /\ inbox (FV wF_p) (FV wF_e) (FV wF_p).
Proof.
  destruct C16_nonvacuous_proof as (A & F1 & F2 & F3 & F4 & S1 & S2 & S3 & I).
  unfold Faffine_last. rewrite !FM_eq, !FV_eq, wF_m_eq, wF_p_eq, wF_e_eq.
  split; [exact A|].
  split; [apply (Ffin3_map _ _ (prim_pt_with_error wF_m wF_p)); rewrite wF_m_eq, wF_p_eq; exact F1|].
  split; [apply (Ffin3_map _ _ (prim_vec_with_error wF_m wF_p)); rewrite wF_m_eq, wF_p_eq; exact F2|].
  split; [apply (Ffin3_map _ _ (prim_pt_propagate_error wF_m wF_p wF_e)); rewrite wF_m_eq, wF_p_eq, wF_e_eq; exact F3|].
  split; [apply (Ffin3_map _ _ (prim_vec_propagate_error wF_m wF_p wF_e)); rewrite wF_m_eq, wF_p_eq, wF_e_eq; exact F4|].
  split; [exact S1|]. split; [exact S2|]. split; [exact S3|exact I].
Qed.
