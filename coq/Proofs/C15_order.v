(** * C15, order lemmas for any number instance: the box constructors and predicates only compare
    and copy coordinates, so their properties hold wherever [<?] and [<=?] form a total order on
    the coordinates involved - the reals, and the finite floats of every Flocq binary format
    (instantiated at the end).  NaN coordinates are outside ([ok]). *)
From Coq Require Import ZArith Reals Bool List Lra.
From Flocq Require Import Core BinarySingleNaN.
From G3 Require Import Model.Num Model.Base Model.Vec Model.BBox.
Local Open Scope num_scope.

Section Order.
  Context {K : Type} {NK : Num K}.
  Variable ok : K -> Prop.
  Hypothesis lt_nle : forall x y, ok x -> ok y -> (x <? y) = negb (y <=? x).
  Hypothesis le_total : forall x y, ok x -> ok y -> (x <=? y) = false -> (y <=? x) = true.
  Hypothesis le_refl : forall x, ok x -> (x <=? x) = true.
  Hypothesis le_trans : forall x y z, ok x -> ok y -> ok z -> (x <=? y) = true -> (y <=? z) = true -> (x <=? z) = true.

  Definition le (x y : K) : Prop := (x <=? y) = true.
  Definition okv (v : V3 K) : Prop := ok (vx v) /\ ok (vy v) /\ ok (vz v).
  Definition okb (b : BBox K) : Prop := okv (bmin b) /\ okv (bmax b).
  Definition vle (a b : V3 K) : Prop := le (vx a) (vx b) /\ le (vy a) (vy b) /\ le (vz a) (vz b).
  Definition inb (b : BBox K) (p : V3 K) : Prop := vle (bmin b) p /\ vle p (bmax b).
  Definition wfb (b : BBox K) : Prop := vle (bmin b) (bmax b).
  Definition contains (outer inner : BBox K) : Prop := vle (bmin outer) (bmin inner) /\ vle (bmax inner) (bmax outer).

  (** one coordinate pair of [get_mins_maxs]; C14_real.slab_sort is the same function *)
  Definition sort2 (x1 x2 : K) : K * K := if x1 >? x2 then (x2, x1) else (x1, x2).
  Lemma sort2_spec (x1 x2 : K) : ok x1 -> ok x2 ->
    let lo := fst (sort2 x1 x2) in let hi := snd (sort2 x1 x2) in
    le lo hi /\ le lo x1 /\ le lo x2 /\ le x1 hi /\ le x2 hi /\ ok lo /\ ok hi /\
    ((lo = x1 /\ hi = x2) \/ (lo = x2 /\ hi = x1)).
  Proof.
    intros O1 O2. unfold sort2, le. rewrite (lt_nle x2 x1 O2 O1).
    destruct (x1 <=? x2) eqn:E; cbn [negb fst snd].
    - repeat split; auto.
    - pose proof (le_total _ _ O1 O2 E). repeat split; auto.
  Qed.
  Lemma mm_sort2 (a b : V3 K) :
    mm a b = (mkV3 (fst (sort2 (vx a) (vx b))) (fst (sort2 (vy a) (vy b))) (fst (sort2 (vz a) (vz b))),
              mkV3 (snd (sort2 (vx a) (vx b))) (snd (sort2 (vy a) (vy b))) (snd (sort2 (vz a) (vz b)))).
  Proof.
    unfold mm, get_mins_maxs, sort2.
    destruct (vx a >? vx b), (vy a >? vy b), (vz a >? vz b); reflexivity.
  Qed.
  Lemma new_mm (a b : V3 K) : bbox_new a b = mkBBox (fst (mm a b)) (snd (mm a b)).
  Proof. unfold bbox_new. destruct (mm a b). reflexivity. Qed.

  Lemma s_lo_l x y : ok x -> ok y -> le (fst (sort2 x y)) x. Proof. intros A C. apply (sort2_spec x y A C). Qed.
  Lemma s_lo_r x y : ok x -> ok y -> le (fst (sort2 x y)) y. Proof. intros A C. apply (sort2_spec x y A C). Qed.
  Lemma s_hi_l x y : ok x -> ok y -> le x (snd (sort2 x y)). Proof. intros A C. apply (sort2_spec x y A C). Qed.
  Lemma s_hi_r x y : ok x -> ok y -> le y (snd (sort2 x y)). Proof. intros A C. apply (sort2_spec x y A C). Qed.
  Lemma s_lo_hi x y : ok x -> ok y -> le (fst (sort2 x y)) (snd (sort2 x y)). Proof. intros A C. apply (sort2_spec x y A C). Qed.
  Lemma s_ok_lo x y : ok x -> ok y -> ok (fst (sort2 x y)). Proof. intros A C. apply (sort2_spec x y A C). Qed.
  Lemma s_ok_hi x y : ok x -> ok y -> ok (snd (sort2 x y)). Proof. intros A C. apply (sort2_spec x y A C). Qed.
  Lemma s_cases x y : ok x -> ok y -> (fst (sort2 x y) = x /\ snd (sort2 x y) = y) \/ (fst (sort2 x y) = y /\ snd (sort2 x y) = x).
  Proof. intros A C. apply (sort2_spec x y A C). Qed.

  Ltac open_ :=
    rewrite ?new_mm; unfold bbox_from_union, bbox_from_union_point, bbox_from_intersection, bbox_from_point,
      okb, okv, inb, wfb, contains, vle in *;
    rewrite ?mm_sort2 in *; cbn [fst snd bmin bmax vx vy vz] in *;
    repeat match goal with H : _ /\ _ |- _ => destruct H end.
  Ltac fin_ := repeat split; first [apply s_lo_l | apply s_lo_r | apply s_hi_l | apply s_hi_r | apply s_lo_hi | apply s_ok_lo | apply s_ok_hi]; assumption.

  (** [BBox3D::new] normalises the corners *)
  Lemma g_new_normalises (a b : V3 K) : okv a -> okv b ->
    wfb (bbox_new a b) /\ inb (bbox_new a b) a /\ inb (bbox_new a b) b /\ okb (bbox_new a b).
  Proof. intros Oa Ob. open_. fin_. Qed.

  Lemma g_union_contains_both (b1 b2 : BBox K) : okb b1 -> okb b2 ->
    contains (bbox_from_union b1 b2) b1 /\ contains (bbox_from_union b1 b2) b2 /\ okb (bbox_from_union b1 b2).
  Proof. intros O1 O2. open_. fin_. Qed.

  Lemma g_union_point_contains (b : BBox K) (p : V3 K) : okb b -> okv p ->
    contains (bbox_from_union_point b p) b /\ inb (bbox_from_union_point b p) p /\ okb (bbox_from_union_point b p).
  Proof. intros O1 O2. open_. fin_. Qed.

  Lemma g_intersection_contained (b1 b2 : BBox K) : okb b1 -> okb b2 ->
    contains b1 (bbox_from_intersection b1 b2) /\ contains b2 (bbox_from_intersection b1 b2) /\ okb (bbox_from_intersection b1 b2).
  Proof. intros O1 O2. open_. fin_. Qed.

  (** symmetry of [overlaps] holds for all inputs, NaN included *)
  Lemma g_overlaps_sym (a b : BBox K) : bbox_overlaps a b = bbox_overlaps b a.
  Proof.
    unfold bbox_overlaps.
    rewrite (andb_comm (vx (bmin b) <=? vx (bmax a))), (andb_comm (vy (bmin b) <=? vy (bmax a))),
            (andb_comm (vz (bmin b) <=? vz (bmax a))). reflexivity.
  Qed.

  Lemma g_point_inside_spec (b : BBox K) (p : V3 K) : bbox_point_inside b p = true <-> inb b p.
  Proof. unfold bbox_point_inside, inb, vle, le. rewrite !andb_true_iff. tauto. Qed.
  Lemma g_point_inside_exclusive_spec (b : BBox K) (p : V3 K) :
    bbox_point_inside_exclusive b p = true <->
    vle (bmin b) p /\ (vx p <? vx (bmax b)) = true /\ (vy p <? vy (bmax b)) = true /\ (vz p <? vz (bmax b)) = true.
  Proof. unfold bbox_point_inside_exclusive, vle, le. rewrite !andb_true_iff. tauto. Qed.

  (** [overlaps] <-> a common point exists (well-formed operands); the witness is the lower corner of the intersection box *)
  Lemma g_overlaps_iff_common_point (a b : BBox K) : okb a -> okb b -> wfb a -> wfb b ->
    (bbox_overlaps a b = true <-> exists p, okv p /\ inb a p /\ inb b p).
  Proof.
    intros Oa Ob Wa Wb. split.
    - intros H. exists (bmin (bbox_from_intersection a b)).
      unfold bbox_overlaps in H. rewrite !andb_true_iff in H.
      open_.
      assert (P : forall m1 m2 M1 M2, ok m1 -> ok m2 -> ok M1 -> ok M2 -> le m1 M1 -> le m2 M2 -> le m2 M1 -> le m1 M2 ->
                let s := snd (sort2 m1 m2) in ok s /\ le m1 s /\ le s M1 /\ le m2 s /\ le s M2).
      { intros m1 m2 M1 M2 o1 o2 o3 o4 l1 l2 l3 l4. cbv zeta.
        split; [apply s_ok_hi; assumption|]. split; [apply s_hi_l; assumption|].
        split; [destruct (s_cases m1 m2 o1 o2) as [[_ ->]|[_ ->]]; assumption|].
        split; [apply s_hi_r; assumption|]. destruct (s_cases m1 m2 o1 o2) as [[_ ->]|[_ ->]]; assumption. }
      unfold le in *.
      pose proof (P (vx (bmin a)) (vx (bmin b)) (vx (bmax a)) (vx (bmax b))) as Px.
      pose proof (P (vy (bmin a)) (vy (bmin b)) (vy (bmax a)) (vy (bmax b))) as Py.
      pose proof (P (vz (bmin a)) (vz (bmin b)) (vz (bmax a)) (vz (bmax b))) as Pz.
      cbv zeta in Px, Py, Pz.
      destruct Px as (?&?&?&?&?); try assumption. destruct Py as (?&?&?&?&?); try assumption. destruct Pz as (?&?&?&?&?); try assumption.
      repeat split; assumption.
    - intros (p & Op & (A1 & A2) & (B1 & B2)). unfold bbox_overlaps. rewrite !andb_true_iff.
      unfold okb, okv, vle, le in *.
      repeat match goal with H : _ /\ _ |- _ => destruct H end.
      repeat split;
        [apply le_trans with (y := vx p) | apply le_trans with (y := vx p) | apply le_trans with (y := vy p)
        | apply le_trans with (y := vy p) | apply le_trans with (y := vz p) | apply le_trans with (y := vz p)]; assumption.
  Qed.
  Lemma vle_trans (a b c : V3 K) : okv a -> okv b -> okv c -> vle a b -> vle b c -> vle a c.
  Proof.
    intros (A1 & A2 & A3) (B1 & B2 & B3) (C1 & C2 & C3) (X1 & Y1 & Z1) (X2 & Y2 & Z2).
    repeat split; [apply le_trans with (y := vx b) | apply le_trans with (y := vy b) | apply le_trans with (y := vz b)]; assumption.
  Qed.
  Lemma g_fold_in (l : list (V3 K)) : forall r : BBox K, okb r -> Forall okv l ->
    okb (fold_left bbox_from_union_point l r) /\
    (forall q, okv q -> inb r q -> inb (fold_left bbox_from_union_point l r) q) /\
    (forall q, In q l -> inb (fold_left bbox_from_union_point l r) q).
  Proof.
    induction l as [|x l IH]; intros r Or Hl; cbn [fold_left].
    - split; [exact Or|]. split; [auto | intros q []].
    - inversion Hl as [|? ? Ox Hl']; subst.
      destruct (g_union_point_contains r x Or Ox) as ((C1 & C2) & Ix & Ou).
      destruct (IH _ Ou Hl') as (O' & G' & A'). split; [exact O'|]. split.
      + intros q Oq (Q1 & Q2). apply G'; [exact Oq|].
        split; [apply vle_trans with (b := bmin r) | apply vle_trans with (b := bmax r)]; try assumption; apply Ou || apply Or.
      + intros q [<-|Hq]; [apply G'; assumption | apply A', Hq].
  Qed.
  Lemma g_hull_in (p0 : V3 K) (l : list (V3 K)) : okv p0 -> Forall okv l ->
    let h := fold_left bbox_from_union_point l (bbox_from_point p0) in
    okb h /\ forall q, q = p0 \/ In q l -> inb h q.
  Proof.
    intros O0 Hl. destruct (g_fold_in l (bbox_from_point p0) (conj O0 O0) Hl) as (O' & G' & A').
    split; [exact O'|]. intros q [->|Hq]; [|apply A', Hq].
    apply G'; [exact O0|]. destruct O0 as (X & Y & Z). repeat split; apply le_refl; assumption.
  Qed.
End Order.

(** ** instance 1: the reals (every real is [ok]) *)
From G3 Require Import Theory.RInst.
Definition okR (x : R) : Prop := True.
Lemma R_lt_nle (x y : R) : okR x -> okR y -> (x <? y) = negb (y <=? x).
Proof. intros _ _. rnum. destruct (Rltb x y) eqn:E, (Rleb y x) eqn:F; try reflexivity;
  [apply Rltb_true in E; apply Rleb_true in F | apply Rltb_false in E; apply Rleb_false in F]; lra. Qed.
Lemma R_le_total (x y : R) : okR x -> okR y -> (x <=? y) = false -> (y <=? x) = true.
Proof. intros _ _. rnum. intros E. apply Rleb_false in E. apply Rleb_true. lra. Qed.
Lemma R_le_refl (x : R) : okR x -> (x <=? x) = true.
Proof. intros _. rnum. apply Rleb_true. lra. Qed.
Lemma R_le_trans (x y z : R) : okR x -> okR y -> okR z -> (x <=? y) = true -> (y <=? z) = true -> (x <=? z) = true.
Proof. intros _ _ _. rnum. rewrite !Rleb_true. lra. Qed.

(** ** instance 2: finite floats of every Flocq binary format *)
Section FloatOrder.
  Variable prec emax : Z.
  Context (Hprec : FLX.Prec_gt_0 prec) (Hmax : Prec_lt_emax prec emax).
  Notation bf := (binary_float prec emax).
  Local Instance NB : Num bf := NumB prec emax Hprec Hmax.
  Definition okF (x : bf) : Prop := is_finite x = true.
  Lemma F_lt_nle (x y : bf) : okF x -> okF y -> (x <? y) = negb (y <=? x).
  Proof.
    intros Fx Fy. cbn [nltb nleb NB NumB]. rewrite Bltb_correct, Bleb_correct by assumption.
    destruct (Rlt_bool_spec (B2R x) (B2R y)), (Rle_bool_spec (B2R y) (B2R x)); try reflexivity; lra.
  Qed.
  Lemma F_le_total (x y : bf) : okF x -> okF y -> (x <=? y) = false -> (y <=? x) = true.
  Proof.
    intros Fx Fy. cbn [nleb NB NumB]. rewrite !Bleb_correct by assumption.
    destruct (Rle_bool_spec (B2R x) (B2R y)), (Rle_bool_spec (B2R y) (B2R x)); try reflexivity; try discriminate; lra.
  Qed.
  Lemma F_le_refl (x : bf) : okF x -> (x <=? x) = true.
  Proof. intros Fx. cbn [nleb NB NumB]. rewrite Bleb_correct by assumption. apply Rle_bool_true. lra. Qed.
  Lemma F_le_trans (x y z : bf) : okF x -> okF y -> okF z -> (x <=? y) = true -> (y <=? z) = true -> (x <=? z) = true.
  Proof.
    intros Fx Fy Fz. cbn [nleb NB NumB]. rewrite !Bleb_correct by assumption.
    destruct (Rle_bool_spec (B2R x) (B2R y)), (Rle_bool_spec (B2R y) (B2R z)); try discriminate.
    intros _ _. apply Rle_bool_true. lra.
  Qed.

  (** the order lemmas, for boxes with finite float coordinates of any format *)
  Definition F_new_normalises := @g_new_normalises bf NB okF F_lt_nle F_le_total F_le_refl.
  Definition F_union_contains_both := @g_union_contains_both bf NB okF F_lt_nle F_le_total F_le_refl.
  Definition F_union_point_contains := @g_union_point_contains bf NB okF F_lt_nle F_le_total F_le_refl.
  Definition F_intersection_contained := @g_intersection_contained bf NB okF F_lt_nle F_le_total F_le_refl.
  Definition F_overlaps_iff_common_point := @g_overlaps_iff_common_point bf NB okF F_lt_nle F_le_total F_le_refl F_le_trans.
End FloatOrder.
