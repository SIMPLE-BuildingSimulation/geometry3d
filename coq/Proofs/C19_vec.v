(** * C19 proofs, part 1: point / vector operators and predicates on the real instance. *)
From Coq Require Import ZArith Reals Lra Bool List.
From G3 Require Import Model.Num Model.Base Model.Vec Theory.RInst.
From G3 Require Export Theory.VecR.
Local Open Scope R_scope.

Notation V := (V3 R).

Definition tinyR : R := 100 * / IZR (2 ^ 52).     (* 100 * EPSILON *)
Definition epsR : R := / IZR (2 ^ 52).
Definition e5 : R := 1 / 100000.
Lemma ctiny_R : @ctiny R _ = tinyR. Proof. reflexivity. Qed.
Lemma c1em5_e5 : @c1em5 R _ = e5. Proof. reflexivity. Qed.
Lemma epsR_pos : 0 < epsR. Proof. exact neps_pos. Qed.
Lemma tinyR_pos : 0 < tinyR. Proof. exact ctiny_pos. Qed.
Lemma tinyR_small : tinyR < / 1000000. Proof. exact ctiny_small. Qed.
Lemma e5_pos : 0 < e5. Proof. unfold e5. lra. Qed.

(** a vector every component of which is below 100 eps in absolute value *)
Definition tiny (a : V) : Prop := Rabs (vx a) < tinyR /\ Rabs (vy a) < tinyR /\ Rabs (vz a) < tinyR.

Lemma andb3_true (a b c : bool) : a && b && c = true <-> a = true /\ b = true /\ c = true.
Proof. destruct a, b, c; cbn; intuition congruence. Qed.

Lemma vis_zero_spec (a : V) : vis_zero a = true <-> tiny a.
Proof. unfold vis_zero, tiny. rewrite ctiny_R. rnum. rewrite andb3_true, !Rltb_true. reflexivity. Qed.
Lemma vis_zero_false (a : V) : vis_zero a = false <-> ~ tiny a.
Proof. rewrite <- vis_zero_spec. destruct (vis_zero a); intuition congruence. Qed.
Lemma vcompare_spec (a p : V) : vcompare a p = true <->
  Rabs (vx a - vx p) < e5 /\ Rabs (vy a - vy p) < e5 /\ Rabs (vz a - vz p) < e5.
Proof. unfold vcompare. rewrite c1em5_e5. rnum. rewrite andb3_true, !Rltb_true. reflexivity. Qed.
Lemma vcompare_refl (a : V) : vcompare a a = true.
Proof. apply vcompare_spec. pose proof e5_pos. rewrite !Rminus_diag_eq, Rabs_R0 by reflexivity. auto. Qed.
Lemma vcompare_sym (a p : V) : vcompare a p = vcompare p a.
Proof.
  destruct (vcompare p a) eqn:E.
  - apply vcompare_spec in E. apply vcompare_spec. rewrite (Rabs_minus_sym (vx a)), (Rabs_minus_sym (vy a)), (Rabs_minus_sym (vz a)). exact E.
  - destruct (vcompare a p) eqn:E'; [|reflexivity]. apply vcompare_spec in E'.
    rewrite (Rabs_minus_sym (vx a)), (Rabs_minus_sym (vy a)), (Rabs_minus_sym (vz a)) in E'. apply vcompare_spec in E'. congruence.
Qed.

Lemma vcross_self (a : V) : vcross a a = mkV3 0 0 0.
Proof. exact (VecR.vcross_self a). Qed.

(** ** is_parallel / is_same_direction *)
Lemma vis_parallel_spec (a b : V) :
  vis_parallel a b = true <-> ~ tiny a /\ ~ tiny b /\ vlen2 (vcross a b) < e5.
Proof.
  unfold vis_parallel. rewrite c1em5_e5.
  destruct (vis_zero b) eqn:Eb; cbn [orb].
  - apply vis_zero_spec in Eb. split; [discriminate | tauto].
  - destruct (vis_zero a) eqn:Ea.
    + apply vis_zero_spec in Ea. split; [discriminate | tauto].
    + apply vis_zero_false in Ea. apply vis_zero_false in Eb. rnum. rewrite Rltb_true.
      replace (vdot a b * vdot a b - vlen2 a * vlen2 b) with (- vlen2 (vcross a b)) by (rewrite <- lagrange; ring).
      rewrite Rabs_Ropp, Rabs_right by (apply Rle_ge, vlen2_nonneg). tauto.
Qed.
Lemma vis_same_direction_spec (a b : V) :
  vis_same_direction a b = true <-> ~ tiny a /\ ~ tiny b /\ vlen2 (vcross a b) < e5 /\ 0 < vdot a b.
Proof.
  unfold vis_same_direction. destruct (vis_parallel a b) eqn:E; cbn [negb].
  - apply vis_parallel_spec in E. rnum. rewrite Rltb_true. tauto.
  - split; [discriminate|]. intros (H1 & H2 & H3 & _). assert (vis_parallel a b = true) by (apply vis_parallel_spec; tauto). congruence.
Qed.
(** exactly parallel non-tiny vectors are recognised whatever their length; and the tolerance is absolute:
    [|a x b|^2 = |a|^2 |b|^2 sin^2] is compared with 1e-5, so short vectors at a wide angle also pass *)
Lemma vis_parallel_scaled (a : V) (k : R) : ~ tiny a -> ~ tiny (vscale a k) -> vis_parallel a (vscale a k) = true.
Proof.
  intros Ha Hb. apply vis_parallel_spec. repeat split; try assumption.
  replace (vlen2 (vcross a (vscale a k))) with 0 by vring. apply e5_pos.
Qed.

(** ** is_collinear: the measure [|ab x bc|] is (distance of c from the line ab) x (length of ab) *)
Definition foot (a b c : V) : V := vadd a (vscale (vsub b a) (vdot (vsub c a) (vsub b a) / vlen2 (vsub b a))).
Lemma collinear_measure2 (a b c : V) : vlen2 (vsub b a) <> 0 ->
  vdot (vsub c (foot a b c)) (vsub b a) = 0 /\
  vlen2 (vcross (vsub b a) (vsub c b)) = vlen2 (vsub b a) * vlen2 (vsub c (foot a b c)).
Proof.
  unfold foot. vcbn. intros H. split; field; exact H.
Qed.
Lemma collinear_measure (a b c : V) : vlen2 (vsub b a) <> 0 ->
  vlen (vcross (vsub b a) (vsub c b)) = vlen (vsub b a) * vlen (vsub c (foot a b c)).
Proof.
  intros H. destruct (collinear_measure2 a b c H) as (_ & E). unfold vlen. rnum. rewrite E. apply sqrt_mult; apply vlen2_nonneg.
Qed.
(** an answer [Ok x], where the error case [P] is excluded, against the three-part reading of a [res bool] *)
Lemma ok_answer_spec (x : bool) (P Q : Prop) : ~ P -> (x = true <-> Q) ->
  (forall s, @Ok bool x <> Panic s) /\ (forall e, Ok x = Err e <-> e = 1%N /\ P) /\
  (forall r, Ok x = Ok r <-> ~ P /\ (r = true <-> Q)).
Proof.
  intros N H. split; [discriminate|]. split; [intros e; split; [discriminate | tauto]|].
  intros r. split; [intros [= <-]; tauto | intros (_ & Hr)]. f_equal. destruct x, r; tauto || (symmetry; tauto).
Qed.
Lemma is_collinear_spec (a b c : V) :
  (forall s, is_collinear a b c <> Panic s) /\
  (forall e, is_collinear a b c = Err e <-> e = 1%N /\ vcompare a b = true /\ vcompare a c = true) /\
  (forall r, is_collinear a b c = Ok r <-> ~ (vcompare a b = true /\ vcompare a c = true) /\
     (r = true <-> vcompare a b = true \/ vcompare a c = true \/ vcompare b c = true \/
                   vlen (vcross (vsub b a) (vsub c b)) < e5)).
Proof.
  unfold is_collinear. rewrite c1em5_e5. rnum.
  destruct (vcompare a b), (vcompare a c); cbn [andb orb]; [|apply ok_answer_spec; [intros [? ?]; discriminate | tauto]..|].
  - split; [discriminate|]. split; [intros e; split; [intros [= <-]; auto | intros (-> & _); reflexivity]|].
    intros r; split; [discriminate | tauto].
  - destruct (vcompare b c); apply ok_answer_spec; try (intros [? ?]; discriminate); [tauto|].
    rewrite Rltb_true. split; [auto | intros [?|[?|[?|?]]]; try discriminate; assumption].
Qed.
