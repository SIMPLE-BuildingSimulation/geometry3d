(** * Flat_distant: the distant source (a cone of directions), exact tier. *)
From Coq Require Import ZArith Reals Lra Bool List Psatz.
From G3 Require Import Model.Num Model.Base Model.Vec Model.BBox Model.Transform Model.Hit Model.Plane Model.Disk Model.Distant
  Theory.RInst Proofs.C06_transform Proofs.Flat_base Proofs.Flat_polar Proofs.Flat_triangle Proofs.Flat_disk.
Local Open Scope R_scope.

Lemma nmaxf_pos : 0 < @nmaxf R _.
Proof. apply IZR_lt. reflexivity. Qed.

(** ** C02 / C03: reported <=> the angle condition, exactly as the code implements it *)
Lemma distant_simple_local_iff (s : Distant R) (ray : Ray R) (p : V) :
  distant_simple_intersect_local_ray s ray = Some p <->
  ds_cos_half_alpha s <= vdot (vnormalize (rdir ray)) (ds_direction s) /\ p = ray_project ray nmaxf.
Proof.
  unfold distant_simple_intersect_local_ray, distant_simple_intersect_local_ray_tag. rnumg.
  destruct (Rleb (ds_cos_half_alpha s) (vdot (vnormalize (rdir ray)) (ds_direction s))) eqn:B;
    [apply Rleb_true in B | apply Rleb_false in B]; cbn [fst]; split.
  - intros [= <-]. split; [assumption | reflexivity].
  - intros [_ ->]. reflexivity.
  - discriminate.
  - intros [H _]. lra.
Qed.
Lemma distant_simple_local_none (s : Distant R) (ray : Ray R) :
  distant_simple_intersect_local_ray s ray = None <-> vdot (vnormalize (rdir ray)) (ds_direction s) < ds_cos_half_alpha s.
Proof.
  unfold distant_simple_intersect_local_ray, distant_simple_intersect_local_ray_tag. rnumg.
  destruct (Rleb (ds_cos_half_alpha s) (vdot (vnormalize (rdir ray)) (ds_direction s))) eqn:B;
    [apply Rleb_true in B | apply Rleb_false in B]; cbn [fst]; split; try discriminate; try reflexivity; intros; try assumption; lra.
Qed.

(** the quantity compared is the cosine of the angle between the ray and the source direction *)
Lemma vnormalize_both_dot (a b : V) : vdot (vnormalize a) (vnormalize b) = vdot a b / (vlen a * vlen b).
Proof.
  rewrite vnormalize_dot, vdot_comm, vnormalize_dot, (vdot_comm b). unfold Rdiv. rewrite Rinv_mult. ring.
Qed.
Lemma distant_new_cone (direction : V) (angle : R) (ray : Ray R) :
  let s := distant_new direction angle in
  (exists p, distant_simple_intersect_local_ray s ray = Some p) <->
  cos (angle / 2) <= vdot (rdir ray) direction / (vlen (rdir ray) * vlen direction).
Proof.
  intros s. subst s. split.
  - intros [p H]. apply distant_simple_local_iff in H. destruct H as [H _].
    unfold distant_new in H. cbn [ds_cos_half_alpha ds_direction] in H. rewrite vnormalize_both_dot in H. rnum. exact H.
  - intros H. exists (ray_project ray nmaxf). apply distant_simple_local_iff. split; [|reflexivity].
    unfold distant_new. cbn [ds_cos_half_alpha ds_direction]. rewrite vnormalize_both_dot. rnum. exact H.
Qed.

(** [simple_intersect]: through Transform::new().inv_transform_ray -- same direction, so the same condition;
    the reported point is on the world ray, at the parameter MAX + nudge *)
Lemma distant_simple_spec (s : Distant R) (ray : Ray R) (p : V) :
  distant_simple_intersect s ray = Some p ->
  ds_cos_half_alpha s <= vdot (vnormalize (rdir ray)) (ds_direction s) /\ exists t, nmaxf <= t /\ p = ray_project ray t.
Proof.
  unfold distant_simple_intersect. destruct (id_ray_world ray) as (dt & P & D & Pr).
  set (r' := fst (fst (tr_inv_ray tr_new ray))) in *. intros H. apply distant_simple_local_iff in H. destruct H as [H ->].
  rewrite D in H. split; [assumption|]. exists (dt + nmaxf). split; [lra | apply Pr].
Qed.
Lemma distant_simple_some_iff (s : Distant R) (ray : Ray R) :
  (exists p, distant_simple_intersect s ray = Some p) <-> ds_cos_half_alpha s <= vdot (vnormalize (rdir ray)) (ds_direction s).
Proof.
  unfold distant_simple_intersect. destruct (id_ray_world ray) as (_ & _ & D & _).
  set (r' := fst (fst (tr_inv_ray tr_new ray))) in *. split.
  - intros [p H]. apply distant_simple_local_iff in H. rewrite D in H. tauto.
  - intros H. exists (ray_project r' nmaxf). apply distant_simple_local_iff. rewrite D. auto.
Qed.

(** ** C13: hit data = that of a proxy disk perpendicular to the source direction *)
Lemma get_perpendicular_spec (a pz : V) : vget_perpendicular a = Ok pz -> vlen2 pz = 1 /\ vdot a pz = 0.
Proof.
  intros H. destruct (vget_perpendicular_ok a pz H) as (D & L). rewrite <- vlen_sqr, L, vdot_comm, D. split; ring.
Qed.
Lemma get_perpendicular_unit_ok (a : V) : vlen2 a = 1 -> exists pz, vget_perpendicular a = Ok pz.
Proof.
  intros H. destruct (vget_perpendicular_err a) as (Np & Ne). destruct (vget_perpendicular a) as [pz|c|k]; [eauto | | destruct (Np k eq_refl)].
  (* an error means all three components are at most 100 eps: not a unit vector *)
  destruct (proj1 (Ne c) eq_refl) as (_ & Bx & By & Bz). pose proof ctiny_small as Hs. pose proof ctiny_pos as Hc.
  assert (Q : forall w, Rabs w <= ctiny -> w * w <= / 4).
  { intros w Hw. pose proof (Rle_abs w). pose proof (Rle_abs (- w)) as Hm. rewrite Rabs_Ropp in Hm. nra. }
  apply Q in Bx, By, Bz. revert H. vcbn. lra.
Qed.

(** the proxy disk exists and is well formed when the direction is a unit vector and tan(alpha/2) > 0 *)
Lemma distant_proxy_ok (s : Distant R) (t : R) : vlen2 (ds_direction s) = 1 -> 0 < t * ds_tan_half_alpha s ->
  exists dk, distant_get_proxy_disk s t = Ok dk /\ disk_wf dk /\ dk_normal dk = ds_direction s /\ dk_transform dk = None.
Proof.
  intros Hu Hr. unfold distant_get_proxy_disk, disk_new.
  destruct (get_perpendicular_unit_ok _ Hu) as (pz & Epz). rewrite Epz. cbn [unwrap rbind].
  destruct (get_perpendicular_spec _ _ Epz) as (Pz1 & Pz2).
  assert (Hn0 : vlen2 (ds_direction s) <> 0) by lra.
  match goal with |- context [disk_new_detailed ?a1 ?a2 ?a3 ?a4 ?a5 ?a6 ?a7] => destruct (disk_new_detailed a1 a2 a3 a4 a5 a6 a7) as [dk|cls|site] eqn:E end.
  - exists dk. split; [reflexivity|].
    destruct (disk_new_detailed_wf _ _ _ _ _ _ _ _ Hn0 (unit_not_zero pz Pz1) E) as (W & _ & En & _ & _ & Et & _).
    rewrite vnormalize_of_unit in En by assumption. auto.
  - exfalso. unfold disk_new_detailed in E. repeat match type of E with (if ?b then _ else _) = _ => destruct b end; discriminate.
  - exfalso. unfold disk_new_detailed in E. rewrite vnormalize_of_unit in E by assumption.
    pose proof c1em5_pos as H5. assert (H5' : @c1em5 R _ < 1) by (rewrite c1em5_R; lra).
    assert (Hpar : vis_parallel (ds_direction s) pz = false).
    { unfold vis_parallel. rewrite (unit_not_zero _ Pz1), (unit_not_zero _ Hu). cbn [orb]. rnum. apply Rltb_false.
      rewrite Pz2, Hu, Pz1. replace (0 * 0 - 1 * 1) with (- (1)) by ring. rewrite Rabs_Ropp, Rabs_R1. lra. }
    rewrite Hpar in E. rnum. rewrite Rleb_gt, !Rltb_ge in E by lra. discriminate.
Qed.

Lemma distant_intersect_spec (s : Distant R) (ray : Ray R) (i : Info R) :
  vlen2 (ds_direction s) = 1 -> 0 < ds_cos_half_alpha s -> 0 < ds_tan_half_alpha s ->
  distant_intersect s ray = Ok (Some i) ->
  ds_cos_half_alpha s <= vdot (vnormalize (rdir ray)) (ds_direction s) /\
  ip i = ray_project ray nmaxf /\
  iside i = Back /\ inormal i = vneg (ds_direction s) /\ vdot (inormal i) (rdir ray) < 0 /\ vlen2 (inormal i) = 1 /\
  vdot (ds_direction s) (idpdu i) = 0 /\ vdot (ds_direction s) (idpdv i) = 0 /\
  vdot (inormal i) (idpdu i) = 0 /\ vdot (inormal i) (idpdv i) = 0.
Proof.
  intros Hu Hc Ht. unfold distant_intersect, distant_intersect_local_ray.
  destruct (distant_simple_intersect_local_ray s ray) as [phit|] eqn:E; [|discriminate].
  apply distant_simple_local_iff in E. destruct E as (Hcone & ->).
  assert (Hr : 0 < nofZ 10 * ds_tan_half_alpha s) by (rnum; lra).
  destruct (distant_proxy_ok s (nofZ 10) Hu Hr) as (dk & Edk & W & En & _). rewrite Edk. cbn [rbind].
  destruct (disk_intersection_info dk ray (ray_project ray (nofZ 10)) nhalf) as [info|] eqn:Ei; [|discriminate].
  intros H. injection H as <-. cbn [ip inormal iside idpdu idpdv].
  apply disk_info_spec in Ei; [|assumption]. destruct Ei as (_ & Hn & Hs & T1 & T2). rewrite En in *.
  (* the ray direction is not zero and points to the source's side *)
  assert (Hd : 0 < vdot (ds_direction s) (rdir ray)).
  { assert (Hd0 : vlen2 (rdir ray) <> 0).
    { intros Z. apply vlen2_zero in Z. rewrite Z in Hcone. replace (vdot _ _) with 0 in Hcone by (unfold vnormalize; vring). lra. }
    destruct (vnormalize_dot_sign (rdir ray) (ds_direction s) Hd0) as (_ & S2 & _). rewrite vdot_comm. apply S2. lra. }
  rewrite get_side_back in Hn, Hs by assumption. cbn [fst snd] in Hn, Hs.
  split; [assumption|]. split; [reflexivity|]. split; [assumption|]. split; [assumption|].
  rewrite Hn. split; [rewrite vdot_neg_l; lra|]. split; [rewrite vlen2_neg; assumption|].
  split; [assumption|]. split; [assumption|]. rewrite !vdot_neg_l, T1, T2. split; ring.
Qed.
