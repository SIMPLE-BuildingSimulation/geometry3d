From Coq Require Import ZArith Bool List Arith Lia.
From G3 Require Import Model.Num Model.Base Model.Vec Model.Segment Model.Loop.
Import ListNotations.

Definition no_panic {A} (r : res A) : Prop := forall s, r <> Panic s.
Lemma np_ok {A} (a : A) : no_panic (Ok a). Proof. intros s; discriminate. Qed.
Lemma np_err {A} c : no_panic (@Err A c). Proof. intros s; discriminate. Qed.
Lemma np_bind {A B} (r : res A) (f : A -> res B) : no_panic r -> (forall a, no_panic (f a)) -> no_panic (rbind r f).
Proof. intros Hr Hf s. destruct r as [a| |s']; cbn [rbind]; [apply Hf | discriminate | intros _; exact (Hr s' eq_refl)]. Qed.
Lemma np_if {A} (b : bool) (x y : res A) : no_panic x -> no_panic y -> no_panic (if b then x else y).
Proof. destruct b; auto. Qed.
Lemma np_snd {A S} (r : res A) (st : S) (k : A -> S * res unit) : no_panic r -> (forall a, no_panic (snd (k a))) ->
  no_panic (snd match r with Ok a => k a | Err c => (st, Err c) | Panic s => (st, Panic s) end).
Proof. intros Hr Hk s. destruct r as [a| |s']; cbn [snd]; [apply Hk | discriminate | intros _; exact (Hr s' eq_refl)]. Qed.

(** [loop_run], [loop_run_pre] and [poly_run] are this fixpoint at their step functions, up to conversion: the two
    lemmas apply to them as they stand *)
Section Run.
  Context {S O R : Type} (step : S -> O -> S * R).
  Fixpoint run_gen (s : S) (ops : list O) : S * list R :=
    match ops with
    | [] => (s, [])
    | op :: tl => let '(s', o) := step s op in let '(s'', os) := run_gen s' tl in (s'', o :: os)
    end.
  Lemma run_gen_inv (I : S -> list O -> Prop) : (forall s op tl, I s (op :: tl) -> I (fst (step s op)) tl) ->
    forall ops s, I s ops -> I (fst (run_gen s ops)) [].
  Proof.
    intros Hstep. induction ops as [|op tl IH]; intros s H; [exact H|]. cbn [run_gen].
    apply Hstep in H. destruct (step s op) as [s' o]. cbn [fst] in H. apply IH in H. destruct (run_gen s' tl). exact H.
  Qed.
  Lemma run_gen_out (Q : R -> Prop) : (forall s op, Q (snd (step s op))) -> forall ops s r, In r (snd (run_gen s ops)) -> Q r.
  Proof.
    intros Hstep. induction ops as [|op tl IH]; intros s r; cbn [run_gen]; [intros []|].
    pose proof (Hstep s op) as H. destruct (step s op) as [s' o]. specialize (IH s' r). destruct (run_gen s' tl).
    intros [<-|Hr]; [exact H | exact (IH Hr)].
  Qed.
End Run.

Section AnyNum.
  Context {K : Type} {NK : Num K}.
  Notation V := (V3 K).

  Lemma is_collinear_no_panic (a b c : V) : no_panic (is_collinear a b c).
  Proof. unfold is_collinear. apply np_if; [apply np_err|]. apply np_if; apply np_ok. Qed.
  Lemma is_collinear_false_iff (a b c : V) : is_collinear a b c = Ok false <->
    vcompare a b = false /\ vcompare a c = false /\ vcompare b c = false /\
    (vlen (vcross (vsub b a) (vsub c b)) <? c1em5)%num = false.
  Proof.
    unfold is_collinear. destruct (vcompare a b); destruct (vcompare a c); destruct (vcompare b c); cbn [andb orb];
      try (split; [discriminate | intros (? & ? & ? & _); discriminate]).
    split; [intros H; injection H as H; auto | intros (_ & _ & _ & ->); reflexivity].
  Qed.
  Lemma is_collinear_false_distinct (a b c : V) :
    is_collinear a b c = Ok false -> vcompare a b = false /\ vcompare a c = false /\ vcompare b c = false.
  Proof. intros H. apply is_collinear_false_iff in H. tauto. Qed.
  Lemma is_collinear_short (a b c : V) : vcompare a b && vcompare a c = false ->
    (vlen (vcross (vsub b a) (vsub c b)) <? c1em5)%num = true -> is_collinear a b c = Ok true.
  Proof. intros Hd Hs. unfold is_collinear. rewrite Hd, Hs. destruct (_ || _); reflexivity. Qed.
  Lemma coplanar_no_panic (L : Loop K) (p : V) : no_panic (loop_is_coplanar L p).
  Proof. unfold loop_is_coplanar. destruct (verts L); [apply np_err|]. apply np_if; [apply np_err | apply np_ok]. Qed.
  Lemma valid_to_add_no_panic (L : Loop K) (p : V) : no_panic (valid_to_add L p).
  Proof.
    unfold valid_to_add. apply np_if; [apply np_err|]. apply np_bind; [apply np_if; [apply coplanar_no_panic | apply np_ok]|].
    intros c. apply np_if; [apply np_err|]. apply np_if; [apply np_if; [apply np_err | apply np_ok] | apply np_ok].
  Qed.
  Lemma valid_to_add_open (L : Loop K) p u : valid_to_add L p = Ok u -> lclosed L = false.
  Proof. unfold valid_to_add. destruct (lclosed L); [discriminate | reflexivity]. Qed.
  Lemma is_ok_valid_to_add (L : Loop K) (p : V) : is_ok (valid_to_add L p) =
    negb (lclosed L) &&
    (if negb (vis_zero (lnormal L)) then match loop_is_coplanar L p with Ok b => b | _ => false end else true) &&
    (if Nat.leb 3 (llen L) then negb (crosses_any (seg_new (vnth (verts L) (llen L - 1)) p) (verts L) (llen L - 2)) else true).
  Proof.
    unfold valid_to_add. destruct (lclosed L); [reflexivity|]. cbn [negb andb].
    destruct (negb (vis_zero (lnormal L))); [destruct (loop_is_coplanar L p) as [[|]| |]|]; cbn [rbind negb andb]; try reflexivity;
      (destruct (Nat.leb 3 (llen L)); [destruct (crosses_any _ _ _)|]; reflexivity).
  Qed.
  Lemma set_normal_no_panic (L : Loop K) : no_panic (loop_set_normal L).
  Proof. unfold loop_set_normal. destruct (verts L) as [|a [|b [|c l]]]; solve [apply np_err | apply np_ok]. Qed.

  (** the pre-fix and the live code differ in what happens to the tail of the vertex list when the
      point does not go straight back ([tail]) and in whether fewer than three vertices reset the normal ([z]) *)
  Definition push_finish (z : bool) (L : Loop K) (vs : list V) : res (Loop K) :=
    if Nat.eqb (length vs) 3 then loop_set_normal (set_verts L vs)
    else if z && Nat.ltb (length vs) 3 then Ok (set_normal_field (set_verts L vs) vzero) else Ok (set_verts L vs).
  Definition push_verts_with (tail : list V -> V -> res (list V)) (vs : list V) (p : V) : res (list V) :=
    if Nat.leb 2 (length vs) then
      if vcompare (vnth vs (length vs - 2)) p then Ok (removelast vs) else tail vs p
    else Ok (vs ++ [p]).
  Definition push_with (tail : list V -> V -> res (list V)) (z : bool) (L : Loop K) (p : V) : res (Loop K) :=
    do _ <- valid_to_add L p; do vs <- push_verts_with tail (verts L) p; push_finish z L vs.
  Definition tail_live (vs : list V) (p : V) : res (list V) :=
    do keep <- push_keep vs p (length vs) (length vs); Ok (firstn keep vs ++ [p]).
  Lemma loop_push_eq (L : Loop K) (p : V) : loop_push L p = push_with tail_live true L p.
  Proof. reflexivity. Qed.

  Lemma push_finish_eq z (L : Loop K) (vs : list V) : push_finish z L vs =
    Ok (mkLoop vs (if Nat.eqb (length vs) 3 then match vs with a :: b :: c :: _ => vnormalize (vcross (vsub b a) (vsub c b)) | _ => vzero end
                   else if z && Nat.ltb (length vs) 3 then vzero else lnormal L) (lclosed L) (larea L) (lperim L)).
  Proof.
    unfold push_finish. destruct (Nat.eqb_spec (length vs) 3) as [E|_]; [|destruct (z && _); reflexivity].
    destruct vs as [|a [|b [|c [|d t]]]]; try discriminate E. reflexivity.
  Qed.
  Lemma push_with_no_panic tail z (L : Loop K) (p : V) : (forall vs, no_panic (tail vs p)) -> no_panic (push_with tail z L p).
  Proof.
    intros Ht. apply np_bind; [apply valid_to_add_no_panic|]. intros _. apply np_bind.
    - apply np_if; [apply np_if; [apply np_ok | apply Ht] | apply np_ok].
    - intros vs. rewrite push_finish_eq. apply np_ok.
  Qed.
  Lemma push_with_accepts tail z (L : Loop K) (p : V) : is_ok (push_with tail z L p) =
    is_ok (valid_to_add L p) && (if Nat.leb 2 (llen L) then vcompare (vnth (verts L) (llen L - 2)) p || is_ok (tail (verts L) p) else true).
  Proof.
    unfold push_with, push_verts_with, llen. destruct (valid_to_add L p); [|reflexivity..]. cbn [rbind is_ok andb].
    assert (F : forall r : res (list V), is_ok (do vs <- r; push_finish z L vs) = is_ok r) by (intros [vs| |]; [apply (f_equal is_ok (push_finish_eq z L vs))|..]; reflexivity).
    rewrite F. destruct (Nat.leb 2 _); [destruct (vcompare _ p)|]; reflexivity.
  Qed.
  Lemma push_with_ok tail z (L L' : Loop K) (p : V) : push_with tail z L p = Ok L' ->
    lclosed L = false /\ push_verts_with tail (verts L) p = Ok (verts L') /\
    L' = mkLoop (verts L')
           (if Nat.eqb (llen L') 3 then match verts L' with a :: b :: c :: _ => vnormalize (vcross (vsub b a) (vsub c b)) | _ => vzero end
            else if z && Nat.ltb (llen L') 3 then vzero else lnormal L) false (larea L) (lperim L).
  Proof.
    unfold push_with. destruct (valid_to_add L p) as [u| |] eqn:Ev; try discriminate. apply valid_to_add_open in Ev.
    cbn [rbind]. destruct (push_verts_with tail (verts L) p) as [vs| |]; try discriminate. cbn [rbind].
    rewrite push_finish_eq, Ev. intros H. injection H as <-. auto.
  Qed.

  Lemma push_keep_no_panic (vs : list V) (p : V) (fuel keep : nat) : no_panic (push_keep vs p keep fuel).
  Proof.
    revert keep. induction fuel as [|f IH]; intros keep; cbn [push_keep]; [apply np_ok|]. apply np_if; [|apply np_ok].
    apply np_bind; [apply is_collinear_no_panic|]. intros c. apply np_if; [apply IH | apply np_ok].
  Qed.
  Lemma push_no_panic (L : Loop K) (p : V) : no_panic (loop_push L p).
  Proof. rewrite loop_push_eq. apply push_with_no_panic. intros vs. apply np_bind; [apply push_keep_no_panic | intros k; apply np_ok]. Qed.

  (** [loop_close] and [loop_close_pre] end alike, on the vertex list they have arrived at *)
  Definition close_finish (L : Loop K) : Loop K * res unit :=
    let L3 := mkLoop (verts L) (lnormal L) true (larea L) (lperim L) in
    match loop_set_area L3 with
    | Err c => (L3, Err c) | Panic s => (L3, Panic s)
    | Ok L4 =>
      match loop_set_perimeter L4 with
      | Err c => (L4, Err c) | Panic s => (L4, Panic s)
      | Ok L5 => (L5, Ok tt)
      end
    end.
  Lemma set_area_ok (L L' : Loop K) : loop_set_area L = Ok L' ->
    lclosed L = true /\ vis_zero (lnormal L) = false /\ 3 <= llen L /\
    L' = let area := (vdot (lnormal L) (sum_cross (verts L) (vnth (verts L) 0) vzero) / n2)%num in
         mkLoop (verts L) (if (area <? n0)%num then vscale (lnormal L) (- n1)%num else lnormal L) true (nabs area) (lperim L).
  Proof.
    unfold loop_set_area. destruct (lclosed L); [|discriminate]. destruct (vis_zero (lnormal L)); [discriminate|].
    destruct (Nat.ltb_spec (llen L) 3); [discriminate|]. intros E. injection E as <-. auto.
  Qed.
  Lemma set_perimeter_ok (L L' : Loop K) : loop_set_perimeter L = Ok L' ->
    lclosed L = true /\ vis_zero (lnormal L) = false /\ 3 <= llen L /\
    L' = mkLoop (verts L) (lnormal L) true (larea L) (sum_len (verts L) (vnth (verts L) 0) n0).
  Proof.
    unfold loop_set_perimeter. destruct (lclosed L); [|discriminate]. destruct (vis_zero (lnormal L)); [discriminate|].
    destruct (Nat.ltb_spec (llen L) 3); [discriminate|]. intros E. injection E as <-. auto.
  Qed.
  Lemma close_finish_cases (L : Loop K) :
    verts (fst (close_finish L)) = verts L /\ lclosed (fst (close_finish L)) = true /\
    (snd (close_finish L) = Ok tt /\ 3 <= llen L \/ snd (close_finish L) = Err 33%N \/ snd (close_finish L) = Err 36%N).
  Proof.
    unfold close_finish, loop_set_area, loop_set_perimeter, llen. cbn [lclosed negb lnormal verts].
    destruct (vis_zero (lnormal L)); [cbn; auto|]. destruct (Nat.ltb_spec (length (verts L)) 3) as [H|H]; [cbn; auto|].
    cbn [lclosed negb lnormal verts]. destruct (vis_zero _); [cbn; auto|].
    destruct (Nat.ltb_spec (length (verts L)) 3); [lia|]. cbn. auto.
  Qed.
  Lemma close_finish_ok (L : Loop K) : snd (close_finish L) = Ok tt ->
    lclosed (fst (close_finish L)) = true /\ 3 <= llen (fst (close_finish L)).
  Proof.
    destruct (close_finish_cases L) as (Hv & Hc & [(_ & H3)|[E|E]]); [|rewrite E; discriminate..]. unfold llen. rewrite Hv. auto.
  Qed.
  Lemma close_finish_ok_steps (L : Loop K) : snd (close_finish L) = Ok tt ->
    exists L4, loop_set_area (mkLoop (verts L) (lnormal L) true (larea L) (lperim L)) = Ok L4 /\
               loop_set_perimeter L4 = Ok (fst (close_finish L)).
  Proof.
    unfold close_finish. destruct (loop_set_area _) as [L4| |]; try discriminate.
    destruct (loop_set_perimeter L4) as [L5| |] eqn:E5; try discriminate. exists L4. auto.
  Qed.

  Lemma pop_red_true (vs : list V) (f : nat) : last_is_redundant vs = Ok true -> pop_redundant vs (S f) = pop_redundant (removelast vs) f.
  Proof. intros H. cbn [pop_redundant]. rewrite H. reflexivity. Qed.
  Lemma pop_red_false (vs : list V) (f : nat) : last_is_redundant vs = Ok false -> pop_redundant vs (S f) = (vs, Ok tt).
  Proof. intros H. cbn [pop_redundant]. rewrite H. reflexivity. Qed.
  Lemma drop_first_false (vs : list V) (f : nat) :
    is_collinear (vnth vs (length vs - 1)) (vnth vs 0) (vnth vs 1) = Ok false -> drop_first_redundant vs (S f) = (vs, Ok tt).
  Proof. intros H. cbn [drop_first_redundant]. destruct (Nat.ltb (length vs) 3); [reflexivity|]. rewrite H. reflexivity. Qed.
  Lemma drop_first_true (vs vs1 : list V) (f : nat) : 3 <= length vs ->
    is_collinear (vnth vs (length vs - 1)) (vnth vs 0) (vnth vs 1) = Ok true ->
    pop_redundant (tl vs) (length vs) = (vs1, Ok tt) -> drop_first_redundant vs (S f) = drop_first_redundant vs1 f.
  Proof. intros H3 H Hp. cbn [drop_first_redundant]. apply Nat.ltb_ge in H3. rewrite H3, H, Hp. reflexivity. Qed.

  Section Ends.
    Variable Q : list V -> Prop.
    Hypothesis Q_removelast : forall vs, Q vs -> Q (removelast vs).
    Hypothesis Q_tl : forall vs, Q vs -> Q (tl vs).
    Lemma pop_redundant_ends (fuel : nat) : forall vs, Q vs -> Q (fst (pop_redundant vs fuel)).
    Proof.
      induction fuel as [|f IH]; intros vs H; cbn [pop_redundant]; [exact H|].
      destruct (last_is_redundant vs) as [[|]| |]; [apply IH, Q_removelast, H | exact H ..].
    Qed.
    Lemma drop_first_redundant_ends (fuel : nat) : forall vs, Q vs -> Q (fst (drop_first_redundant vs fuel)).
    Proof.
      induction fuel as [|f IH]; intros vs H; cbn [drop_first_redundant]; [exact H|].
      destruct (Nat.ltb (length vs) 3); [exact H|]. destruct (is_collinear _ _ _) as [[|]| |]; [|exact H ..].
      pose proof (pop_redundant_ends (length vs) (tl vs) (Q_tl vs H)) as H1.
      destruct (pop_redundant (tl vs) (length vs)) as [vs1 [u| |]]; [apply IH, H1 | exact H1 ..].
    Qed.
  End Ends.

  Lemma loop_close_cases (L : Loop K) :
    let p1 := pop_redundant (verts L) (llen L) in
    let p2 := drop_first_redundant (fst p1) (length (fst p1)) in
    snd (loop_close L) <> Ok tt /\
      (fst (loop_close L) = L \/
       lclosed L = false /\ (fst (loop_close L) = set_verts L (fst p1) \/ snd p1 = Ok tt /\ fst (loop_close L) = set_verts L (fst p2))) \/
    lclosed L = false /\ 3 <= llen L /\ snd p1 = Ok tt /\ snd p2 = Ok tt /\ 3 <= length (fst p2) /\
      loop_close L = close_finish (set_verts L (fst p2)).
  Proof.
    cbv zeta. unfold loop_close. destruct (lclosed L); [left; split; [discriminate | left; reflexivity]|].
    destruct (Nat.ltb_spec (llen L) 3) as [|H3]; [left; split; [discriminate | left; reflexivity]|].
    destruct (pop_redundant (verts L) (llen L)) as [vs1 r1]. cbn [fst snd].
    assert (F1 : forall o : res unit, o <> Ok tt -> o <> Ok tt /\ (set_verts L vs1 = L \/ false = false /\
              (set_verts L vs1 = set_verts L vs1 \/ r1 = Ok tt /\ set_verts L vs1 = set_verts L (fst (drop_first_redundant vs1 (length vs1))))))
      by (intros o Ho; auto).
    destruct r1 as [[]| |]; [|left; apply F1; discriminate..].
    destruct (Nat.ltb (length vs1) 3); [left; apply F1; discriminate|].
    destruct (valid_to_add _ _); [|left; apply F1; discriminate..]. clear F1.
    destruct (drop_first_redundant vs1 (length vs1)) as [vs2 r2]. cbn [fst snd].
    assert (F2 : forall o : res unit, o <> Ok tt -> o <> Ok tt /\ (set_verts (set_verts L vs1) vs2 = L \/ false = false /\
              (set_verts (set_verts L vs1) vs2 = set_verts L vs1 \/ Ok tt = Ok tt /\ set_verts (set_verts L vs1) vs2 = set_verts L vs2)))
      by (intros o Ho; auto 6).
    destruct r2 as [[]| |]; [|left; apply F2; discriminate..].
    destruct (Nat.ltb_spec (length vs2) 3) as [|H2]; [left; apply F2; discriminate|]. right. auto 7.
  Qed.
  Lemma close_ends (Q : list V -> Prop) (L : Loop K) : (forall vs, Q vs -> Q (removelast vs)) -> (forall vs, Q vs -> Q (tl vs)) ->
    Q (verts L) -> Q (verts (fst (loop_close L))).
  Proof.
    intros Hr Ht H. pose proof (pop_redundant_ends Q Hr (llen L) _ H) as H1.
    pose proof (drop_first_redundant_ends Q Hr Ht (length (fst (pop_redundant (verts L) (llen L)))) _ H1) as H2.
    destruct (loop_close_cases L) as [(_ & [->|(_ & [->|(_ & ->)])])|(_ & _ & _ & _ & _ & ->)]; [exact H | exact H1 | exact H2 |].
    rewrite (proj1 (close_finish_cases _)). exact H2.
  Qed.
  Lemma close_ok (L : Loop K) : snd (loop_close L) = Ok tt ->
    exists vs1 vs2, pop_redundant (verts L) (llen L) = (vs1, Ok tt) /\ drop_first_redundant vs1 (length vs1) = (vs2, Ok tt) /\
      verts (fst (loop_close L)) = vs2 /\ lclosed L = false /\ 3 <= llen L /\ 3 <= length vs2 /\
      loop_close L = close_finish (set_verts L vs2).
  Proof.
    intros Ho. pose proof (loop_close_cases L) as C. cbv zeta in C.
    destruct (pop_redundant (verts L) (llen L)) as [vs1 r1]. cbn [fst snd] in C.
    destruct (drop_first_redundant vs1 (length vs1)) as [vs2 r2] eqn:E2. cbn [fst snd] in C.
    destruct C as [(H & _)|(Hc & H3 & -> & -> & H2 & E)]; [contradiction|]. exists vs1, vs2. repeat split; try assumption.
    rewrite E. exact (proj1 (close_finish_cases _)).
  Qed.

  Lemma set_area_no_panic (L : Loop K) : no_panic (loop_set_area L).
  Proof. unfold loop_set_area. do 3 (apply np_if; [apply np_err|]). apply np_ok. Qed.
  Lemma set_perimeter_no_panic (L : Loop K) : no_panic (loop_set_perimeter L).
  Proof. unfold loop_set_perimeter. do 3 (apply np_if; [apply np_err|]). apply np_ok. Qed.
  Lemma close_finish_no_panic (L : Loop K) : no_panic (snd (close_finish L)).
  Proof.
    unfold close_finish. apply np_snd; [apply set_area_no_panic|]. intros L4. apply np_snd; [apply set_perimeter_no_panic|]. intros L5. apply np_ok.
  Qed.

  Lemma last_is_redundant_no_panic (vs : list V) : no_panic (last_is_redundant vs).
  Proof. unfold last_is_redundant. apply np_if; [apply np_ok | apply is_collinear_no_panic]. Qed.
  Lemma pop_redundant_no_panic (fuel : nat) : forall vs : list V, no_panic (snd (pop_redundant vs fuel)).
  Proof.
    induction fuel as [|f IH]; intros vs; cbn [pop_redundant]; [apply np_ok|].
    apply (np_snd _ vs (fun b : bool => if b then _ else _)); [apply last_is_redundant_no_panic|]. intros [|]; [apply IH | apply np_ok].
  Qed.
  Lemma drop_first_redundant_no_panic (fuel : nat) : forall vs : list V, no_panic (snd (drop_first_redundant vs fuel)).
  Proof.
    induction fuel as [|f IH]; intros vs; cbn [drop_first_redundant]; [apply np_ok|].
    destruct (Nat.ltb (length vs) 3); [apply np_ok|].
    apply (np_snd _ vs (fun b : bool => if b then _ else _)); [apply is_collinear_no_panic|]. intros [|]; [|apply np_ok].
    pose proof (pop_redundant_no_panic (length vs) (tl vs)) as Hp. destruct (pop_redundant (tl vs) (length vs)) as [vs1 r].
    destruct r as [u| |s']; [apply IH | apply np_err | exact Hp].
  Qed.
  Lemma close_no_panic (L : Loop K) : no_panic (snd (loop_close L)).
  Proof.
    unfold loop_close. destruct (lclosed L); [apply np_err|]. destruct (Nat.ltb (llen L) 3); [apply np_err|].
    pose proof (pop_redundant_no_panic (llen L) (verts L)) as H1. destruct (pop_redundant (verts L) (llen L)) as [vs1 r1].
    apply np_snd; [exact H1|]. intros _. destruct (Nat.ltb (length vs1) 3); [apply np_err|].
    apply np_snd; [apply valid_to_add_no_panic|]. intros _.
    pose proof (drop_first_redundant_no_panic (length vs1) vs1) as H2. destruct (drop_first_redundant vs1 (length vs1)) as [vs2 r2].
    apply np_snd; [exact H2|]. intros _. destruct (Nat.ltb (length vs2) 3); [apply np_err|]. apply close_finish_no_panic.
  Qed.

  Lemma step_inv (push : Loop K -> V -> res (Loop K)) (close : Loop K -> Loop K * res unit) (I : Loop K -> Prop) (L : Loop K) (op : lop K) :
    I L -> (forall p L', op = LPush p -> push L p = Ok L' -> I L') -> I (fst (close L)) ->
    I (fst match op with
           | LPush p => match push L p with Ok L' => (L', Ok tt) | Err c => (L, Err c) | Panic s => (L, Panic s) end
           | LClose => close L
           end).
  Proof. intros HI Hp Hc. destruct op as [p|]; [|exact Hc]. specialize (Hp p). destruct (push L p); [apply Hp; reflexivity | exact HI ..]. Qed.
  Lemma step_no_panic (L : Loop K) (op : lop K) : no_panic (snd (loop_step L op)).
  Proof. destruct op as [p|]; [|apply close_no_panic]. apply (np_snd _ L (fun L' => (L', Ok tt))); [apply push_no_panic|]. intros L'. apply np_ok. Qed.
  (** no operation sequence panics, whatever the number instance *)
  Theorem run_no_panic (ops : list (lop K)) : forall (L : Loop K) s, ~ In (Panic s) (snd (loop_run L ops)).
  Proof. intros L s H. exact (run_gen_out loop_step (fun r => r <> Panic s) (fun L op => step_no_panic L op s) ops L _ H eq_refl). Qed.

  (** a refused push leaves the loop unchanged, whatever the failure *)
  Theorem refused_push_unchanged (L : Loop K) (p : V) : snd (loop_step L (LPush p)) <> Ok tt -> fst (loop_step L (LPush p)) = L.
  Proof. cbn [loop_step]. destruct (loop_push L p); cbn [fst snd]; intros H; [exfalso; apply H|..]; reflexivity. Qed.

  Theorem push_on_closed_refused (L : Loop K) (p : V) : lclosed L = true -> loop_push L p = Err 30%N.
  Proof. intros H. unfold loop_push, valid_to_add. rewrite H. reflexivity. Qed.

  (** acceptance is exactly: open, coplanar (when the plane is known), no proper crossing with an
      earlier non-adjacent edge, and -- unless the point goes straight back to the last-but-one vertex
      (the spike is then popped, fix df28df6) -- none of the collinearity tests made while counting the trailing
      vertices that the point makes redundant fails (three coincident points; the first of these tests cannot fail:
      the point differs from the last-but-one vertex) *)
  Definition accepts (L : Loop K) (p : V) : bool :=
    negb (lclosed L) &&
    (if negb (vis_zero (lnormal L)) then match loop_is_coplanar L p with Ok b => b | _ => false end else true) &&
    (if Nat.leb 3 (llen L) then negb (crosses_any (seg_new (vnth (verts L) (llen L - 1)) p) (verts L) (llen L - 2)) else true) &&
    (if Nat.leb 2 (llen L) then vcompare (vnth (verts L) (llen L - 2)) p ||
                                is_ok (push_keep (verts L) p (llen L) (llen L)) else true).
  Theorem push_accepts (L : Loop K) (p : V) : is_ok (loop_push L p) = accepts L p.
  Proof.
    rewrite loop_push_eq, push_with_accepts, is_ok_valid_to_add. unfold accepts, tail_live. fold (llen L).
    destruct (push_keep _ p _ _); reflexivity.
  Qed.

  Lemma close_ok_len (L : Loop K) : snd (loop_close L) = Ok tt -> 3 <= llen L.
  Proof. intros H. destruct (close_ok L H) as (vs1 & vs2 & _ & _ & _ & _ & H3 & _). exact H3. Qed.

  (** the corners of a closed loop: [live_closed_no_collinear_vertex] of Proofs/C04_reach_live.v *)
  Theorem close_ok_invariants (L : Loop K) : snd (loop_close L) = Ok tt ->
    let L' := fst (loop_close L) in lclosed L' = true /\ 3 <= llen L'.
  Proof.
    intros H. destruct (close_ok L H) as (vs1 & vs2 & _ & _ & _ & _ & _ & _ & E). cbv zeta. rewrite E in *. exact (close_finish_ok _ H).
  Qed.
End AnyNum.
