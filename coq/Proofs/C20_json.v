(** * C20 proofs: the deserialisers never panic, malformed documents are errors, and the round trip at the
    level of serde_json::Value.  Instance-generic (reals, Flocq floats, primitive floats alike). *)
From Coq Require Import ZArith Bool List Arith Lia.
From G3 Require Import Model.Num Model.Base Model.Vec Model.Segment Model.Loop Model.Polygon Model.Json Model.PolyAux
  Proofs.C04_loop Proofs.C12_merge.
Import ListNotations.

Section AnyNum.
  Context {K : Type} {NK : Num K}.
  Notation V := (V3 K).

  (** ** never Panic *)
  (** one round of the reading loop: done, a triple of numbers, or error 60 *)
  Lemma de_points_cases (f : nat) (a : list (Value K)) (L : Loop K) :
    (a = [] /\ de_points a (S f) L = Ok L) \/
    (exists x y z tl, a = JNumber x :: JNumber y :: JNumber z :: tl /\
       de_points a (S f) L = (do L' <- loop_push L (mkV3 x y z); de_points tl f L')) \/
    de_points a (S f) L = Err 60%N.
  Proof.
    destruct a as [|[| |x| | |] a]; [left; split; reflexivity | try (right; right; reflexivity) ..].
    destruct a as [|[| |y| | |] a]; try (right; right; reflexivity).
    destruct a as [|[| |z| | |] a]; try (right; right; reflexivity).
    right. left. exists x, y, z, a. split; reflexivity.
  Qed.
  Lemma np_de_points : forall fuel (a : list (Value K)) (L : Loop K), no_panic (de_points a fuel L).
  Proof.
    induction fuel as [|f IH]; intros a L; [destruct a; apply np_ok|].
    destruct (de_points_cases f a L) as [[_ E]|[(x & y & z & tl & _ & E)|E]]; rewrite E; [apply np_ok | | apply np_err].
    apply np_bind; [apply push_no_panic | intros L'; apply IH].
  Qed.
  Theorem de_loop_no_panic (v : Value K) : forall s, de_loop v <> Panic s.
  Proof.
    unfold de_loop. apply np_bind.
    - destruct v; try apply np_ok. apply np_de_points.
    - intros L. pose proof (close_no_panic L) as H. destruct (loop_close L) as [L' r]. cbn [snd] in H.
      apply np_bind; [exact H | intros u; apply np_ok].
  Qed.
  (** what the deserialiser returns is a closed loop, so the `expect` of From<Loop3D> cannot fire *)
  Lemma de_loop_closed (v : Value K) (L : Loop K) : de_loop v = Ok L -> lclosed L = true /\ 3 <= llen L.
  Proof.
    unfold de_loop. destruct (match v with JArray a => _ | _ => _ end) as [L0| |]; cbn [rbind]; try discriminate.
    pose proof (close_ok_invariants L0) as H. destruct (loop_close L0) as [L' r]. cbn [fst snd] in H.
    destruct r as [u| |]; cbn [rbind]; try discriminate. destruct u. intros E; inversion E; subst. apply H. reflexivity.
  Qed.
  Theorem de_poly_no_panic (v : Value K) : forall s, de_poly v <> Panic s.
  Proof.
    intros s. unfold de_poly. pose proof (de_loop_no_panic v) as Hn. pose proof (de_loop_closed v) as Hc.
    destruct (de_loop v) as [L| |s']; cbn [rbind]; [|discriminate | intros _; exact (Hn s' eq_refl)].
    destruct (Hc L eq_refl) as [Hcl _]. unfold poly_from, loop_area. rewrite Hcl. cbn. discriminate.
  Qed.

  (** ** close never adds vertices; if it keeps their number it keeps them all *)
  Definition shr (l' l : list V) : Prop := length l' <= length l /\ (length l' = length l -> l' = l).
  Lemma shr_refl l : shr l l. Proof. split; [lia | reflexivity]. Qed.
  Lemma shr_trans a b c : shr a b -> shr b c -> shr a c.
  Proof. intros [H1 H2] [H3 H4]. split; [lia|]. intros E. rewrite H2 by lia. apply H4. lia. Qed.
  Lemma shr_removelast (l : list V) : shr (removelast l) l.
  Proof.
    destruct l as [|x l]; [apply shr_refl|]. assert (N : x :: l <> []) by discriminate. set (l0 := x :: l) in *.
    assert (H : length l0 = S (length (removelast l0))) by (rewrite (app_removelast_last vzero N) at 1; rewrite app_length; cbn; lia).
    split; [lia | intros E; lia].
  Qed.
  Lemma shr_tl (l : list V) : shr (tl l) l.
  Proof. destruct l; [apply shr_refl|]. unfold shr. cbn [tl length]. split; [lia | intros E; lia]. Qed.
  Lemma close_verts (L : Loop K) : shr (verts (fst (loop_close L))) (verts L).
  Proof.
    apply (close_ends (fun l => shr l (verts L))); [| |apply shr_refl].
    - intros vs H. exact (shr_trans _ _ _ (shr_removelast vs) H).
    - intros vs H. exact (shr_trans _ _ _ (shr_tl vs) H).
  Qed.

  (** ** malformed documents are errors *)
  Definition is_array (v : Value K) : bool := match v with JArray _ => true | _ => false end.
  Definition is_number (v : Value K) : bool := match v with JNumber _ => true | _ => false end.
  Theorem non_array_is_error (v : Value K) : is_array v = false -> de_loop v = Err 33%N.
  Proof. destruct v; cbn [is_array]; try discriminate; intros _; reflexivity. Qed.

  (** a successful reading loop consumed only numbers, three at a time, and pushed one point per triple *)
  Lemma de_points_ok : forall fuel (a : list (Value K)) (L L' : Loop K), length a < fuel -> de_points a fuel L = Ok L' ->
    forallb is_number a = true /\ Nat.modulo (length a) 3 = 0 /\ 3 * llen L' <= 3 * llen L + length a.
  Proof.
    induction fuel as [|f IH]; intros a L L' Hf; [lia|].
    destruct (de_points_cases f a L) as [[-> E0]|[(x & y & z & tl & -> & E0)|E0]]; rewrite E0; try discriminate.
    - intros E; inversion E; subst. cbn. repeat split; lia.
    - destruct (loop_push L (mkV3 x y z)) as [L1| |] eqn:Ep; cbn [rbind]; try discriminate. intros E.
      cbn [length] in Hf. destruct (IH tl L1 L' ltac:(lia) E) as (H1 & H2 & H3).
      destruct (push_len _ _ _ Ep) as (P1 & _). cbn [forallb is_number andb length]. split; [exact H1|]. split; [|lia].
      replace (S (S (S (length tl)))) with (length tl + 1 * 3) by lia. rewrite Nat.mod_add by lia. exact H2.
  Qed.
  Lemma de_loop_array_ok (a : list (Value K)) (L : Loop K) : de_loop (JArray a) = Ok L ->
    forallb is_number a = true /\ Nat.modulo (length a) 3 = 0 /\ 9 <= length a.
  Proof.
    intros E. destruct (de_loop_closed _ _ E) as [_ H3]. revert E. unfold de_loop.
    destruct (de_points a (S (length a)) loop_new) as [L0| |] eqn:Ed; cbn [rbind]; try discriminate.
    destruct (de_points_ok _ _ _ _ (Nat.lt_succ_diag_r _) Ed) as (H1 & H2 & Hl). cbn [llen verts loop_new length] in Hl.
    destruct (loop_close L0) as [L' r] eqn:Ec. destruct r as [u| |]; cbn [rbind]; try discriminate. intros E; inversion E; subst L'.
    split; [exact H1|]. split; [exact H2|].
    pose proof (close_verts L0) as [Hs _]. rewrite Ec in Hs. cbn [fst] in Hs. unfold llen in *. lia.
  Qed.
  (** an array containing a non-number, or whose length is not a multiple of 3, or with fewer than 9
      elements is an error (whatever else it contains) *)
  Theorem bad_array_is_error (a : list (Value K)) :
    forallb is_number a = false \/ Nat.modulo (length a) 3 <> 0 \/ length a < 9 -> exists c, de_loop (JArray a) = Err c.
  Proof.
    intros H. pose proof (de_loop_no_panic (JArray a)) as Hn. pose proof (de_loop_array_ok a) as Ho.
    destruct (de_loop (JArray a)) as [L|c|s]; [|exists c; reflexivity | exfalso; exact (Hn s eq_refl)].
    destruct (Ho L eq_refl) as (H1 & H2 & H3). exfalso. destruct H as [H|[H|H]]; [congruence | contradiction | lia].
  Qed.
  (** ** the round trip at the level of serde_json::Value *)
  Lemma v3_eta (v : V) : mkV3 (vx v) (vy v) (vz v) = v. Proof. destruct v; reflexivity. Qed.
  Lemma ser_length (vs : list V) : length (flat_map (fun v : V => [JNumber (vx v); JNumber (vy v); JNumber (vz v)]) vs) = 3 * length vs.
  Proof. induction vs as [|v tl IH]; [reflexivity|]. cbn [flat_map app length]. rewrite IH. lia. Qed.
  (** reading a serialised vertex list = pushing the vertices *)
  Lemma de_points_ser : forall (vs : list V) fuel (L : Loop K), length vs < fuel ->
    de_points (flat_map (fun v : V => [JNumber (vx v); JNumber (vy v); JNumber (vz v)]) vs) fuel L = push_try L vs.
  Proof.
    induction vs as [|v tl IH]; intros fuel L Hf; (destruct fuel as [|f]; [cbn in Hf; lia|]); [reflexivity|].
    cbn [flat_map app de_points push_try]. rewrite v3_eta. destruct (loop_push L v); cbn [rbind]; [apply IH; cbn in Hf; lia | reflexivity..].
  Qed.
  Lemma de_loop_ser (L : Loop K) :
    de_loop (ser_loop L) = rbind (push_try loop_new (verts L)) (fun L1 => let '(L', r) := loop_close L1 in rbind r (fun _ => Ok L')).
  Proof. unfold de_loop, ser_loop. rewrite de_points_ser by (rewrite ser_length; lia). reflexivity. Qed.

  (** a loop built by pushing [vs] and closing, in which every point became a vertex (nothing replaced,
      refused or dropped): serialising and reading it back returns exactly the same loop state *)
  Theorem round_trip_clean (vs : list V) (L1 L : Loop K) :
    push_try loop_new vs = Ok L1 -> loop_close L1 = (L, Ok tt) -> llen L = length vs -> de_loop (ser_loop L) = Ok L.
  Proof.
    intros Hp Hc Hl. destruct (push_try_len _ _ _ Hp) as [H1 H2]. cbn [llen verts loop_new length] in H1, H2.
    pose proof (close_verts L1) as [H3 H4]. rewrite Hc in H3, H4. cbn [fst] in H3, H4. unfold llen in *.
    assert (E1 : verts L1 = vs) by (rewrite H2 by lia; reflexivity).
    assert (E2 : verts L = vs) by (rewrite H4 by lia; exact E1).
    rewrite de_loop_ser, E2, Hp. cbn [rbind]. rewrite Hc. reflexivity.
  Qed.
  (** any loop that [rebuilds]: the round trip succeeds with the same vertices in the same order, closed.
      Area and normal of the result are those the crate computes when this vertex list is pushed and
      closed ([L'] below depends on [verts L] only). *)
  Theorem round_trip_rebuilds (L : Loop K) : rebuilds L = true ->
    exists L1 L', push_try loop_new (verts L) = Ok L1 /\ loop_close L1 = (L', Ok tt) /\
                  de_loop (ser_loop L) = Ok L' /\ verts L' = verts L /\ lclosed L' = true /\ 3 <= llen L'.
  Proof.
    unfold rebuilds. destruct (push_try loop_new (verts L)) as [L1| |] eqn:Hp; try discriminate.
    destruct (loop_close L1) as [L2 r] eqn:Hc. destruct r as [u| |]; try discriminate. destruct u. intros Hl. apply Nat.eqb_eq in Hl.
    exists L1, L2. split; [reflexivity|]. split; [exact Hc|].
    destruct (push_try_len _ _ _ Hp) as [H1 H2]. cbn [llen verts loop_new length] in H1, H2.
    pose proof (close_verts L1) as [H3 H4]. rewrite Hc in H3, H4. cbn [fst] in H3, H4. unfold llen in *.
    assert (E1 : verts L1 = verts L) by (rewrite H2 by lia; reflexivity).
    assert (E2 : verts L2 = verts L) by (rewrite H4 by lia; exact E1).
    split; [rewrite de_loop_ser, Hp; cbn [rbind]; rewrite Hc; reflexivity|]. split; [exact E2|].
    pose proof (close_ok_invariants L1) as Hi. rewrite Hc in Hi. cbn [fst snd] in Hi. apply Hi. reflexivity.
  Qed.
  (** two loops with the same vertices have the same round-trip image *)
  Corollary round_trip_depends_on_vertices (L M : Loop K) : verts L = verts M -> de_loop (ser_loop L) = de_loop (ser_loop M).
  Proof. intros E. rewrite !de_loop_ser, E. reflexivity. Qed.
End AnyNum.
