(** * Flat_disk: plane and disk / annulus / sector (with the generic transform wrapper), exact tier. *)
From Coq Require Import ZArith Reals Lra Bool List Psatz.
From G3 Require Import Model.Num Model.Base Model.Vec Model.BBox Model.Transform Model.Hit Model.Plane Model.Disk
  Theory.RInst Proofs.C06_transform Proofs.Flat_base Proofs.Flat_polar Proofs.Flat_triangle.
Local Open Scope R_scope.

Definition plane_den (pl : Plane R) (ray : Ray R) : R := vdot (pl_normal pl) (rdir ray).
Definition plane_t (pl : Plane R) (ray : Ray R) : R := (pl_d pl - vdot (pl_normal pl) (rorigin ray)) / plane_den pl ray.

Lemma plane_intersect_eq (pl : Plane R) (ray : Ray R) :
  plane_intersect pl ray =
    if Rltb (Rabs (plane_den pl ray)) neps then None else if Rleb (plane_t pl ray) 0 then None else Some (plane_t pl ray).
Proof.
  unfold plane_intersect, plane_intersect_tag, plane_t, plane_den. rnumg.
  repeat match goal with |- context [if ?b then _ else _] => destruct b end; reflexivity.
Qed.
Lemma off_band_nonzero (x : R) : neps <= Rabs x -> x <> 0.
Proof. pose proof neps_pos. intros B ->. rewrite Rabs_R0 in B. lra. Qed.
(** the quotient the code computes is the parameter of the crossing *)
Lemma plane_t_crossing (pl : Plane R) (ray : Ray R) (t : R) : plane_den pl ray <> 0 ->
  vdot (pl_normal pl) (ray_project ray t) = pl_d pl <-> plane_t pl ray = t.
Proof.
  intros Hd. rewrite vdot_project. unfold plane_t. fold (plane_den pl ray). split; intros H.
  - rewrite <- H. field. exact Hd.
  - rewrite <- H. field. exact Hd.
Qed.

(** C02: the reported distance is > 0 (since fix fb7e7b9 the code tests [t <= 0]) and the point is on the plane *)
Lemma plane_intersect_sound (pl : Plane R) (ray : Ray R) (t : R) :
  plane_intersect pl ray = Some t ->
  0 < t /\ vdot (pl_normal pl) (ray_project ray t) = pl_d pl /\ neps <= Rabs (plane_den pl ray) /\ t = plane_t pl ray.
Proof.
  rewrite plane_intersect_eq. rcase (Rabs (plane_den pl ray)) (@neps R _) B; [discriminate|].
  rcase_le (plane_t pl ray) 0 B2; [discriminate|].
  intros [= <-]. repeat split; try assumption. apply plane_t_crossing; [apply off_band_nonzero, B | reflexivity].
Qed.
(** C03: a crossing of the ray's line with the plane at t > 0, outside the parallel band, is reported ... *)
Lemma plane_intersect_complete (pl : Plane R) (ray : Ray R) (t : R) :
  neps <= Rabs (plane_den pl ray) -> vdot (pl_normal pl) (ray_project ray t) = pl_d pl -> 0 < t ->
  plane_intersect pl ray = Some t.
Proof.
  intros B H Ht. apply plane_t_crossing in H; [|apply off_band_nonzero, B].
  rewrite plane_intersect_eq, H, Rltb_ge, Rleb_gt by lra. reflexivity.
Qed.
(** ... a crossing behind or AT the origin is not, nor anything in the parallel band *)
Lemma plane_intersect_behind (pl : Plane R) (ray : Ray R) (t : R) :
  vdot (pl_normal pl) (ray_project ray t) = pl_d pl -> t <= 0 -> plane_intersect pl ray = None.
Proof.
  intros H Ht. rewrite plane_intersect_eq. rcase (Rabs (plane_den pl ray)) (@neps R _) B; [reflexivity|].
  apply plane_t_crossing in H; [|apply off_band_nonzero, B]. rewrite H, Rleb_le by lra. reflexivity.
Qed.
Lemma plane_intersect_parallel (pl : Plane R) (ray : Ray R) :
  Rabs (plane_den pl ray) < neps -> plane_intersect pl ray = None.
Proof. intros H. rewrite plane_intersect_eq, Rltb_lt by exact H. reflexivity. Qed.

(** Plane3D::new: unit normal; the plane is the one through [point] perpendicular to [normal] *)
Lemma plane_new_spec (point normal : V) : vlen2 normal <> 0 ->
  let pl := plane_new point normal in
  vlen2 (pl_normal pl) = 1 /\ forall x : V, vdot (pl_normal pl) x = pl_d pl <-> vdot normal (vsub x point) = 0.
Proof.
  intros Hn pl. subst pl. unfold plane_new. cbn [pl_normal pl_d]. split; [apply vnormalize_len2; exact Hn|].
  intros x. rewrite !vnormalize_dot. pose proof (vlen_pos normal Hn) as Hl.
  replace (vdot normal (vsub x point)) with (vdot normal x - vdot normal point) by vring.
  unfold Rdiv. split; intros H; [|f_equal; lra].
  apply Rmult_eq_reg_r in H; [lra | apply Rinv_neq_0_compat; lra].
Qed.

(** the in-plane axis a quarter turn (counter-clockwise about the normal) after phi_zero *)
Definition disk_e2 (d : Disk R) : V := vcross (dk_normal d) (dk_phi_zero d).
(** what the constructor establishes: unit normal, unit phi_zero perpendicular to it, 0 <= inner < radius *)
Record disk_wf (d : Disk R) : Prop := mk_disk_wf {
  wf_n : vlen2 (dk_normal d) = 1; wf_pz : vlen2 (dk_phi_zero d) = 1; wf_perp : vdot (dk_phi_zero d) (dk_normal d) = 0;
  wf_in : 0 <= dk_inner d; wf_r : dk_inner d < dk_radius d }.
(** the point of the disk's plane at polar coordinates (rho, phi) *)
Definition disk_point (d : Disk R) (rho phi : R) : V :=
  vadd (dk_centre d) (vadd (vscale (dk_phi_zero d) (rho * cos phi)) (vscale (disk_e2 d) (rho * sin phi))).

Lemma disk_xy_eq (d : Disk R) (p : V) :
  disk_xy d p = (vdot (vsub p (dk_centre d)) (dk_phi_zero d), vdot (vsub p (dk_centre d)) (disk_e2 d)).
Proof. unfold disk_xy, disk_e2. f_equal. vring. Qed.
Lemma disk_phi_eq (d : Disk R) (p : V) :
  disk_phi d p = polar_phi (vdot (vsub p (dk_centre d)) (dk_phi_zero d)) (vdot (vsub p (dk_centre d)) (disk_e2 d)).
Proof. unfold disk_phi. rewrite disk_xy_eq. reflexivity. Qed.

(** (phi_zero, e2, normal) is an orthonormal frame: a vector of the plane is x phi_zero + y e2, of squared length x^2 + y^2 *)
Lemma disk_frame_perp (d : Disk R) : disk_wf d ->
  vdot (dk_normal d) (dk_phi_zero d) = 0 /\ vdot (dk_normal d) (disk_e2 d) = 0 /\
  vlen2 (disk_e2 d) = 1 /\ vdot (dk_phi_zero d) (disk_e2 d) = 0.
Proof.
  intros [Hn Hz Hp _ _]. unfold disk_e2. destruct (vcross_perp (dk_normal d) (dk_phi_zero d)) as (P1 & P2).
  rewrite vdot_comm in Hp. repeat split.
  - exact Hp.
  - rewrite vdot_comm. exact P1.
  - rewrite <- lagrange, Hn, Hz, Hp. ring.
  - rewrite vdot_comm. exact P2.
Qed.
Lemma disk_frame (d : Disk R) (r : V) : disk_wf d -> vdot (dk_normal d) r = 0 ->
  let x := vdot r (dk_phi_zero d) in let y := vdot r (disk_e2 d) in
  r = vadd (vscale (dk_phi_zero d) x) (vscale (disk_e2 d) y) /\ vlen2 r = x * x + y * y.
Proof.
  intros W Hr x y. destruct (disk_frame_perp d W) as (F1 & F2 & F3 & F4). pose proof W as [Hn Hz _ _ _].
  pose proof (frame_expand (dk_normal d) (dk_phi_zero d) r) as E. fold (disk_e2 d) in E.
  rewrite F3, Hn, Hz, F1, (vdot_comm r (dk_normal d)), Hr, vscale_1 in E.
  assert (Er : r = vadd (vscale (dk_phi_zero d) x) (vscale (disk_e2 d) y)) by (rewrite E at 1; unfold x, y; vring).
  split; [exact Er|]. destruct (comb_dots (dk_phi_zero d) (disk_e2 d) x y) as (_ & _ & L & _). cbv zeta in L.
  rewrite Er at 1. rewrite L, Hz, F3, F4. ring.
Qed.

Lemma sqrt_between (a b s : R) : 0 <= a -> a <= b -> a * a <= s <= b * b -> a <= sqrt s <= b.
Proof.
  intros Ha Hab [H1 H2]. split.
  - rewrite <- (sqrt_square a) by assumption. apply sqrt_le_1; nra.
  - rewrite <- (sqrt_square b) by lra. apply sqrt_le_1; nra.
Qed.

Lemma disk_basic_eq (d : Disk R) (ray : Ray R) :
  disk_basic_intersection d ray =
    match plane_intersect (plane_new (dk_centre d) (dk_normal d)) ray with
    | None => None
    | Some t =>
      let phit := ray_project ray t in
      let r2 := vlen2 (vsub phit (dk_centre d)) in
      if Rltb (dk_radius d * dk_radius d) r2 || Rltb r2 (dk_inner d * dk_inner d) then None else
      if Rltb (dk_phi_max d) (disk_phi d phit) then None else Some (phit, disk_phi d phit)
    end.
Proof.
  unfold disk_basic_intersection, disk_basic_intersection_tag. rnum.
  destruct (plane_intersect _ ray); [|reflexivity]. cbv zeta.
  repeat match goal with |- context [if ?b then _ else _] => destruct b end; reflexivity.
Qed.

(** membership in the annulus sector, as the code decides it *)
Definition on_disk (d : Disk R) (p : V) : Prop :=
  vdot (dk_normal d) (vsub p (dk_centre d)) = 0 /\
  dk_inner d * dk_inner d <= vlen2 (vsub p (dk_centre d)) <= dk_radius d * dk_radius d /\
  disk_phi d p <= dk_phi_max d.
(** ... and geometrically: p = centre + rho (cos phi . phi_zero + sin phi . e2), inner <= rho <= radius, 0 <= phi <= phi_max *)
Lemma on_disk_polar (d : Disk R) (p : V) : disk_wf d -> on_disk d p ->
  exists rho, dk_inner d <= rho <= dk_radius d /\ 0 <= disk_phi d p < 2 * PI /\ disk_phi d p <= dk_phi_max d /\
    p = disk_point d rho (disk_phi d p).
Proof.
  intros W (Hpl & Hr & Hphi). pose proof W as [_ _ _ Hin Hrad].
  destruct (disk_frame d _ W Hpl) as (Er & El). cbv zeta in Er, El.
  rewrite disk_phi_eq in *. destruct (polar_phi_spec (vdot (vsub p (dk_centre d)) (dk_phi_zero d)) (vdot (vsub p (dk_centre d)) (disk_e2 d))) as (Px & Py & Pb).
  cbv zeta in Px, Py. rewrite <- El in Px, Py.
  exists (sqrt (vlen2 (vsub p (dk_centre d)))). split; [apply sqrt_between; lra|]. split; [exact Pb|]. split; [exact Hphi|].
  unfold disk_point. rewrite <- Px, <- Py, <- Er. symmetry. apply vadd_vsub.
Qed.

(** the plane of a well-formed disk, as [Plane3D::new] stores it *)
Lemma disk_plane (d : Disk R) : disk_wf d ->
  let pl := plane_new (dk_centre d) (dk_normal d) in
  (forall ray, plane_den pl ray = vdot (dk_normal d) (rdir ray)) /\
  (forall x, vdot (pl_normal pl) x = pl_d pl <-> vdot (dk_normal d) (vsub x (dk_centre d)) = 0).
Proof.
  intros [Hn _ _ _ _]. split.
  - intros ray. unfold plane_den, plane_new. cbn [pl_normal]. rewrite vnormalize_of_unit by exact Hn. reflexivity.
  - apply plane_new_spec. rewrite Hn. lra.
Qed.

(** C02: a reported hit is on the ray at t > 0, in the disk's plane, inside the annulus and the angular range *)
Lemma disk_basic_sound (d : Disk R) (ray : Ray R) (p : V) (phi : R) : disk_wf d ->
  disk_basic_intersection d ray = Some (p, phi) ->
  (exists t, 0 < t /\ p = ray_project ray t) /\ neps <= Rabs (vdot (dk_normal d) (rdir ray)) /\
  on_disk d p /\ phi = disk_phi d p.
Proof.
  intros W. destruct (disk_plane d W) as (Hden & Hpl). rewrite disk_basic_eq.
  destruct (plane_intersect _ ray) as [t|] eqn:E; [|discriminate].
  apply plane_intersect_sound in E. destruct E as (Ht & Hon & Hd & _). rewrite Hden in Hd. apply Hpl in Hon. cbv zeta.
  destruct (_ || _) eqn:B; [discriminate|]. apply orb_false_iff in B. rewrite !Rltb_false in B.
  destruct (Rltb (dk_phi_max d) _) eqn:B3; [discriminate | apply Rltb_false in B3].
  intros [= <- <-]. split; [exists t; auto|]. repeat split; tauto.
Qed.

(** C03: the crossing of the ray's line with the disk's plane at t > 0, outside the parallel band, inside the
    annulus sector, is reported; anything else is not *)
Lemma disk_basic_complete (d : Disk R) (ray : Ray R) (t : R) : disk_wf d ->
  neps <= Rabs (vdot (dk_normal d) (rdir ray)) -> 0 < t -> on_disk d (ray_project ray t) ->
  disk_basic_intersection d ray = Some (ray_project ray t, disk_phi d (ray_project ray t)).
Proof.
  intros W Hd Ht (Hon & (Hr1 & Hr2) & Hphi). destruct (disk_plane d W) as (Hden & Hpl). rewrite disk_basic_eq.
  rewrite (plane_intersect_complete _ ray t) by (rewrite ?Hden; auto; apply Hpl, Hon).
  cbv zeta. rewrite !Rltb_ge by lra. reflexivity.
Qed.
Lemma disk_basic_miss (d : Disk R) (ray : Ray R) (t : R) : disk_wf d ->
  vdot (dk_normal d) (vsub (ray_project ray t) (dk_centre d)) = 0 ->
  (t <= 0 \/ dk_radius d * dk_radius d < vlen2 (vsub (ray_project ray t) (dk_centre d)) \/
   vlen2 (vsub (ray_project ray t) (dk_centre d)) < dk_inner d * dk_inner d \/ dk_phi_max d < disk_phi d (ray_project ray t)) ->
  disk_basic_intersection d ray = None.
Proof.
  intros W Hon Hout. destruct (disk_plane d W) as (_ & Hpl). apply Hpl in Hon. rewrite disk_basic_eq.
  destruct (plane_intersect _ ray) as [t'|] eqn:E; [|reflexivity].
  (* the plane reports a crossing: it is the one at t, so t > 0 and one of the other tests fails *)
  pose proof (plane_intersect_sound _ _ _ E) as (_ & _ & Hden & _).
  destruct (Rle_dec t 0) as [Ht|Ht]; [rewrite (plane_intersect_behind _ ray t) in E by assumption; discriminate|].
  rewrite (plane_intersect_complete _ ray t) in E by (auto; lra). injection E as <-. cbv zeta.
  destruct Hout as [H|[H|[H|H]]]; [lra| | |]; apply Rltb_lt in H; rewrite H, ?orb_true_r; try reflexivity.
  destruct (_ || _); reflexivity.
Qed.
Lemma disk_basic_parallel (d : Disk R) (ray : Ray R) : disk_wf d ->
  Rabs (vdot (dk_normal d) (rdir ray)) < neps -> disk_basic_intersection d ray = None.
Proof.
  intros W H. destruct (disk_plane d W) as (Hden & _). rewrite disk_basic_eq, plane_intersect_parallel; [reflexivity|].
  rewrite Hden. exact H.
Qed.
(** the geometric reading of the sector test: a point at polar angle phi in [0, 2 pi), rho > 0, has disk_phi = phi *)
Lemma disk_phi_of_point (d : Disk R) (rho phi : R) : disk_wf d -> 0 < rho -> 0 <= phi < 2 * PI ->
  disk_phi d (disk_point d rho phi) = phi /\ vdot (dk_normal d) (vsub (disk_point d rho phi) (dk_centre d)) = 0 /\
  vlen2 (vsub (disk_point d rho phi) (dk_centre d)) = rho * rho.
Proof.
  intros W Hr Hp. destruct (disk_frame_perp d W) as (F1 & F2 & F3 & F4). pose proof W as [_ Hz _ _ _].
  pose proof (sin2_cos2 phi) as H2. unfold Rsqr in H2.
  rewrite disk_phi_eq. unfold disk_point. rewrite vsub_vadd.
  destruct (comb_dots (dk_phi_zero d) (disk_e2 d) (rho * cos phi) (rho * sin phi)) as (D1 & D2 & L & _). cbv zeta in D1, D2, L.
  rewrite D1, D2, L, vdot_comb_r, Hz, F1, F2, F3, F4. split; [|split; [ring | nra]].
  apply (polar_phi_unique _ _ rho phi); auto; ring.
Qed.

(** ** the constructor establishes [disk_wf] *)
(** a unit vector has a component of absolute value at least 1/2 > 100 eps *)
Lemma unit_not_zero (a : V) : vlen2 a = 1 -> vis_zero a = false.
Proof.
  vcbn. intros H. unfold vis_zero. rnumg. pose proof ctiny_small as Hs. pose proof ctiny_pos as Hp.
  assert (Q : forall x, Rabs x < ctiny -> x * x < / 4) by (intros x Hx; apply Rabs_def2 in Hx; nra).
  rcase (Rabs (vx a)) (@ctiny R _) Kx; [|reflexivity]. rcase (Rabs (vy a)) (@ctiny R _) Ky; [|reflexivity].
  rcase (Rabs (vz a)) (@ctiny R _) Kz; [|reflexivity]. apply Q in Kx, Ky, Kz. lra.
Qed.
Lemma fclamp_range (x lo hi : R) : lo <= hi -> lo <= fclamp x lo hi <= hi.
Proof. intros H. unfold fclamp. rnumg. rcase x lo K1; [rcase hi lo K2 | rcase hi x K2]; lra. Qed.

(** the part of z perpendicular to the unit vector n *)
Lemma proj_perp (n z : V) : vlen2 n = 1 ->
  let w := vsub z (vscale n (vdot n z)) in
  vlen2 w = vlen2 n * vlen2 z - vdot n z * vdot n z /\ vdot w n = 0.
Proof.
  intros H. cbv zeta. rewrite vlen2_vsub_expand, vdot_vsub_l, (vdot_comm z), !vdot_vscale_l, vlen2_vscale, <- vlen2_vdot, (vdot_comm z n), H.
  split; ring.
Qed.

Lemma disk_new_detailed_wf (centre normal : V) (radius inner : R) (phi_zero : V) (phi_max : R) (tr : option T) (d : Disk R) :
  vlen2 normal <> 0 -> vis_zero phi_zero = false ->
  disk_new_detailed centre normal radius inner phi_zero phi_max tr = Ok d ->
  disk_wf d /\ dk_centre d = centre /\ dk_normal d = vnormalize normal /\ dk_radius d = radius /\ dk_inner d = inner /\
  dk_transform d = tr /\ 0 <= dk_phi_max d <= 2 * PI /\
  exists s, 0 < s /\ dk_phi_zero d = vscale (vsub phi_zero (vscale (vnormalize normal) (vdot (vnormalize normal) phi_zero))) s.
Proof.
  intros Hn Hz. unfold disk_new_detailed.
  pose proof (vnormalize_len2 normal Hn) as Hu. set (n := vnormalize normal) in *.
  destruct (vis_parallel n phi_zero) eqn:Hpar; [discriminate|].
  unfold vis_parallel in Hpar. rewrite Hz, (unit_not_zero n Hu) in Hpar. cbn [orb] in Hpar. rnum. apply Rltb_false in Hpar.
  rcase_le radius inner Br; [discriminate|].
  rcase radius 0 B2; [discriminate|].
  rcase inner 0 B3; [discriminate|].
  intros H. injection H as <-. cbn [dk_centre dk_normal dk_radius dk_inner dk_phi_zero dk_phi_max dk_transform].
  pose proof c1em5_pos as H5.
  set (w := vsub phi_zero (vscale n (vdot n phi_zero))) in *.
  destruct (proj_perp n phi_zero Hu) as (Hw & Hwn). cbv zeta in Hw, Hwn. fold w in Hw, Hwn.
  pose proof (vlen2_nonneg w) as Hw0.
  assert (Hwpos : vlen2 w <> 0).
  { intros E. replace (vdot n phi_zero * vdot n phi_zero - vlen2 n * vlen2 phi_zero) with (- vlen2 w) in Hpar by lra.
    rewrite E, Ropp_0, Rabs_R0 in Hpar. lra. }
  unfold disk_project_phi_zero. fold w.
  split; [|repeat split; try reflexivity].
  - constructor; cbn [dk_centre dk_normal dk_radius dk_inner dk_phi_zero dk_phi_max dk_transform]; try assumption; try lra.
    + apply vnormalize_len2; assumption.
    + rewrite vnormalize_dot, Hwn. unfold Rdiv. ring.
  - unfold to_radians. rnum. pose proof (fclamp_range phi_max 0 360 ltac:(lra)) as [F1 F2]. pose proof PI_RGT_0.
    apply Rmult_le_pos; [assumption|]. apply Rlt_le, Rdiv_lt_0_compat; lra.
  - unfold to_radians. rnum. pose proof (fclamp_range phi_max 0 360 ltac:(lra)) as [F1 F2]. pose proof PI_RGT_0.
    replace (2 * PI) with (360 * (PI / 180)) by field. apply Rmult_le_compat_r; [|assumption]. apply Rlt_le, Rdiv_lt_0_compat; lra.
  - exists (1 / vlen w). split; [|reflexivity]. apply Rdiv_lt_0_compat; [lra | apply vlen_pos; assumption].
Qed.

(** ** hit data of a disk (C13) *)
Lemma disk_info_spec (d : Disk R) (ray : Ray R) (phit : V) (phi : R) (i : Info R) : disk_wf d ->
  disk_intersection_info d ray phit phi = Some i ->
  ip i = phit /\ inormal i = fst (get_side (dk_normal d) (rdir ray)) /\ iside i = snd (get_side (dk_normal d) (rdir ray)) /\
  vdot (dk_normal d) (idpdu i) = 0 /\ vdot (dk_normal d) (idpdv i) = 0.
Proof.
  intros W. destruct (disk_frame_perp d W) as (F1 & _). unfold disk_intersection_info.
  destruct (get_side (dk_normal d) (rdir ray)) as [nn ss]. intros [= <-].
  cbn [ip inormal iside idpdu idpdv fst snd].
  assert (Z : vdot (dk_normal d) (vcross (dk_phi_zero d) (dk_normal d)) = 0) by (rewrite vdot_comm; apply vcross_perp).
  repeat split; rewrite vdot_comb_r, F1, Z; ring.
Qed.

Lemma disk_local_spec (d : Disk R) (ray : Ray R) (i : Info R) : disk_wf d ->
  disk_intersect_local_ray d ray = Some i ->
  (exists t, 0 < t /\ ip i = ray_project ray t) /\ on_disk d (ip i) /\
  vdot (dk_normal d) (rdir ray) <> 0 /\
  vdot (inormal i) (rdir ray) < 0 /\ vlen2 (inormal i) = 1 /\
  vdot (inormal i) (idpdu i) = 0 /\ vdot (inormal i) (idpdv i) = 0 /\
  vdot (dk_normal d) (idpdu i) = 0 /\ vdot (dk_normal d) (idpdv i) = 0 /\
  (vdot (dk_normal d) (rdir ray) < 0 -> iside i = Front /\ inormal i = dk_normal d) /\
  (0 < vdot (dk_normal d) (rdir ray) -> iside i = Back /\ inormal i = vneg (dk_normal d)).
Proof.
  intros W. pose proof W as [Hn _ _ _ _]. unfold disk_intersect_local_ray.
  destruct (disk_basic_intersection d ray) as [[p phi]|] eqn:E; [|discriminate].
  apply disk_basic_sound in E; [|assumption]. destruct E as (Ht & Hden & Hon & _). apply off_band_nonzero in Hden.
  intros H. apply disk_info_spec in H; [|assumption]. destruct H as (-> & Hnn & Hs & T1 & T2). rewrite Hnn, Hs.
  split; [assumption|]. split; [assumption|]. repeat split; try assumption.
  - apply get_side_faces, Hden.
  - rewrite get_side_len2; assumption.
  - apply get_side_perp, T1.
  - apply get_side_perp, T2.
  - rewrite get_side_front by assumption. reflexivity.
  - rewrite get_side_front by assumption. reflexivity.
  - rewrite get_side_back by assumption. reflexivity.
  - rewrite get_side_back by assumption. reflexivity.
Qed.

Lemma disk_two_sided (d : Disk R) (r1 r2 : Ray R) (i1 i2 : Info R) : disk_wf d ->
  disk_intersect_local_ray d r1 = Some i1 -> disk_intersect_local_ray d r2 = Some i2 ->
  vdot (dk_normal d) (rdir r1) < 0 -> 0 < vdot (dk_normal d) (rdir r2) ->
  iside i1 = Front /\ iside i2 = Back /\ inormal i2 = vneg (inormal i1).
Proof.
  intros W H1 H2 L G. apply disk_local_spec in H1, H2; try assumption.
  destruct H1 as (_&_&_&_&_&_&_&_&_&F1&_), H2 as (_&_&_&_&_&_&_&_&_&_&B2).
  destruct (F1 L) as (S1 & N1), (B2 G) as (S2 & N2). rewrite N1, N2. auto.
Qed.

(** ** the generic wrapper: world ray -> object space by the stored inverse, hit -> world by the matrix *)
Definition disk_tr_ok (d : Disk R) : Prop := forall t, dk_transform d = Some t -> Inv t.
Definition disk_to_world (d : Disk R) (p : V) : V := match dk_transform d with Some t => tr_pt t p | None => p end.
Definition disk_rigid (d : Disk R) : Prop := forall t, dk_transform d = Some t -> rigid t.

(** C02 for [simple_intersect]: the reported world point is the image of a point of the local disk, and lies on the
    world ray at a positive parameter *)
Lemma disk_simple_intersect_sound (d : Disk R) (ray : Ray R) (pw : V) : disk_wf d -> disk_tr_ok d ->
  disk_simple_intersect d ray = Some pw ->
  exists pl, pw = disk_to_world d pl /\ on_disk d pl /\ exists s, 0 < s /\ pw = ray_project ray s.
Proof.
  intros W Ok. unfold disk_simple_intersect, disk_to_world, disk_simple_intersect_local_ray, disk_tr_ok in *.
  (* with or without a transform the points of the local ray map onto the world ray, dt further on *)
  set (r' := match dk_transform d with Some t => _ | None => _ end).
  assert (Pr : exists dt, 0 <= dt /\ forall s,
            match dk_transform d with Some t => tr_pt t (ray_project r' s) | None => ray_project r' s end = ray_project ray (dt + s)).
  { subst r'. destruct (dk_transform d) as [t|];
      [destruct (inv_ray_world t ray (Ok t eq_refl)) as (dt & P & _ & Pr) | destruct (id_ray_world ray) as (dt & P & _ & Pr)]; eauto. }
  destruct Pr as (dt & P & Pr). destruct (disk_basic_intersection d r') as [[p phi]|] eqn:E; [|discriminate].
  apply disk_basic_sound in E; [|assumption]. destruct E as ((s & Hs & ->) & _ & Hon & _).
  intros H. exists (ray_project r' s). split; [destruct (dk_transform d); congruence|]. split; [assumption|].
  exists (dt + s). split; [lra|]. rewrite <- Pr. destruct (dk_transform d); congruence.
Qed.

(** C02 + C13 for [intersect] with a transform *)
Lemma disk_intersect_tr_spec (d : Disk R) (t : T) (ray : Ray R) (i : Info R) : disk_wf d -> dk_transform d = Some t -> Inv t ->
  disk_intersect d ray = Some i ->
  exists il, disk_intersect_local_ray d (fst (fst (tr_inv_ray t ray))) = Some il /\ i = info_transform il t /\
    on_disk d (ip il) /\ ip i = tr_pt t (ip il) /\ (exists s, 0 < s /\ ip i = ray_project ray s) /\
    vdot (inormal i) (rdir ray) < 0 /\ vdot (inormal i) (idpdu i) = 0 /\ vdot (inormal i) (idpdv i) = 0 /\
    iside i = iside il /\ (rigid t -> vlen2 (inormal i) = 1) /\
    (vdot (tr_normal t (dk_normal d)) (rdir ray) < 0 -> iside i = Front /\ inormal i = tr_normal t (dk_normal d)) /\
    (0 < vdot (tr_normal t (dk_normal d)) (rdir ray) -> iside i = Back /\ inormal i = vneg (tr_normal t (dk_normal d))).
Proof.
  intros W Et Hi. unfold disk_intersect. rewrite Et.
  destruct (inv_ray_world t ray Hi) as (dt & P & D & Pr). set (r' := fst (fst (tr_inv_ray t ray))) in *.
  destruct (disk_intersect_local_ray d r') as [il|] eqn:E; [|discriminate].
  intros H. injection H as <-. exists il. split; [reflexivity|]. split; [reflexivity|].
  pose proof (disk_local_spec d r' il W E) as ((s & Hs & Hp) & Hon & Hd & Hf & Hu & T1 & T2 & _ & _ & Fr & Bk).
  destruct (info_transform_spec t il (rdir ray) Hi) as (I1 & I2 & I3 & I4 & I5 & I6). cbv zeta in *.
  rewrite <- D in I5.
  split; [assumption|]. split; [assumption|]. split; [exists (dt + s); split; [lra|]; rewrite I1, Hp; apply Pr|].
  split; [rewrite I5; assumption|]. split; [rewrite I3; assumption|]. split; [rewrite I4; assumption|].
  split; [assumption|]. split; [intros Hr; rewrite (I6 Hr); assumption|].
  rewrite normal_dot_world, <- D. split; intros Sg.
  - destruct (Fr Sg) as (S1 & N1). split; [rewrite I2; assumption|]. unfold info_transform. cbn [inormal]. rewrite N1. reflexivity.
  - destruct (Bk Sg) as (S1 & N1). split; [rewrite I2; assumption|]. unfold info_transform. cbn [inormal]. rewrite N1. apply tr_normal_neg.
Qed.
Lemma disk_intersect_notr (d : Disk R) (ray : Ray R) : dk_transform d = None -> disk_intersect d ray = disk_intersect_local_ray d ray.
Proof. intros E. unfold disk_intersect. rewrite E. destruct (disk_intersect_local_ray d ray); reflexivity. Qed.

(** C03 for the wrapper: a crossing of the local ray with the local disk is reported, at the image point,
    which is the point of the world ray at parameter dt + s *)
Lemma disk_simple_intersect_complete (d : Disk R) (t : T) (ray : Ray R) (s : R) : disk_wf d -> dk_transform d = Some t -> Inv t ->
  let r' := fst (fst (tr_inv_ray t ray)) in
  neps <= Rabs (vdot (dk_normal d) (rdir r')) -> 0 < s -> on_disk d (ray_project r' s) ->
  disk_simple_intersect d ray = Some (tr_pt t (ray_project r' s)) /\
  exists dt, 0 <= dt /\ tr_pt t (ray_project r' s) = ray_project ray (dt + s).
Proof.
  intros W Et Hi r' Hden Hs Hon. unfold disk_simple_intersect, disk_simple_intersect_local_ray. rewrite Et. fold r'.
  rewrite (disk_basic_complete d r' s W Hden Hs Hon). split; [reflexivity|].
  destruct (inv_ray_world t ray Hi) as (dt & P & _ & Pr). exists dt. split; [assumption|]. apply Pr.
Qed.
Lemma disk_simple_intersect_none (d : Disk R) (ray : Ray R) : 
  let r' := match dk_transform d with Some t => fst (fst (tr_inv_ray t ray)) | None => fst (fst (tr_inv_ray tr_new ray)) end in
  disk_basic_intersection d r' = None -> disk_simple_intersect d ray = None.
Proof. intros r' H. unfold disk_simple_intersect, disk_simple_intersect_local_ray. fold r'. rewrite H. reflexivity. Qed.
