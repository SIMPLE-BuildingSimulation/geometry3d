(** * C10 proofs: area, perimeter, normal and centroid of a closed loop (real-number instance). *)
From Coq Require Import ZArith Reals Lra Lia Bool List Arith Psatz.
From G3 Require Import Model.Num Model.Base Model.Vec Model.Segment Model.Loop Model.Polygon Theory.RInst Theory.LoopGeom Proofs.C04_loop.
Import ListNotations.
Local Open Scope R_scope.

Theorem set_area_spec (L : Loop R) :
  lclosed L = true -> vis_zero (lnormal L) = false -> (3 <= llen L)%nat ->
  exists L', loop_set_area L = Ok L' /\ verts L' = verts L /\ lclosed L' = true /\ lperim L' = lperim L
    /\ larea L' = Rabs (vdot (lnormal L) (newell (verts L))) / 2
    /\ (lnormal L' = lnormal L \/ lnormal L' = vneg (lnormal L))
    /\ 0 <= vdot (lnormal L') (newell (verts L)).
Proof.
  intros Hc Hz Hn. unfold loop_set_area. rewrite Hc, Hz. cbn [negb].
  assert (E : Nat.ltb (llen L) 3 = false) by (apply Nat.ltb_ge; exact Hn). rewrite E.
  rewrite sum_cross_newell. set (S := newell (verts L)). set (n := lnormal L).
  eexists. split; [reflexivity|]. cbn [verts lclosed lperim larea lnormal].
  repeat split.
  - rnum. unfold Rdiv. rewrite Rabs_mult. rewrite (Rabs_pos_eq (/ 2)) by lra. reflexivity.
  - rnum. destruct (Rltb (vdot n S / 2) 0); [right; apply vscale_m1 | left; reflexivity].
  - rnum. destruct (Rltb (vdot n S / 2) 0) eqn:Ea.
    + apply Rltb_true in Ea. rewrite vscale_m1, vdot_neg_l. lra.
    + apply Rltb_false in Ea. lra.
Qed.

(** for an exactly planar loop and a unit normal of that plane, the reported area is |S|/2:
    its square is |S|^2/4 (S = the Newell vector, whose length is twice the polygon's area) *)
Theorem set_area_true_area (L L' : Loop R) (v0 : V) :
  loop_set_area L = Ok L' -> hd vzero (verts L) = v0 ->
  vdot (lnormal L) (lnormal L) = 1 -> (forall v, In v (verts L) -> vdot (lnormal L) (vsub v v0) = 0) ->
  (larea L' * larea L' = vdot (newell (verts L)) (newell (verts L)) / 4)%R /\ 0 <= larea L'.
Proof.
  intros E Hh Hu Hp. destruct (set_area_ok _ _ E) as (_ & _ & _ & ->). cbn [larea].
  rewrite sum_cross_newell. set (S := newell (verts L)).
  pose proof (parallel_unit_dot (lnormal L) S Hu (newell_parallel_normal _ _ _ Hh Hp)) as P.
  rnum. change (vx (lnormal L) * vx S + vy (lnormal L) * vy S + vz (lnormal L) * vz S)%R with (vdot (lnormal L) S).
  set (x := vdot (lnormal L) S) in *. clearbody x.
  split; [|apply Rabs_pos].
  assert (Q : (Rabs x * Rabs x = x * x)%R) by (rewrite <- Rabs_mult; apply Rabs_pos_eq; nra).
  unfold Rdiv. rewrite Rabs_mult, (Rabs_pos_eq (/ 2)) by lra.
  transitivity (Rabs x * Rabs x * / 4)%R; [field | rewrite Q, P; reflexivity].
Qed.

(** area = sum of signed ear areas: removing the ear (v0,v1,v2) removes exactly that triangle's signed area *)
Theorem signed_area_ear (n v0 v1 v2 : V) (l : list V) :
  (vdot n (newell (v0 :: v1 :: v2 :: l)) / 2 =
   vdot n (newell (v0 :: v2 :: l)) / 2 + vdot n (vcross (vsub v1 v0) (vsub v2 v0)) / 2)%R.
Proof. rewrite newell_ear, vdot_add_r. lra. Qed.

(** ** set_normal: unit, perpendicular to the first two edges (when these are not parallel) *)
Theorem set_normal_spec (L : Loop R) (a b c : V) (rest : list V) :
  verts L = a :: b :: c :: rest -> vcross (vsub b a) (vsub c b) <> vzero ->
  exists L', loop_set_normal L = Ok L' /\ verts L' = verts L /\
    vdot (lnormal L') (lnormal L') = 1 /\ vdot (lnormal L') (vsub b a) = 0 /\ vdot (lnormal L') (vsub c b) = 0
    /\ 0 < vdot (lnormal L') (vcross (vsub b a) (vsub c b)).
Proof.
  intros Hv Hnz. unfold loop_set_normal. rewrite Hv. eexists. split; [reflexivity|]. cbn [verts set_normal_field lnormal]. split; [exact Hv|].
  set (w := vcross (vsub b a) (vsub c b)) in *.
  assert (Hw : vdot w (vsub b a) = 0 /\ vdot w (vsub c b) = 0).
  { unfold w. destruct a as [a1 a2 a3], b as [b1 b2 b3], c as [c1 c2 c3]. vunf. rnum. split; ring. }
  assert (Hl : 0 < vlen2 w).
  { destruct w as [w1 w2 w3]. vunf. rnum.
    destruct (Req_dec w1 0) as [E1|E1]; [|nra]. destruct (Req_dec w2 0) as [E2|E2]; [|nra]. destruct (Req_dec w3 0) as [E3|E3]; [|nra].
    exfalso. apply Hnz. subst. reflexivity. }
  assert (Hs : 0 < sqrt (vlen2 w)) by (apply sqrt_lt_R0; exact Hl).
  assert (Hq : (sqrt (vlen2 w) * sqrt (vlen2 w) = vlen2 w)%R) by (apply sqrt_sqrt; lra).
  unfold vnormalize, vlen. rnum. set (s := sqrt (vlen2 w)) in *.
  destruct Hw as [Hw1 Hw2]. destruct w as [w1 w2 w3]. unfold vdot, vlen2 in *. cbn [vx vy vz] in *. rnum.
  assert (Hi : (s * / s = 1)%R) by (apply Rinv_r; lra).
  repeat split.
  - unfold Rdiv. replace (w1 * (1 * / s) * (w1 * (1 * / s)) + w2 * (1 * / s) * (w2 * (1 * / s)) + w3 * (1 * / s) * (w3 * (1 * / s)))%R
      with ((w1 * w1 + w2 * w2 + w3 * w3) * (/ s * / s))%R by ring.
    rewrite <- Hq. replace (s * s * (/ s * / s))%R with ((s * / s) * (s * / s))%R by ring. rewrite Hi. ring.
  - unfold Rdiv. replace (w1 * (1 * / s) * vx (vsub b a) + w2 * (1 * / s) * vy (vsub b a) + w3 * (1 * / s) * vz (vsub b a))%R
      with ((w1 * vx (vsub b a) + w2 * vy (vsub b a) + w3 * vz (vsub b a)) * / s)%R by ring. rewrite Hw1. ring.
  - unfold Rdiv. replace (w1 * (1 * / s) * vx (vsub c b) + w2 * (1 * / s) * vy (vsub c b) + w3 * (1 * / s) * vz (vsub c b))%R
      with ((w1 * vx (vsub c b) + w2 * vy (vsub c b) + w3 * vz (vsub c b)) * / s)%R by ring. rewrite Hw2. ring.
  - unfold Rdiv. replace (w1 * (1 * / s) * w1 + w2 * (1 * / s) * w2 + w3 * (1 * / s) * w3)%R with ((w1 * w1 + w2 * w2 + w3 * w3) * / s)%R by ring.
    apply Rmult_lt_0_compat; [exact Hl | apply Rinv_0_lt_compat; exact Hs].
Qed.

Theorem set_perimeter_spec (L L' : Loop R) :
  loop_set_perimeter L = Ok L' ->
  lperim L' = perimeter_of (verts L) /\ verts L' = verts L /\ lnormal L' = lnormal L /\ larea L' = larea L /\ lclosed L' = lclosed L.
Proof.
  intros E. destruct (set_perimeter_ok _ _ E) as (Hc & _ & _ & ->). cbn [lperim verts lnormal larea lclosed].
  rnum. rewrite sum_len_perimeter, Hc. repeat split.
Qed.

(** ** centroid = mean of the stored vertices *)
Lemma vadd_fold (l : list V) (acc : V) : fold_left (fun acc v => vadd acc v) l acc = vadd acc (vsum l).
Proof.
  revert acc. induction l as [|a l IH]; intros acc; cbn [fold_left vsum fold_right]; [symmetry; apply vadd_zero_r|].
  rewrite IH. fold (vsum l). apply vadd_assoc.
Qed.
Lemma centroid_fold (l : list V) (acc : V) :
  fold_left (fun acc v => mkV3 (vx acc + vx v)%num (vy acc + vy v)%num (vz acc + vz v)%num) l acc = vadd acc (vsum l).
Proof. exact (vadd_fold l acc). Qed.
Theorem centroid_spec (L : Loop R) :
  lclosed L = true -> loop_centroid L = Ok (vdivs (vsum (verts L)) (INR (llen L))).
Proof.
  intros Hc. unfold loop_centroid. rewrite Hc. cbn [negb]. rewrite centroid_fold, vadd_zero_l.
  rnum. rewrite <- INR_IZR_INZ. reflexivity.
Qed.

(** ** the polygon without holes made of a closed loop *)
Theorem poly_new_spec (L : Loop R) (P : Poly R) :
  poly_new L = Ok P -> pouter P = L /\ pinner P = [] /\ parea P = larea L /\ pnormal P = lnormal L.
Proof.
  unfold poly_new, loop_area. destruct (lclosed L); cbn [negb rbind]; [|discriminate]. intros H. injection H as H. subst P. repeat split.
Qed.
Theorem poly_outer_centroid_spec (P : Poly R) :
  poly_outer_centroid P = vdivs (vsum (verts (pouter P))) (INR (llen (pouter P))).
Proof. unfold poly_outer_centroid. rewrite vadd_fold, vadd_zero_l. rnum. rewrite <- INR_IZR_INZ. reflexivity. Qed.

(** ** a successful [close]: what the closed loop reports *)
Theorem close_measures (L : Loop R) :
  snd (loop_close L) = Ok tt ->
  let L' := fst (loop_close L) in
  lclosed L' = true /\ (3 <= llen L')%nat
  /\ larea L' = Rabs (vdot (lnormal L) (newell (verts L'))) / 2
  /\ (lnormal L' = lnormal L \/ lnormal L' = vneg (lnormal L))
  /\ 0 <= vdot (lnormal L') (newell (verts L'))
  /\ lperim L' = perimeter_of (verts L').
Proof.
  intros H. destruct (close_ok L H) as (vs1 & vs2 & _ & _ & _ & _ & _ & _ & E). cbv zeta. rewrite E in *.
  destruct (close_finish_ok_steps _ H) as (L4 & E4 & E5).
  destruct (set_area_ok _ _ E4) as (H3 & Hz & Hn & _).
  destruct (set_area_spec _ H3 Hz Hn) as (L4' & E4' & A1 & A2 & A3 & A4 & A5 & A6). rewrite E4 in E4'. injection E4' as <-.
  destruct (set_perimeter_spec _ _ E5) as (P1 & P2 & P3 & P4 & P5).
  rewrite P5, P2, P3, P4, P1, A1. repeat split; try assumption. unfold llen. rewrite P2, A1. exact Hn.
Qed.

(** ** concrete outlines (rational data): convex and reflex first corner *)
Definition square_pts : list V := [mkV3 0 0 0; mkV3 1 0 0; mkV3 1 1 0; mkV3 0 1 0].
(** the L-shape (0,0),(2,0),(2,1),(1,1),(1,2),(0,2) (counter-clockwise, area 3), started at (2,1):
    its first corner (2,1),(1,1),(1,2) is the reflex one, so the normal of the first three vertices points DOWN *)
Definition ell_pts : list V := [mkV3 2 1 0; mkV3 1 1 0; mkV3 1 2 0; mkV3 0 2 0; mkV3 0 0 0; mkV3 2 0 0].

Lemma vis_zero_unit_z (s : R) : (s = 1 \/ s = -1) -> vis_zero (mkV3 0 0 s : V) = false.
Proof. intros [->| ->]; apply vis_zero_false; right; right; cbn [vz]; [apply Rabs_ge_l | apply Rabs_ge_r]; lra. Qed.

(* cbv evaluates the nested sums by value; unfolding [vadd] first would copy each summand three times per level *)
Lemma newell_square : newell square_pts = mkV3 0 0 2.
Proof. cbv [newell cyc square_pts app chain vadd vcross vzero vx vy vz]. rnum. f_equal; ring. Qed.
Lemma newell_ell : newell ell_pts = mkV3 0 0 6.
Proof. cbv [newell cyc ell_pts app chain vadd vcross vzero vx vy vz]. rnum. f_equal; ring. Qed.

Example convex_first_corner :
  let L := mkLoop square_pts (mkV3 0 0 1) true (-1) (-1) in
  exists L', loop_set_area L = Ok L' /\ lnormal L' = mkV3 0 0 1 /\ larea L' = 1.
Proof.
  intros L.
  destruct (set_area_spec L eq_refl (vis_zero_unit_z 1 (or_introl eq_refl))) as [L' [E [_ [_ [_ [A [N P]]]]]]].
  { unfold L, llen, square_pts. cbn [verts length]. lia. }
  exists L'. split; [exact E|]. subst L. cbn [verts lnormal] in *. rewrite newell_square in *.
  split.
  - destruct N as [N|N]; [exact N|]. rewrite N in P. revert P. vunf. rnum. lra.
  - rewrite A. vunf. rnum. rewrite Rabs_pos_eq; lra.
Qed.

(* the stored normal (0,0,-1) has a negative product with the Newell vector (0,0,6), so [set_area] flips it *)
Example reflex_first_corner :
  let L := mkLoop ell_pts (mkV3 0 0 (-1)) true (-1) (-1) in
  vcross (vsub (mkV3 1 1 0) (mkV3 2 1 0)) (vsub (mkV3 1 2 0) (mkV3 1 1 0)) = (mkV3 0 0 (-1) : V) /\
  exists L', loop_set_area L = Ok L' /\ lnormal L' = mkV3 0 0 1 /\ larea L' = 3.
Proof.
  intros L. split; [vring|].
  destruct (set_area_spec L eq_refl (vis_zero_unit_z (-1) (or_intror eq_refl))) as [L' [E [_ [_ [_ [A [N P]]]]]]].
  { unfold L, llen, ell_pts. cbn [verts length]. lia. }
  exists L'. split; [exact E|]. subst L. cbn [verts lnormal] in *. rewrite newell_ell in *.
  split.
  - destruct N as [N|N]; rewrite N in *; [revert P; vunf; rnum; lra | vring].
  - rewrite A. vunf. rnum. rewrite Rabs_left; lra.
Qed.
