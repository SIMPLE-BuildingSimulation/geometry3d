(** * Mesh_init: the mesh returned by [from_polygon] is well formed ([WF]) and its counter is right ([CNT]):
    the invariants under which the refinement steps are analysed hold initially.  Every number instance. *)
From Coq Require Import ZArith Bool List Arith Lia.
From G3 Require Import Model.Num Model.Base Model.Vec Model.Segment Model.Triangle Model.Loop Model.Polygon Model.Triangulation
  Proofs.Mesh_base Proofs.Mesh_wf Proofs.Mesh_conf.
Import ListNotations.

Section Init.
  Context {K : Type} {NK : Num K}.
  Notation V := (V3 K).
  Notation TP := (TriPiece K).
  Notation Mesh := (Mesh K).

  Definition Rinv (M M' : Mesh) : Prop := (WF M -> WF M') /\ (CNT M -> CNT M').
  Lemma Rinv_refl M : Rinv M M. Proof. split; tauto. Qed.
  Lemma Rinv_trans M1 M2 M3 : Rinv M1 M2 -> Rinv M2 M3 -> Rinv M1 M3. Proof. unfold Rinv; tauto. Qed.
  Lemma inv_of {A} (m : MR A) : Pres Rwf m -> Pres Rcnt m -> Pres Rinv m.
  Proof. intros H1 H2 M M' r H. split; [apply (H1 _ _ _ H) | apply (H2 _ _ _ H)]. Qed.
  Lemma inv_mark i1 e1 i2 : Pres Rinv (mark_as_neighbours (K:=K) i1 e1 i2).
  Proof. apply inv_of; [apply wf_mark | apply cnt_mark]. Qed.
  Lemma inv_neighbourhouds : Pres Rinv (mark_neighbourhouds (K:=K)).
  Proof. exact (pres_neighbourhouds Rinv Rinv_refl Rinv_trans inv_mark). Qed.

  Theorem from_polygon_invariants (P : Poly K) (M : Mesh) : from_polygon P = Ok M -> WF M /\ CNT M.
  Proof.
    intros H. destruct (from_polygon_reach (fun M => WF M /\ CNT M)) with (P := P) (M := M) as (t & [Wt Ct] & Hm).
    - intros a b c la M1 M2 n Hp [W C]. split; [exact (proj2 (wf_push _ _ _ _ _ _ _ Hp) W) | exact (cnt_push _ _ _ _ _ _ _ Hp C)].
    - intros s i e M1 M2 r Hc [W C]. split; [exact (proj2 (wf_constrain _ _ _ _ _ _ Hc) W) | exact (cnt_mupd _ _ _ (constrain_valid e) _ _ _ Hc C)].
    - split; [apply WF_new | reflexivity].
    - exact H.
    - destruct (inv_neighbourhouds _ _ _ Hm) as [A B]. split; auto.
  Qed.
End Init.
