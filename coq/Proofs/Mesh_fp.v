(** * Mesh_fp (C01 structural part, C09 a): facts about [from_polygon] that need no geometry.
    On [Ok], with [L] the closed merged outline: at most [|L| - 2] triangles (exactly one per clipped vertex;
    vertices dropped by the periodic [sanitize] produce none), every triangle's vertices are vertices of [L],
    at most 1000 triangles (the code's own iteration cap).  Every number instance. *)
From Coq Require Import ZArith Bool List Arith Lia.
From G3 Require Import Model.Num Model.Base Model.Vec Model.Segment Model.Triangle Model.Loop Model.Polygon Model.Triangulation Proofs.C04_loop Proofs.C04_reach Proofs.C12_merge Proofs.Mesh_base.
Import ListNotations.

Section FP.
  Context {K : Type} {NK : Num K}.
  Notation V := (V3 K).
  Notation TP := (TriPiece K).
  Notation Mesh := (Mesh K).

  (** ** the loop side: push / close / sanitize / remove only keep vertices they were given *)
  Lemma removelast_incl {A} (l : list A) : incl (removelast l) l.
  Proof. induction l as [|x [|y l] IH]; cbn [removelast]; [apply incl_refl | intros z [] | ]. intros z [<-|Hz]; [left; reflexivity | right; apply IH; exact Hz]. Qed.
  Lemma firstn_incl' {A} (k : nat) (l : list A) : incl (firstn k l) l.
  Proof. revert l. induction k as [|k IH]; intros [|x l]; cbn [firstn]; try (intros w []; fail). intros w [<-|Hw]; [left; reflexivity | right; apply (IH l); exact Hw]. Qed.
  Lemma push_verts (L L' : Loop K) (p : V) : loop_push L p = Ok L' -> incl (verts L') (p :: verts L) /\ llen L' <= S (llen L).
  Proof.
    intros H. split; [|exact (proj1 (push_len _ _ _ H))]. destruct (push_cases _ _ _ H) as [(keep & _ & ->)|[-> _]]; intros z Hz.
    - apply in_app_or in Hz. destruct Hz as [Hz|[<-|[]]]; [right; apply (firstn_incl' keep); exact Hz | left; reflexivity].
    - right. apply removelast_incl; exact Hz.
  Qed.
  Lemma tl_incl {A} (l : list A) : incl (tl l) l.
  Proof. destruct l; [apply incl_refl | intros z Hz; right; exact Hz]. Qed.
  Lemma close_verts (L : Loop K) : incl (verts (fst (loop_close L))) (verts L) /\ llen (fst (loop_close L)) <= llen L.
  Proof.
    apply (close_ends (fun vs => incl vs (verts L) /\ length vs <= llen L)).
    - intros vs [I N]. split; [eapply incl_tran; [apply removelast_incl | exact I] | rewrite length_removelast; lia].
    - intros vs [I N]. split; [eapply incl_tran; [apply tl_incl | exact I] | destruct vs; cbn [tl length] in *; lia].
    - split; [apply incl_refl | apply le_n].
  Qed.
  Lemma push_all_verts : forall (vs : list V) (L L' : Loop K), push_all L vs = Ok L' ->
    incl (verts L') (verts L ++ vs) /\ llen L' <= llen L + length vs.
  Proof.
    induction vs as [|v vs IH]; intros L L' H; cbn [push_all] in H.
    - inversion H; subst. rewrite app_nil_r. split; [apply incl_refl | cbn; lia].
    - destruct (loop_push L v) as [L1| |] eqn:E1; cbn [unwrap rbind] in H; try discriminate.
      apply push_verts in E1. apply IH in H. destruct E1 as [I1 N1], H as [I2 N2]. split; [|cbn [length]; lia].
      intros z Hz. apply I2 in Hz. apply in_app_or in Hz. destruct Hz as [Hz|Hz].
      + apply I1 in Hz. destruct Hz as [<-|Hz]; apply in_or_app; [right; left; reflexivity | left; exact Hz].
      + apply in_or_app. right. right. exact Hz.
  Qed.
  Lemma sanitize_verts (L L' : Loop K) : loop_sanitize L = Ok L' -> incl (verts L') (verts L) /\ llen L' <= llen L.
  Proof.
    unfold loop_sanitize. destruct (push_all loop_new (verts L)) as [nw| |] eqn:E; cbn [rbind]; try discriminate.
    apply push_all_verts in E. cbn [verts loop_new app llen length] in E. unfold llen in *. cbn [verts loop_new length] in E.
    destruct (lclosed L && Nat.leb 3 (length (verts nw))).
    - pose proof (close_verts nw) as C. destruct (loop_close nw) as [nw' r]. cbn [fst] in C. destruct r; cbn [rbind]; try discriminate.
      intros H; inversion H; subst. unfold llen in C. split; [eapply incl_tran; [apply C | apply E] | lia].
    - intros H; inversion H; subst. split; [apply E | lia].
  Qed.
  Lemma remove_nth_incl (i : nat) (l : list V) : incl (remove_nth i l) l.
  Proof. revert i; induction l as [|x l IH]; intros [|i]; cbn [remove_nth]; try apply incl_refl; [intros z Hz; right; exact Hz|]. intros z [<-|Hz]; [left; reflexivity | right; eapply IH; exact Hz]. Qed.
  Lemma remove_nth_length (i : nat) (l : list V) : i < length l -> S (length (remove_nth i l)) = length l.
  Proof. revert i; induction l as [|x l IH]; intros [|i] H; cbn [remove_nth length] in *; try lia. rewrite IH; lia. Qed.
  Lemma loop_remove_verts (L L' : Loop K) (i : nat) : loop_remove L i = Ok L' -> incl (verts L') (verts L) /\ S (llen L') = llen L.
  Proof.
    unfold loop_remove. destruct (Nat.ltb i (llen L)) eqn:E; [|discriminate]. intros H; inversion H; subst. unfold llen in *. cbn [verts set_verts].
    split; [apply remove_nth_incl | apply remove_nth_length; apply Nat.ltb_lt; exact E].
  Qed.
  Lemma loop_index_in (L : Loop K) (i : nat) (v : V) : loop_index L i = Ok v -> In v (verts L).
  Proof. unfold loop_index. destruct (nth_error (verts L) i) eqn:E; [|discriminate]. intros H; inversion H; subst. eapply nth_error_In; exact E. Qed.

  (** ** the mesh side *)
  Definition tri_verts_in (VS : list V) (t : TP) : Prop := In (ta (tp_tri t)) VS /\ In (tb (tp_tri t)) VS /\ In (tc (tp_tri t)) VS.
  (** operations that only touch the adjacency / constraint fields keep the list of triangles *)
  Definition Rtri (M M' : Mesh) : Prop := map tp_tri (tris M') = map tp_tri (tris M).
  Lemma Rtri_refl M : Rtri M M. Proof. reflexivity. Qed.
  Lemma Rtri_trans M1 M2 M3 : Rtri M1 M2 -> Rtri M2 M3 -> Rtri M1 M3.
  Proof. unfold Rtri. intros H1 H2. rewrite H2. exact H1. Qed.
  Lemma map_upd_tri (i : nat) (f : TP -> TP) (l : list TP) : (forall t, tp_tri (f t) = tp_tri t) -> map tp_tri (upd i f l) = map tp_tri l.
  Proof. intros Hf. revert i; induction l as [|t l IH]; intros [|i]; cbn [upd map]; try reflexivity; [rewrite Hf; reflexivity | rewrite IH; reflexivity]. Qed.
  Lemma rtri_mupd s i (f : TP -> TP) : (forall t, tp_tri (f t) = tp_tri t) -> Pres Rtri (mupd s i f).
  Proof. intros Hf M M' r H. unfold mupd in H. destruct (Nat.ltb _ _); inversion H; subst; [|reflexivity]. unfold Rtri; cbn [tris]. apply map_upd_tri. exact Hf. Qed.
  Lemma rtri_mark i1 e1 i2 : Pres Rtri (mark_as_neighbours (K:=K) i1 e1 i2).
  Proof. apply (pres_mark_upd Rtri Rtri_refl Rtri_trans). intros s i e j. apply rtri_mupd. intros t. apply set_neighbour_tri. Qed.
  Lemma rtri_neighbourhouds : Pres Rtri (mark_neighbourhouds (K:=K)).
  Proof. exact (pres_neighbourhouds Rtri Rtri_refl Rtri_trans rtri_mark). Qed.

  Lemma rtri_length (M M' : Mesh) : Rtri M M' -> length (tris M') = length (tris M).
  Proof. unfold Rtri. intros H. rewrite <- (map_length tp_tri (tris M')), H, map_length. reflexivity. Qed.
  Lemma rtri_verts_in (VS : list V) (M M' : Mesh) : Rtri M M' -> Forall (tri_verts_in VS) (tris M) -> Forall (tri_verts_in VS) (tris M').
  Proof.
    unfold Rtri. generalize (tris M) (tris M'). induction l as [|t l IH]; intros [|t' l'] E H; cbn [map] in E; try discriminate; [constructor|].
    inversion E as [[Et El]]. inversion H; subst. constructor; [unfold tri_verts_in; rewrite Et; assumption | apply IH; assumption].
  Qed.
  (** [push] with [last_added] = the current length appends *)
  Lemma push_at_end (a b c : V) (M M' : Mesh) (n : nat) :
    mesh_push a b c (length (tris M)) M = (M', Ok n) ->
    exists t, tris M' = tris M ++ [t] /\ ta (tp_tri t) = a /\ tb (tp_tri t) = b /\ tc (tp_tri t) = c.
  Proof.
    unfold mesh_push, get_first_invalid. rewrite Nat.ltb_irrefl.
    destruct (tp_new a b c (length (tris M))) as [t| |] eqn:E; intros H; inversion H; subst.
    exists t. split; [reflexivity|]. unfold tp_new in E. destruct (tri_new a b c) as [tt'| |] eqn:E'; cbn [rbind] in E; try discriminate.
    inversion E; subst. cbn [tp_tri]. apply tri_new_verts. exact E'.
  Qed.

  (** ** the capped loop *)
  Lemma fp_loop_inv (P : Poly K) (VS : list V) (fuel count anchor : nat) (L : Loop K) (t M : Mesh) :
    fp_loop P fuel count anchor L t = Ok M ->
    incl (verts L) VS -> Forall (tri_verts_in VS) (tris t) ->
    Forall (tri_verts_in VS) (tris M) /\ length (tris M) + 2 <= length (tris t) + llen L /\ length (tris M) <= length (tris t) + fuel.
  Proof.
    intros H HL Ht.
    (* each clipped ear trades one vertex of the loop and one unit of fuel for one triangle *)
    destruct (fp_loop_reach_loop (fun f L' t' => incl (verts L') VS /\ Forall (tri_verts_in VS) (tris t') /\
                length (tris t') + llen L' <= length (tris t) + llen L /\ length (tris t') + f <= length (tris t) + fuel))
      with (P := P) (5 := H) as (f' & L' & t' & (_ & F & B1 & B2) & E2 & Em).
    - intros f L0 L1 M0 Hs (I & F & B1 & B2). apply sanitize_verts in Hs. destruct Hs as [I1 N1].
      split; [eapply incl_tran; eassumption|]. split; [exact F|]. split; lia.
    - intros f L0 M0 (I & F & B1 & B2). split; [exact I|]. split; [exact F|]. split; lia.
    - intros f L0 L1 i0 i1 i2 v0 v1 v2 M0 M1 n E0 E1 E2 Ep Er (I & F & B1 & B2).
      unfold n_triangles in Ep. apply push_at_end in Ep. destruct Ep as (tp & -> & Ea & Eb & Ec).
      apply loop_remove_verts in Er. destruct Er as [I1 N1]. rewrite app_length. cbn [length].
      split; [eapply incl_tran; eassumption|]. split; [|split; lia].
      apply Forall_app. split; [exact F|]. constructor; [|constructor].
      unfold tri_verts_in. rewrite Ea, Eb, Ec. repeat split; apply I; eapply loop_index_in; eassumption.
    - intros f L0 s i e M0 M1 r Hc (I & F & B1 & B2). apply (rtri_mupd s i _ (constrain_tri e)) in Hc.
      rewrite (rtri_length _ _ Hc). split; [exact I|]. split; [exact (rtri_verts_in VS _ _ Hc F)|]. split; assumption.
    - split; [exact HL|]. split; [exact Ht|]. split; apply le_n.
    - apply rtri_neighbourhouds in Em. rewrite (rtri_length _ _ Em). split; [exact (rtri_verts_in VS _ _ Em F)|]. split; lia.
  Qed.

  (** C01 (structural) and C09 (a) for [from_polygon] *)
  Theorem from_polygon_structure (P : Poly K) (M : Mesh) :
    from_polygon P = Ok M ->
    exists Lm : Loop K, poly_get_closed_loop P = Ok Lm /\ snd (loop_close Lm) = Ok tt /\
      let L := fst (loop_close Lm) in
      length (tris M) + 2 <= llen L /\
      Forall (tri_verts_in (verts L)) (tris M) /\
      length (tris M) <= MAX_ITER.
  Proof.
    unfold from_polygon. destruct (poly_get_closed_loop P) as [Lm| |]; cbn [rbind]; try discriminate.
    destruct (loop_close Lm) as [L r] eqn:Ec. destruct r as [[]| |]; cbn [rbind]; try discriminate.
    destruct (Nat.ltb (llen L) 2); [discriminate|]. intros H. exists Lm. split; [reflexivity|]. rewrite Ec. cbn [fst snd]. split; [reflexivity|].
    apply (fp_loop_inv P (verts L)) in H; [|apply incl_refl | constructor]. cbn [tris mesh_new length] in H.
    destruct H as (F & B1 & B2). repeat split; [lia | exact F | lia].
  Qed.
End FP.
