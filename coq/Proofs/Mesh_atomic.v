(** * Mesh_atomic (C08, atomicity of the refinement steps -- after crate fix 361bbb9).  Every number instance.

    (a) Each of split_triangle / split_edge / flip_diagonal either returns [Ok tt], or leaves the mesh UNCHANGED, or
        fails in its already-mutated suffix with one of a short certified list of outcomes ([post_fail]):
        Err 102 / 103 (mark_as_neighbours), Panic 61 (counter underflow), 62 / 63 / 64 (mark_as_neighbours), and the
        constrain index site of the step (84 / 82 / 79).  In particular every Err of class 10 / 11 (Triangle3D::new
        refused a child), 106 / 107 / 108 comes with the mesh unchanged: after the pre-checks every [push] of the step
        succeeds (it calls Triangle3D::new on the very points the pre-check tested).
        For split_edge this needs the neighbour across the split edge to be a live slot other than the triangle's
        own (the code never checks it).
    (b) On a mesh with well-formed indices [WF], exact counter [CNT] and live links [LNK] (every neighbour index of a
        live slot names a live slot: the liveness half of the symmetry clause (i)) the residual outcomes shrink to
        Panic 64 ("don't share a segment": decided by coordinate comparison) -- and Err 102 for flip_diagonal when the
        two triangles are linked across more than one edge; and a step that returns Ok re-establishes WF, CNT, LNK
        (split_triangle: LNK up to the links that point to the split slot i, [LNKs (fun k => k = i)]).
    (c) add_point inherits (a): the Err that [refine] swallows comes with the mesh unchanged. *)
From Coq Require Import ZArith Bool List Arith Lia.
From G3 Require Import Model.Num Model.Base Model.Vec Model.Segment Model.Triangle Model.Loop Model.Polygon Model.Triangulation
  Proofs.Mesh_base Proofs.Mesh_wf Proofs.Mesh_sites Proofs.Mesh_conf Proofs.Mesh_region.
Import ListNotations.

Section Atomic.
  Context {K : Type} {NK : Num K}.
  Notation V := (V3 K).
  Notation TP := (TriPiece K).
  Notation Mesh := (Mesh K).

  Definition NE {A} (okc : N -> bool) (m : MR (K:=K) A) : Prop := forall M M' c, m M = (M', Err c) -> okc c = true.
  Definition ne_res {A} (okc : N -> bool) (x : res A) : Prop := forall c, x = Err c -> okc c = true.
  Section NERules.
    Variable okc : N -> bool.
    Lemma ne_ret {A} (a : A) : NE okc (mret a). Proof. intros M M' c H. discriminate. Qed.
    Lemma ne_lift {A} (x : res A) : ne_res okc x -> NE okc (mlift x).
    Proof. intros Hx M M' c H. inversion H; subst. apply Hx. reflexivity. Qed.
    Lemma ne_get (site : N) (i : nat) : NE okc (mget (K:=K) site i).
    Proof. intros M M' c H. unfold mget in H. destruct (nth_error (tris M) i); inversion H. Qed.
    Lemma ne_mupd (site : N) (i : nat) (f : TP -> TP) : NE okc (mupd site i f).
    Proof. intros M M' c H. unfold mupd in H. destruct (Nat.ltb _ _); inversion H. Qed.
    Lemma ne_bind {A B} (m : MR A) (f : A -> MR B) : NE okc m -> (forall a, NE okc (f a)) -> NE okc (mbind m f).
    Proof.
      intros Hm Hf M M' c H. apply mbind_inv in H. destruct H as [(a & M1 & H1 & H2) | [(c' & H1 & H3) | (s & H1 & H3)]].
      - eapply Hf; exact H2.
      - inversion H3; subst. eapply Hm; exact H1.
      - discriminate.
    Qed.
    Lemma ne_bind_lift {A B} (x : res A) (f : A -> MR (K:=K) B) : ne_res okc x -> (forall a, x = Ok a -> NE okc (f a)) -> NE okc (mbind (mlift x) f).
    Proof.
      intros Hx Hf M M' c H. unfold mbind, mlift in H. destruct x as [a|c'|s].
      - eapply Hf; [reflexivity | exact H].
      - inversion H; subst. apply Hx. reflexivity.
      - discriminate.
    Qed.
    Lemma ne_when (b : bool) (m : MR unit) : NE okc m -> NE okc (mwhen b m).
    Proof. intros H. destruct b; [exact H | apply ne_ret]. Qed.
    Lemma ne_res_ok {A} (a : A) : ne_res okc (Ok a). Proof. intros c H; discriminate. Qed.
    Lemma ne_res_panic {A} (s : N) : ne_res okc (@Panic A s). Proof. intros c H; discriminate. Qed.
    Lemma ne_res_err {A} (c : N) : okc c = true -> ne_res okc (@Err A c). Proof. intros H c' E. inversion E; subst. exact H. Qed.
    Lemma ne_tri_segment_edge (T : Tri K) (e : Edge) : ne_res okc (tri_segment T (edge_as_i e)).
    Proof. destruct e; intros c H; discriminate. Qed.
    Lemma ne_edge_from_i (i : N) : ne_res okc (edge_from_i i).
    Proof. intros c. unfold edge_from_i. destruct i as [|[[]|[]|]]; discriminate. Qed.
    Hypothesis H102 : okc 102%N = true.
    Hypothesis H103 : okc 103%N = true.
    Lemma ne_mark (i1 : nat) (e1 : Edge) (i2 : nat) : NE okc (mark_as_neighbours (K:=K) i1 e1 i2).
    Proof.
      unfold mark_as_neighbours. destruct (Nat.eqb i1 i2); [apply ne_lift, ne_res_err; assumption|].
      apply ne_bind; [apply ne_get|]. intros t1. destruct (negb (tp_valid t1)); [apply ne_lift, ne_res_err; assumption|].
      apply ne_bind_lift; [apply ne_tri_segment_edge|]. intros sg _.
      apply ne_bind; [apply ne_get|]. intros t2. destruct (negb (tp_valid t2)); [apply ne_lift, ne_res_err; assumption|].
      apply ne_bind_lift; [destruct (tri_get_edge_index_from_segment _ _); [apply ne_res_ok | apply ne_res_panic]|]. intros k _.
      apply ne_bind_lift; [apply ne_edge_from_i|]. intros ed _.
      apply ne_bind; [apply ne_mupd|]. intros _. apply ne_mupd.
    Qed.
  End NERules.
  Ltac ne_step :=
    match goal with
    | |- NE _ (mbind _ _) => apply ne_bind; [|intros ?]
    | |- NE _ (mret _) => apply ne_ret
    | |- NE _ (mwhen _ _) => apply ne_when
    | |- NE _ (mupd _ _ _) => apply ne_mupd
    | |- NE _ (mark_as_neighbours _ _ _) => apply ne_mark; reflexivity
    | |- NE _ (if ?b then _ else _) => destruct b
    | |- NE _ (match ?x with _ => _ end) => destruct x
    end.

  (** the outcomes a step can still produce once it has started to mutate; [site] = its constrain index site *)
  Definition okc_post (c : N) : bool := N.eqb c 102 || N.eqb c 103.
  Definition oks_post (site s : N) : bool := N.eqb s 61 || N.eqb s 62 || N.eqb s 63 || N.eqb s 64 || N.eqb s site.
  Definition post_fail {A} (site : N) (r : res A) : Prop :=
    match r with
    | Ok _ => False
    | Err c => c = 102%N \/ c = 103%N
    | Panic s => s = 61%N \/ s = 62%N \/ s = 63%N \/ s = 64%N \/ s = site
    end.
  Lemma post_fail_of (site : N) {A} (m : MR A) (M M' : Mesh) (r : res A) :
    NE okc_post m -> NP (oks_post site) m -> m M = (M', r) -> (exists a, r = Ok a) \/ post_fail site r.
  Proof.
    intros H1 H2 H. destruct r as [a|c|s]; [left; exists a; reflexivity | right; cbn ..].
    - specialize (H1 _ _ _ H). unfold okc_post in H1. apply orb_true_iff in H1. destruct H1 as [E|E]; apply N.eqb_eq in E; auto.
    - specialize (H2 _ _ _ H). unfold oks_post in H2.
      repeat (apply orb_true_iff in H2; destruct H2 as [H2|E]; [|apply N.eqb_eq in E; auto 6]). apply N.eqb_eq in H2. auto.
  Qed.

  (** ** (a) split_triangle *)
  Theorem split_triangle_atomic (i : nat) (p : V) (M M' : Mesh) (r : res unit) :
    split_triangle i p M = (M', r) -> r = Ok tt \/ M' = M \/ post_fail 84 r.
  Proof.
    intros H. destruct (split_triangle_open _ _ _ _ _ H) as [(-> & _) | (t & e1 & e2 & e3 & T1 & T2 & T3 & _ &
      [[-> _] | (M1 & M2 & M3 & M4 & cap & abp & bcp & _ & _ & _ & _ & H')])]; [right; left; reflexivity | right; right; cbn; auto |].
    assert (G1 : NE okc_post (st_links cap abp bcp t e1 e2 e3)) by (unfold st_links; repeat ne_step).
    assert (G2 : NP (oks_post 84) (st_links cap abp bcp t e1 e2 e3)) by (unfold st_links; repeat np_step_g).
    destruct (post_fail_of 84 _ _ _ _ G1 G2 H') as [([] & ->) | Q]; [left; reflexivity | right; right; exact Q].
  Qed.

  Corollary split_triangle_err_atomic (i : nat) (p : V) (M M' : Mesh) (c : N) :
    split_triangle i p M = (M', Err c) -> c <> 102%N -> c <> 103%N -> M' = M.
  Proof. intros H H1 H2. destruct (split_triangle_atomic _ _ _ _ _ H) as [E | [E | [E | E]]]; [discriminate | exact E | contradiction | contradiction]. Qed.

  (** ** (a) flip_diagonal *)
  Theorem flip_atomic (i : nat) (e : Edge) (M M' : Mesh) (r : res unit) :
    flip_diagonal i e M = (M', r) -> r = Ok tt \/ M' = M \/ post_fail 79 r.
  Proof.
    intros H. destruct (flip_inv _ _ _ _ _ H) as [[-> _] | (t & nb & ni & va & vb & vc & vo & e1 & e2 & e3 & e4 & T1 & T2 & [Et _ _ Enb _ _ _ _ _ _ _ _ _ ET1 ET2] & H')];
      [right; left; reflexivity|].
    clear H. rename H' into H. unfold flip_suffix in H.
    destruct (bind_invalidate_slot _ _ _ _ _ _ Et H) as [[-> _] | (M1 & _ & E1 & H')]; [right; right; cbn; auto | clear H; rename H' into H].
    assert (Enb1 : exists nb1, nth_error (tris M1) ni = Some nb1) by (rewrite E1, nth_error_upd, Enb; destruct (Nat.eqb i ni); eexists; reflexivity).
    destruct Enb1 as (nb1 & Enb1).
    destruct (bind_invalidate_slot _ _ _ _ _ _ Enb1 H) as [[-> _] | (M2 & _ & _ & H')]; [right; right; cbn; auto | clear H; rename H' into H].
    apply (bind_push_checked _ _ _ _ _ _ _ _ _ ET1) in H. destruct H as (aoc & M3 & _ & H).
    apply (bind_push_checked _ _ _ _ _ _ _ _ _ ET2) in H. destruct H as (cob & M4 & _ & H).
    assert (G1 : NE okc_post (flip_links i aoc cob t nb e1 e2 e3 e4)) by (unfold flip_links; repeat ne_step).
    assert (G2 : NP (oks_post 79) (flip_links i aoc cob t nb e1 e2 e3 e4)) by (unfold flip_links; repeat np_step_g).
    destruct (post_fail_of 79 _ _ _ _ G1 G2 H) as [([] & ->) | Q]; [left; reflexivity | right; right; exact Q].
  Qed.
  Corollary flip_err_atomic (i : nat) (e : Edge) (M M' : Mesh) (c : N) :
    flip_diagonal i e M = (M', Err c) -> c <> 102%N -> c <> 103%N -> M' = M.
  Proof. intros H H1 H2. destruct (flip_atomic _ _ _ _ _ H) as [E | [E | [E | E]]]; [discriminate | exact E | contradiction | contradiction]. Qed.

  (** ** (a) split_edge *)
  Lemma hemisphere_atomic (s : Seg K) (p : V) (idx : nat) (t : TP) (a b c : V) (TA TB : Tri K) {B} (f : nat * nat -> MR B) (M M' : Mesh) (r : res B) :
    nth_error (tris M) idx = Some t -> hemi_verts (tp_tri t) s = Ok (a, b, c) -> tri_new a p c = Ok TA -> tri_new p b c = Ok TB ->
    mbind (process_hemisphere s p idx) f M = (M', r) ->
    (exists x M1, process_hemisphere s p idx M = (M1, Ok x) /\ f x M1 = (M', r)) \/ post_fail 82 r.
  Proof.
    intros Et HV ETA ETB H0. unfold mbind in H0. destruct (process_hemisphere s p idx M) as [M0 r0] eqn:H.
    assert (G : (exists x, r0 = Ok x) \/ post_fail 82 r0).
    { destruct (hemisphere_open _ _ _ _ _ _ _ _ _ _ _ _ Et HV ETA ETB H) as [[-> _] | (ed & ea & eb & M1 & M2 & M3 & apc & pbc & _ & _ & _ & H')]; [right; cbn; auto|].
      assert (G1 : NE okc_post (hemi_links apc pbc (tp_invalidate t) ed ea eb)) by (unfold hemi_links; repeat ne_step).
      assert (G2 : NP (oks_post 82) (hemi_links apc pbc (tp_invalidate t) ed ea eb)) by (unfold hemi_links; repeat np_step_g).
      exact (post_fail_of 82 _ _ _ _ G1 G2 H'). }
    destruct G as [(x & ->) | G]; [left; exists x, M0; split; [reflexivity | exact H0] | right].
    destruct r0; [destruct G | inversion H0; exact G ..].
  Qed.

  (** the neighbour across the edge to split is a live slot other than the triangle's own (the code does not check it) *)
  Definition NeiLive (M : Mesh) (i : nat) (e : Edge) : Prop :=
    forall t nei, nth_error (tris M) i = Some t -> tp_neighbour t e = Some nei -> nei <> i /\ live M nei.
  Theorem split_edge_atomic (i : nat) (e : Edge) (p : V) (M M' : Mesh) (r : res unit) :
    NeiLive M i e -> split_edge i e p M = (M', r) -> r = Ok tt \/ M' = M \/ post_fail 82 r.
  Proof.
    intros HN H.
    destruct (split_edge_inv _ _ _ _ _ _ H) as [[-> _] | (t & sg & a & b & c & TA & TB & Et & Ev & Esg & HV & ETA & ETB & Hn & H')]; [right; left; reflexivity|].
    clear H. rename H' into H. unfold split_edge_suffix in H.
    destruct (tp_neighbour t e) as [nei|] eqn:En.
    - destruct (precheck_ok _ _ _ _ _ (Hn nei eq_refl)) as (nb & a' & b' & c' & TA' & TB' & Enb & HV' & ETA' & ETB'). clear Hn.
      destruct (HN t nei Et En) as [Hne (u & Eu & Evn)]. rewrite Enb in Eu. inversion Eu; subst u. clear Eu.
      destruct (hemisphere_atomic _ _ _ _ _ _ _ _ _ _ _ _ _ Et HV ETA ETB H) as [([tl tr] & M1 & H1 & H') | Q]; [clear H; rename H' into H | right; right; exact Q].
      destruct (keep_hemisphere sg p i M M1 _ H1 nei nb Hne Enb Evn) as (nb1 & Enb1 & _ & Etri). rewrite <- Etri in HV'.
      destruct (hemisphere_atomic _ _ _ _ _ _ _ _ _ _ _ _ _ Enb1 HV' ETA' ETB' H) as [([br bl] & M2 & _ & H') | Q]; [clear H; rename H' into H | right; right; exact Q].
      revert H. match goal with |- ?f M2 = _ -> _ => assert (G1 : NE okc_post f) by (repeat ne_step); assert (G2 : NP (oks_post 82) f) by (repeat np_step_g) end.
      intros H. destruct (post_fail_of 82 _ _ _ _ G1 G2 H) as [([] & ->) | Q]; [left; reflexivity | right; right; exact Q].
    - destruct (hemisphere_atomic _ _ _ _ _ _ _ _ _ _ _ _ _ Et HV ETA ETB H) as [([tl tr] & M1 & _ & H') | Q]; [clear H; rename H' into H | right; right; exact Q].
      inversion H; subst. left; reflexivity.
  Qed.
  Corollary split_edge_err_atomic (i : nat) (e : Edge) (p : V) (M M' : Mesh) (c : N) :
    NeiLive M i e -> split_edge i e p M = (M', Err c) -> c <> 102%N -> c <> 103%N -> M' = M.
  Proof. intros HN H H1 H2. destruct (split_edge_atomic _ _ _ _ _ _ HN H) as [E | [E | [E | E]]]; [discriminate | exact E | contradiction | contradiction]. Qed.

  (** every neighbour index of a live slot names a live slot (the liveness half of clause (i)); [LNKs S]: ... or a slot of
      [S] (the slots invalidated and not yet refilled, while a step is under way) *)
  Definition LNKs (S : nat -> Prop) (M : Mesh) : Prop :=
    forall j t, nth_error (tris M) j = Some t -> tp_valid t = true -> forall e k, tp_neighbour t e = Some k -> live M k \/ S k.
  Definition LNK (M : Mesh) : Prop :=
    forall j t, nth_error (tris M) j = Some t -> tp_valid t = true -> forall e k, tp_neighbour t e = Some k -> live M k.
  Lemma LNK_LNKs M : LNK M -> LNKs (fun _ => False) M.
  Proof. intros H j t Hj Hv e k Hk. left. eapply H; eassumption. Qed.
  Lemma LNKs_LNK (S : nat -> Prop) M : (forall k, ~ S k) -> LNKs S M -> LNK M.
  Proof. intros HS H j t Hj Hv e k Hk. destruct (H j t Hj Hv e k Hk) as [G|G]; [exact G | exfalso; eapply HS; exact G]. Qed.
  Lemma LNKs_weaken (S S' : nat -> Prop) M : (forall k, S k -> S' k) -> LNKs S M -> LNKs S' M.
  Proof. intros HS H j t Hj Hv e k Hk. destruct (H j t Hj Hv e k Hk) as [G|G]; auto. Qed.

  Lemma live_skel (M M' : Mesh) (j : nat) : skel (tris M') = skel (tris M) -> live M j -> live M' j.
  Proof.
    intros E (t & Ht & Hv). pose proof (f_equal (fun l => nth_error l j) E) as E'. cbn beta in E'. rewrite !skel_nth, Ht in E'. cbn [option_map] in E'.
    destruct (nth_error (tris M') j) as [t'|] eqn:Et'; cbn [option_map] in E'; [|discriminate]. inversion E'. exists t'. split; [exact Et' | congruence].
  Qed.
  Lemma skel_length (M M' : Mesh) : skel (tris M') = skel (tris M) -> length (tris M') = length (tris M).
  Proof. intros E. apply (f_equal (@length _)) in E. unfold skel in E. rewrite !map_length in E. exact E. Qed.

  Lemma invalidate_slot (i : nat) (t : TP) (M M' : Mesh) :
    nth_error (tris M) i = Some t -> mesh_invalidate i M = (M', Ok tt) ->
    tris M' = upd i tp_invalidate (tris M) /\ ~ live M' i /\ (forall j, j <> i -> live M j -> live M' j) /\ (forall j, live M' j -> live M j).
  Proof.
    intros Et H. pose proof (invalidate_tris _ _ _ _ _ Et H) as E.
    split; [exact E|]. split; [|split].
    - intros (u & Hu & Hv). rewrite E, nth_error_upd, Nat.eqb_refl, Et in Hu. cbn [option_map] in Hu. inversion Hu; subst u. discriminate.
    - intros j Hj (u & Hu & Hv). exists u. rewrite E, nth_error_upd. destruct (Nat.eqb_spec i j); [exfalso; apply Hj; congruence|]. split; assumption.
    - intros j (u & Hu & Hv). rewrite E, nth_error_upd in Hu. destruct (Nat.eqb_spec i j).
      + subst j. rewrite Et in Hu. cbn [option_map] in Hu. inversion Hu; subst u. discriminate.
      + exists u. split; assumption.
  Qed.
  Lemma push_slot (a b c : V) (la : nat) (M M' : Mesh) (n : nat) :
    mesh_push a b c la M = (M', Ok n) ->
    ~ live M n /\ live M' n /\ (forall j, live M j -> live M' j) /\ (forall j, live M' j -> j = n \/ live M j) /\
    (forall j t, j <> n -> nth_error (tris M') j = Some t -> nth_error (tris M) j = Some t) /\
    (forall t, nth_error (tris M') n = Some t -> forall e, tp_neighbour t e = None).
  Proof.
    intros H. destruct (push_ok_nth _ _ _ _ _ _ _ H) as (t & Et & En & Hd & Ho).
    assert (D : ~ live M n) by (intros (u & Hu & Hv); rewrite (Hd u Hu) in Hv; discriminate).
    repeat split.
    - exact D.
    - exists t. split; [exact En | eapply tp_new_valid; exact Et].
    - intros j (u & Hu & Hv). exists u. rewrite Ho; [split; assumption|]. intros ->. apply D. exists u. split; assumption.
    - intros j (u & Hu & Hv). destruct (Nat.eq_dec j n) as [->|Hj]; [left; reflexivity | right]. exists u. rewrite <- (Ho j Hj). split; assumption.
    - intros j u Hj Hu. rewrite <- (Ho j Hj). exact Hu.
    - intros u Hu e. rewrite En in Hu. inversion Hu; subst u. eapply tp_new_neighbours; exact Et.
  Qed.
  (** [push] with the hint of a slot that has just been invalidated reuses that very slot *)
  Lemma skipn_nth (h : nat) (u : TP) : forall l : list TP, nth_error l h = Some u -> exists rest, skipn h l = u :: rest.
  Proof. induction h as [|h IH]; intros [|x l] H; cbn [nth_error] in H; try discriminate; [inversion H; eexists; reflexivity | apply IH; exact H]. Qed.
  Lemma push_hint (a b c : V) (h : nat) (u : TP) (M M' : Mesh) (n : nat) :
    nth_error (tris M) h = Some u -> tp_valid u = false -> mesh_push a b c h M = (M', Ok n) -> n = h.
  Proof.
    intros Hu Hv H. unfold mesh_push in H.
    assert (Eg : get_first_invalid M h = Some h).
    { unfold get_first_invalid. assert (L : Nat.ltb h (length (tris M)) = true) by (apply Nat.ltb_lt; apply nth_error_Some; congruence). rewrite L.
      destruct (skipn_nth h u _ Hu) as (rest & ->). cbn [first_invalid_from]. rewrite Hv. reflexivity. }
    rewrite Eg in H. destruct (tp_new a b c h); inversion H; reflexivity.
  Qed.

  Lemma lnks_push (S : nat -> Prop) (a b c : V) (la : nat) (M M' : Mesh) (n : nat) :
    mesh_push a b c la M = (M', Ok n) -> LNKs S M -> LNKs (fun k => S k /\ k <> n) M'.
  Proof.
    intros H HL. destruct (push_slot _ _ _ _ _ _ _ H) as (_ & Hn & Hup & _ & Hold & Hnew).
    intros j t Hj Hv e k Hk. destruct (Nat.eq_dec j n) as [->|Hjn]; [rewrite (Hnew t Hj e) in Hk; discriminate|].
    destruct (HL j t (Hold j t Hjn Hj) Hv e k Hk) as [G|G]; [left; apply Hup; exact G|].
    destruct (Nat.eq_dec k n) as [->|Hkn]; [left; exact Hn | right; split; assumption].
  Qed.
  Lemma lnks_invalidate (S : nat -> Prop) (i : nat) (t : TP) (M M' : Mesh) :
    nth_error (tris M) i = Some t -> mesh_invalidate i M = (M', Ok tt) -> LNKs S M -> LNKs (fun k => S k \/ k = i) M'.
  Proof.
    intros Et H HL. destruct (invalidate_slot _ _ _ _ Et H) as (E & _ & Hkeep & _).
    intros j u Hj Hv e k Hk. rewrite E, nth_error_upd in Hj. destruct (Nat.eqb_spec i j).
    - subst j. rewrite Et in Hj. cbn [option_map] in Hj. inversion Hj; subst u. discriminate.
    - destruct (HL j u Hj Hv e k Hk) as [G|G]; [|right; left; exact G].
      destruct (Nat.eq_dec k i) as [->|Hki]; [right; right; reflexivity | left; apply Hkeep; assumption].
  Qed.
  Lemma lnks_mupd_constrain (S : nat -> Prop) (site : N) (i : nat) (e : Edge) (M M' : Mesh) (r : res unit) :
    mupd site i (tp_constrain e) M = (M', r) -> LNKs S M -> LNKs S M'.
  Proof.
    intros H HL. pose proof (sk_mupd site i (tp_constrain e) (constrain_tri e) (constrain_valid e) _ _ _ H) as Hsk.
    unfold mupd in H. destruct (Nat.ltb _ _); inversion H; subst; [|exact HL].
    intros j u Hj Hv e' k Hk. cbn [tris] in Hj. rewrite nth_error_upd in Hj.
    assert (G : exists u0, nth_error (tris M) j = Some u0 /\ tp_valid u0 = true /\ tp_neighbour u0 e' = Some k).
    { destruct (Nat.eqb i j); [|exists u; repeat split; assumption].
      destruct (nth_error (tris M) j) as [u0|]; cbn [option_map] in Hj; [|discriminate]. inversion Hj; subst u.
      exists u0. rewrite constrain_valid in Hv. rewrite constrain_neighbours in Hk. repeat split; assumption. }
    destruct G as (u0 & A & B & C). destruct (HL j u0 A B e' k C) as [G|G]; [left; eapply live_skel; [exact Hsk | exact G] | right; exact G].
  Qed.
  Lemma lnks_mark (S : nat -> Prop) (i1 : nat) (e1 : Edge) (i2 : nat) (M M' : Mesh) (r : res unit) :
    mark_as_neighbours i1 e1 i2 M = (M', r) -> LNKs S M -> LNKs S M'.
  Proof.
    intros H HL. pose proof (sk_mark _ _ _ _ _ _ H) as Hsk.
    destruct (mark_inv _ _ _ _ _ _ H) as [(-> & _) | (t1 & t2 & sg & k2 & ed2 & Hne & E1 & V1 & E2 & V2 & _ & _ & _ & _ & ET & _)]; [exact HL|].
    assert (Lv1 : live M i1) by (exists t1; split; assumption). assert (Lv2 : live M i2) by (exists t2; split; assumption).
    intros j u Hj Hv e k Hk. rewrite ET, !nth_error_upd in Hj.
    assert (G : k = i1 \/ k = i2 \/ exists u0, nth_error (tris M) j = Some u0 /\ tp_valid u0 = true /\ tp_neighbour u0 e = Some k).
    { destruct (Nat.eqb i2 j).
      - destruct (Nat.eqb i1 j).
        + destruct (nth_error (tris M) j) as [u0|]; cbn [option_map] in Hj; [|discriminate]. inversion Hj; subst u.
          rewrite !set_neighbour_valid in Hv. apply set_neighbour_neighbours in Hk. destruct Hk as [->|Hk]; [left; reflexivity|].
          apply set_neighbour_neighbours in Hk. destruct Hk as [->|Hk]; [right; left; reflexivity|]. right; right. exists u0. repeat split; assumption.
        + destruct (nth_error (tris M) j) as [u0|]; cbn [option_map] in Hj; [|discriminate]. inversion Hj; subst u.
          rewrite set_neighbour_valid in Hv. apply set_neighbour_neighbours in Hk. destruct Hk as [->|Hk]; [left; reflexivity|]. right; right. exists u0. repeat split; assumption.
      - destruct (Nat.eqb i1 j).
        + destruct (nth_error (tris M) j) as [u0|]; cbn [option_map] in Hj; [|discriminate]. inversion Hj; subst u.
          rewrite set_neighbour_valid in Hv. apply set_neighbour_neighbours in Hk. destruct Hk as [->|Hk]; [right; left; reflexivity|]. right; right. exists u0. repeat split; assumption.
        + right; right. exists u. repeat split; assumption. }
    destruct G as [->|[->|(u0 & A & B & C)]]; [left; eapply live_skel; [exact Hsk | exact Lv1] | left; eapply live_skel; [exact Hsk | exact Lv2] |].
    destruct (HL j u0 A B e k C) as [G|G]; [left; eapply live_skel; [exact Hsk | exact G] | right; exact G].
  Qed.

  (** ** the linking suffix of a step: mark_as_neighbours between live slots, constrain of slots in range *)
  Definition lvT (sk : list (Tri K * bool)) (j : nat) (T : Tri K) : Prop := nth_error sk j = Some (T, true).
  Lemma lvT_slot (M : Mesh) (j : nat) (T : Tri K) : lvT (skel (tris M)) j T -> exists t, nth_error (tris M) j = Some t /\ tp_valid t = true /\ tp_tri t = T.
  Proof.
    unfold lvT. rewrite skel_nth. destruct (nth_error (tris M) j) as [t|]; cbn [option_map]; [|discriminate]. intros H; inversion H. exists t. repeat split; assumption.
  Qed.
  Lemma slot_lvT (M : Mesh) (j : nat) (t : TP) : nth_error (tris M) j = Some t -> tp_valid t = true -> lvT (skel (tris M)) j (tp_tri t).
  Proof. intros H Hv. unfold lvT. rewrite skel_nth, H. cbn [option_map]. rewrite Hv. reflexivity. Qed.
  Definition lv (sk : list (Tri K * bool)) (j : nat) : Prop := exists T, lvT sk j T.
  Lemma lv_live (M : Mesh) (j : nat) : live M j -> lv (skel (tris M)) j.
  Proof. intros (t & Ht & Hv). exists (tp_tri t). apply slot_lvT; assumption. Qed.
  Lemma live_lv (M : Mesh) (j : nat) : lv (skel (tris M)) j -> live M j.
  Proof. intros (T & H). destruct (lvT_slot _ _ _ H) as (t & Et & Hv & _). exists t. split; assumption. Qed.
  Lemma mark_outcome (i1 : nat) (e1 : Edge) (i2 : nat) (M M' : Mesh) (r : res unit) :
    live M i1 -> live M i2 -> mark_as_neighbours i1 e1 i2 M = (M', r) -> r = Ok tt \/ (i1 = i2 /\ r = Err 102%N) \/ r = Panic 64%N.
  Proof.
    intros (t1 & E1 & V1) (t2 & E2 & V2) H. destruct (Nat.eq_dec i1 i2) as [Heq|Hne].
    { right; left. split; [exact Heq|]. unfold mark_as_neighbours in H. subst i2. rewrite Nat.eqb_refl in H. inversion H; reflexivity. }
    destruct (mark_inv _ _ _ _ _ _ H) as [(_ & _ & Q) | (_ & _ & _ & _ & _ & _ & _ & _ & _ & _ & _ & _ & _ & -> & _)];
      [right; right; exact (proj1 (Q t1 t2 Hne E1 V1 E2 V2)) | left; reflexivity].
  Qed.

  Section TailRules.
    Variable S : nat -> Prop.
    Variable allow102 : bool.
    Variable sk : list (Tri K * bool).
    Definition Tail {A} (Q : A -> Prop) (m : MR (K:=K) A) : Prop :=
      forall M M' r, skel (tris M) = sk -> WF M -> CNT M -> LNKs S M -> m M = (M', r) ->
        skel (tris M') = sk /\ WF M' /\ CNT M' /\ LNKs S M' /\
        match r with Ok a => Q a | Err c => allow102 = true /\ c = 102%N | Panic s => s = 64%N end.
    Lemma tail_ret {A} (Q : A -> Prop) (a : A) : Q a -> Tail Q (mret a).
    Proof. intros HQ M M' r Hs W C L H. inversion H; subst M' r. split; [exact Hs | split; [exact W | split; [exact C | split; [exact L | exact HQ]]]]. Qed.
    Lemma tail_ret_true {A} (a : A) : Tail (fun _ => True) (mret a).
    Proof. apply tail_ret. exact I. Qed.
    Lemma tail_bind {A B} (Q0 : A -> Prop) (Q : B -> Prop) (m : MR A) (f : A -> MR B) : Tail Q0 m -> (forall a, Tail Q (f a)) -> Tail Q (mbind m f).
    Proof.
      intros Hm Hf M M' r Hs W C L H. apply mbind_inv in H. destruct H as [(a & M1 & H1 & H2) | [(c & H1 & ->) | (s & H1 & ->)]].
      - destruct (Hm _ _ _ Hs W C L H1) as (A1 & A2 & A3 & A4 & _). eapply Hf; eassumption.
      - exact (Hm _ _ _ Hs W C L H1).
      - exact (Hm _ _ _ Hs W C L H1).
    Qed.
    Lemma tail_mark (i1 : nat) (e1 : Edge) (i2 : nat) : lv sk i1 -> lv sk i2 -> (allow102 = true \/ i1 <> i2) -> Tail (fun _ => True) (mark_as_neighbours i1 e1 i2).
    Proof.
      intros L1 L2 Hd M M' r Hs W C L H. subst sk. apply live_lv in L1. apply live_lv in L2.
      split; [exact (sk_mark _ _ _ _ _ _ H)|]. split; [exact (proj2 (wf_mark _ _ _ _ _ _ H) W)|]. split; [exact (cnt_mark _ _ _ _ _ _ H C)|].
      split; [exact (lnks_mark _ _ _ _ _ _ _ H L)|].
      destruct (mark_outcome _ _ _ _ _ _ L1 L2 H) as [-> | [(Heq & ->) | ->]]; [exact I | | reflexivity].
      destruct Hd as [Hd|Hd]; [split; [exact Hd | reflexivity] | contradiction].
    Qed.
    Lemma tail_constrain (site : N) (i : nat) (e : Edge) : i < length sk -> Tail (fun _ => True) (mupd site i (tp_constrain e)).
    Proof.
      intros Hi M M' r Hs W C L H. subst sk.
      split; [exact (sk_mupd site i (tp_constrain e) (constrain_tri e) (constrain_valid e) _ _ _ H)|].
      split; [exact (proj2 (wf_constrain _ _ _ _ _ _ H) W)|]. split; [exact (cnt_mupd _ _ _ (constrain_valid e) _ _ _ H C)|].
      split; [exact (lnks_mupd_constrain _ _ _ _ _ _ _ H L)|].
      unfold skel in Hi. rewrite map_length in Hi. unfold mupd in H. apply Nat.ltb_lt in Hi. rewrite Hi in H. inversion H. exact I.
    Qed.
    Lemma tail_when (b : bool) (m : MR unit) : Tail (fun _ => True) m -> Tail (fun _ => True) (mwhen b m).
    Proof. intros H. destruct b; [exact H | apply tail_ret; exact I]. Qed.
    (* the link to an optional outer neighbour is treated as one operation: destructing the options of a step
       multiplies the suffix by 2 for each of them *)
    Lemma tail_mark_opt (i1 : nat) (e1 : Edge) (o : option nat) :
      lv sk i1 -> (forall n, o = Some n -> lv sk n /\ (allow102 = true \/ i1 <> n)) ->
      Tail (fun _ => True) (match o with Some n => mark_as_neighbours i1 e1 n | None => mret tt end).
    Proof. intros L1 Ho. destruct o as [n|]; [destruct (Ho n eq_refl); apply tail_mark; assumption | apply tail_ret_true]. Qed.
    Lemma lv_lt (j : nat) : lv sk j -> j < length sk.
    Proof. intros (T & H). apply nth_error_Some. congruence. Qed.
  End TailRules.
  (* the facts about the slots of a suffix (live, distinct; for an optional neighbour [o] a hypothesis of the shape
     that [tail_mark_opt] asks for) are in the context *)
  Ltac tail_tac :=
    repeat first
      [ eapply tail_bind; [|intros ?] | apply tail_ret_true | apply tail_ret; reflexivity | apply tail_when
      | apply tail_constrain; apply lv_lt; apply lv_live; assumption
      | apply tail_mark; [apply lv_live; assumption | apply lv_live; assumption | first [right; congruence | left; reflexivity]]
      | apply tail_mark_opt; [apply lv_live; assumption | assumption] ].

  Lemma dead_slot (M : Mesh) (j : nat) : j < length (tris M) -> ~ live M j -> exists u, nth_error (tris M) j = Some u /\ tp_valid u = false.
  Proof.
    intros Hlt Hn. destruct (nth_error (tris M) j) as [u|] eqn:Eu; [|apply nth_error_None in Eu; lia].
    exists u. split; [reflexivity|]. destruct (tp_valid u) eqn:Ev; [exfalso; apply Hn; exists u; split; assumption | reflexivity].
  Qed.

  (** ** the mutating prefix of a step: invalidate live slots, push the children.  [St S]: indices, counter and links are
      sound, but for links to the slots [S] (invalidated and not yet refilled) *)
  Definition St (S : nat -> Prop) (M : Mesh) : Prop := WF M /\ CNT M /\ LNKs S M.
  Lemma st_invalidate (S : nat -> Prop) (i : nat) (M M' : Mesh) (r : res unit) :
    St S M -> live M i -> mesh_invalidate i M = (M', r) ->
    r = Ok tt /\ St (fun k => S k \/ k = i) M' /\ length (tris M') = length (tris M) /\
    ~ live M' i /\ (forall j, j <> i -> live M j -> live M' j) /\ (forall j, live M' j -> live M j).
  Proof.
    intros (W & C & L) Li H. destruct (cnt_invalidate_live _ _ _ _ Li C H) as (C' & -> & E). destruct Li as (t & Et & _).
    split; [reflexivity|].
    split; [exact (conj (proj2 (wf_invalidate _ _ _ _ H) W) (conj C' (lnks_invalidate _ _ _ _ _ Et H L)))|].
    split; [rewrite E; apply upd_length | exact (proj2 (invalidate_slot _ _ _ _ Et H))].
  Qed.
  Lemma st_bind_invalidate {B} (S : nat -> Prop) (i : nat) (f : unit -> MR B) (M M' : Mesh) (r : res B) :
    St S M -> live M i -> mbind (mesh_invalidate i) f M = (M', r) ->
    exists M1, f tt M1 = (M', r) /\ St (fun k => S k \/ k = i) M1 /\ length (tris M1) = length (tris M) /\
      ~ live M1 i /\ (forall j, j <> i -> live M j -> live M1 j) /\ (forall j, live M1 j -> live M j).
  Proof.
    intros HS Li H. apply mbind_inv in H. destruct H as [([] & M1 & H1 & H) | [(c & H1 & _) | (s & H1 & _)]];
      destruct (st_invalidate _ _ _ _ _ HS Li H1) as (G & R); [exists M1; exact (conj H R) | discriminate ..].
  Qed.
  (** a push refills the hinted slot when that slot is dead *)
  Lemma st_push (S : nat -> Prop) (a b c : V) (la : nat) (M M' : Mesh) (n : nat) :
    St S M -> mesh_push a b c la M = (M', Ok n) ->
    St (fun k => S k /\ k <> n) M' /\ length (tris M) <= length (tris M') /\ (la < length (tris M) -> ~ live M la -> n = la) /\
    ~ live M n /\ live M' n /\ (forall j, live M j -> live M' j) /\ (forall j, live M' j -> j = n \/ live M j).
  Proof.
    intros (W & C & L) H. destruct (wf_push _ _ _ _ _ _ _ H) as [Len W'].
    split; [exact (conj (W' W) (conj (cnt_push _ _ _ _ _ _ _ H C) (lnks_push _ _ _ _ _ _ _ _ H L)))|]. split; [exact Len|]. split.
    - intros Hlt Hd. destruct (dead_slot _ _ Hlt Hd) as (u & Eu & Ev). exact (push_hint _ _ _ _ _ _ _ _ Eu Ev H).
    - destruct (push_slot _ _ _ _ _ _ _ H) as (D & Lv & K1 & B & _). exact (conj D (conj Lv (conj K1 B))).
  Qed.

  (** ** (b) split_triangle on a structurally sound mesh: Ok (and then sound again up to links to slot i), or untouched,
      or the coordinate comparison of mark_as_neighbours failed (Panic 64) *)
  Theorem split_triangle_struct (i : nat) (p : V) (M M' : Mesh) (r : res unit) :
    WF M -> CNT M -> LNK M -> split_triangle i p M = (M', r) ->
    (r = Ok tt /\ WF M' /\ CNT M' /\ LNKs (fun k => k = i) M') \/ M' = M \/ r = Panic 64%N.
  Proof.
    intros W C HL H. destruct (split_triangle_open _ _ _ _ _ H) as [(-> & _) | (t & e1 & e2 & e3 & T1 & T2 & T3 & [Et Ev _ _ _ _ _ _] &
      [[_ N] | (M1 & M2 & M3 & M4 & cap & abp & bcp & H1 & H2 & H3 & H4 & H')])];
      [right; left; reflexivity | exfalso; pose proof (count_pos _ _ _ Et Ev); unfold CNT in C; lia |].
    clear H. rename H' into H.
    destruct (st_invalidate _ _ _ _ _ (conj W (conj C (LNK_LNKs _ HL))) (ex_intro _ t (conj Et Ev)) H1) as (_ & S1 & _ & D1 & K1 & _).
    destruct (st_push _ _ _ _ _ _ _ _ S1 H2) as (S2 & _ & _ & D2 & V2 & K2 & _).
    destruct (st_push _ _ _ _ _ _ _ _ S2 H3) as (S3 & _ & _ & D3 & V3 & K3 & _).
    destruct (st_push _ _ _ _ _ _ _ _ S3 H4) as ((W4 & C4 & L4) & _ & _ & D4 & V4 & K4 & _).
    assert (Hnb : forall j, j = cap \/ j = abp \/ j = bcp -> forall e n, tp_neighbour t e = Some n -> lv (skel (tris M4)) n /\ (false = true \/ j <> n)).
    { intros j Hj e n En. destruct (W i t Et e n En) as [_ Hni]. pose proof (HL i t Et Ev e n En) as Ln.
      pose proof (K1 n Hni Ln) as Ln1. pose proof (K2 n Ln1) as Ln2. pose proof (K3 n Ln2) as Ln3.
      split; [apply lv_live, K4; exact Ln3 | right].
      destruct Hj as [-> | [-> | ->]]; intros ->; [apply D2; exact Ln1 | apply D3; exact Ln2 | apply D4; exact Ln3]. }
    pose proof (Hnb cap (or_introl eq_refl) e3) as O3. pose proof (Hnb abp (or_intror (or_introl eq_refl)) e1) as O1.
    pose proof (Hnb bcp (or_intror (or_intror eq_refl)) e2) as O2.
    assert (Vcap : live M4 cap) by (apply K4, K3; exact V2). assert (Vabp : live M4 abp) by (apply K4; exact V3).
    assert (N1 : abp <> cap) by (intros ->; apply D3; exact V2).
    assert (N2 : bcp <> cap) by (intros ->; apply D4; apply K3; exact V2).
    assert (N3 : bcp <> abp) by (intros ->; apply D4; exact V3).
    match type of L4 with LNKs ?S _ => assert (G : Tail S false (skel (tris M4)) (fun _ => True) (st_links cap abp bcp t e1 e2 e3)) by (unfold st_links; tail_tac) end.
    destruct (G M4 M' r eq_refl W4 C4 L4 H) as (_ & W' & C' & L' & Ho).
    destruct r as [[]|c|s]; [left | destruct Ho; discriminate | right; right; subst s; reflexivity].
    split; [reflexivity | split; [exact W' | split; [exact C' |]]]. revert L'. apply LNKs_weaken. cbn beta. intros k. tauto.
  Qed.

  Lemma opt_nat_dec (o : option nat) (n : nat) : o = Some n \/ o <> Some n.
  Proof. destruct o as [m|]; [destruct (Nat.eq_dec m n) as [->|Q]; [left; reflexivity | right; congruence] | right; discriminate]. Qed.
  Lemma N_eq_102 {A} (r : res A) : r = Err 102%N \/ r <> Err 102%N.
  Proof. destruct r as [x|c|s]; try (right; discriminate). destruct (N.eq_dec c 102) as [->|Q]; [left; reflexivity | right; congruence]. Qed.
  Lemma live_lt (M : Mesh) (j : nat) : live M j -> j < length (tris M).
  Proof. intros (u & Hu & _). apply nth_error_Some. congruence. Qed.

  (** ** (b) flip_diagonal on a structurally sound mesh: Err 102 has one cause, a second link between the two triangles *)
  Theorem flip_struct_102 (i : nat) (e : Edge) (M M' : Mesh) (r : res unit) :
    WF M -> CNT M -> LNK M -> flip_diagonal i e M = (M', r) ->
    (r = Ok tt /\ WF M' /\ CNT M' /\ LNK M') \/ M' = M \/ r = Panic 64%N \/
    (r = Err 102%N /\ exists t nb ni a b c o e1 e2 e3 e4 T1 T2, flip_pre M i e t nb ni a b c o e1 e2 e3 e4 T1 T2 /\
       (tp_neighbour nb e4 = Some i \/ tp_neighbour t e2 = Some ni)).
  Proof.
    intros W C HL H. destruct (flip_inv _ _ _ _ _ H) as [[-> _] | (t & nb & ni & a & b & c & o & e1 & e2 & e3 & e4 & T1 & T2 & Hp & H')];
      [right; left; reflexivity|].
    clear H. rename H' into H. unfold flip_suffix in H. pose proof Hp as [Et Ev En Enb Evn _ _ _ _ _ _ _ _ ET1 ET2].
    destruct (W i t Et e ni En) as [Hlt Hne].
    destruct (st_bind_invalidate _ _ _ _ _ _ (conj W (conj C (LNK_LNKs _ HL))) (ex_intro _ t (conj Et Ev)) H) as (M1 & H1 & S1 & Len1 & D1 & K1 & B1).
    assert (Lni1 : live M1 ni) by (apply K1; [exact Hne | exists nb; split; assumption]).
    destruct (st_bind_invalidate _ _ _ _ _ _ S1 Lni1 H1) as (M2 & H2 & S2 & Len2 & D2 & K2 & B2).
    assert (Di2 : ~ live M2 i) by (intros G; apply D1; apply B2; exact G).
    assert (Li2 : i < length (tris M2)) by (assert (i < length (tris M)) by (apply nth_error_Some; congruence); lia).
    (* push at the hint i *)
    apply (bind_push_checked _ _ _ _ _ _ _ _ _ ET1) in H2. destruct H2 as (aoc & M3 & H3 & H2).
    destruct (st_push _ _ _ _ _ _ _ _ S2 H3) as (S3 & Len3 & Ea & _ & V3 & K3 & B3). specialize (Ea Li2 Di2). subst aoc.
    assert (Dn3 : ~ live M3 ni) by (intros G; destruct (B3 _ G) as [G'|G']; [apply Hne; exact G' | apply D2; exact G']).
    assert (Ln3 : ni < length (tris M3)) by lia.
    (* push at the hint ni *)
    apply (bind_push_checked _ _ _ _ _ _ _ _ _ ET2) in H2. clear H. destruct H2 as (cob & M4 & H4 & H).
    destruct (st_push _ _ _ _ _ _ _ _ S3 H4) as ((W4 & C4 & L4) & _ & Eb & _ & V4 & K4 & _). specialize (Eb Ln3 Dn3). subst cob.
    assert (Vi4 : live M4 i) by (apply K4; exact V3).
    assert (Hall : forall n, live M n -> lv (skel (tris M4)) n).
    { intros n Ln. apply lv_live. destruct (Nat.eq_dec n i) as [->|Hni]; [exact Vi4|]. destruct (Nat.eq_dec n ni) as [->|Hnn]; [exact V4|].
      apply K4, K3, K2; [exact Hnn|]. apply K1; assumption. }
    (* the links to the four outer neighbours: a slot differs from its own neighbours, so only the neighbour of nb
       across e4 (linked to i) and that of t across e2 (linked to ni) can collide *)
    assert (G : forall allow, allow = true \/ tp_neighbour nb e4 <> Some i /\ tp_neighbour t e2 <> Some ni -> allow = false \/ r <> Err 102%N ->
              (r = Ok tt /\ WF M' /\ CNT M' /\ LNK M') \/ r = Panic 64%N).
    { intros allow Hd Ha.
      assert (O1 : forall n, tp_neighbour t e1 = Some n -> lv (skel (tris M4)) n /\ (allow = true \/ i <> n)).
      { intros n E. split; [exact (Hall n (HL i t Et Ev e1 n E)) | right; intros Q; exact (proj2 (W i t Et e1 n E) (eq_sym Q))]. }
      assert (O3 : forall n, tp_neighbour nb e3 = Some n -> lv (skel (tris M4)) n /\ (allow = true \/ ni <> n)).
      { intros n E. split; [exact (Hall n (HL ni nb Enb Evn e3 n E)) | right; intros Q; exact (proj2 (W ni nb Enb e3 n E) (eq_sym Q))]. }
      assert (O4 : forall n, tp_neighbour nb e4 = Some n -> lv (skel (tris M4)) n /\ (allow = true \/ i <> n)).
      { intros n E. split; [exact (Hall n (HL ni nb Enb Evn e4 n E))|]. destruct Hd as [Q | [Q _]]; [left; exact Q | right; intros ->; exact (Q E)]. }
      assert (O2 : forall n, tp_neighbour t e2 = Some n -> lv (skel (tris M4)) n /\ (allow = true \/ ni <> n)).
      { intros n E. split; [exact (Hall n (HL i t Et Ev e2 n E))|]. destruct Hd as [Q | [_ Q]]; [left; exact Q | right; intros ->; exact (Q E)]. }
      match type of L4 with LNKs ?S _ => assert (T : Tail S allow (skel (tris M4)) (fun _ => True) (flip_links i i ni t nb e1 e2 e3 e4)) by (unfold flip_links; tail_tac) end.
      destruct (T M4 M' r eq_refl W4 C4 L4 H) as (_ & W' & C' & L' & Ho).
      destruct r as [[]|c0|s]; [left | exfalso; destruct Ho as [Q ->]; destruct Ha as [Q' | Q']; [congruence | exact (Q' eq_refl)] | right; subst s; reflexivity].
      split; [reflexivity | split; [exact W' | split; [exact C' |]]]. revert L'. apply LNKs_LNK. cbn beta. intros k. tauto. }
    destruct (opt_nat_dec (tp_neighbour nb e4) i) as [Q4|Q4]; [|destruct (opt_nat_dec (tp_neighbour t e2) ni) as [Q2|Q2]].
    3:{ destruct (G false (or_intror (conj Q4 Q2)) (or_introl eq_refl)) as [A|A]; [left; exact A | right; right; left; exact A]. }
    all: destruct (N_eq_102 r) as [-> | Q]; [right; right; right; split; [reflexivity|]; exists t, nb, ni, a, b, c, o, e1, e2, e3, e4, T1, T2; split; [exact Hp | tauto]|].
    all: destruct (G true (or_introl eq_refl) (or_intror Q)) as [A|A]; [left; exact A | right; right; left; exact A].
  Qed.
  Theorem flip_struct (i : nat) (e : Edge) (M M' : Mesh) (r : res unit) :
    WF M -> CNT M -> LNK M -> flip_diagonal i e M = (M', r) ->
    (r = Ok tt /\ WF M' /\ CNT M' /\ LNK M') \/ M' = M \/ r = Panic 64%N \/ r = Err 102%N.
  Proof. intros W C HL H. destruct (flip_struct_102 _ _ _ _ _ W C HL H) as [A | [A | [A | [A _]]]]; auto. Qed.

  (** ** (b) split_edge on a structurally sound mesh *)
  Lemma hemisphere_struct (s : Seg K) (p : V) (idx : nat) (t : TP) (a b c : V) (TA TB : Tri K) {B} (f : nat * nat -> MR B) (M M' : Mesh) (r : res B) :
    WF M -> CNT M -> LNK M -> nth_error (tris M) idx = Some t -> tp_valid t = true ->
    hemi_verts (tp_tri t) s = Ok (a, b, c) -> tri_new a p c = Ok TA -> tri_new p b c = Ok TB ->
    mbind (process_hemisphere s p idx) f M = (M', r) ->
    (exists pbc M1, process_hemisphere s p idx M = (M1, Ok (idx, pbc)) /\ f (idx, pbc) M1 = (M', r) /\
       WF M1 /\ CNT M1 /\ LNK M1 /\ (forall j, live M j -> live M1 j) /\ live M1 pbc /\ ~ live M pbc) \/ r = Panic 64%N.
  Proof.
    intros W C HL Et Ev HV ETA ETB H0. unfold mbind in H0. destruct (process_hemisphere s p idx M) as [M0 r0] eqn:H.
    destruct (hemisphere_open _ _ _ _ _ _ _ _ _ _ _ _ Et HV ETA ETB H) as [[_ N] | (ed & ea & eb & M1 & M2 & M3 & apc & pbc & H1 & H2 & H3 & H')];
      [exfalso; pose proof (count_pos _ _ _ Et Ev); unfold CNT in C; lia | clear H; rename H' into H].
    destruct (st_invalidate _ _ _ _ _ (conj W (conj C (LNK_LNKs _ HL))) (ex_intro _ t (conj Et Ev)) H1) as (_ & S1 & Len1 & D1 & K1 & _).
    assert (Li1 : idx < length (tris M1)) by (rewrite Len1; apply nth_error_Some; congruence).
    destruct (st_push _ _ _ _ _ _ _ _ S1 H2) as (S2 & _ & Ea & _ & V2 & K2 & _). specialize (Ea Li1 D1). subst apc.
    destruct (st_push _ _ _ _ _ _ _ _ S2 H3) as ((W3 & C3 & L3) & _ & _ & D3 & V3 & K3 & _).
    assert (Hall : forall n, live M n -> live M2 n).
    { intros n Ln. destruct (Nat.eq_dec n idx) as [->|Hni]; [exact V2|]. apply K2, K1; assumption. }
    assert (Vi3 : live M3 idx) by (apply K3; exact V2).
    assert (N1 : idx <> pbc) by (intros ->; apply D3; exact V2).
    assert (Hnb : forall j, j = idx \/ j = pbc -> forall e' n, tp_neighbour t e' = Some n -> lv (skel (tris M3)) n /\ (false = true \/ j <> n)).
    { intros j Hj e' n E'. destruct (W idx t Et e' n E') as [_ Hni]. pose proof (Hall n (HL idx t Et Ev e' n E')) as Ln2.
      split; [apply lv_live, K3; exact Ln2 | right]. destruct Hj as [-> | ->]; [congruence | intros ->; apply D3; exact Ln2]. }
    pose proof (Hnb idx (or_introl eq_refl) eb) as O2. pose proof (Hnb pbc (or_intror eq_refl) ea) as O1.
    assert (Dp : ~ live M pbc) by (intros G; apply D3; apply Hall; exact G).
    match type of L3 with LNKs ?S _ => assert (G : Tail S false (skel (tris M3)) (fun x => x = (idx, pbc)) (hemi_links idx pbc (tp_invalidate t) ed ea eb))
      by (unfold hemi_links; rewrite !invalidate_neighbours; tail_tac) end.
    destruct (G M3 M0 r0 eq_refl W3 C3 L3 H) as (Hsk & W' & C' & L' & Ho).
    destruct r0 as [x|c'|s']; cbv beta iota in H0; [left | destruct Ho; discriminate | right; subst s'; inversion H0; reflexivity].
    subst x. exists pbc, M0. split; [reflexivity | split; [exact H0 | split; [exact W' | split; [exact C' | split; [revert L'; apply LNKs_LNK; cbn beta; intros k; tauto |]]]]].
    split; [intros j Lj; eapply live_skel; [exact Hsk | apply K3, Hall; exact Lj] | split; [eapply live_skel; [exact Hsk | exact V3] | exact Dp]].
  Qed.

  Theorem split_edge_struct (i : nat) (e : Edge) (p : V) (M M' : Mesh) (r : res unit) :
    WF M -> CNT M -> LNK M -> split_edge i e p M = (M', r) ->
    (r = Ok tt /\ WF M' /\ CNT M' /\ LNK M') \/ M' = M \/ r = Panic 64%N.
  Proof.
    intros W C HL H.
    destruct (split_edge_inv _ _ _ _ _ _ H) as [[-> _] | (t & sg & a & b & c & TA & TB & Et & Ev & Esg & HV & ETA & ETB & Hn & H')]; [right; left; reflexivity|].
    clear H. rename H' into H. unfold split_edge_suffix in H.
    destruct (tp_neighbour t e) as [nei|] eqn:En.
    - destruct (precheck_ok _ _ _ _ _ (Hn nei eq_refl)) as (nb & a' & b' & c' & TA' & TB' & Enb & HV' & ETA' & ETB'). clear Hn.
      destruct (W i t Et e nei En) as [_ Hne]. destruct (HL i t Et Ev e nei En) as (u & Eu & Evn). rewrite Enb in Eu. inversion Eu; subst u. clear Eu.
      destruct (hemisphere_struct _ _ _ _ _ _ _ _ _ _ _ _ _ W C HL Et Ev HV ETA ETB H) as [(pbc1 & M1 & H1 & H' & W1 & C1 & L1 & K1 & V1 & D1)|E];
        [clear H; rename H' into H | right; right; exact E].
      destruct (keep_hemisphere sg p i M M1 _ H1 nei nb Hne Enb Evn) as (nb1 & Enb1 & Evn1 & Etri). rewrite <- Etri in HV'.
      destruct (hemisphere_struct _ _ _ _ _ _ _ _ _ _ _ _ _ W1 C1 L1 Enb1 Evn1 HV' ETA' ETB' H) as [(pbc2 & M2 & _ & H' & W2 & C2 & L2 & K2 & V2 & D2)|E];
        [clear H; rename H' into H | right; right; exact E].
      assert (Vi : live M2 i) by (apply K2, K1; exists t; split; assumption).
      assert (Vp1 : live M2 pbc1) by (apply K2; exact V1).
      assert (Vn : live M2 nei) by (apply K2; exists nb1; split; assumption).
      assert (N1 : i <> pbc2) by (intros ->; apply D2; apply K1; exists t; split; assumption).
      assert (N2 : pbc1 <> nei) by (intros ->; apply D1; exists nb; split; assumption).
      pose proof (LNK_LNKs _ L2) as L2'.
      revert H. match goal with |- ?f M2 = _ -> _ => assert (G : Tail (fun _ => False) false (skel (tris M2)) (fun _ => True) f) by tail_tac end.
      intros HH. destruct (G M2 M' r eq_refl W2 C2 L2' HH) as (_ & W' & C' & L' & Ho).
      destruct r as [[]|c''|s]; [left | destruct Ho; discriminate | right; right; subst s; reflexivity].
      split; [reflexivity | split; [exact W' | split; [exact C' |]]]. revert L'. apply LNKs_LNK. tauto.
    - destruct (hemisphere_struct _ _ _ _ _ _ _ _ _ _ _ _ _ W C HL Et Ev HV ETA ETB H) as [(pbc1 & M1 & _ & H' & W1 & C1 & L1 & _)|E]; [clear H; rename H' into H | right; right; exact E].
      inversion H; subst. left. split; [reflexivity | split; [exact W1 | split; [exact C1 | exact L1]]].
  Qed.

  (** ** (c) add_point: the Err that [refine] swallows does not come with a mutated mesh (classes 102 / 103 apart, which
      the structural hypotheses exclude) *)
  Lemma LNK_NeiLive (M : Mesh) (i : nat) (e : Edge) : WF M -> LNK M -> (forall t, nth_error (tris M) i = Some t -> tp_valid t = true) -> NeiLive M i e.
  Proof. intros W HL Hv t nei Et En. split; [exact (proj2 (W i t Et e nei En)) | exact (HL i t Et (Hv t Et) e nei En)]. Qed.
  Theorem aptt_err_atomic (i : nat) (p : V) (loc : PIT) (M M' : Mesh) (c : N) :
    WF M -> LNK M -> add_point_to_triangle i p loc M = (M', Err c) -> c <> 102%N -> c <> 103%N -> M' = M.
  Proof.
    intros W HL H N1 N2. unfold add_point_to_triangle in H.
    apply bind_get_inv in H. destruct H as [(t & Et & H) | (-> & _)]; [|reflexivity].
    destruct (tp_valid t) eqn:Ev; cbn [negb] in H; [|inversion H; reflexivity].
    assert (HN : forall e, NeiLive M i e) by (intros e; apply LNK_NeiLive; [exact W | exact HL | intros t' Et'; congruence]).
    destruct (pit_is_vertex loc); [inversion H|].
    destruct (pit_is_edge loc).
    - apply bind_lift_inv in H. destruct H as [(ed & _ & H) | (-> & _)]; [|reflexivity].
      apply mbind_inv in H. destruct H as [([] & M1 & H1 & H) | [(c' & H1 & E) | (s & H1 & E)]]; [inversion H | | discriminate].
      inversion E; subst c'. eapply split_edge_err_atomic; [apply HN | exact H1 | exact N1 | exact N2].
    - destruct loc; try (inversion H; reflexivity).
      apply mbind_inv in H. destruct H as [([] & M1 & H1 & H) | [(c' & H1 & E) | (s & H1 & E)]]; [inversion H | | discriminate].
      inversion E; subst c'. eapply split_triangle_err_atomic; [exact H1 | exact N1 | exact N2].
  Qed.
  Theorem add_point_err_atomic (p : V) (M M' : Mesh) (c : N) :
    WF M -> LNK M -> add_point p M = (M', Err c) -> c <> 102%N -> c <> 103%N -> M' = M.
  Proof.
    intros W HL H N1 N2. unfold add_point in H. destruct (find_container (tris M) 0 p) as [[i loc]|]; [|inversion H; reflexivity].
    eapply aptt_err_atomic; eassumption.
  Qed.

  (** ** restore_delaunay only flips: WF, CNT, LNK survive a run that returns Ok *)
  Definition Sound (M : Mesh) : Prop := WF M /\ CNT M /\ LNK M.
  Lemma flip_sound (i : nat) (e : Edge) (M M' : Mesh) : Sound M -> flip_diagonal i e M = (M', Ok tt) -> Sound M'.
  Proof.
    intros (W & C & L) H. destruct (flip_struct _ _ _ _ _ W C L H) as [(_ & A) | [-> | [E | E]]]; [exact A | split; [exact W | split; assumption] | discriminate | discriminate].
  Qed.
  Lemma split_edge_sound (i : nat) (e : Edge) (p : V) (M M' : Mesh) : Sound M -> split_edge i e p M = (M', Ok tt) -> Sound M'.
  Proof.
    intros (W & C & L) H. destruct (split_edge_struct _ _ _ _ _ _ W C L H) as [(_ & A) | [-> | E]]; [exact A | split; [exact W | split; assumption] | discriminate].
  Qed.
  Theorem restore_sound (m : K) (M M' : Mesh) : Sound M -> restore_delaunay m M = (M', Ok tt) -> Sound M'.
  Proof.
    intros HS H. refine (proj1 (restore_ind Sound (fun _ _ => True) (fun _ => I) (fun _ _ _ _ _ => I) _ m M M' HS H)).
    intros i e ar M0 M1 H0 _ H1. split; [exact (flip_sound _ _ _ _ H0 H1) | exact I].
  Qed.

  (** a checker for [LNK] (used on concrete meshes) *)
  Definition lnkb (M : Mesh) : bool :=
    forallb (fun t => negb (tp_valid t) ||
      forallb (fun e => match tp_neighbour t e with
                        | None => true
                        | Some k => match nth_error (tris M) k with Some u => tp_valid u | None => false end
                        end) [Ab; Bc; Ca]) (tris M).
  Lemma lnkb_sound (M : Mesh) : lnkb M = true -> LNK M.
  Proof.
    unfold lnkb. intros H j t Hj Hv e k Hk. rewrite forallb_forall in H. specialize (H t (nth_error_In _ _ Hj)).
    rewrite Hv in H. cbn [negb orb] in H. rewrite forallb_forall in H.
    assert (He : In e [Ab; Bc; Ca]) by (destruct e; cbn; auto). specialize (H e He). rewrite Hk in H.
    destruct (nth_error (tris M) k) as [u|] eqn:Eu; [|discriminate]. exists u. split; [exact Eu | exact H].
  Qed.

  (** ** progress: when the coordinate comparisons of mark_as_neighbours find the shared segments, split_triangle on a
      structurally sound mesh whose children are constructible returns Ok (used for non-vacuity on the real instance) *)
  Definition shares (T1 : Tri K) (e1 : Edge) (T2 : Tri K) : Prop :=
    forall sg, tri_segment T1 (edge_as_i e1) = Ok sg -> tri_get_edge_index_from_segment T2 sg <> None.
  Lemma mark_ok_share (i1 : nat) (e1 : Edge) (i2 : nat) (T1 T2 : Tri K) (M M' : Mesh) (r : res unit) :
    lvT (skel (tris M)) i1 T1 -> lvT (skel (tris M)) i2 T2 -> i1 <> i2 -> shares T1 e1 T2 ->
    mark_as_neighbours i1 e1 i2 M = (M', r) -> r = Ok tt.
  Proof.
    intros L1 L2 Hne Hs H. destruct (lvT_slot _ _ _ L1) as (t1 & E1 & V1 & Q1). destruct (lvT_slot _ _ _ L2) as (t2 & E2 & V2 & Q2).
    destruct (mark_inv _ _ _ _ _ _ H) as [(_ & _ & Q) | (_ & _ & _ & _ & _ & _ & _ & _ & _ & _ & _ & _ & _ & -> & _)]; [exfalso | reflexivity].
    destruct (Q t1 t2 Hne E1 V1 E2 V2) as (_ & sg & Es & Ek). rewrite Q1 in Es. rewrite Q2 in Ek. exact (Hs sg Es Ek).
  Qed.
  Section TailOkRules.
    Variable sk : list (Tri K * bool).
    Definition TailOk {A} (m : MR (K:=K) A) : Prop :=
      forall M M' r, skel (tris M) = sk -> m M = (M', r) -> skel (tris M') = sk /\ exists a, r = Ok a.
    Lemma tok_ret {A} (a : A) : TailOk (mret a).
    Proof. intros M M' r Hs H. inversion H; subst M' r. split; [exact Hs | eexists; reflexivity]. Qed.
    Lemma tok_bind {A B} (m : MR A) (f : A -> MR B) : TailOk m -> (forall a, TailOk (f a)) -> TailOk (mbind m f).
    Proof.
      intros Hm Hf M M' r Hs H. apply mbind_inv in H. destruct H as [(a & M1 & H1 & H2) | [(c & H1 & ->) | (s & H1 & ->)]].
      - destruct (Hm _ _ _ Hs H1) as (A1 & _). eapply Hf; eassumption.
      - destruct (Hm _ _ _ Hs H1) as (_ & a & E). discriminate.
      - destruct (Hm _ _ _ Hs H1) as (_ & a & E). discriminate.
    Qed.
    Lemma tok_mark (i1 : nat) (e1 : Edge) (i2 : nat) (T1 T2 : Tri K) :
      lvT sk i1 T1 -> lvT sk i2 T2 -> i1 <> i2 -> shares T1 e1 T2 -> TailOk (mark_as_neighbours i1 e1 i2).
    Proof.
      intros L1 L2 Hne Hs M M' r Hsk H. subst sk. split; [exact (sk_mark _ _ _ _ _ _ H)|]. exists tt. eapply mark_ok_share; [exact L1 | exact L2 | exact Hne | exact Hs | exact H].
    Qed.
    Lemma tok_mark_opt (i1 : nat) (e1 : Edge) (o : option nat) (T1 : Tri K) :
      lvT sk i1 T1 -> (forall n, o = Some n -> i1 <> n /\ exists T2, lvT sk n T2 /\ shares T1 e1 T2) ->
      TailOk (match o with Some n => mark_as_neighbours i1 e1 n | None => mret tt end).
    Proof. intros L1 Ho. destruct o as [n|]; [destruct (Ho n eq_refl) as (Hne & T2 & L2 & Hs); eapply tok_mark; eassumption | apply tok_ret]. Qed.
    Lemma tok_constrain (site : N) (i : nat) (e : Edge) (T : Tri K) : lvT sk i T -> TailOk (mupd site i (tp_constrain e)).
    Proof.
      intros Hi M M' r Hs H. subst sk. split; [exact (sk_mupd site i (tp_constrain e) (constrain_tri e) (constrain_valid e) _ _ _ H)|].
      destruct (lvT_slot _ _ _ Hi) as (t & Et & _). assert (L : Nat.ltb i (length (tris M)) = true) by (apply Nat.ltb_lt; apply nth_error_Some; congruence).
      unfold mupd in H. rewrite L in H. inversion H. exists tt. reflexivity.
    Qed.
    Lemma tok_when (b : bool) (m : MR unit) : TailOk m -> TailOk (mwhen b m).
    Proof. intros H. destruct b; [exact H | apply tok_ret]. Qed.
  End TailOkRules.

  Lemma push_tri (a b c : V) (la : nat) (M M' : Mesh) (n : nat) :
    mesh_push a b c la M = (M', Ok n) ->
    (exists t, nth_error (tris M') n = Some t /\ tp_valid t = true /\ tri_new a b c = Ok (tp_tri t)) /\
    (forall j T, lvT (skel (tris M)) j T -> lvT (skel (tris M')) j T /\ j <> n).
  Proof.
    intros H. destruct (push_slot _ _ _ _ _ _ _ H) as (D & _ & _). split.
    - destruct (push_ok_nth _ _ _ _ _ _ _ H) as (t & Et & En & _). exists t.
      split; [exact En | split; [eapply tp_new_valid; exact Et | eapply tp_new_tri; exact Et]].
    - intros j T L. destruct (lvT_slot _ _ _ L) as (u & Eu & Vu & Qu).
      assert (Hjn : j <> n) by (intros ->; apply D; exists u; split; assumption).
      destruct (keep_push n a b c la M M' _ H j u Hjn Eu Vu) as (u' & Eu' & Vu' & Qu'). split; [|exact Hjn].
      rewrite <- Qu, <- Qu'. apply slot_lvT; assumption.
  Qed.

  Theorem split_triangle_progress (i : nat) (p : V) (M : Mesh) (t : TP) (T1 T2 T3 : Tri K) (ea eb ec : Edge) :
    WF M -> CNT M -> LNK M -> nth_error (tris M) i = Some t -> tp_valid t = true ->
    edge_of_points_err (tp_tri t) (ta (tp_tri t)) (tb (tp_tri t)) = Ok ea ->
    edge_of_points_err (tp_tri t) (tb (tp_tri t)) (tc (tp_tri t)) = Ok eb ->
    edge_of_points_err (tp_tri t) (tc (tp_tri t)) (ta (tp_tri t)) = Ok ec ->
    tri_new (tc (tp_tri t)) (ta (tp_tri t)) p = Ok T1 -> tri_new (ta (tp_tri t)) (tb (tp_tri t)) p = Ok T2 -> tri_new (tb (tp_tri t)) (tc (tp_tri t)) p = Ok T3 ->
    shares T1 Bc T2 -> shares T2 Bc T3 -> shares T3 Bc T1 ->
    (forall n u, tp_neighbour t ec = Some n -> nth_error (tris M) n = Some u -> shares T1 Ab (tp_tri u)) ->
    (forall n u, tp_neighbour t ea = Some n -> nth_error (tris M) n = Some u -> shares T2 Ab (tp_tri u)) ->
    (forall n u, tp_neighbour t eb = Some n -> nth_error (tris M) n = Some u -> shares T3 Ab (tp_tri u)) ->
    exists M', split_triangle i p M = (M', Ok tt).
  Proof.
    intros W C HL Et Ev Ea Eb Ec ET1 ET2 ET3 S12 S23 S31 Sc Sa Sb.
    pose proof (Build_st_pre M i p t ea eb ec T1 T2 T3 Et Ev Ea Eb Ec ET1 ET2 ET3) as Hp.
    destruct (split_triangle i p M) as [M' r] eqn:H. exists M'. f_equal. rewrite (split_triangle_run _ _ _ _ _ _ _ _ _ _ Hp) in H.
    destruct (st_suffix_open _ _ _ _ _ _ _ _ _ _ _ _ Hp H) as [[_ N] | (M1 & M2 & M3 & M4 & cap & abp & bcp & H1 & H2 & H3 & H4 & H')];
      [exfalso; pose proof (count_pos _ _ _ Et Ev); unfold CNT in C; lia | clear H; rename H' into H].
    pose proof (keep_invalidate i _ _ _ H1) as KP1.
    destruct (push_tri _ _ _ _ _ _ _ H2) as ((u1 & Eu1 & Vu1 & Qu1) & KP2). rewrite ET1 in Qu1. inversion Qu1 as [Q1]. clear Qu1.
    pose proof (slot_lvT _ _ _ Eu1 Vu1) as Lc2. rewrite <- Q1 in Lc2.
    destruct (push_tri _ _ _ _ _ _ _ H3) as ((u2 & Eu2 & Vu2 & Qu2) & KP3). rewrite ET2 in Qu2. inversion Qu2 as [Q2]. clear Qu2.
    pose proof (slot_lvT _ _ _ Eu2 Vu2) as La3. rewrite <- Q2 in La3. destruct (KP3 _ _ Lc2) as [Lc3 N1].
    destruct (push_tri _ _ _ _ _ _ _ H4) as ((u3 & Eu3 & Vu3 & Qu3) & KP4). rewrite ET3 in Qu3. inversion Qu3 as [Q3]. clear Qu3.
    pose proof (slot_lvT _ _ _ Eu3 Vu3) as Lb4. rewrite <- Q3 in Lb4. destruct (KP4 _ _ Lc3) as [Lc4 N2]. destruct (KP4 _ _ La3) as [La4 N3].
    assert (Hnb : forall e n, tp_neighbour t e = Some n -> exists u, nth_error (tris M) n = Some u /\ lvT (skel (tris M4)) n (tp_tri u) /\ n <> cap /\ n <> abp /\ n <> bcp).
    { intros e n En. destruct (W i t Et e n En) as [_ Hni]. destruct (HL i t Et Ev e n En) as (u & Eu & Vu). exists u. split; [exact Eu|].
      destruct (KP1 n u Hni Eu Vu) as (v1 & Ev1 & Vv1 & Qv1). pose proof (slot_lvT _ _ _ Ev1 Vv1) as L1. rewrite Qv1 in L1.
      destruct (KP2 _ _ L1) as [L2 A1]. destruct (KP3 _ _ L2) as [L3 A2]. destruct (KP4 _ _ L3) as [L4 A3]. repeat split; assumption. }
    assert (Hsh : forall j e, j = cap \/ j = abp \/ j = bcp -> forall n, tp_neighbour t e = Some n -> j <> n /\ exists u, nth_error (tris M) n = Some u /\ lvT (skel (tris M4)) n (tp_tri u)).
    { intros j e Hj n En. destruct (Hnb e n En) as (u & Eu & Lu & A1 & A2 & A3). split; [destruct Hj as [-> | [-> | ->]]; congruence | exists u; split; assumption]. }
    assert (Oc : forall n, tp_neighbour t ec = Some n -> cap <> n /\ exists T, lvT (skel (tris M4)) n T /\ shares T1 Ab T).
    { intros n E. destruct (Hsh cap ec (or_introl eq_refl) n E) as (A & u & Eu & Lu). split; [exact A | exists (tp_tri u); split; [exact Lu | exact (Sc n u E Eu)]]. }
    assert (Oa : forall n, tp_neighbour t ea = Some n -> abp <> n /\ exists T, lvT (skel (tris M4)) n T /\ shares T2 Ab T).
    { intros n E. destruct (Hsh abp ea (or_intror (or_introl eq_refl)) n E) as (A & u & Eu & Lu). split; [exact A | exists (tp_tri u); split; [exact Lu | exact (Sa n u E Eu)]]. }
    assert (Ob : forall n, tp_neighbour t eb = Some n -> bcp <> n /\ exists T, lvT (skel (tris M4)) n T /\ shares T3 Ab T).
    { intros n E. destruct (Hsh bcp eb (or_intror (or_intror eq_refl)) n E) as (A & u & Eu & Lu). split; [exact A | exists (tp_tri u); split; [exact Lu | exact (Sb n u E Eu)]]. }
    assert (G : TailOk (skel (tris M4)) (st_links cap abp bcp t ea eb ec)) by
      (unfold st_links; repeat first [ apply tok_bind; [|intros ?] | apply tok_ret | apply tok_when
                    | eapply tok_constrain; eassumption
                    | eapply tok_mark; [eassumption | eassumption | congruence | assumption]
                    | eapply tok_mark_opt; eassumption ]).
    destruct (G M4 M' r eq_refl H) as (_ & [] & ->). reflexivity.
  Qed.
End Atomic.
