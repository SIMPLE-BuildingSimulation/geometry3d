(** * C16 (R), exact tier: the origin of a transformed ray is advanced along its direction by no more than the
    reported origin error, and far enough that no point of the origin's error box lies ahead of it. *)
From Coq Require Import ZArith Reals Lra Bool List Psatz.
From G3 Require Import Model.Num Model.Base Model.Vec Model.BBox Model.Transform Theory.RInst Proofs.C06_transform.
Local Open Scope R_scope.

Definition nonneg3 (e : V) : Prop := 0 <= vx e /\ 0 <= vy e /\ 0 <= vz e.
(** [x] lies in the axis-aligned box of half-widths [e] around [o] *)
Definition in_box (o e x : V) : Prop :=
  Rabs (vx x - vx o) <= vx e /\ Rabs (vy x - vy o) <= vy e /\ Rabs (vz x - vz o) <= vz e.

Lemma nudge_eq (o d e : V) : 0 < vlen2 d ->
  nudge o d e = vadd o (vscale d (vdot (vabs d) e / vlen2 d)).
Proof.
  intros H. unfold nudge. rnum. destruct (Rltb 0 (vlen2 d)) eqn:E. reflexivity.
  apply Rltb_false in E. lra.
Qed.
Lemma nudge_zero (o d e : V) : ~ 0 < vlen2 d -> nudge o d e = o.
Proof.
  intros H. unfold nudge. rnum. destruct (Rltb 0 (vlen2 d)) eqn:E. apply Rltb_true in E. contradiction. reflexivity.
Qed.

(** no point of the error box lies ahead of the nudged origin *)
Lemma no_box_point_ahead (o d e x : V) : nonneg3 e -> 0 < vlen2 d -> in_box o e x ->
  vdot (vsub x (nudge o d e)) d <= 0.
Proof.
  intros (E1 & E2 & E3) Hd (B1 & B2 & B3). rewrite nudge_eq by exact Hd.
  destruct o as [ox oy oz], d as [dx dy dz], e as [e1 e2 e3], x as [x1 x2 x3].
  unfold vdot, vsub, vadd, vscale, vabs, vlen2 in *. cbn [vx vy vz] in *. rnum.
  set (l2 := dx * dx + dy * dy + dz * dz) in *.
  set (s := Rabs dx * e1 + Rabs dy * e2 + Rabs dz * e3).
  assert (Hl : l2 <> 0) by lra.
  replace ((x1 - (ox + dx * (s / l2))) * dx + (x2 - (oy + dy * (s / l2))) * dy + (x3 - (oz + dz * (s / l2))) * dz)
    with (((x1 - ox) * dx + (x2 - oy) * dy + (x3 - oz) * dz) - s) by (unfold l2; field; exact Hl).
  assert (A : forall a b c, Rabs a <= c -> a * b <= Rabs b * c).
  { intros a b c H. apply Rle_trans with (Rabs (a * b)). apply RRle_abs. rewrite Rabs_mult, Rmult_comm.
    apply Rmult_le_compat_l. apply Rabs_pos. exact H. }
  pose proof (A _ dx _ B1). pose proof (A _ dy _ B2). pose proof (A _ dz _ B3). unfold s. lra.
Qed.

(** the worst corner of the box is reached exactly: the advance is the smallest one with that property *)
Lemma nudge_tight (o d e : V) : 0 < vlen2 d -> vdot (vsub (nudge o d e) o) d = vdot (vabs d) e.
Proof.
  intros Hd. rewrite nudge_eq by exact Hd.
  destruct o as [ox oy oz], d as [dx dy dz], e as [e1 e2 e3].
  unfold vdot, vsub, vadd, vscale, vabs, vlen2 in *. cbn [vx vy vz] in *. rnum. field. lra.
Qed.

(** advanced by no more than the bound, in the Euclidean norm (Cauchy-Schwarz); component-wise the claim would be
    false: d = (1,1,0), e = (1,0,0) moves the origin by (1/2,1/2,0) *)
Lemma advance_bounded (o d e : V) : nonneg3 e -> vlen2 (vsub (nudge o d e) o) <= vlen2 e.
Proof.
  intros (E1 & E2 & E3).
  destruct (Rlt_dec 0 (vlen2 d)) as [Hd|Hd].
  - rewrite nudge_eq by exact Hd.
    destruct o as [ox oy oz], d as [dx dy dz], e as [e1 e2 e3].
    unfold vdot, vsub, vadd, vscale, vabs, vlen2 in *. cbn [vx vy vz] in *. rnum.
    set (l2 := dx * dx + dy * dy + dz * dz) in *.
    set (s := Rabs dx * e1 + Rabs dy * e2 + Rabs dz * e3).
    assert (Hl : l2 <> 0) by lra.
    replace ((ox + dx * (s / l2) - ox) * (ox + dx * (s / l2) - ox) + (oy + dy * (s / l2) - oy) * (oy + dy * (s / l2) - oy) +
             (oz + dz * (s / l2) - oz) * (oz + dz * (s / l2) - oz)) with (s * s / l2) by (unfold l2; field; exact Hl).
    apply Rmult_le_reg_r with l2. exact Hd.
    replace (s * s / l2 * l2) with (s * s) by (field; exact Hl).
    (* Cauchy-Schwarz with |d_i| in place of d_i *)
    assert (Q : l2 = Rabs dx * Rabs dx + Rabs dy * Rabs dy + Rabs dz * Rabs dz).
    { unfold l2. rewrite <- !Rabs_mult. rewrite !Rabs_pos_eq by nra. reflexivity. }
    rewrite Q. unfold s. generalize (Rabs dx) (Rabs dy) (Rabs dz). intros a b c.
    pose proof (Rle_0_sqr (a * e2 - b * e1)) as S1. pose proof (Rle_0_sqr (a * e3 - c * e1)) as S2.
    pose proof (Rle_0_sqr (b * e3 - c * e2)) as S3. unfold Rsqr in S1, S2, S3.
    replace ((e1 * e1 + e2 * e2 + e3 * e3) * (a * a + b * b + c * c)) with
      ((a * e1 + b * e2 + c * e3) * (a * e1 + b * e2 + c * e3) + (a * e2 - b * e1) * (a * e2 - b * e1)
       + (a * e3 - c * e1) * (a * e3 - c * e1) + (b * e3 - c * e2) * (b * e3 - c * e2)) by ring.
    lra.
  - rewrite nudge_zero by exact Hd.
    destruct o as [ox oy oz], e as [e1 e2 e3]. unfold vsub, vlen2. cbn [vx vy vz]. rnum. nra.
Qed.

Lemma nudge_facts (o d e : V) : nonneg3 e ->
  (exists dt, 0 <= dt /\ nudge o d e = vadd o (vscale d dt)) /\
  vlen2 (vsub (nudge o d e) o) <= vlen2 e /\
  (0 < vlen2 d -> forall x, in_box o e x -> vdot (vsub x (nudge o d e)) d <= 0).
Proof.
  intros N. split. destruct N as (N1 & N2 & N3). apply nudge_spec; assumption.
  split. apply advance_bounded, N. intros Hd x Hx. apply no_box_point_ahead; assumption.
Qed.

(** ** the four [*_ray*] functions: their reported origin error is non-negative, so the three facts apply *)
Lemma err_pt_nonneg (m : M) (p : V) : nonneg3 (snd (pt_with_error m p)).
Proof. exact (proj1 (abs_err_nonneg m (vx p) (vy p) (vz p) (ngamma 4) (Rlt_le _ _ (gamma_pos 4 ltac:(lia))))). Qed.
Lemma err_prop_nonneg (m : M) (p e : V) : nonneg3 (snd (pt_propagate_error m p e)).
Proof.
  destruct (err_pt_nonneg m p) as (A1 & A2 & A3). pose proof (gamma_pos 3 ltac:(lia)) as Hg.
  destruct (abs_err_nonneg m (vx e) (vy e) (vz e) (n1 + ngamma 3)%num) as (_ & B1 & B2 & B3).
  { change (0 <= 1 + @ngamma R _ 3). lra. }
  unfold pt_propagate_error, pt_with_error in *. cbn [snd] in *.
  unfold nonneg3, vadd. cbn [vx vy vz]. rnum. repeat split; lra.
Qed.

Lemma ray_by_R (m : M) (r : Ray R) :
  let '(r', oe, de) := ray_by m r in
  let o := fst (pt_with_error m (rorigin r)) in
  oe = snd (pt_with_error m (rorigin r)) /\ rdir r' = mul4x4vec m (rdir r) /\ nonneg3 oe /\
  (exists dt, 0 <= dt /\ rorigin r' = vadd o (vscale (rdir r') dt)) /\
  vlen2 (vsub (rorigin r') o) <= vlen2 oe /\
  (0 < vlen2 (rdir r') -> forall x, in_box o oe x -> vdot (vsub x (rorigin r')) (rdir r') <= 0).
Proof.
  pose proof (err_pt_nonneg m (rorigin r)) as N.
  unfold ray_by, pt_with_error, vec_with_error in *. cbn [rorigin rdir fst snd] in *.
  exact (conj eq_refl (conj eq_refl (conj N (nudge_facts _ _ _ N)))).
Qed.
Lemma ray_propagate_by_R (m : M) (r : Ray R) (oe_in de_in : V) :
  let '(r', oe, de) := ray_propagate_by m r oe_in de_in in
  let o := fst (pt_propagate_error m (rorigin r) oe_in) in
  oe = snd (pt_propagate_error m (rorigin r) oe_in) /\ rdir r' = mul4x4vec m (rdir r) /\ nonneg3 oe /\
  (exists dt, 0 <= dt /\ rorigin r' = vadd o (vscale (rdir r') dt)) /\
  vlen2 (vsub (rorigin r') o) <= vlen2 oe /\
  (0 < vlen2 (rdir r') -> forall x, in_box o oe x -> vdot (vsub x (rorigin r')) (rdir r') <= 0).
Proof.
  pose proof (err_prop_nonneg m (rorigin r) oe_in) as N.
  unfold ray_propagate_by, pt_propagate_error, vec_propagate_error, pt_with_error, vec_with_error in *. cbn [rorigin rdir fst snd] in *.
  exact (conj eq_refl (conj eq_refl (conj N (nudge_facts _ _ _ N)))).
Qed.
