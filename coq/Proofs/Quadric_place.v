(** * Quadric_place: the placement transform of [Cylinder3D::new_partial] (finding F4).
    [atan2] in polar form, then: the repaired composition [translate . rotate_z . rotate_y] maps the local
    axis point (0,0,s) to p0 + (s/|p1-p0|) (p1-p0); the composition of the pinned tree (before fix 2d11af8)
    ([translate . rotate_y . rotate_z]) does not. *)
From Coq Require Import ZArith Reals Lra Bool List Psatz.
From G3 Require Import Model.Num Model.Base Model.Vec Model.BBox Model.RoundError Model.Transform Model.Hit Model.Sphere Model.Cylinder.
From G3 Require Import Theory.RInst Theory.VecR Proofs.C06_transform Proofs.Flat_polar Proofs.Quadric_base Proofs.Quadric_sphere Proofs.Quadric_cylinder.
Local Open Scope R_scope.

Lemma atan2_polar (x y : R) : 0 < x * x + y * y ->
  cos (Ratan2 y x) = x / sqrt (x * x + y * y) /\ sin (Ratan2 y x) = y / sqrt (x * x + y * y).
Proof.
  intros Hl. destruct (Ratan2_polar x y) as (Hx & Hy & _). cbv zeta in Hx, Hy.
  pose proof (sqrt_lt_R0 _ Hl) as Hr. set (rho := sqrt (x * x + y * y)) in *.
  split; apply (Rmult_eq_reg_l rho); try lra; [rewrite <- Hx | rewrite <- Hy]; field; lra.
Qed.
Lemma atan2_00 : Ratan2 0 0 = 0.
Proof. unfold Ratan2. destruct (Rlt_dec 0 0); [lra|]. reflexivity. Qed.

Lemma to_radians_degrees (a : R) : to_radians (to_degrees a) = a.
Proof.
  unfold to_radians, to_degrees, deg_per_rad. rnum.
  assert (E : Reqb (/ IZR (2 ^ 52)) (1 / 8388608) = false).
  { unfold Reqb. destruct (Req_EM_T (/ IZR (2 ^ 52)) (1 / 8388608)) as [H|H]; [exfalso|reflexivity].
    change (IZR (2 ^ 52)) with 4503599627370496 in H. lra. }
  rewrite E. field. pose proof PI_RGT_0. lra.
Qed.

(** rotations acting on points *)
Lemma rotate_y_pt (deg : R) (p : V) : tr_pt (tr_rotate_y deg) p =
  mkV3 (cos (to_radians deg) * vx p + sin (to_radians deg) * vz p) (vy p) (- sin (to_radians deg) * vx p + cos (to_radians deg) * vz p).
Proof. apply v3_eq; unf; field. Qed.
Lemma rotate_z_pt (deg : R) (p : V) : tr_pt (tr_rotate_z deg) p =
  mkV3 (cos (to_radians deg) * vx p - sin (to_radians deg) * vy p) (sin (to_radians deg) * vx p + cos (to_radians deg) * vy p) (vz p).
Proof. apply v3_eq; unf; field. Qed.
Lemma translate_pt (x y z : R) (p : V) : tr_pt (tr_translate x y z) p = mkV3 (vx p + x) (vy p + y) (vz p + z).
Proof. apply v3_eq; unf; field. Qed.

Lemma Inv_cyl_placement (p0 p1 : V) : Inv (cyl_placement p0 p1).
Proof. unfold cyl_placement. apply Inv_mul_assign; [apply Inv_mul_assign; [apply Inv_translate | apply Inv_rotate_z] | apply Inv_rotate_y]. Qed.
Lemma Inv_cyl_placement_pinned (p0 p1 : V) : Inv (cyl_placement_pinned p0 p1).
Proof. unfold cyl_placement_pinned. apply Inv_mul_assign; [apply Inv_mul_assign; [apply Inv_translate | apply Inv_rotate_y] | apply Inv_rotate_z]. Qed.

(** ** the repaired placement maps the axis segment onto [p0, p1] *)
Theorem cyl_placement_axis (p0 p1 : V) (s : R) : 0 < vlen2 (vsub p1 p0) ->
  tr_pt (cyl_placement p0 p1) (mkV3 0 0 s) = vadd p0 (vscale (vsub p1 p0) (s / vlen (vsub p1 p0))).
Proof.
  intros Hl. unfold cyl_placement. cbv zeta.
  pose proof (Inv_translate (vx p0) (vy p0) (vz p0)) as I0.
  pose proof (Inv_rotate_z (cyl_rot_z_degrees (vsub p1 p0))) as IZ.
  pose proof (Inv_rotate_y (cyl_rot_y_degrees (vsub p1 p0))) as IY.
  rewrite (mul_assign_acts_pt _ _ _ (Inv_mul_assign _ _ I0 IZ) IY), (mul_assign_acts_pt _ _ _ I0 IZ). clear I0 IZ IY.
  rewrite rotate_y_pt, rotate_z_pt, translate_pt. cbn [vx vy vz].
  unfold cyl_rot_y_degrees, cyl_rot_z_degrees. rewrite !to_radians_degrees. rnum.
  set (l := vsub p1 p0) in *. destruct l as [lx ly lz] eqn:El. cbn [vx vy vz] in *.
  unfold vlen, vlen2 in *. cbn [vx vy vz] in *. rnum.
  set (L := sqrt (lx * lx + ly * ly + lz * lz)). set (r2 := lx * lx + ly * ly).
  assert (Hr2d : r2 = lx * lx + ly * ly) by reflexivity.
  assert (H0 : 0 <= r2) by (unfold r2; nra).
  assert (Hrho2 : sqrt r2 * sqrt r2 = r2) by (apply sqrt_sqrt; exact H0).
  assert (HL : 0 < L) by (apply sqrt_lt_R0; exact Hl).
  destruct (atan2_polar lz (sqrt r2)) as [Ct St]; [rewrite Hrho2; unfold r2; lra|].
  rewrite Hrho2 in Ct, St. replace (lz * lz + r2) with (lx * lx + ly * ly + lz * lz) in Ct, St by (unfold r2; ring).
  fold L in Ct, St. rewrite Ct, St.
  destruct p0 as [ax ay az]. unfold vadd, vscale. cbn [vx vy vz]. rnum.
  destruct (Req_dec r2 0) as [Z|NZ].
  - assert (lx = 0 /\ ly = 0) as [Ex Ey] by (rewrite Hr2d in Z; split; nra).
    clearbody L r2. subst lx ly. rewrite Z, sqrt_0, atan2_00, cos_0, sin_0. apply v3_eq; cbn [vx vy vz]; unfold Rdiv; ring.
  - assert (Hr2 : 0 < r2) by lra. destruct (atan2_polar lx ly) as [Cp Sp]; [rewrite <- Hr2d; exact Hr2|].
    fold r2 in Cp, Sp. rewrite Cp, Sp.
    assert (0 < sqrt r2) by (apply sqrt_lt_R0; exact Hr2).
    clearbody L r2. apply v3_eq; cbn [vx vy vz]; field; lra.
Qed.
Corollary cyl_placement_ends (p0 p1 : V) : 0 < vlen2 (vsub p1 p0) ->
  tr_pt (cyl_placement p0 p1) (mkV3 0 0 0) = p0 /\ tr_pt (cyl_placement p0 p1) (mkV3 0 0 (vlen (vsub p1 p0))) = p1.
Proof.
  intros Hl. rewrite !cyl_placement_axis by exact Hl.
  assert (HL : 0 < vlen (vsub p1 p0)) by (unfold vlen; rnum; apply sqrt_lt_R0; exact Hl).
  destruct p0 as [ax ay az], p1 as [bx by_ bz]. unfold vadd, vscale, vsub in *. cbn [vx vy vz] in *. rnum.
  split; apply v3_eq; cbn [vx vy vz]; field; lra.
Qed.

(** ** ... the pinned order (before fix 2d11af8) does not: cylinder from (0,0,0) to (0,2,0) ends at (2,0,0) *)
Lemma cyl_placement_pinned_witness :
  tr_pt (cyl_placement_pinned (mkV3 0 0 0) (mkV3 0 2 0)) (mkV3 0 0 2) = mkV3 2 0 0.
Proof.
  unfold cyl_placement_pinned. cbv zeta.
  pose proof (Inv_translate 0 0 0) as I0.
  pose proof (Inv_rotate_z (cyl_rot_z_degrees (vsub (mkV3 0 2 0) (mkV3 0 0 0)))) as IZ.
  pose proof (Inv_rotate_y (cyl_rot_y_degrees (vsub (mkV3 0 2 0) (mkV3 0 0 0)))) as IY.
  cbn [vx vy vz].
  rewrite (mul_assign_acts_pt _ _ _ (Inv_mul_assign _ _ I0 IY) IZ), (mul_assign_acts_pt _ _ _ I0 IY). clear I0 IZ IY.
  rewrite rotate_z_pt, rotate_y_pt, translate_pt. cbn [vx vy vz].
  unfold cyl_rot_y_degrees, cyl_rot_z_degrees. rewrite !to_radians_degrees. unfold vsub. cbn [vx vy vz]. rnum.
  replace (0 - 0) with 0 by ring. replace (2 - 0) with 2 by ring.
  replace (0 * 0 + 2 * 2) with (2 * 2) by ring. rewrite sqrt_square by lra.
  assert (E : Ratan2 2 0 = PI / 2).
  { unfold Ratan2. destruct (Rlt_dec 0 0); [lra|]. destruct (Rlt_dec 0 2); [reflexivity | lra]. }
  rewrite E, cos_PI2, sin_PI2. apply v3_eq; cbn [vx vy vz]; ring.
Qed.
Theorem cyl_placement_pinned_misplaces :
  exists p0 p1 : V, 0 < vlen2 (vsub p1 p0) /\ tr_pt (cyl_placement_pinned p0 p1) (mkV3 0 0 (vlen (vsub p1 p0))) <> p1.
Proof.
  exists (mkV3 0 0 0), (mkV3 0 2 0). split.
  - unfold vlen2, vsub. cbn [vx vy vz]. rnum. lra.
  - assert (El : vlen (vsub (mkV3 0 2 0) (mkV3 0 0 0)) = 2).
    { unfold vlen, vlen2, vsub. cbn [vx vy vz]. rnum. replace ((0 - 0) * (0 - 0) + (2 - 0) * (2 - 0) + (0 - 0) * (0 - 0)) with (2 * 2) by ring. apply sqrt_square. lra. }
    rewrite El, cyl_placement_pinned_witness. intros H. apply (f_equal vx) in H. cbn [vx] in H. lra.
Qed.

(** the constructor with the repaired placement: fields and transform *)
Lemma phi_to_radians_ok (site : N) (phi : R) : exists r, phi_to_radians site phi = Ok r.
Proof.
  unfold phi_to_radians, fclamp, n0. rnum. rcase_le 0 360 E; [|lra].
  cbn [rbind]. eexists. reflexivity.
Qed.
Theorem cyl_new_partial_places (p0 p1 : V) (radius phi_max : R) (c : Cyl R) :
  cyl_new_partial p0 p1 radius phi_max = Ok c ->
  cradius c = radius /\ czmin c = 0 /\ czmax c = vlen (vsub p1 p0) /\ ctransform c = Some (cyl_placement p0 p1).
Proof.
  unfold cyl_new_partial, cyl_new_partial_with, cyl_new_transformed, n0. rnum.
  destruct (Rltb _ _); [discriminate|]. destruct (negb _); [discriminate|].
  destruct (phi_to_radians_ok 3 phi_max) as [r ->]. cbn [rbind]. intros [= <-]. cbn [cradius czmin czmax ctransform]. tauto.
Qed.

(** ** [phi] is the polar angle of the hit about the z axis *)
Lemma phi_of_spec (p : V) :
  let rho := sqrt (vx p * vx p + vy p * vy p) in
  vx p = rho * cos (phi_of p) /\ vy p = rho * sin (phi_of p) /\ 0 <= phi_of p < 2 * PI.
Proof. exact (polar_phi_spec (vx p) (vy p)). Qed.

Lemma quadric_nonvacuous_proof :
  let ray := mkRay (mkV3 3 0 (1/2)) (mkV3 (-1) 0 0) in
  let s := mkSphere 1 (-1) 1 (2 * PI) PI 0 None in
  let c := mkCyl 1 0 2 (2 * PI) None in
  0 < sradius s /\ Quadric_sphere.sph_solvable s ray /\ 0 < cradius c /\ Quadric_cylinder.cyl_solvable c ray /\ 0 < vlen2 (vsub (mkV3 0 2 0) (mkV3 0 0 0)).
Proof.
  cbv zeta. unfold Quadric_sphere.sph_solvable, Quadric_cylinder.cyl_solvable, solvable, Quadric_sphere.sph_a, Quadric_sphere.sph_b, Quadric_sphere.sph_c,
    Quadric_cylinder.cyl_a, Quadric_cylinder.cyl_b, Quadric_cylinder.cyl_c, vlen2, vsub.
  cbn [sradius cradius rorigin rdir vx vy vz]. rnum. repeat split; try lra; intros [A B]; lra.
Qed.
