(** * Quadric_cylinder: ray / cylinder intersection on the real instance (C02, C03 part pquadric). *)
From Coq Require Import ZArith Reals Lra Bool List.
From G3 Require Import Model.Num Model.Base Model.Vec Model.BBox Model.RoundError Model.Transform Model.Hit Model.Sphere Model.Cylinder.
From G3 Require Import Theory.RInst Theory.VecR Proofs.C06_transform Proofs.Quadric_base Proofs.Quadric_sphere.
Local Open Scope R_scope.

Notation C := (Cyl R).

Definition cyl_a (ray : Ray R) : R := vx (rdir ray) * vx (rdir ray) + vy (rdir ray) * vy (rdir ray).
Definition cyl_b (ray : Ray R) : R := (vx (rdir ray) * vx (rorigin ray) + vy (rdir ray) * vy (rorigin ray)) * 2.
Definition cyl_c (c : C) (ray : Ray R) : R :=
  vx (rorigin ray) * vx (rorigin ray) + vy (rorigin ray) * vy (rorigin ray) - cradius c * cradius c.

Lemma cyl_abc_pt (c : C) (ray : Ray R) :
  cyl_abc c ray vzero vzero = (pt (cyl_a ray), pt (cyl_b ray), pt (cyl_c c ray)).
Proof.
  unfold cyl_abc. rewrite vzero_R. cbn [vx vy vz]. rewrite !af_from_ve_0, !af_mul_pt, !af_add_pt.
  rnumg. rewrite af_mul_f_pt, af_sub_f_pt. reflexivity.
Qed.

(** the infinite cylinder x^2 + y^2 = r^2 about the local z axis *)
Definition on_cyl (c : C) (q : V) : Prop := vx q * vx q + vy q * vy q = cradius c * cradius c.
Definition cyl_crossing (c : C) (ray : Ray R) (t : R) : Prop := on_cyl c (ray_project ray t).

Lemma cyl_quadratic (c : C) (ray : Ray R) (t : R) :
  let q := ray_project ray t in
  vx q * vx q + vy q * vy q - cradius c * cradius c = cyl_a ray * t * t + cyl_b ray * t + cyl_c c ray.
Proof.
  unfold cyl_a, cyl_b, cyl_c. vring.
Qed.
Lemma cyl_crossing_iff (c : C) (ray : Ray R) (t : R) :
  cyl_crossing c ray t <-> cyl_a ray * t * t + cyl_b ray * t + cyl_c c ray = 0.
Proof. unfold cyl_crossing, on_cyl. pose proof (cyl_quadratic c ray t) as H. cbv zeta in H. rewrite <- H. lra. Qed.

Lemma cyl_reproject_id (c : C) (q : V) : 0 < cradius c -> on_cyl c q -> cyl_reproject c q = q.
Proof.
  intros Hr H. unfold cyl_reproject. rnumg. unfold on_cyl in H. rewrite H, sqrt_square by lra.
  replace (cradius c / cradius c) with 1 by (field; lra). vring.
Qed.
(** re-projection puts any point off the axis on the cylinder, keeping z *)
Lemma cyl_reproject_on (c : C) (q : V) : 0 < vx q * vx q + vy q * vy q ->
  on_cyl c (cyl_reproject c q) /\ vz (cyl_reproject c q) = vz q.
Proof.
  intros Hq. unfold on_cyl, cyl_reproject. cbn [vx vy vz]. rnumg. split; [|reflexivity].
  set (L := vx q * vx q + vy q * vy q) in *.
  assert (Hs : sqrt L * sqrt L = L) by (apply sqrt_sqrt; lra).
  assert (Hp : 0 < sqrt L) by (apply sqrt_lt_R0; exact Hq).
  assert (E : (cradius c / sqrt L) * (cradius c / sqrt L) * (sqrt L * sqrt L) = cradius c * cradius c) by (field; lra).
  rewrite Hs in E. unfold L in E at 3. rewrite <- E. ring.
Qed.

Definition cyl_hit (ray : Ray R) (t : R) : V * R := let p := ray_project ray t in (p, phi_of p).
Lemma cyl_calc_crossing (c : C) (ray : Ray R) (t : R) : 0 < cradius c -> cyl_crossing c ray t ->
  cyl_calc c ray (pt t) = cyl_hit ray t.
Proof. intros Hr H. unfold cyl_calc, cyl_hit. rewrite af_as_float_pt, (cyl_reproject_id c _ Hr H). reflexivity. Qed.

Definition cyl_clips_ok (c : C) (h : V * R) : Prop :=
  czmin c <= vz (fst h) <= czmax c /\ snd h <= cphi_max c.
Lemma cyl_miss_false (c : C) (h : V * R) : cyl_miss c h = false <-> cyl_clips_ok c h.
Proof.
  destruct h as [p phi]. unfold cyl_miss, cyl_clips_ok. cbn [fst snd]. rnumg.
  rcase (vz p) (czmin c) H2; rcase (czmax c) (vz p) H4; rcase (cphi_max c) phi H5; cbn [orb]; split; intros H;
    try discriminate; try reflexivity; try lra.
Qed.

Definition cyl_t0 (c : C) (ray : Ray R) := root0 (cyl_a ray) (cyl_b ray) (cyl_c c ray).
Definition cyl_t1 (c : C) (ray : Ray R) := root1 (cyl_a ray) (cyl_b ray) (cyl_c c ray).
Definition cyl_disc (c : C) (ray : Ray R) := disc (cyl_a ray) (cyl_b ray) (cyl_c c ray).
(** [0 < a]: the ray is not parallel to the axis; and it does not start on the cylinder tangentially *)
Definition cyl_solvable (c : C) (ray : Ray R) := solvable (cyl_a ray) (cyl_b ray) (cyl_c c ray).

Lemma cyl_basic_eq (c : C) (ray : Ray R) (oe de : V) :
  cyl_basic c ray oe de = quadric_basic (cyl_abc c ray oe de) (cyl_calc c ray) (cyl_miss c).
Proof.
  unfold cyl_basic, cyl_basic_tag, quadric_basic. destruct (cyl_abc c ray oe de) as [[a b] cc].
  destruct (af_solve_quadratic a b cc) as [[t0 t1]|]; reflexivity.
Qed.

Lemma cyl_basic_spec (c : C) (ray : Ray R) : 0 < cradius c -> cyl_solvable c ray ->
  cyl_basic c ray vzero vzero =
  if Rltb (cyl_disc c ray) 0 then None else
  if Rleb (cyl_t1 c ray) 0 then None else
  if Rltb 0 (cyl_t0 c ray) then
    (if cyl_miss c (cyl_hit ray (cyl_t0 c ray))
     then (if cyl_miss c (cyl_hit ray (cyl_t1 c ray)) then None else Some (cyl_hit ray (cyl_t1 c ray)))
     else Some (cyl_hit ray (cyl_t0 c ray)))
  else (if cyl_miss c (cyl_hit ray (cyl_t1 c ray)) then None else Some (cyl_hit ray (cyl_t1 c ray))).
Proof.
  intros Hr Hs. rewrite cyl_basic_eq, cyl_abc_pt.
  exact (quadric_basic_spec _ _ _ _ _ (cyl_hit ray) _ Hs (cyl_crossing_iff c ray) (fun t => cyl_calc_crossing c ray t Hr)).
Qed.

Definition cyl_valid (c : C) (ray : Ray R) (t : R) : Prop :=
  0 < t /\ cyl_crossing c ray t /\ cyl_miss c (cyl_hit ray t) = false.
Theorem cyl_first_valid_crossing (c : C) (ray : Ray R) : 0 < cradius c -> cyl_solvable c ray ->
  match cyl_basic c ray vzero vzero with
  | Some h => exists t, cyl_valid c ray t /\ h = cyl_hit ray t /\ forall t', cyl_valid c ray t' -> t <= t'
  | None => forall t', ~ cyl_valid c ray t'
  end.
Proof.
  intros Hr Hs. rewrite cyl_basic_eq, cyl_abc_pt.
  exact (quadric_first_valid _ _ _ _ _ (cyl_hit ray) _ Hs (cyl_crossing_iff c ray) (fun t => cyl_calc_crossing c ray t Hr)).
Qed.

Theorem cyl_hit_sound (c : C) (ray : Ray R) (p : V) (phi : R) : 0 < cradius c -> cyl_solvable c ray ->
  cyl_basic c ray vzero vzero = Some (p, phi) ->
  exists t, 0 < t /\ p = ray_project ray t /\ on_cyl c p /\ phi = phi_of p /\
            czmin c <= vz p <= czmax c /\ phi <= cphi_max c.
Proof.
  intros Hr Hs E. pose proof (cyl_first_valid_crossing c ray Hr Hs) as F. rewrite E in F.
  destruct F as (t & (Hp & Cr & M) & Eh & _). exists t. split; [exact Hp|].
  unfold cyl_hit in Eh. injection Eh as -> ->. split; [reflexivity|]. split; [exact Cr|]. split; [reflexivity|].
  apply cyl_miss_false in M. exact M.
Qed.

Theorem cyl_hit_any_boxes_partial (c : C) (ray : Ray R) (oe de p : V) (phi : R) :
  cyl_basic c ray oe de = Some (p, phi) ->
  exists th : AF R, 0 < low th /\
    let q := ray_project ray (af_as_float th) in
    p = cyl_reproject c q /\ phi = phi_of p /\ czmin c <= vz p <= czmax c /\ phi <= cphi_max c /\
    (0 < vx q * vx q + vy q * vy q -> on_cyl c p /\ vz p = vz q).
Proof.
  rewrite cyl_basic_eq. intros E. apply quadric_basic_some in E. destruct E as (th & L & E & M). exists th. split; [exact L|].
  cbv zeta. unfold cyl_calc in E. injection E as -> ->. apply cyl_miss_false in M. destruct M as [Mz Mp].
  split; [reflexivity|]. split; [reflexivity|]. split; [exact Mz|]. split; [exact Mp | apply cyl_reproject_on].
Qed.

Lemma ip_info_new_c (ray : Ray R) (p du dv : V) : ip (info_new ray p du dv) = p.
Proof. apply ip_info_new. Qed.

Theorem cyl_intersect_world (c : C) (ray : Ray R) (i : Info R) (t : T) : ctransform c = Some t -> Inv t ->
  cyl_intersect c ray = Some i ->
  exists lr oe de p phi, tr_inv_ray t ray = (lr, oe, de) /\ cyl_basic c lr oe de = Some (p, phi) /\
    ip i = tr_pt t p /\ tr_inv_pt t (ip i) = p.
Proof.
  intros Ht Hi. unfold cyl_intersect, cyl_local_ray, cyl_intersect_local_ray. rewrite Ht.
  destruct (tr_inv_ray t ray) as [[lr oe] de]. destruct (cyl_basic c lr oe de) as [[p phi]|] eqn:E; [|discriminate].
  intros [= <-]. exists lr, oe, de, p, phi.
  assert (Hip : ip (info_transform (cyl_info c lr p phi) t) = tr_pt t p)
    by (unfold info_transform, cyl_info; cbn [ip]; rewrite ip_info_new; reflexivity).
  rewrite Hip. repeat split; try reflexivity; try assumption. apply inv_pt_pt. exact Hi.
Qed.
Theorem cyl_simple_intersect_world (c : C) (ray : Ray R) (P : V) (t : T) : ctransform c = Some t -> Inv t ->
  cyl_simple_intersect c ray = Some P ->
  exists lr oe de p phi, tr_inv_ray t ray = (lr, oe, de) /\ cyl_basic c lr oe de = Some (p, phi) /\
    P = tr_pt t p /\ tr_inv_pt t P = p.
Proof.
  intros Ht Hi. unfold cyl_simple_intersect, cyl_simple_local_ray, cyl_simple_intersect_local_ray. rewrite Ht.
  destruct (tr_inv_ray t ray) as [[lr oe] de]. destruct (cyl_basic c lr oe de) as [[p phi]|] eqn:E; [|discriminate].
  intros [= <-]. exists lr, oe, de, p, phi. repeat split; try reflexivity; try assumption. apply inv_pt_pt. exact Hi.
Qed.
Theorem cyl_intersect_untransformed (c : C) (ray : Ray R) (i : Info R) : ctransform c = None ->
  cyl_intersect c ray = Some i -> exists phi, cyl_basic c ray vzero vzero = Some (ip i, phi).
Proof.
  intros Ht. unfold cyl_intersect, cyl_local_ray, cyl_intersect_local_ray. rewrite Ht.
  destruct (cyl_basic c ray vzero vzero) as [[p phi]|]; [|discriminate]. intros [= <-]. exists phi.
  unfold cyl_info. rewrite ip_info_new. reflexivity.
Qed.

Lemma crossings_are_roots (s : S) (c : C) (ray : Ray R) (t : R) :
  (0 < sph_a ray -> (sph_crossing s ray t <-> 0 <= sph_disc s ray /\ (t = sph_t0 s ray \/ t = sph_t1 s ray))) /\
  (0 < cyl_a ray -> (cyl_crossing c ray t <-> 0 <= cyl_disc c ray /\ (t = cyl_t0 c ray \/ t = cyl_t1 c ray))).
Proof.
  split; intros Ha.
  - rewrite sph_crossing_iff. apply roots_complete. exact Ha.
  - rewrite cyl_crossing_iff. apply roots_complete. exact Ha.
Qed.
