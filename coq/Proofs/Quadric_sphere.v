(** * Quadric_sphere: ray / sphere intersection on the real instance (C02, C03 part pquadric). *)
From Coq Require Import ZArith Reals Lra Bool List Psatz.
From G3 Require Import Model.Num Model.Base Model.Vec Model.BBox Model.RoundError Model.Transform Model.Hit Model.Sphere.
From G3 Require Import Theory.RInst Theory.VecR Proofs.C06_transform Proofs.Quadric_base.
Local Open Scope R_scope.

Notation S := (Sphere R).

(** the coefficients of |o + t d|^2 - r^2 = a t^2 + b t + c, as the code computes them *)
Definition sph_a (ray : Ray R) : R :=
  vx (rdir ray) * vx (rdir ray) + vy (rdir ray) * vy (rdir ray) + vz (rdir ray) * vz (rdir ray).
Definition sph_b (ray : Ray R) : R :=
  (vx (rorigin ray) * vx (rdir ray) + vy (rorigin ray) * vy (rdir ray) + vz (rorigin ray) * vz (rdir ray)) * 2.
Definition sph_c (s : S) (ray : Ray R) : R :=
  vx (rorigin ray) * vx (rorigin ray) + vy (rorigin ray) * vy (rorigin ray) + vz (rorigin ray) * vz (rorigin ray)
  - sradius s * sradius s.

Lemma vzero_R : @vzero R _ = mkV3 0 0 0.
Proof. reflexivity. Qed.

Lemma sphere_abc_pt (s : S) (ray : Ray R) :
  sphere_abc s ray vzero vzero = (pt (sph_a ray), pt (sph_b ray), pt (sph_c s ray)).
Proof.
  unfold sphere_abc. rewrite vzero_R. cbn [vx vy vz]. rewrite !af_from_ve_0, !af_mul_pt, !af_add_pt.
  rnumg. rewrite af_mul_f_pt, af_sub_f_pt. reflexivity.
Qed.

(** a crossing of the ray with the full sphere at parameter [t] *)
Definition on_sphere (s : S) (q : V) : Prop := vlen2 q = sradius s * sradius s.
Definition sph_crossing (s : S) (ray : Ray R) (t : R) : Prop := on_sphere s (ray_project ray t).

Lemma sph_quadratic (s : S) (ray : Ray R) (t : R) :
  vlen2 (ray_project ray t) - sradius s * sradius s = sph_a ray * t * t + sph_b ray * t + sph_c s ray.
Proof.
  unfold sph_a, sph_b, sph_c. vring.
Qed.
Lemma sph_crossing_iff (s : S) (ray : Ray R) (t : R) :
  sph_crossing s ray t <-> sph_a ray * t * t + sph_b ray * t + sph_c s ray = 0.
Proof. unfold sph_crossing, on_sphere. rewrite <- sph_quadratic. lra. Qed.

(** ** the closure [calc_phit_and_phi] at an exact crossing *)
Lemma vlen_on_sphere (s : S) (q : V) : 0 < sradius s -> on_sphere s q -> vlen q = sradius s.
Proof. intros Hr H. unfold vlen. rewrite H. apply sqrt_square. lra. Qed.

Lemma reproject_id (s : S) (q : V) : 0 < sradius s -> on_sphere s q -> sphere_reproject s q = q.
Proof.
  intros Hr H. unfold sphere_reproject. rewrite (vlen_on_sphere s q Hr H). rnumg.
  replace (sradius s / sradius s) with 1 by (field; lra). apply vscale_1.
Qed.

(** re-projection puts any non-zero point on the sphere *)
Lemma reproject_on (s : S) (q : V) : 0 < vlen2 q -> on_sphere s (sphere_reproject s q).
Proof.
  intros Hq. unfold on_sphere, sphere_reproject. rewrite vlen2_vscale, <- (vlen_sqr q) at 1. rnumg.
  pose proof (vlen_pos q ltac:(lra)). field. lra.
Qed.

(** the reported hit for a crossing at parameter [t]: the crossing point after the pole fix-up, and its [phi] *)
Definition sph_hit (s : S) (ray : Ray R) (t : R) : V * R :=
  let p := sphere_fixup s (ray_project ray t) in (p, phi_of p).

Lemma sphere_calc_crossing (s : S) (ray : Ray R) (t : R) : 0 < sradius s -> sph_crossing s ray t ->
  sphere_calc s ray (pt t) = sph_hit s ray t.
Proof.
  intros Hr H. unfold sphere_calc, sph_hit. rewrite af_as_float_pt, (reproject_id s _ Hr H). reflexivity.
Qed.

(** the pole fix-up: identity outside the band; inside it only [x] changes, to [1e-5 r] *)
Definition in_pole_band (s : S) (q : V) : Prop := Rabs (vx q) < / 100000 * sradius s /\ Rabs (vy q) < / 100000 * sradius s.
Lemma fixup_cases (s : S) (q : V) :
  (~ in_pole_band s q /\ sphere_fixup s q = q) \/
  (in_pole_band s q /\ sphere_fixup s q = mkV3 (/ 100000 * sradius s) (vy q) (vz q)).
Proof.
  unfold sphere_fixup, in_pole_band. rewrite c1em5_R. rnumg.
  rcase (Rabs (vx q)) (/ 100000 * sradius s) Hx; rcase (Rabs (vy q)) (/ 100000 * sradius s) Hy; cbn [andb];
    [right | left | left | left]; (split; [|reflexivity]); lra.
Qed.
Lemma fixup_z (s : S) (q : V) : vz (sphere_fixup s q) = vz q.
Proof. destruct (fixup_cases s q) as [[_ ->] | [_ ->]]; reflexivity. Qed.
(** the fix-up moves a point of the sphere off the sphere by at most (1e-5 r)^2 in squared distance *)
Lemma fixup_near_sphere (s : S) (q : V) : 0 < sradius s -> on_sphere s q ->
  0 <= vlen2 (sphere_fixup s q) - sradius s * sradius s <= (/ 100000 * sradius s) * (/ 100000 * sradius s).
Proof.
  intros Hr H. destruct (fixup_cases s q) as [[_ ->] | [[Bx By] ->]].
  - rewrite H. nra.
  - revert H. unfold on_sphere. vcbn. intros H. apply Rabs_def2 in Bx. nra.
Qed.

(** the clip test, decoded *)
Definition sph_clips_ok (s : S) (h : V * R) : Prop :=
  (- sradius s < szmin s -> szmin s <= vz (fst h)) /\
  (szmax s < sradius s -> vz (fst h) <= szmax s) /\
  snd h <= sphi_max s.
Lemma sphere_miss_false (s : S) (h : V * R) : sphere_miss s h = false <-> sph_clips_ok s h.
Proof.
  destruct h as [p phi]. unfold sphere_miss, sph_clips_ok. cbn [fst snd]. rnumg.
  rcase (- sradius s) (szmin s) H1; rcase (vz p) (szmin s) H2; rcase (szmax s) (sradius s) H3;
    rcase (szmax s) (vz p) H4; rcase (sphi_max s) phi H5; cbn [andb orb]; split; intros H; try discriminate; try reflexivity;
    try (repeat split; intros; lra); destruct H as (A & B & C); lra.
Qed.

(** ** C03: [approx_basic_intersection] with zero-width error boxes *)
Definition sph_t0 (s : S) (ray : Ray R) := root0 (sph_a ray) (sph_b ray) (sph_c s ray).
Definition sph_t1 (s : S) (ray : Ray R) := root1 (sph_a ray) (sph_b ray) (sph_c s ray).
Definition sph_disc (s : S) (ray : Ray R) := disc (sph_a ray) (sph_b ray) (sph_c s ray).
Definition sph_solvable (s : S) (ray : Ray R) := solvable (sph_a ray) (sph_b ray) (sph_c s ray).

Lemma sphere_basic_eq (s : S) (ray : Ray R) (oe de : V) :
  sphere_basic s ray oe de = quadric_basic (sphere_abc s ray oe de) (sphere_calc s ray) (sphere_miss s).
Proof.
  unfold sphere_basic, sphere_basic_tag, quadric_basic. destruct (sphere_abc s ray oe de) as [[a b] c].
  destruct (af_solve_quadratic a b c) as [[t0 t1]|]; reflexivity.
Qed.

Lemma sphere_basic_spec (s : S) (ray : Ray R) : 0 < sradius s -> sph_solvable s ray ->
  sphere_basic s ray vzero vzero =
  if Rltb (sph_disc s ray) 0 then None else
  if Rleb (sph_t1 s ray) 0 then None else
  if Rltb 0 (sph_t0 s ray) then
    (if sphere_miss s (sph_hit s ray (sph_t0 s ray))
     then (if sphere_miss s (sph_hit s ray (sph_t1 s ray)) then None else Some (sph_hit s ray (sph_t1 s ray)))
     else Some (sph_hit s ray (sph_t0 s ray)))
  else (if sphere_miss s (sph_hit s ray (sph_t1 s ray)) then None else Some (sph_hit s ray (sph_t1 s ray))).
Proof.
  intros Hr Hs. rewrite sphere_basic_eq, sphere_abc_pt.
  exact (quadric_basic_spec _ _ _ _ _ (sph_hit s ray) _ Hs (sph_crossing_iff s ray) (fun t => sphere_calc_crossing s ray t Hr)).
Qed.

Definition sph_valid (s : S) (ray : Ray R) (t : R) : Prop :=
  0 < t /\ sph_crossing s ray t /\ sphere_miss s (sph_hit s ray t) = false.
Theorem sphere_first_valid_crossing (s : S) (ray : Ray R) : 0 < sradius s -> sph_solvable s ray ->
  match sphere_basic s ray vzero vzero with
  | Some h => exists t, sph_valid s ray t /\ h = sph_hit s ray t /\ forall t', sph_valid s ray t' -> t <= t'
  | None => forall t', ~ sph_valid s ray t'
  end.
Proof.
  intros Hr Hs. rewrite sphere_basic_eq, sphere_abc_pt.
  exact (quadric_first_valid _ _ _ _ _ (sph_hit s ray) _ Hs (sph_crossing_iff s ray) (fun t => sphere_calc_crossing s ray t Hr)).
Qed.

(** ** C02: what a reported hit satisfies (zero-width boxes) *)
Theorem sphere_hit_sound (s : S) (ray : Ray R) (p : V) (phi : R) : 0 < sradius s -> sph_solvable s ray ->
  sphere_basic s ray vzero vzero = Some (p, phi) ->
  exists t, 0 < t /\ let q := ray_project ray t in
    on_sphere s q /\ p = sphere_fixup s q /\ phi = phi_of p /\ sph_clips_ok s (p, phi) /\
    (~ in_pole_band s q -> p = q /\ on_sphere s p).
Proof.
  intros Hr Hs E. pose proof (sphere_first_valid_crossing s ray Hr Hs) as F. rewrite E in F.
  destruct F as (t & (Hp & C & M) & Eh & _). exists t. split; [exact Hp|]. cbv zeta.
  unfold sph_hit in Eh. injection Eh as -> ->. split; [exact C|]. split; [reflexivity|]. split; [reflexivity|].
  split; [apply sphere_miss_false; exact M|].
  intros NB. destruct (fixup_cases s (ray_project ray t)) as [[_ ->] | [B _]]; [split; [reflexivity | exact C] | contradiction].
Qed.

(** z-limits in the plain form when the stored limits are inside [-r, r] (as the constructor leaves them) *)
Lemma on_sphere_z (s : S) (q : V) : 0 < sradius s -> on_sphere s q -> - sradius s <= vz q <= sradius s.
Proof.
  intros Hr. unfold on_sphere. vcbn. intros H. split; nra.
Qed.
Corollary sphere_hit_z_range (s : S) (ray : Ray R) (p : V) (phi : R) : 0 < sradius s -> sph_solvable s ray ->
  - sradius s <= szmin s -> szmax s <= sradius s ->
  sphere_basic s ray vzero vzero = Some (p, phi) -> szmin s <= vz p <= szmax s.
Proof.
  intros Hr Hs Z0 Z1 E. destruct (sphere_hit_sound s ray p phi Hr Hs E) as (t & _ & C & Ep & _ & (A & B & _) & _).
  cbn [fst] in A, B. pose proof (on_sphere_z s _ Hr C) as Hz. rewrite <- (fixup_z s), <- Ep in Hz. split.
  - destruct (Rle_lt_or_eq_dec _ _ Z0) as [L | Eq]; [apply A; exact L | lra].
  - destruct (Rle_lt_or_eq_dec _ _ Z1) as [L | Eq]; [apply B; exact L | lra].
Qed.

(** ** any error boxes ([_partial]): on the sphere, inside the clips; the relation to the ray is the re-projection
    of the ray point at the midpoint of one of the solver's root intervals *)
Theorem sphere_hit_any_boxes_partial (s : S) (ray : Ray R) (oe de p : V) (phi : R) :
  sphere_basic s ray oe de = Some (p, phi) ->
  exists th : AF R, 0 < low th /\
    let q := ray_project ray (af_as_float th) in
    p = sphere_fixup s (sphere_reproject s q) /\ phi = phi_of p /\ sph_clips_ok s (p, phi) /\
    (0 < vlen2 q -> on_sphere s (sphere_reproject s q)).
Proof.
  rewrite sphere_basic_eq. intros E. apply quadric_basic_some in E. destruct E as (th & L & E & M). exists th. split; [exact L|].
  cbv zeta. unfold sphere_calc in E. injection E as -> ->. split; [reflexivity|]. split; [reflexivity|].
  split; [apply sphere_miss_false; exact M | apply reproject_on].
Qed.

(** ** the generic wrapper [intersect = transform . local . inv_transform_ray] *)
Lemma ip_info_new (ray : Ray R) (p du dv : V) : ip (info_new ray p du dv) = p.
Proof. unfold info_new. destruct (@get_side R NumR (vnormalize (vcross dv du)) (rdir ray)). reflexivity. Qed.

(** world hit: image of the local hit, which is recovered by the inverse transform (so the world point lies on
    the transformed surface, inside the transformed clips) *)
Theorem sphere_intersect_world (s : S) (ray : Ray R) (i : Info R) (t : T) : stransform s = Some t -> Inv t ->
  sphere_intersect s ray = Some i ->
  exists lr oe de p phi, tr_inv_ray t ray = (lr, oe, de) /\ sphere_basic s lr oe de = Some (p, phi) /\
    ip i = tr_pt t p /\ tr_inv_pt t (ip i) = p.
Proof.
  intros Ht Hi. unfold sphere_intersect, sphere_local_ray, sphere_intersect_local_ray. rewrite Ht.
  destruct (tr_inv_ray t ray) as [[lr oe] de]. destruct (sphere_basic s lr oe de) as [[p phi]|] eqn:E; [|discriminate].
  intros [= <-]. exists lr, oe, de, p, phi.
  assert (Hip : ip (info_transform (sphere_info s lr p phi) t) = tr_pt t p)
    by (unfold info_transform, sphere_info; cbn [ip]; rewrite ip_info_new; reflexivity).
  rewrite Hip. repeat split; try reflexivity; try assumption. apply inv_pt_pt. exact Hi.
Qed.
Theorem sphere_simple_intersect_world (s : S) (ray : Ray R) (P : V) (t : T) : stransform s = Some t -> Inv t ->
  sphere_simple_intersect s ray = Some P ->
  exists lr oe de p phi, tr_inv_ray t ray = (lr, oe, de) /\ sphere_basic s lr oe de = Some (p, phi) /\
    P = tr_pt t p /\ tr_inv_pt t P = p.
Proof.
  intros Ht Hi. unfold sphere_simple_intersect, sphere_simple_local_ray, sphere_simple_intersect_local_ray. rewrite Ht.
  destruct (tr_inv_ray t ray) as [[lr oe] de]. destruct (sphere_basic s lr oe de) as [[p phi]|] eqn:E; [|discriminate].
  intros [= <-]. exists lr, oe, de, p, phi. repeat split; try reflexivity; try assumption. apply inv_pt_pt. exact Hi.
Qed.
(** without a transform [intersect] calls the local intersection with zero boxes: the exact statements apply *)
Theorem sphere_intersect_untransformed (s : S) (ray : Ray R) (i : Info R) : stransform s = None ->
  sphere_intersect s ray = Some i -> exists phi, sphere_basic s ray vzero vzero = Some (ip i, phi).
Proof.
  intros Ht. unfold sphere_intersect, sphere_local_ray, sphere_intersect_local_ray. rewrite Ht.
  destruct (sphere_basic s ray vzero vzero) as [[p phi]|]; [|discriminate]. intros [= <-]. exists phi.
  unfold sphere_info. rewrite ip_info_new. reflexivity.
Qed.
