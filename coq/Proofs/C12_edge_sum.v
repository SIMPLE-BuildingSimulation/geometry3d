(** * C12 proofs, part 2: the explicit form of the hole walk, and the edge-sum identity of a splice.

    For an ANTISYMMETRIC edge functional [phi : V -> V -> G] ([phi a b = - phi b a]: the cross product [a x b] of
    the Newell / shoelace sum, the crossing contribution of the edge ab to a ray from a query point) the cyclic sum
    over the merged outline is

        csum phi (splice outer me (walk hole id)) = csum phi outer -+ csum phi hole

    (minus when the hole is wound like the outline, plus otherwise): the two bridge edges e->h and h->e cancel
    ([csum_splice] below, from [Cyclic.csum_bridge]).  The consequences for area and winding number, all holes
    folded in: Proofs/C12_region.v. *)
From Coq Require Import ZArith Reals Lra Bool List Arith Lia Ring.
From G3 Require Import Model.Num Model.Base Model.Vec Model.Segment Model.Loop Model.Polygon Model.PolyAux Theory.RInst Theory.LoopGeom Proofs.C04_reach Proofs.C12_merge.
From G3 Require Theory.Cyclic.
Import ListNotations.

Section ListFacts.
  Context {A : Type}.
  Lemma nth_skipn_add (l : list A) (d : A) : forall i j, nth i (skipn j l) d = nth (j + i) l d.
  Proof. induction l as [|a l IH]; intros i j; [rewrite skipn_nil; destruct i, j; reflexivity|]. destruct j; [reflexivity|]. cbn. apply IH. Qed.
  Lemma nth_map_seq {B} (f : nat -> B) (d : B) : forall len s k, k < len -> nth k (map f (seq s len)) d = f (s + k).
  Proof.
    induction len as [|len IH]; intros s k H; [lia|]. cbn [seq map]. destruct k; [cbn; f_equal; lia|].
    cbn [nth]. rewrite IH by lia. f_equal; lia.
  Qed.
  Lemma skipn_cons_nth (l : list A) (d : A) : forall i, i < length l -> skipn i l = nth i l d :: skipn (S i) l.
  Proof. induction l as [|a l IH]; intros i H; [cbn in H; lia|]. destruct i; [reflexivity|]. cbn [skipn nth]. apply IH. cbn in H. lia. Qed.
  Lemma firstn_S_nth (l : list A) (d : A) : forall i, i < length l -> firstn (S i) l = firstn i l ++ [nth i l d].
  Proof. induction l as [|a l IH]; intros i H; [cbn in H; lia|]. destruct i; [reflexivity|]. cbn [firstn nth app]. f_equal. apply IH. cbn in H. lia. Qed.
End ListFacts.

(** ** the walk, explicitly: forwards = the hole rotated to start at [id], then [id] again;
    backwards = the reversed hole rotated to start at [id], then [id] again *)
Section Walk.
  Context {K : Type} {NK : Num K}.
  Notation V := (V3 K).
  Lemma walk_length (sd : bool) (hvs : list V) (id : nat) : length (walk_list false sd hvs id) = S (length hvs).
  Proof. unfold walk_list. rewrite map_length, seq_length. reflexivity. Qed.
  Lemma walk_forward (hvs : list V) (id : nat) : id < length hvs ->
    walk_list false false hvs id = (skipn id hvs ++ firstn id hvs) ++ [vnth hvs id].
  Proof.
    intros Hi. set (n := length hvs). apply (nth_ext _ _ vzero vzero).
    - rewrite walk_length, !app_length, skipn_length, firstn_length. cbn [length]. fold n. lia.
    - rewrite walk_length. fold n. intros k Hk. unfold walk_list. fold n. rewrite nth_map_seq by lia. cbn [Nat.add].
      rewrite hole_index_eq by lia. unfold vnth.
      assert (Ls : length (skipn id hvs) = n - id) by (rewrite skipn_length; reflexivity).
      assert (Lf : length (firstn id hvs) = id) by (rewrite firstn_length; fold n; lia).
      destruct (Nat.ltb_spec (id + k) n) as [E|E].
      + rewrite app_nth1 by (rewrite app_length; lia). rewrite app_nth1 by lia. rewrite nth_skipn_add. reflexivity.
      + destruct (Nat.eq_dec k n) as [->|Hne].
        * rewrite app_nth2 by (rewrite app_length; lia). rewrite app_length, Ls, Lf. replace (n - (n - id + id)) with 0 by lia. cbn [nth]. f_equal; lia.
        * rewrite app_nth1 by (rewrite app_length; lia). rewrite app_nth2 by lia. rewrite Ls, nth_firstn_lt by lia. f_equal; lia.
  Qed.
  Lemma walk_rev (hvs : list V) (id : nat) : id < length hvs ->
    walk_list false true hvs id = walk_list false false (rev hvs) (length hvs - S id).
  Proof.
    intros Hi. unfold walk_list. rewrite rev_length. apply map_ext_in. intros j Hj. apply in_seq in Hj.
    rewrite !hole_index_eq by lia. unfold vnth.
    destruct (Nat.leb_spec j id); destruct (Nat.ltb_spec (length hvs - S id + j) (length hvs)); try lia;
      rewrite rev_nth by lia; f_equal; lia.
  Qed.
  Lemma walk_backward (hvs : list V) (id : nat) : id < length hvs ->
    walk_list false true hvs id = rev (skipn (S id) hvs ++ firstn (S id) hvs) ++ [vnth hvs id].
  Proof.
    intros Hi. rewrite walk_rev, walk_forward by (rewrite ?rev_length; lia).
    rewrite skipn_rev, firstn_rev, rev_app_distr. unfold vnth. rewrite rev_nth by lia.
    replace (length hvs - (length hvs - S id)) with (S id) by lia. replace (length hvs - S (length hvs - S id)) with id by lia. reflexivity.
  Qed.

  (** where the splice happens *)
  Lemma splice_above (w : list V) (me : nat) : forall l i, me < i -> splice l i me w = l.
  Proof. induction l as [|a l IH]; intros i H; cbn [splice]; [reflexivity|]. destruct (Nat.eqb_spec i me); [lia|]. f_equal. apply IH. lia. Qed.
  Lemma splice_at (w : list V) (e : V) (post : list V) : forall pre i,
    splice (pre ++ e :: post) i (i + length pre) w = pre ++ e :: w ++ e :: post.
  Proof.
    induction pre as [|a pre IH]; intros i; cbn [app length splice].
    - rewrite Nat.add_0_r, Nat.eqb_refl. rewrite splice_above by lia. reflexivity.
    - destruct (Nat.eqb_spec i (i + S (length pre))); [lia|]. f_equal. replace (i + S (length pre)) with (S i + length pre) by lia. apply IH.
  Qed.
  Lemma splice_split (w : list V) (evs : list V) (me : nat) : me < length evs ->
    splice evs 0 me w = firstn me evs ++ vnth evs me :: w ++ vnth evs me :: skipn (S me) evs.
  Proof.
    intros H. rewrite <- (firstn_skipn me evs) at 1. rewrite (skipn_cons_nth evs vzero me H).
    assert (L : length (firstn me evs) = me) by (rewrite firstn_length; lia).
    pose proof (splice_at w (nth me evs vzero) (skipn (S me) evs) (firstn me evs) 0) as S0. rewrite L in S0. exact S0.
  Qed.
  (** the merged outline in exactly the shape of [Theory/Cyclic.v: csum_bridge] (hence of
      [Shoelace.newell_bridge], [Shoelace.area2_bridge], [Winding.wn_bridge]):
        pre ++ e :: h0 :: hs ++ h0 :: e :: post
      with [h0 :: hs] the hole rotated to start at its nearest vertex (reversed first when it is wound like the outline) *)
  Theorem bridge_shape (evs hvs : list V) (me id : nat) (sd : bool) : me < length evs -> id < length hvs ->
    exists hs,
      splice evs 0 me (walk_list false sd hvs id) =
        firstn me evs ++ vnth evs me :: vnth hvs id :: hs ++ vnth hvs id :: vnth evs me :: skipn (S me) evs /\
      vnth hvs id :: hs = (if sd then rev (skipn (S id) hvs ++ firstn (S id) hvs) else skipn id hvs ++ firstn id hvs).
  Proof.
    intros Hme Hid. rewrite splice_split by exact Hme. destruct sd.
    - rewrite walk_backward by exact Hid.
      exists (rev (firstn id hvs) ++ rev (skipn (S id) hvs)).
      assert (E : rev (skipn (S id) hvs ++ firstn (S id) hvs) = vnth hvs id :: rev (firstn id hvs) ++ rev (skipn (S id) hvs)).
      { rewrite rev_app_distr, (firstn_S_nth hvs vzero id Hid), rev_app_distr. reflexivity. }
      rewrite E. split; [|reflexivity]. cbn [app]. rewrite <- !app_assoc. reflexivity.
    - rewrite walk_forward by exact Hid.
      exists (skipn (S id) hvs ++ firstn id hvs).
      assert (E : skipn id hvs ++ firstn id hvs = vnth hvs id :: skipn (S id) hvs ++ firstn id hvs).
      { rewrite (skipn_cons_nth hvs vzero id Hid). reflexivity. }
      rewrite E. split; [|reflexivity]. cbn [app]. rewrite <- !app_assoc. reflexivity.
  Qed.
End Walk.

Section CsumSplice.
  Context {K : Type} {NK : Num K}.
  Notation V := (V3 K).
  Context {G : Type} {rO rI : G} {radd rmul rsub : G -> G -> G} {ropp : G -> G}.
  Hypothesis Gth : ring_theory rO rI radd rmul rsub ropp (@eq G).
  Variable f : V -> V -> G.
  Hypothesis f_anti : forall a b : V, f a b = ropp (f b a).
  Lemma csum_splice (evs hvs : list V) (me id : nat) (sd : bool) : me < length evs -> id < length hvs ->
    Cyclic.csum rO radd f (splice evs 0 me (walk_list false sd hvs id)) =
    radd (Cyclic.csum rO radd f evs) (if sd then ropp (Cyclic.csum rO radd f hvs) else Cyclic.csum rO radd f hvs).
  Proof.
    intros Hme Hid. destruct (bridge_shape evs hvs me id sd Hme Hid) as [hs [E1 E2]]. rewrite E1.
    rewrite (Cyclic.csum_bridge Gth f f_anti). rewrite E2.
    unfold vnth at 1. rewrite <- (skipn_cons_nth evs vzero me Hme), firstn_skipn. f_equal.
    destruct sd.
    - rewrite (Cyclic.csum_rev Gth f f_anti), (Cyclic.csum_rot_app Gth), firstn_skipn. reflexivity.
    - rewrite (Cyclic.csum_rot_app Gth), firstn_skipn. reflexivity.
  Qed.
End CsumSplice.

Section EdgeSum.
  Context {A : Type}.
  Variable phi : A -> A -> R.
  Local Open Scope R_scope.

  Fixpoint path_sum (l : list A) : R :=
    match l with
    | a :: ((b :: _) as tl) => phi a b + path_sum tl
    | _ => 0
    end.
  (** the closed polygon: every edge including the closing one *)
  Definition cyc_sum (l : list A) : R := match l with [] => 0 | a :: _ => path_sum (l ++ [a]) end.

  Lemma path_sum_esum (z : A) : forall l, path_sum (l ++ [z]) = Cyclic.esum 0 Rplus phi (Cyclic.edges_to z l).
  Proof. induction l as [|a l IH]; [reflexivity|]. destruct l as [|b l]; [reflexivity|]. cbn [app path_sum] in *. rewrite IH. reflexivity. Qed.
  Lemma cyc_sum_csum (l : list A) : cyc_sum l = Cyclic.csum 0 Rplus phi l.
  Proof. destruct l as [|a l]; [reflexivity | apply path_sum_esum]. Qed.
End EdgeSum.

(** ** on the model's own functions *)
Section Model.
  Context {K : Type} {NK : Num K}.
  Notation V := (V3 K).
  Variable phi : V -> V -> R.
  Hypothesis anti : forall a b, phi a b = (- phi b a)%R.
  (** THE identity: splicing the walk of a hole into an outline adds (walk forwards) or subtracts (walk
      backwards) the hole's cyclic sum *)
  Theorem edge_sum_splice (evs hvs : list V) (me id : nat) (sd : bool) : me < length evs -> id < length hvs ->
    cyc_sum phi (splice evs 0 me (walk_list false sd hvs id)) = (cyc_sum phi evs + (if sd then - cyc_sum phi hvs else cyc_sum phi hvs))%R.
  Proof. intros Hme Hid. rewrite !cyc_sum_csum. exact (csum_splice RTheory phi anti evs hvs me id sd Hme Hid). Qed.
End Model.

(** the Newell sum of the model ([sum_cross], the numerator of Loop3D::set_area) on the real instance is the cyclic sum
    of the cross product -- so  S(merged) = S(outer) -+ S(hole)  for it.  [ring] sees the additive group of V3 R
    through the componentwise product. *)
Section Newell.
  Local Open Scope R_scope.
  Notation V := (V3 R).
  Add Ring V3R : V3_ring.

  Definition newell (vs : list V) : V := sum_cross vs (vnth vs 0) vzero.
  Lemma sum_cross_esum (first : V) : forall (vs : list V) (acc : V),
    sum_cross vs first acc = vadd acc (Cyclic.esum vzero vadd vcross (Cyclic.edges_to first vs)).
  Proof.
    induction vs as [|v tl IH]; intros acc; cbn [sum_cross Cyclic.edges_to]; [rewrite Cyclic.esum_nil; ring|].
    change (match tl with [] => first | w :: _ => w end) with (hd first tl). rewrite IH, Cyclic.esum_cons. ring.
  Qed.
  Lemma newell_csum (vs : list V) : newell vs = Cyclic.csum vzero vadd vcross vs.
  Proof. destruct vs as [|a vs]; [reflexivity|]. unfold newell, vnth, Cyclic.csum, Cyclic.edges_closed. cbn [nth]. rewrite sum_cross_esum. ring. Qed.
  Theorem newell3_splice (evs hvs : list V) (me id : nat) (sd : bool) : (me < length evs)%nat -> (id < length hvs)%nat ->
    newell (splice evs 0 me (walk_list false sd hvs id)) = vadd (newell evs) (if sd then vneg (newell hvs) else newell hvs).
  Proof. intros Hme Hid. rewrite !newell_csum. exact (csum_splice V3_ring vcross vcross_anticomm evs hvs me id sd Hme Hid). Qed.
  Theorem newell_splice (evs hvs : list V) (me id : nat) (sd : bool) : (me < length evs)%nat -> (id < length hvs)%nat ->
    let m := newell (splice evs 0 me (walk_list false sd hvs id)) in
    let s := if sd then (-1) else 1 in
    vx m = vx (newell evs) + s * vx (newell hvs) /\ vy m = vy (newell evs) + s * vy (newell hvs) /\ vz m = vz (newell evs) + s * vz (newell hvs).
  Proof.
    intros Hme Hid. cbn zeta. rewrite (newell3_splice evs hvs me id sd Hme Hid).
    destruct sd; cbn [vadd vneg vx vy vz]; rnum; repeat split; ring.
  Qed.
End Newell.
