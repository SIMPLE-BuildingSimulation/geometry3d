(** * C14, exact tier: the slab test of [bbox_intersect] read on the real instance (Thm 1).
    [slab_core] is the body of [bbox_intersect_tag] as a function of the six raw plane parameters;
    it is generic over [Num].  It is reasoned about as a fold over the three slabs ([slab_run]), which is
    what the IEEE special-value analysis (Proofs/C14_special.v) and the float tier (Proofs/C14_float.v)
    share with this file. *)
From Coq Require Import ZArith Reals Lra Bool List Psatz.
From G3 Require Import Model.Num Model.Base Model.Vec Model.BBox Theory.RInst.

Section Core.
  Context {K : Type} {NK : Num K}.
  Local Open Scope num_scope.
  (** the body of [intersect] after the six products [(face - origin) * inv_dir] *)
  Definition slab_core (x1 x2 y1 y2 z1 z2 : K) : bool * N :=
    let '(tx_min, tx_max) := if x1 >? x2 then (x2, x1) else (x1, x2) in
    if tx_max <? n0 then (false, 1%N) else
    let '(ty_min, ty_max) := if y1 >? y2 then (y2, y1) else (y1, y2) in
    if ty_max <? n0 then (false, 2%N) else
    let tx_max := tx_max * widen in
    let ty_max := ty_max * widen in
    if (tx_min >? ty_max) || (ty_min >? tx_max) then (false, 3%N) else
    let tx_min := if ty_min >? tx_min then ty_min else tx_min in
    let tx_max := if ty_max <? tx_max then ty_max else tx_max in
    let '(tz_min, tz_max) := if z1 >? z2 then (z2, z1) else (z1, z2) in
    if tz_max <? n0 then (false, 4%N) else
    let tz_max := tz_max * widen in
    if (tx_min >? tz_max) || (tz_min >? tx_max) then (false, 5%N) else
    let tx_min := if tz_min >? tx_min then tz_min else tx_min in
    let tx_max := if tz_max <? tx_max then tz_max else tx_max in
    if (tx_max >? tx_min) && (tx_max >? n0) then (true, 7%N) else (false, 6%N).

  Definition raw (face o i : K) : K := (face - o) * i.
  Lemma intersect_is_core (b : BBox K) (r : Ray K) (i : V3 K) :
    bbox_intersect_tag b r i =
    slab_core (raw (vx (bmin b)) (vx (rorigin r)) (vx i)) (raw (vx (bmax b)) (vx (rorigin r)) (vx i))
              (raw (vy (bmin b)) (vy (rorigin r)) (vy i)) (raw (vy (bmax b)) (vy (rorigin r)) (vy i))
              (raw (vz (bmin b)) (vz (rorigin r)) (vz i)) (raw (vz (bmax b)) (vz (rorigin r)) (vz i)).
  Proof. reflexivity. Qed.
End Core.

(** A running parameter interval [(lo, hi)] is opened by the x slab, narrowed by
    the y and the z slab and judged at the end; [None]: rejected on the way.  [wf] widens a far end. *)
Section Stages.
  Context {K : Type} {NK : Num K}.
  Variable wf : K -> K.
  Local Open Scope num_scope.
  Definition slab_sort (a b : K) : K * K := if a >? b then (b, a) else (a, b).
  Definition slab_init (a b : K) : option (K * K) :=
    let '(mn, mx) := slab_sort a b in if mx <? n0 then None else Some (mn, wf mx).
  Definition slab_merge (o : option (K * K)) (a b : K) : option (K * K) :=
    match o with None => None | Some (lo, hi) =>
    let '(mn, mx) := slab_sort a b in
    if mx <? n0 then None else
    if (lo >? wf mx) || (mn >? hi) then None else
    Some (if mn >? lo then mn else lo, if wf mx <? hi then wf mx else hi) end.
  Definition slab_final (o : option (K * K)) : bool :=
    match o with None => false | Some (lo, hi) => (hi >? lo) && (hi >? n0) end.
  Definition slab_run (x1 x2 y1 y2 z1 z2 : K) : bool :=
    slab_final (slab_merge (slab_merge (slab_init x1 x2) y1 y2) z1 z2).

  (** an interval whose near end is below nothing, or whose far end is above nothing (a NaN, or
      [+inf] as near end), keeps that end through every later slab and fails the last comparison *)
  Definition slab_dead (o : option (K * K)) : Prop :=
    match o with None => True | Some (lo, hi) => (forall y, lo <? y = false) \/ (forall y, y <? hi = false) end.
  Lemma dead_merge o a b : slab_dead o -> slab_dead (slab_merge o a b).
  Proof.
    destruct o as [[lo hi]|]; [|trivial]. unfold slab_merge. destruct (slab_sort a b) as [mn mx].
    destruct (mx <? n0); [exact (fun _ => I)|]. destruct (_ || _); [exact (fun _ => I)|].
    intros [D|D]; [left | right]; rewrite D; exact D.
  Qed.
  Lemma dead_final o : slab_dead o -> slab_final o = false.
  Proof. destruct o as [[lo hi]|]; [|reflexivity]. intros [D|D]; cbn [slab_final]; rewrite D; reflexivity. Qed.

  Lemma run_dead_x x1 x2 y1 y2 z1 z2 : slab_dead (slab_init x1 x2) -> slab_run x1 x2 y1 y2 z1 z2 = false.
  Proof. intros D. apply dead_final, dead_merge, dead_merge, D. Qed.
  Lemma run_dead_y x1 x2 y1 y2 z1 z2 : (forall o, slab_dead (slab_merge o y1 y2)) -> slab_run x1 x2 y1 y2 z1 z2 = false.
  Proof. intros D. apply dead_final, dead_merge, D. Qed.
  Lemma run_dead_z x1 x2 y1 y2 z1 z2 : (forall o, slab_dead (slab_merge o z1 z2)) -> slab_run x1 x2 y1 y2 z1 z2 = false.
  Proof. intros D. apply dead_final, D. Qed.

  Lemma merge_open o a b : (forall y, y <? a = false) -> (forall y, b <? y = false) -> wf b = b -> slab_merge o a b = o.
  Proof.
    intros A B W. destruct o as [[lo hi]|]; [|reflexivity]. unfold slab_merge, slab_sort.
    rewrite A, B, W, B, A. cbn [orb]. rewrite A, B. reflexivity.
  Qed.
End Stages.

Lemma core_run {K} {NK : Num K} (x1 x2 y1 y2 z1 z2 : K) :
  fst (slab_core x1 x2 y1 y2 z1 z2) = slab_run (fun t => (t * widen)%num) x1 x2 y1 y2 z1 z2.
Proof.
  unfold slab_core, slab_run, slab_init, slab_merge. fold (slab_sort x1 x2) (slab_sort y1 y2) (slab_sort z1 z2).
  destruct (slab_sort x1 x2) as [ax bx], (slab_sort y1 y2) as [ay by_], (slab_sort z1 z2) as [az bz].
  destruct (nltb bx n0); [reflexivity|]. destruct (nltb by_ n0); [reflexivity|].
  destruct (_ || _); [reflexivity|]. destruct (nltb bz n0); [reflexivity|].
  destruct (_ || _); [reflexivity|]. cbn [slab_final]. destruct (_ && _); reflexivity.
Qed.
Lemma intersect_run {K} {NK : Num K} (b : BBox K) (r : Ray K) (i : V3 K) :
  bbox_intersect b r i =
  slab_run (fun t => (t * widen)%num)
    (raw (vx (bmin b)) (vx (rorigin r)) (vx i)) (raw (vx (bmax b)) (vx (rorigin r)) (vx i))
    (raw (vy (bmin b)) (vy (rorigin r)) (vy i)) (raw (vy (bmax b)) (vy (rorigin r)) (vy i))
    (raw (vz (bmin b)) (vz (rorigin r)) (vz i)) (raw (vz (bmax b)) (vz (rorigin r)) (vz i)).
Proof. unfold bbox_intersect. rewrite intersect_is_core. apply core_run. Qed.

(** [good]: the finite floats, read as reals *)
Section Hom.
  Context {K K' : Type} {NK : Num K} {NK' : Num K'}.
  Variables (f : K -> K') (good : K -> Prop) (wf : K -> K) (wf' : K' -> K').
  Local Open Scope num_scope.
  Hypothesis Hlt : forall a b, good a -> good b -> (f a <? f b) = (a <? b).
  Hypothesis H0 : good n0 /\ f n0 = n0.
  Hypothesis Hwf : forall a, good a -> good (wf a) -> wf' (f a) = f (wf a).
  Let fo (o : option (K * K)) := option_map (fun s => (f (fst s), f (snd s))) o.
  Let goodo (o : option (K * K)) := match o with None => True | Some (lo, hi) => good lo /\ good hi end.

  Lemma sort_hom a b : good a -> good b -> good (wf a) -> good (wf b) ->
    let p := slab_sort a b in
    (good (fst p) /\ good (snd p) /\ good (wf (snd p))) /\ slab_sort (f a) (f b) = (f (fst p), f (snd p)).
  Proof. intros Ga Gb Wa Wb. unfold slab_sort. rewrite Hlt by assumption. destruct (b <? a); repeat split; assumption. Qed.

  Lemma init_hom a b : good a -> good b -> good (wf a) -> good (wf b) ->
    goodo (slab_init wf a b) /\ slab_init wf' (f a) (f b) = fo (slab_init wf a b).
  Proof.
    intros Ga Gb Wa Wb. unfold slab_init. destruct (sort_hom a b Ga Gb Wa Wb) as [(Gn & Gx & Wx) ->].
    destruct (slab_sort a b) as [mn mx]. cbn [fst snd] in *.
    rewrite <- (proj2 H0), Hlt, Hwf by (assumption || apply H0).
    destruct (mx <? n0); repeat split; assumption.
  Qed.
  Lemma merge_hom o a b : goodo o -> good a -> good b -> good (wf a) -> good (wf b) ->
    goodo (slab_merge wf o a b) /\ slab_merge wf' (fo o) (f a) (f b) = fo (slab_merge wf o a b).
  Proof.
    destruct o as [[lo hi]|]; [|repeat split]. intros [Gl Gh] Ga Gb Wa Wb. cbn [fo option_map fst snd]. unfold slab_merge.
    destruct (sort_hom a b Ga Gb Wa Wb) as [(Gn & Gx & Wx) ->].
    destruct (slab_sort a b) as [mn mx]. cbn [fst snd] in *.
    rewrite <- (proj2 H0), Hwf, !Hlt by (assumption || apply H0).
    destruct (mx <? n0); [repeat split|]. destruct (_ || _); [repeat split|].
    destruct (lo <? mn), (wf mx <? hi); repeat split; assumption.
  Qed.
  Lemma final_hom o : goodo o -> slab_final (fo o) = slab_final o.
  Proof.
    destruct o as [[lo hi]|]; [|reflexivity]. intros [Gl Gh]. cbn [fo option_map fst snd slab_final].
    rewrite <- (proj2 H0), !Hlt by (assumption || apply H0). reflexivity.
  Qed.

  Lemma run_hom x1 x2 y1 y2 z1 z2 : good x1 -> good x2 -> good y1 -> good y2 -> good z1 -> good z2 ->
    good (wf x1) -> good (wf x2) -> good (wf y1) -> good (wf y2) -> good (wf z1) -> good (wf z2) ->
    slab_run wf' (f x1) (f x2) (f y1) (f y2) (f z1) (f z2) = slab_run wf x1 x2 y1 y2 z1 z2.
  Proof.
    intros. unfold slab_run.
    destruct (init_hom x1 x2) as [Gx ->]; try assumption.
    destruct (merge_hom (slab_init wf x1 x2) y1 y2) as [Gy ->]; try assumption.
    destruct (merge_hom (slab_merge wf (slab_init wf x1 x2) y1 y2) z1 z2) as [Gz ->]; try assumption.
    apply final_hom, Gz.
  Qed.
End Hom.

Local Open Scope R_scope.
Notation V := (V3 R).

Definition gR : R := @gamma3 R _.
Definition wR : R := @widen R _.
Lemma gR_pos : 0 < gR.
Proof.
  unfold gR, gamma3, ngamma. rnum.
  assert (E : 0 < / IZR (2 ^ 52)) by (apply Rinv_0_lt_compat, IZR_lt; reflexivity).
  assert (E2 : / IZR (2 ^ 52) < / 1000).
  { apply Rinv_lt_contravar; [apply Rmult_lt_0_compat; [lra | apply IZR_lt; reflexivity] | apply IZR_lt; reflexivity]. }
  apply Rdiv_lt_0_compat; lra.
Qed.
Lemma wR_eq : wR = 1 + 2 * gR.
Proof. unfold wR, widen, gR. rnum. reflexivity. Qed.
Lemma wR_gt1 : 1 < wR.
Proof. rewrite wR_eq. pose proof gR_pos. lra. Qed.

Lemma slab_sort_R (a b : R) : slab_sort a b = (Rmin a b, Rmax a b).
Proof. unfold slab_sort, Rmin, Rmax. rnum. rcase b a H; destruct (Rle_dec a b); reflexivity || lra. Qed.

Lemma run_true_iff (wf : R -> R) (x1 x2 y1 y2 z1 z2 : R) :
  let m := Rmax (Rmax (Rmin x1 x2) (Rmin y1 y2)) (Rmin z1 z2) in
  let M := Rmin (Rmin (wf (Rmax x1 x2)) (wf (Rmax y1 y2))) (wf (Rmax z1 z2)) in
  slab_run wf x1 x2 y1 y2 z1 z2 = true <->
  (0 <= Rmax x1 x2 /\ 0 <= Rmax y1 y2 /\ 0 <= Rmax z1 z2) /\ m < M /\ 0 < M.
Proof.
  unfold slab_run, slab_init, slab_merge, slab_final. rewrite !slab_sort_R. rnum.
  set (ax := Rmin x1 x2). set (ay := Rmin y1 y2). set (az := Rmin z1 z2).
  set (bx := Rmax x1 x2). set (by_ := Rmax y1 y2). set (bz := Rmax z1 z2).
  set (Bx := wf bx). set (By := wf by_). set (Bz := wf bz).
  pose proof (Rmax_l ax ay). pose proof (Rmax_r ax ay). pose proof (Rmax_l (Rmax ax ay) az). pose proof (Rmax_r (Rmax ax ay) az).
  pose proof (Rmin_l Bx By). pose proof (Rmin_r Bx By). pose proof (Rmin_l (Rmin Bx By) Bz). pose proof (Rmin_r (Rmin Bx By) Bz).
  assert (E1 : forall u v : R, (if Rltb u v then u else v) = Rmin v u).
  { intros u v. unfold Rmin. rcase u v Huv; destruct (Rle_dec v u); reflexivity || lra. }
  assert (E2 : forall u v : R, (if Rltb v u then u else v) = Rmax v u).
  { intros u v. unfold Rmax. rcase v u Huv; destruct (Rle_dec v u); reflexivity || lra. }
  cbv zeta.
  (* every early exit contradicts one of the bounds on the right; the last two comparisons are the bounds *)
  rcase bx 0 Px; [split; [discriminate | lra]|].
  rcase by_ 0 Py; [split; [discriminate | lra]|].
  rcase By ax Q1; [split; [discriminate | lra]|]. rcase Bx ay Q2; [split; [discriminate | lra]|]. cbn [orb].
  rewrite E1, E2.
  rcase bz 0 Pz; [split; [discriminate | lra]|].
  rcase Bz (Rmax ax ay) Q3; [split; [discriminate | lra]|]. rcase (Rmin Bx By) az Q4; [split; [discriminate | lra]|]. cbn [orb].
  rewrite E1, E2.
  rcase (Rmax (Rmax ax ay) az) (Rmin (Rmin Bx By) Bz) Q5; [|split; [discriminate | lra]].
  rcase 0 (Rmin (Rmin Bx By) Bz) Q6; [|split; [discriminate | lra]].
  split; [intros _; lra | reflexivity].
Qed.

(** the form in which the float tier supplies it: every near end below every widened far end *)
Lemma run_true_of_pairs (wf : R -> R) (x1 x2 y1 y2 z1 z2 : R) :
  let ax := Rmin x1 x2 in let bx := Rmax x1 x2 in let ay := Rmin y1 y2 in let by_ := Rmax y1 y2 in
  let az := Rmin z1 z2 in let bz := Rmax z1 z2 in
  (0 < bx <= wf bx) -> (0 < by_ <= wf by_) -> (0 < bz <= wf bz) ->
  (ax < wf bx /\ ax < wf by_ /\ ax < wf bz) -> (ay < wf bx /\ ay < wf by_ /\ ay < wf bz) ->
  (az < wf bx /\ az < wf by_ /\ az < wf bz) ->
  slab_run wf x1 x2 y1 y2 z1 z2 = true.
Proof.
  intros ax bx ay by_ az bz Px Py Pz (X1 & X2 & X3) (Y1 & Y2 & Y3) (Z1 & Z2 & Z3).
  apply run_true_iff. fold ax bx ay by_ az bz. split; [lra|].
  split; repeat apply Rmin_glb_lt; repeat apply Rmax_lub_lt; assumption || lra.
Qed.

Inductive axis := AX | AY | AZ.
Definition crd (a : axis) (v : V) : R := match a with AX => vx v | AY => vy v | AZ => vz v end.
(** what the caller supplies: the component-wise reciprocal, computed with the model's division *)
Definition inv_dir (d : V) : V := mkV3 (n1 / vx d)%num (n1 / vy d)%num (n1 / vz d)%num.
Definition generic_dir (r : Ray R) : Prop := forall a, crd a (rdir r) <> 0.
Definition In_box (b : BBox R) (p : V) : Prop := forall a, crd a (bmin b) <= crd a p <= crd a (bmax b).
Definition wellformed (b : BBox R) : Prop := forall a, crd a (bmin b) <= crd a (bmax b).
(** parameters at which the ray crosses the two planes of slab [a], sorted *)
Definition t_lo (b : BBox R) (r : Ray R) (a : axis) : R := (crd a (bmin b) - crd a (rorigin r)) / crd a (rdir r).
Definition t_hi (b : BBox R) (r : Ray R) (a : axis) : R := (crd a (bmax b) - crd a (rorigin r)) / crd a (rdir r).
Definition t_near b r a := Rmin (t_lo b r a) (t_hi b r a).
Definition t_far b r a := Rmax (t_lo b r a) (t_hi b r a).
(** the box with every face pushed outwards by 2 gamma3 |face - origin| *)
Definition push_lo (m o : R) := m - 2 * gR * Rabs (m - o).
Definition push_hi (m o : R) := m + 2 * gR * Rabs (m - o).
Definition widened (b : BBox R) (o : V) : BBox R :=
  mkBBox (mkV3 (push_lo (vx (bmin b)) (vx o)) (push_lo (vy (bmin b)) (vy o)) (push_lo (vz (bmin b)) (vz o)))
         (mkV3 (push_hi (vx (bmax b)) (vx o)) (push_hi (vy (bmax b)) (vy o)) (push_hi (vz (bmax b)) (vz o))).

Lemma raw_R (f o d : R) : raw f o (n1 / d)%num = (f - o) / d.
Proof. unfold raw. rnum. unfold Rdiv. ring. Qed.

Lemma all_axes (P : axis -> Prop) : (forall a, P a) <-> P AX /\ P AY /\ P AZ.
Proof. split; [intros H; repeat split; apply H | intros (?&?&?) []; assumption]. Qed.
Lemma crd_project (r : Ray R) (t : R) (a : axis) :
  crd a (ray_project r t) = crd a (rorigin r) + crd a (rdir r) * t.
Proof. destruct a; unfold ray_project, vadd, vscale; cbn [crd vx vy vz]; rnum; reflexivity. Qed.
Lemma crd_widened (b : BBox R) (o : V) (a : axis) :
  crd a (bmin (widened b o)) = push_lo (crd a (bmin b)) (crd a o) /\
  crd a (bmax (widened b o)) = push_hi (crd a (bmax b)) (crd a o).
Proof. destruct a; split; reflexivity. Qed.

Theorem intersect_characterised (b : BBox R) (r : Ray R) :
  bbox_intersect b r (inv_dir (rdir r)) = true <->
  exists t, 0 < t /\ forall a, t_near b r a <= t < wR * t_far b r a.
Proof.
  rewrite intersect_run. unfold inv_dir. cbn [vx vy vz]. rewrite !raw_R, run_true_iff. fold wR.
  change (((0 <= t_far b r AX /\ 0 <= t_far b r AY /\ 0 <= t_far b r AZ) /\
           Rmax (Rmax (t_near b r AX) (t_near b r AY)) (t_near b r AZ) <
           Rmin (Rmin (t_far b r AX * wR) (t_far b r AY * wR)) (t_far b r AZ * wR) /\
           0 < Rmin (Rmin (t_far b r AX * wR) (t_far b r AY * wR)) (t_far b r AZ * wR)) <->
          exists t, 0 < t /\ forall a, t_near b r a <= t < wR * t_far b r a).
  set (ax := t_near b r AX). set (ay := t_near b r AY). set (az := t_near b r AZ).
  set (Bx := t_far b r AX * wR). set (By := t_far b r AY * wR). set (Bz := t_far b r AZ * wR).
  pose proof wR_gt1 as W.
  pose proof (Rmax_l ax ay). pose proof (Rmax_r ax ay). pose proof (Rmax_l (Rmax ax ay) az). pose proof (Rmax_r (Rmax ax ay) az).
  pose proof (Rmin_l Bx By). pose proof (Rmin_r Bx By). pose proof (Rmin_l (Rmin Bx By) Bz). pose proof (Rmin_r (Rmin Bx By) Bz).
  split.
  - (* any point of the interval beyond 0 will do: the middle of [max m 0, M] *)
    intros (_ & mM & M0). set (m := Rmax (Rmax ax ay) az) in *. set (M := Rmin (Rmin Bx By) Bz) in *.
    pose proof (Rmax_l m 0). pose proof (Rmax_r m 0).
    assert (Rmax m 0 < M) by (apply Rmax_lub_lt; assumption).
    exists ((Rmax m 0 + M) / 2). split; [lra|]. apply all_axes. fold ax ay az. unfold Bx, By, Bz in *. repeat split; lra.
  - intros (t & Pt & Ht). apply all_axes in Ht. fold ax ay az in Ht. destruct Ht as ((X1&X2)&(Y1&Y2)&(Z1&Z2)).
    assert (t < Rmin (Rmin Bx By) Bz) by (unfold Bx, By, Bz; repeat apply Rmin_glb_lt; lra).
    assert (Rmax (Rmax ax ay) az <= t) by (repeat apply Rmax_lub; assumption).
    assert (P : forall f, t < wR * f -> 0 <= f) by (intros f Hf; nra).
    repeat split; try lra; apply P; assumption.
Qed.

(** one slab: a point of the ray at [t > 0] inside the slab shrunk, relative to the origin, by the
    fraction [v] of each face distance lies in the parameter interval with the relative margin [v] *)
Lemma slab_margin (mn mx o d t v : R) : 0 <= v <= 1 -> d <> 0 -> 0 < t ->
  mn + v * Rabs (mn - o) <= o + d * t <= mx - v * Rabs (mx - o) ->
  let A := Rmin ((mn - o) / d) ((mx - o) / d) in let B := Rmax ((mn - o) / d) ((mx - o) / d) in
  (0 < A -> A * (1 + v) <= t) /\ A <= t /\ t * (1 + v) <= B /\ t <= B.
Proof.
  intros Hv Hd Ht [H1 H2].
  set (T1 := (mn - o) / d). set (T2 := (mx - o) / d).
  assert (E1 : T1 * d = mn - o) by (unfold T1; field; exact Hd).
  assert (E2 : T2 * d = mx - o) by (unfold T2; field; exact Hd).
  clearbody T1 T2. cbv zeta.
  pose proof (Rabs_pos (mn - o)) as P1. pose proof (Rabs_pos (mx - o)) as P2.
  assert (Q1 : 0 <= v * Rabs (mn - o)) by (apply Rmult_le_pos; lra).
  assert (Q2 : 0 <= v * Rabs (mx - o)) by (apply Rmult_le_pos; lra).
  destruct (Rlt_dec 0 d) as [Dp|Dn].
  - assert (T12 : T1 <= T2) by nra. rewrite Rmin_left, Rmax_right by lra.
    assert (Mp : 0 < mx - o) by nra. rewrite (Rabs_pos_eq (mx - o)) in H2 by lra.
    assert (U : t <= T2 * (1 - v)). { apply Rmult_le_reg_r with d; [exact Dp|]. nra. }
    assert (T2p : 0 < T2) by nra.
    split; [|split; [nra | split; nra]].
    intros A0. assert (0 < mn - o) by nra. rewrite (Rabs_pos_eq (mn - o)) in H1 by lra.
    apply Rmult_le_reg_r with d; [exact Dp|]. nra.
  - assert (Dn' : d < 0) by lra. assert (T12 : T2 <= T1) by nra. rewrite Rmin_right, Rmax_left by lra.
    assert (Mp : mn - o < 0) by nra. rewrite (Rabs_left (mn - o)) in H1 by lra.
    assert (U : t <= T1 * (1 - v)). { apply Rmult_le_reg_r with (- d); [lra|]. nra. }
    assert (T1p : 0 < T1) by nra.
    split; [|split; [nra | split; nra]].
    intros A0. assert (mx - o < 0) by nra. rewrite (Rabs_left (mx - o)) in H2 by lra.
    apply Rmult_le_reg_r with (- d); [lra|]. nra.
Qed.

Lemma slab_complete (mn mx o d t : R) : d <> 0 -> 0 < t -> mn <= o + d * t <= mx ->
  Rmin ((mn - o) / d) ((mx - o) / d) <= t < wR * Rmax ((mn - o) / d) ((mx - o) / d).
Proof.
  intros Hd Ht H. pose proof wR_gt1 as W.
  destruct (slab_margin mn mx o d t 0 ltac:(lra) Hd Ht) as (_ & A & _ & B); [lra|]. split; [exact A | nra].
Qed.

Theorem complete (b : BBox R) (r : Ray R) (t : R) :
  generic_dir r -> 0 < t -> In_box b (ray_project r t) -> bbox_intersect b r (inv_dir (rdir r)) = true.
Proof.
  intros G Ht Hin. apply intersect_characterised. exists t. split; [exact Ht|].
  intros a. specialize (Hin a). rewrite crd_project in Hin. exact (slab_complete _ _ _ _ _ (G a) Ht Hin).
Qed.

(** one slab, soundness: a parameter inside the widened interval gives a point inside the widened slab *)
Lemma slab_sound (mn mx o d t : R) : mn <= mx -> d <> 0 -> 0 < t ->
  Rmin ((mn - o) / d) ((mx - o) / d) <= t < wR * Rmax ((mn - o) / d) ((mx - o) / d) ->
  push_lo mn o <= o + d * t <= push_hi mx o.
Proof.
  intros Hb Hd Ht. pose proof gR_pos as G. rewrite wR_eq. unfold push_lo, push_hi.
  set (T1 := (mn - o) / d). set (T2 := (mx - o) / d).
  assert (E1 : T1 * d = mn - o) by (unfold T1; field; exact Hd).
  assert (E2 : T2 * d = mx - o) by (unfold T2; field; exact Hd).
  clearbody T1 T2.
  pose proof (Rabs_pos (mn - o)) as A1. pose proof (Rabs_pos (mx - o)) as A2.
  destruct (Rlt_dec 0 d) as [Dp|Dn].
  - assert (T12 : T1 <= T2) by nra.
    rewrite Rmin_left, Rmax_right by lra. intros [L U].
    assert (T2p : 0 < T2) by nra. assert (Mp : 0 < mx - o) by nra.
    rewrite (Rabs_pos_eq (mx - o)) by lra. split; [nra|].
    assert (d * t <= (1 + 2 * gR) * (mx - o)); [|lra]. rewrite <- E2. nra.
  - assert (Dn' : d < 0) by lra. assert (T12 : T2 <= T1) by nra.
    rewrite Rmin_right, Rmax_left by lra. intros [L U].
    assert (T1p : 0 < T1) by nra. assert (Mp : mn - o < 0) by nra.
    rewrite (Rabs_left (mn - o)) by lra. split; [|nra].
    assert ((1 + 2 * gR) * (mn - o) <= d * t); [|lra]. rewrite <- E1. nra.
Qed.

Theorem sound (b : BBox R) (r : Ray R) :
  wellformed b -> generic_dir r -> bbox_intersect b r (inv_dir (rdir r)) = true ->
  exists t, 0 < t /\ In_box (widened b (rorigin r)) (ray_project r t).
Proof.
  intros Wf G H. apply intersect_characterised in H. destruct H as (t & Ht & H). exists t. split; [exact Ht|].
  intros a. rewrite crd_project, (proj1 (crd_widened _ _ a)), (proj2 (crd_widened _ _ a)).
  exact (slab_sound _ _ _ _ _ (Wf a) (G a) Ht (H a)).
Qed.

(** completeness cannot be extended to [t = 0]: a ray that only touches the box at its origin
    (origin on a flat box, or on a face and leaving) is rejected *)
Lemma touching_at_origin_rejected :
  exists (b : BBox R) (r : Ray R), generic_dir r /\ wellformed b /\ In_box b (ray_project r 0) /\
    bbox_intersect b r (inv_dir (rdir r)) = false.
Proof.
  exists (mkBBox (mkV3 0 0 0) (mkV3 0 1 1)), (mkRay (mkV3 0 (/2) (/2)) (mkV3 1 1 1)).
  split; [intros []; cbn; lra|]. split; [intros []; cbn; lra|].
  split; [intros []; unfold ray_project, vadd, vscale; cbn; rnum; lra|].
  destruct (bbox_intersect _ _ _) eqn:E; [|reflexivity]. exfalso.
  apply intersect_characterised in E. destruct E as (t & Ht & H). specialize (H AX).
  unfold t_far, t_near, t_lo, t_hi in H. cbn [crd vx bmin bmax rorigin rdir] in H.
  replace ((0 - 0) / 1) with 0 in H by field. rewrite Rmax_left in H by lra. lra.
Qed.

(** non-vacuity: a concrete flat box and a ray through it *)
Lemma nonvacuous :
  let b := mkBBox (mkV3 0 0 0) (mkV3 0 1 1) in let r := mkRay (mkV3 (-1) (/2) (/4)) (mkV3 1 (/8) (/8)) in
  generic_dir r /\ wellformed b /\ 0 < 1 /\ In_box b (ray_project r 1).
Proof.
  cbv zeta. split; [intros []; cbn; lra|]. split; [intros []; cbn; lra|]. split; [lra|].
  intros []; unfold ray_project, vadd, vscale; cbn; rnum; lra.
Qed.
