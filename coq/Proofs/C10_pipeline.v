(** * C10 proofs: through the construction pipeline (push* / close).
    What the stored vertex list is after pushing a sequence of points, in the two situations the
    property speaks about: an outline all of whose corners are genuine (then the stored list IS the
    input, so a cyclically shifted input gives the cyclically shifted list), and a redundant point
    lying exactly on the edge being drawn (then the state is the same as without it). *)
From Coq Require Import ZArith Reals Lra Lia Bool List Arith Psatz.
From G3 Require Import Model.Num Model.Base Model.Vec Model.Segment Model.Loop Theory.RInst Theory.LoopGeom Proofs.C04_loop Proofs.C04_reach.
Import ListNotations.
Local Open Scope R_scope.

(** the effect of an accepted [push] on the vertex list alone *)
Definition push_verts (vs : list V) (p : V) : res (list V) :=
  let n := length vs in
  if Nat.leb 2 n then
    if vcompare (vnth vs (n - 2)) p then Ok (removelast vs) else
    do keep <- push_keep vs p n n; Ok (firstn keep vs ++ [p])
  else Ok (vs ++ [p]).

Lemma push_ok_verts (L L' : Loop R) (p : V) : loop_push L p = Ok L' -> push_verts (verts L) p = Ok (verts L').
Proof. intros H. exact (proj1 (proj2 (push_with_ok tail_live true L L' p H))). Qed.

(** the last two entries of a list *)
Lemma vnth_last2 (l : list V) (x a : V) :
  vnth (l ++ [x; a]) (length (l ++ [x; a]) - 2) = x /\ vnth (l ++ [x; a]) (length (l ++ [x; a]) - 1) = a.
Proof.
  unfold vnth. rewrite app_length. cbn [length]. split.
  - replace (length l + 2 - 2)%nat with (length l + 0)%nat by lia. rewrite app_nth2_plus. reflexivity.
  - replace (length l + 2 - 1)%nat with (length l + 1)%nat by lia. rewrite app_nth2_plus. reflexivity.
Qed.
Lemma push_keep_step (vs : list V) (p : V) (keep f : nat) : (2 <= keep)%nat ->
  push_keep vs p keep (S f) = do col <- is_collinear (vnth vs (keep - 2)) (vnth vs (keep - 1)) p;
                             if col then push_keep vs p (keep - 1) f else Ok keep.
Proof. intros H. cbn [push_keep]. apply Nat.leb_le in H. rewrite H. reflexivity. Qed.
(** the corner at the last vertex is genuine: the point is appended *)
Lemma push_verts_append (vs : list V) (p : V) :
  ((2 <= length vs)%nat -> is_collinear (vnth vs (length vs - 2)) (vnth vs (length vs - 1)) p = Ok false) ->
  push_verts vs p = Ok (vs ++ [p]).
Proof.
  intros C. unfold push_verts. destruct (Nat.leb_spec 2 (length vs)) as [H2|H2]; [|reflexivity]. specialize (C H2).
  rewrite (proj1 (proj2 (is_collinear_false_distinct _ _ _ C))).
  destruct (length vs) as [|n] eqn:En; [lia|]. rewrite push_keep_step, C by lia. cbn [rbind]. rewrite <- En, firstn_all. reflexivity.
Qed.
Lemma push_verts_last2 (l : list V) (x a p : V) : is_collinear x a p = Ok false -> push_verts (l ++ [x; a]) p = Ok (l ++ [x; a; p]).
Proof.
  intros C. rewrite push_verts_append; [rewrite <- app_assoc; reflexivity|].
  intros _. destruct (vnth_last2 l x a) as [-> ->]. exact C.
Qed.
(** the last vertex is redundant and the corner it exposes is genuine: the point replaces the last vertex *)
Lemma push_verts_last3 (l : list V) (w x a p : V) : vcompare x p = false -> is_collinear x a p = Ok true -> is_collinear w x p = Ok false ->
  push_verts (l ++ [w; x; a]) p = Ok (l ++ [w; x; p]).
Proof.
  intros Hxp C1 C2. unfold push_verts.
  replace (l ++ [w; x; a]) with ((l ++ [w]) ++ [x; a]) by (rewrite <- app_assoc; reflexivity).
  destruct (vnth_last2 (l ++ [w]) x a) as [E1 E2]. rewrite E1.
  assert (Hn : length ((l ++ [w]) ++ [x; a]) = S (S (S (length l)))) by (rewrite !app_length; cbn [length]; lia).
  assert (Hl : Nat.leb 2 (length ((l ++ [w]) ++ [x; a])) = true) by (apply Nat.leb_le; lia).
  rewrite Hl, Hxp. rewrite Hn at 2. rewrite push_keep_step by lia. rewrite E1, E2, C1. cbn [rbind].
  rewrite Hn. replace (S (S (S (length l))) - 1)%nat with (S (S (length l))) by lia. rewrite push_keep_step by lia.
  replace ((l ++ [w]) ++ [x; a]) with ((l ++ [w; x]) ++ [a]) by (rewrite <- !app_assoc; reflexivity).
  assert (F1 : vnth ((l ++ [w; x]) ++ [a]) (S (S (length l)) - 2) = w).
  { unfold vnth. rewrite app_nth1 by (rewrite app_length; cbn [length]; lia). replace (S (S (length l)) - 2)%nat with (length l + 0)%nat by lia. rewrite app_nth2_plus. reflexivity. }
  assert (F2 : vnth ((l ++ [w; x]) ++ [a]) (S (S (length l)) - 1) = x).
  { unfold vnth. rewrite app_nth1 by (rewrite app_length; cbn [length]; lia). replace (S (S (length l)) - 1)%nat with (length l + 1)%nat by lia. rewrite app_nth2_plus. reflexivity. }
  rewrite F1, F2, C2. cbn [rbind].
  replace (S (S (length l))) with (length (l ++ [w; x]) + 0)%nat by (rewrite app_length; cbn [length]; lia).
  rewrite firstn_app_2. cbn [firstn]. rewrite app_nil_r, <- app_assoc. reflexivity.
Qed.

(** ** a point exactly on the segment from a towards b is collinear for the library's test
    (unless all three points coincide within 1e-5, the one case in which the test refuses to answer) *)
Lemma is_collinear_on_line (a b : V) (s : R) :
  let m := vadd a (vscale (vsub b a) s) in
  vcompare a m && vcompare a b = false -> is_collinear a m b = Ok true.
Proof.
  cbn zeta. intros Hc. apply is_collinear_cross0; [vring | exact Hc].
Qed.

(** ** a redundant point m exactly on the edge a -> b being drawn: pushing m and then b leaves the loop in
    exactly the state that pushing b alone produces (x = the vertex before a).  Hypotheses: the corner at a
    is genuine for the library's test, towards m as well as towards b (|cross| >= 1e-5, the collinearity
    tolerance -- otherwise m REPLACES a and the outline loses a vertex), and the pushes are accepted. *)
Theorem push_via_edge_point (L L1 L2 L2' : Loop R) (l : list V) (x a b : V) (s : R) :
  let m := vadd a (vscale (vsub b a) s) in
  verts L = l ++ [x; a] ->
  is_collinear x a m = Ok false -> is_collinear x a b = Ok false ->
  vcompare a m && vcompare a b = false ->
  loop_push L m = Ok L1 -> loop_push L1 b = Ok L2 -> loop_push L b = Ok L2' ->
  verts L2 = l ++ [x; a; b] /\ verts L2' = verts L2.
Proof.
  cbn zeta. intros Hv C1 C2 Hc P1 P2 P3.
  apply push_ok_verts in P1. apply push_ok_verts in P2. apply push_ok_verts in P3.
  destruct (is_collinear_false_distinct _ _ _ C2) as (_ & _ & Dab).
  rewrite Hv in P1, P3. rewrite (push_verts_last2 _ _ _ _ C1) in P1. rewrite (push_verts_last2 _ _ _ _ C2) in P3.
  injection P1 as P1. injection P3 as P3.
  rewrite <- P1 in P2. rewrite (push_verts_last3 l x a _ b Dab (is_collinear_on_line a b s Hc) C2) in P2. injection P2 as P2.
  split; [symmetry; exact P2|]. rewrite <- P3, <- P2. reflexivity.
Qed.

(** ** an outline all of whose corners are genuine: every accepted push appends *)
Fixpoint push_list (L : Loop R) (pts : list V) : res (Loop R) :=
  match pts with [] => Ok L | p :: tl => do L' <- loop_push L p; push_list L' tl end.

(** every consecutive triple of the open chain [l] fails the library's collinearity test *)
Fixpoint genuine_chain (l : list V) : Prop :=
  match l with
  | a :: ((b :: c :: _) as tl) => is_collinear a b c = Ok false /\ genuine_chain tl
  | _ => True
  end.

Lemma genuine_chain_nth (l : list V) : genuine_chain l ->
  forall i, (S (S i) < length l)%nat -> is_collinear (vnth l i) (vnth l (S i)) (vnth l (S (S i))) = Ok false.
Proof.
  induction l as [|a l IH]; intros H i Hi; [cbn in Hi; lia|].
  destruct l as [|b [|c l]]; [cbn in Hi; lia ..|]. destruct H as (H1 & H2). destruct i as [|i]; [exact H1|].
  apply (IH H2 i). cbn [length] in *. lia.
Qed.
Lemma genuine_chain_prefix (l1 l2 : list V) : genuine_chain (l1 ++ l2) -> genuine_chain l1.
Proof.
  revert l2. induction l1 as [|a l1 IH]; intros l2 H; [exact I|].
  destruct l1 as [|b l1]; [exact I|]. destruct l1 as [|c l1]; [exact I|].
  cbn [app genuine_chain] in *. destruct H as [H1 H2]. split; [exact H1|]. apply (IH l2). exact H2.
Qed.

Lemma push_list_genuine (pts : list V) : forall (L L' : Loop R),
  genuine_chain (verts L ++ pts) -> push_list L pts = Ok L' -> verts L' = verts L ++ pts.
Proof.
  induction pts as [|p pts IH]; intros L L' G H.
  - cbn [push_list] in H. injection H as H. subst. rewrite app_nil_r. reflexivity.
  - cbn [push_list] in H. destruct (loop_push L p) as [L1| |] eqn:E; cbn [rbind] in H; try discriminate.
    apply push_ok_verts in E. rewrite push_verts_append in E.
    + injection E as E. rewrite (IH L1 L'); [rewrite <- E, <- app_assoc; reflexivity | rewrite <- E, <- app_assoc; exact G | exact H].
    + intros H2. pose proof (genuine_chain_nth _ G (length (verts L) - 2)) as C. unfold vnth in *.
      replace (S (S (length (verts L) - 2))) with (length (verts L)) in C by lia.
      rewrite !app_nth1, app_nth2, Nat.sub_diag in C by lia. replace (S (length (verts L) - 2)) with (length (verts L) - 1)%nat in C by lia.
      apply C. rewrite app_length. cbn [length]. lia.
Qed.

(** closing: when the two wrap-around corners are genuine as well, [close] keeps every vertex *)
Lemma close_genuine (L : Loop R) :
  snd (loop_close L) = Ok tt ->
  is_collinear (vnth (verts L) (llen L - 2)) (vnth (verts L) (llen L - 1)) (vnth (verts L) 0) = Ok false ->
  is_collinear (vnth (verts L) (llen L - 1)) (vnth (verts L) 0) (vnth (verts L) 1) = Ok false ->
  verts (fst (loop_close L)) = verts L.
Proof.
  intros H C1 C2. destruct (close_ok L H) as (vs1 & vs2 & P1 & P2 & -> & _ & H3 & _). unfold llen in *.
  destruct (length (verts L)) as [|f] eqn:En; [lia|]. rewrite pop_red_false in P1.
  - injection P1 as <-. rewrite En, drop_first_false in P2; [injection P2 as <-; reflexivity | rewrite En; exact C2].
  - unfold last_is_redundant. rewrite En. destruct (Nat.ltb_spec (S f) 3); [lia | exact C1].
Qed.

(** all corners genuine, cyclically: the chain  pts ++ [p0; p1]  is genuine *)
Definition genuine_cycle (pts : list V) : Prop :=
  match pts with a :: b :: _ => genuine_chain (pts ++ [a; b]) | _ => True end.

(** PIPELINE (corners all genuine): if push* / close succeeds on such an outline, the stored vertex list is the
    input list itself *)
Theorem build_genuine (pts : list V) (L : Loop R) :
  genuine_cycle pts -> push_list loop_new pts = Ok L -> snd (loop_close L) = Ok tt ->
  verts (fst (loop_close L)) = pts.
Proof.
  intros G P Cl.
  pose proof (close_ok_len L Cl) as Hlen.
  destruct pts as [|a [|b pts]].
  - cbn in P. injection P as P. subst L. cbn in Hlen. lia.
  - assert (E : verts L = [a]) by (apply (push_list_genuine [a] loop_new L); [exact I | exact P]). unfold llen in Hlen. rewrite E in Hlen. cbn in Hlen. lia.
  - unfold genuine_cycle in G.
    assert (E : verts L = a :: b :: pts).
    { apply (push_list_genuine (a :: b :: pts) loop_new L); [|exact P]. cbn [verts loop_new app]. apply (genuine_chain_prefix _ [a; b]). exact G. }
    rewrite <- E. pose proof (genuine_chain_nth _ G) as C. set (pts' := a :: b :: pts) in *.
    assert (Hn : (2 <= length pts')%nat) by (cbn [pts' length]; lia). unfold vnth in C.
    apply close_genuine; [exact Cl | |]; unfold llen, vnth; rewrite E.
    + specialize (C (length pts' - 2)%nat). replace (S (S (length pts' - 2))) with (length pts' + 0)%nat in C by lia.
      rewrite !app_nth1, app_nth2_plus in C by lia. replace (S (length pts' - 2)) with (length pts' - 1)%nat in C by lia.
      apply C. rewrite app_length. cbn [length]. lia.
    + specialize (C (length pts' - 1)%nat). replace (S (S (length pts' - 1))) with (length pts' + 1)%nat in C by lia.
      replace (S (length pts' - 1)) with (length pts' + 0)%nat in C by lia.
      rewrite app_nth1, !app_nth2_plus in C by lia. apply C. rewrite app_length. cbn [length]. lia.
Qed.

(** hence: a cyclically shifted input gives the cyclically shifted vertex list (when both constructions are accepted) *)
Theorem build_shift (l1 l2 : list V) (L L' : Loop R) :
  genuine_cycle (l1 ++ l2) -> genuine_cycle (l2 ++ l1) ->
  push_list loop_new (l1 ++ l2) = Ok L -> snd (loop_close L) = Ok tt ->
  push_list loop_new (l2 ++ l1) = Ok L' -> snd (loop_close L') = Ok tt ->
  exists r1 r2, verts (fst (loop_close L)) = r1 ++ r2 /\ verts (fst (loop_close L')) = r2 ++ r1.
Proof.
  intros G1 G2 P1 C1 P2 C2. exists l1, l2. split; [apply build_genuine | apply build_genuine]; assumption.
Qed.
