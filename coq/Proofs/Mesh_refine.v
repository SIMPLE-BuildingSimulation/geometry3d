(** * Mesh_refine (C18): a successful [refine] ends with a pass that changed nothing, so every slot is
    valid and is below the area floor or within the requested aspect ratio.  Structural induction on
    the fuel; valid for EVERY number instance. *)
From Coq Require Import ZArith Bool List Arith Lia.
From G3 Require Import Model.Num Model.Base Model.Vec Model.Segment Model.Triangle Model.Loop Model.Polygon Model.Triangulation Proofs.Mesh_base.
Import ListNotations.
Local Open Scope num_scope.

Section Refine.
  Context {K : Type} {NK : Num K}.
  Notation V := (V3 K).
  Notation TP := (TriPiece K).
  Notation Mesh := (Mesh K).

  (** what the last pass checked of a slot: it is live, and it is either below the refinement floor
      (cached Heron area < 1e-3) or its cached aspect ratio does not exceed the bound *)
  Definition settled (max_aspect_ratio : K) (t : TP) : Prop :=
    tp_valid t = true /\ ((tarea (tp_tri t) <? c1em3) = true \/ (tp_ar t >? max_aspect_ratio) = false).


  (** an insertion that reports "nothing done" has not touched the mesh *)
  Lemma aptt_ok (i : nat) (p : V) (loc : PIT) (M M' : Mesh) (b : bool) :
    add_point_to_triangle i p loc M = (M', Ok b) -> (b = false -> M' = M) /\ (loc = Inside -> b = true).
  Proof.
    unfold add_point_to_triangle. intros H. apply mbind_ok in H. destruct H as (t & M1 & H1 & H2).
    unfold mget in H1. inversion H1; subst M1. clear H1.
    destruct (negb (tp_valid t)); [discriminate|].
    destruct (pit_is_vertex loc) eqn:Ev.
    - inversion H2; subst. split; [reflexivity|]. intros ->. discriminate.
    - destruct (pit_is_edge loc) eqn:Ee.
      + apply mbind_ok in H2. destruct H2 as (e & M2 & _ & H2). apply mbind_ok in H2. destruct H2 as (u & M3 & _ & H2).
        inversion H2; subst. split; [discriminate|reflexivity].
      + destruct loc; try discriminate.
        apply mbind_ok in H2. destruct H2 as (u & M3 & _ & H2). inversion H2; subst. split; [discriminate|reflexivity].
  Qed.
  Lemma add_point_false (p : V) (M M' : Mesh) : add_point p M = (M', Ok false) -> M' = M.
  Proof.
    unfold add_point. destruct (find_container (tris M) 0 p) as [[i loc]|]; [|discriminate].
    intros H. apply aptt_ok in H. apply H. reflexivity.
  Qed.

  (** the sweep: if it reports "no change" then it has not touched the mesh and every visited slot is settled *)
  Lemma refine_pass_false (max_area max_ar : K) :
    forall (cnt i : nat) (l : list TP) (any : bool) (M M' : Mesh),
      l = skipn i (tris M) ->
      refine_pass max_area max_ar cnt i l any M = (M', Ok false) ->
      any = false /\ M' = M /\ Forall (settled max_ar) (firstn cnt l).
  Proof.
    induction cnt as [|cnt IH]; intros i l any M M' Hl H.
    - cbn [refine_pass] in H. inversion H; subst. repeat split. constructor.
    - cbn [refine_pass] in H. destruct l as [|t l']; [discriminate|].
      assert (Hl' : l' = skipn (S i) (tris M)) by (symmetry in Hl; apply (skipn_cons _ _ _ _ Hl)).
      destruct (negb (tp_valid t)) eqn:Ev; [discriminate|].
      assert (Hvalid : tp_valid t = true) by (destruct (tp_valid t); [reflexivity|discriminate]).
      destruct (tarea (tp_tri t) <? c1em3) eqn:Ea.
      { apply IH in H; [|exact Hl']. destruct H as (H1 & H2 & H3). repeat split; try assumption.
        cbn [firstn]. constructor; [|exact H3]. split; [exact Hvalid | left; exact Ea]. }
      destruct (tp_ar t >? max_ar) eqn:Er.
      { (* split the longest edge: the sweep continues with any_changes = true *)
        apply mbind_ok in H. destruct H as ([s_i s] & M1 & _ & H).
        apply mbind_ok in H. destruct H as (e & M2 & _ & H).
        apply mbind_ok in H. destruct H as (u1 & M3 & _ & H).
        apply mbind_ok in H. destruct H as (u2 & M4 & _ & H).
        apply IH in H; [|reflexivity]. destruct H as (H & _). discriminate. }
      destruct (tarea (tp_tri t) >? max_area) eqn:Em.
      { destruct (add_point (tp_cc t) M) as [M1 [did| c | s]] eqn:Eadd.
        - destruct did.
          + apply mbind_ok in H. destruct H as (u & M2 & _ & H). apply IH in H; [|reflexivity]. destruct H as (H & _). discriminate.
          + apply add_point_false in Eadd. subst M1.
            apply IH in H; [|reflexivity]. destruct H as (H1 & H2 & H3). repeat split; try assumption.
            cbn [firstn]. constructor; [split; [exact Hvalid | right; exact Er]|].
            rewrite Hl'. exact H3.
        - apply mbind_ok in H. destruct H as (t' & M2 & _ & H).
          apply mbind_ok in H. destruct H as (did & M3 & Hd & H).
          apply aptt_ok in Hd. destruct Hd as (_ & Hd). rewrite (Hd eq_refl) in H.
          apply mbind_ok in H. destruct H as (u & M4 & _ & H). apply IH in H; [|reflexivity]. destruct H as (H & _). discriminate.
        - discriminate. }
      apply IH in H; [|exact Hl']. destruct H as (H1 & H2 & H3). repeat split; try assumption.
      cbn [firstn]. constructor; [|exact H3]. split; [exact Hvalid | right; exact Er].
  Qed.

  (** C18: [refine] returning [Ok RDone] (not the model's [ROutOfFuel]) leaves only settled slots *)
  Theorem refine_ok_settled (fuel : nat) (max_area max_ar : K) :
    forall (M M' : Mesh), refine fuel max_area max_ar M = (M', Ok RDone) -> Forall (settled max_ar) (tris M').
  Proof.
    induction fuel as [|fuel IH]; intros M M' H.
    - cbn [refine] in H. inversion H.
    - cbn [refine] in H. apply mbind_ok in H. destruct H as (any & M1 & Hp & H).
      destruct any.
      + eapply IH. exact H.
      + inversion H; subst M1. clear H.
        apply refine_pass_false in Hp; [|reflexivity]. destruct Hp as (_ & -> & Hf).
        rewrite firstn_all in Hf. exact Hf.
  Qed.

  (** consequently nothing discarded is handed to the user, and the number of live slots is the number of slots *)
  Corollary refine_ok_all_valid (fuel : nat) (max_area max_ar : K) (M M' : Mesh) :
    refine fuel max_area max_ar M = (M', Ok RDone) -> forallb tp_valid (tris M') = true.
  Proof.
    intros H. apply refine_ok_settled in H. apply forallb_forall. intros t Ht.
    rewrite Forall_forall in H. apply H in Ht. apply Ht.
  Qed.

  Theorem mesh_polygon_ok_settled (fuel : nat) (P : Poly K) (max_area max_ar : K) (M : Mesh) :
    mesh_polygon fuel P max_area max_ar = Ok (M, RDone) -> Forall (settled max_ar) (tris M).
  Proof.
    unfold mesh_polygon. destruct (from_polygon P) as [t| |]; cbn [rbind]; try discriminate.
    destruct (refine fuel max_area max_ar t) as [t' [o| |]] eqn:E; cbn [rbind]; try discriminate.
    intros H. inversion H; subst. eapply refine_ok_settled. exact E.
  Qed.
End Refine.
