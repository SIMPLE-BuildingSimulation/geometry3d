(** * C10 proofs: vectors of a plane with unit normal N -- their cross product is a multiple of N, and its
    normalisation is N or -N. *)
From Coq Require Import ZArith Reals Lra.
From G3 Require Import Model.Num Model.Base Model.Vec Model.Segment Model.Loop Theory.RInst Theory.LoopGeom.
Local Open Scope R_scope.

Lemma cross_in_plane (N u w : V) : vdot N N = 1 -> vdot N u = 0 -> vdot N w = 0 ->
  vcross u w = vscale N (vdot N (vcross u w)).
Proof.
  (* N x (N x S) = (N.S) N - (N.N) S  with  N x S = 0  for S = u x w *)
  intros HN Hu Hw. pose proof (vcross_vcross N N (vcross u w)) as E. rewrite (cross_in_plane_parallel N u w Hu Hw), HN in E.
  revert E. generalize (vdot N (vcross u w)) (vcross u w). intros k [s1 s2 s3]. destruct N as [n1 n2 n3]. vunf. rnum.
  intros E. injection E as E1 E2 E3. apply v3_eq; cbn [vx vy vz]; lra.
Qed.

Lemma vnormalize_scale_unit (n : V) (k : R) : vdot n n = 1 ->
  vnormalize (vscale n k) = if Rltb 0 k then n else if Rltb k 0 then vneg n else vzero.
Proof.
  destruct n as [a b c]. intros Hu. unfold vnormalize, vlen, vlen2, vscale, vdot in *. cbn [vx vy vz] in *. rnum.
  replace (a * k * (a * k) + b * k * (b * k) + c * k * (c * k)) with (k * k * (a * a + b * b + c * c)) by ring.
  rewrite Hu, Rmult_1_r.
  rcase 0 k Hp.
  - rewrite sqrt_square by lra. apply v3_eq; cbn [vx vy vz]; field; lra.
  - rcase k 0 Hq.
    + replace (k * k) with ((- k) * (- k)) by ring. rewrite sqrt_square by lra.
      apply v3_eq; unfold vneg; cbn [vx vy vz]; rnum; field; lra.
    + assert (k = 0) by lra. subst k. apply v3_eq; unfold vzero; cbn [vx vy vz]; rnum; ring.
Qed.
Lemma vnormalize_scaled_unit (N : V) (k : R) : vdot N N = 1 -> k <> 0 ->
  vnormalize (vscale N k) = N \/ vnormalize (vscale N k) = vneg N.
Proof.
  intros HN Hk. rewrite (vnormalize_scale_unit N k HN). rcase 0 k Hp; [left; reflexivity|].
  rcase k 0 Hq; [right; reflexivity|]. lra.
Qed.

Lemma vdot_sub_origin (N a b o : V) : vdot N (vsub b a) = vdot N (vsub b o) - vdot N (vsub a o).
Proof. vunf. rnum. ring. Qed.
Lemma vdot_from_line_point (N a b : V) (s : R) :
  vdot N (vsub b (vadd a (vscale (vsub b a) s))) = (1 - s) * vdot N (vsub b a).
Proof. vunf. rnum. ring. Qed.
