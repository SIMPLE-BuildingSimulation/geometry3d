(** * Flat_triangle: ray / triangle (Moller-Trumbore), exact tier. *)
From Coq Require Import ZArith Reals Lra Bool List.
From G3 Require Import Model.Num Model.Base Model.Vec Model.BBox Model.Transform Model.Hit Model.Segment Model.Triangle
  Model.PinnedFlat Theory.RInst Proofs.C06_transform Proofs.Flat_base.
Local Open Scope R_scope.

(** the point of the triangle's plane with parametric coordinates (u, v) *)
Definition tri_point (v0 v1 v2 : V) (u v : R) : V := vadd v0 (vadd (vscale (vsub v1 v0) u) (vscale (vsub v2 v0) v)).
(** the determinant of Moller-Trumbore: a = e1 . (d x e2) = - d . (e1 x e2) *)
Definition tri_det (ray : Ray R) (v0 v1 v2 : V) : R := vdot (vsub v1 v0) (vcross (rdir ray) (vsub v2 v0)).
Lemma tri_det_normal (ray : Ray R) (v0 v1 v2 : V) :
  tri_det ray v0 v1 v2 = - vdot (vcross (vsub v1 v0) (vsub v2 v0)) (rdir ray).
Proof. unfold tri_det. vring. Qed.

(** ** the three Cramer quotients the code computes *)
Definition mt_u (ray : Ray R) (v0 v1 v2 : V) : R :=
  1 / tri_det ray v0 v1 v2 * vdot (vsub (rorigin ray) v0) (vcross (rdir ray) (vsub v2 v0)).
Definition mt_v (ray : Ray R) (v0 v1 v2 : V) : R :=
  1 / tri_det ray v0 v1 v2 * vdot (rdir ray) (vcross (vsub (rorigin ray) v0) (vsub v1 v0)).
Definition mt_t (ray : Ray R) (v0 v1 v2 : V) : R :=
  1 / tri_det ray v0 v1 v2 * vdot (vsub v2 v0) (vcross (vsub (rorigin ray) v0) (vsub v1 v0)).

Lemma intersect_triangle_eq (ray : Ray R) (v0 v1 v2 : V) :
  intersect_triangle ray v0 v1 v2 =
    let a := tri_det ray v0 v1 v2 in let u := mt_u ray v0 v1 v2 in let v := mt_v ray v0 v1 v2 in let t := mt_t ray v0 v1 v2 in
    if Rltb (- ctiny) a && Rltb a ctiny then None else
    if negb (Rleb 0 u && Rleb u 1) then None else
    if Rltb v 0 || Rltb 1 (u + v) then None else
    if Rltb ctiny t then Some (ray_project ray t, u, v) else None.
Proof.
  unfold intersect_triangle, intersect_triangle_tag, mt_u, mt_v, mt_t, tri_det. cbv zeta. rnumg.
  repeat match goal with |- context [if ?b then _ else _] => destruct b end; reflexivity.
Qed.

Lemma tri_det_band (a : R) : Rltb (- ctiny) a && Rltb a ctiny = true <-> - ctiny < a < ctiny.
Proof. rewrite andb_true_iff, !Rltb_true. tauto. Qed.
Lemma tri_det_off_band (a : R) : Rltb (- ctiny) a && Rltb a ctiny = false -> a <> 0.
Proof. pose proof ctiny_pos. intros B ->. rewrite !Rltb_lt in B by lra. discriminate. Qed.

(** the quotients do describe a point common to the line of the ray and the plane of the triangle *)
Lemma mt_point (ray : Ray R) (v0 v1 v2 : V) : tri_det ray v0 v1 v2 <> 0 ->
  ray_project ray (mt_t ray v0 v1 v2) = tri_point v0 v1 v2 (mt_u ray v0 v1 v2) (mt_v ray v0 v1 v2).
Proof. unfold mt_t, mt_u, mt_v, tri_det, tri_point. intros Ha. apply v3_eq; revert Ha; vcbn; intros Ha; field; exact Ha. Qed.

(** ** C02: a reported hit is a true hit *)
Lemma intersect_triangle_sound (ray : Ray R) (v0 v1 v2 p : V) (u v : R) :
  intersect_triangle ray v0 v1 v2 = Some (p, u, v) ->
  exists t, ctiny < t /\ p = ray_project ray t /\ p = tri_point v0 v1 v2 u v /\ 0 <= u /\ 0 <= v /\ u + v <= 1.
Proof.
  rewrite intersect_triangle_eq. cbv zeta.
  destruct (_ && _) eqn:B; [discriminate|]. apply tri_det_off_band in B.
  destruct (Rleb 0 _ && _) eqn:Bu; [|discriminate]. apply andb_true_iff in Bu. rewrite !Rleb_true in Bu.
  destruct (_ || _) eqn:Bv; [discriminate|]. apply orb_false_iff in Bv. rewrite !Rltb_false in Bv.
  destruct (Rltb ctiny _) eqn:Bt; [|discriminate]. apply Rltb_true in Bt.
  intros [= <- <- <-]. exists (mt_t ray v0 v1 v2). rewrite <- mt_point by exact B. repeat split; tauto || lra.
Qed.

(** Cramer's rule: if the line of the ray meets the plane of the triangle at parameter t in the point (u, v),
    the code's quotients are exactly (u, v, t) *)
Lemma mt_cramer (ray : Ray R) (v0 v1 v2 : V) (t u v : R) :
  tri_det ray v0 v1 v2 <> 0 -> ray_project ray t = tri_point v0 v1 v2 u v ->
  mt_u ray v0 v1 v2 = u /\ mt_v ray v0 v1 v2 = v /\ mt_t ray v0 v1 v2 = t.
Proof.
  intros Ha H.
  assert (Eo : rorigin ray = vsub (tri_point v0 v1 v2 u v) (vscale (rdir ray) t)) by (rewrite <- H; vring).
  unfold mt_u, mt_v, mt_t. rewrite Eo. revert Ha. unfold tri_det, tri_point. vcbn. intros Ha. repeat split; field; exact Ha.
Qed.

(** ** C03: a crossing inside the (closed) triangle, ahead of the origin by more than TINY and outside the
    parallel band, is reported -- with exactly that point and those coordinates *)
Lemma intersect_triangle_complete (ray : Ray R) (v0 v1 v2 : V) (t u v : R) :
  ~ (- ctiny < tri_det ray v0 v1 v2 < ctiny) ->
  ray_project ray t = tri_point v0 v1 v2 u v -> ctiny < t -> 0 <= u -> 0 <= v -> u + v <= 1 ->
  intersect_triangle ray v0 v1 v2 = Some (ray_project ray t, u, v).
Proof.
  intros Hb Hx Ht Hu Hv Huv. pose proof ctiny_pos as Hc.
  assert (Ha : tri_det ray v0 v1 v2 <> 0) by (intros E; apply Hb; rewrite E; lra).
  destruct (mt_cramer ray v0 v1 v2 t u v Ha Hx) as (Eu & Ev & Et).
  rewrite intersect_triangle_eq. cbv zeta. rewrite Eu, Ev, Et.
  destruct (Rltb (- ctiny) (tri_det ray v0 v1 v2) && Rltb (tri_det ray v0 v1 v2) ctiny) eqn:B; [apply tri_det_band in B; contradiction|].
  rewrite !Rleb_le, !Rltb_ge, Rltb_lt by lra. reflexivity.
Qed.

(** a crossing outside the triangle, or not further than TINY ahead (in particular behind the origin), is not reported;
    nor is anything in the parallel band *)
Lemma intersect_triangle_miss (ray : Ray R) (v0 v1 v2 : V) (t u v : R) :
  ray_project ray t = tri_point v0 v1 v2 u v -> (u < 0 \/ v < 0 \/ 1 < u + v \/ t <= ctiny) ->
  intersect_triangle ray v0 v1 v2 = None.
Proof.
  intros Hx Hout. pose proof ctiny_pos as Hc. rewrite intersect_triangle_eq. cbv zeta.
  destruct (Rltb (- ctiny) (tri_det ray v0 v1 v2) && Rltb (tri_det ray v0 v1 v2) ctiny) eqn:B; [reflexivity|].
  pose proof (tri_det_off_band _ B) as Ha.
  destruct (mt_cramer ray v0 v1 v2 t u v Ha Hx) as (Eu & Ev & Et). rewrite Eu, Ev, Et.
  rcase_le 0 u K1; [|reflexivity].
  rcase_le u 1 B2; [|reflexivity]. cbn [andb negb].
  rcase v 0 B3; [reflexivity|].
  rcase 1 (u + v) B4; [reflexivity|]. cbn [orb].
  rcase (@ctiny R _) t B5; [|reflexivity]. lra.
Qed.
Lemma intersect_triangle_parallel (ray : Ray R) (v0 v1 v2 : V) :
  - ctiny < tri_det ray v0 v1 v2 < ctiny -> intersect_triangle ray v0 v1 v2 = None.
Proof. intros H. rewrite intersect_triangle_eq. cbv zeta. apply tri_det_band in H. rewrite H. reflexivity. Qed.

(** a hit is outside the parallel band; hence the triangle is not degenerate and the ray is not in its plane *)
Lemma intersect_triangle_det (ray : Ray R) (v0 v1 v2 : V) (x : V * R * R) :
  intersect_triangle ray v0 v1 v2 = Some x -> ~ (- ctiny < tri_det ray v0 v1 v2 < ctiny).
Proof. intros H B. rewrite intersect_triangle_parallel in H by assumption. discriminate. Qed.

(** ** the pinned code accepted the whole parallelogram *)
Lemma intersect_triangle_pinned_eq (ray : Ray R) (v0 v1 v2 : V) :
  intersect_triangle_pinned ray v0 v1 v2 =
    let a := tri_det ray v0 v1 v2 in let u := mt_u ray v0 v1 v2 in let v := mt_v ray v0 v1 v2 in let t := mt_t ray v0 v1 v2 in
    if Rltb (- ctiny) a && Rltb a ctiny then None else
    if negb (Rleb 0 u && Rleb u 1) then None else
    if negb (Rleb 0 v && Rleb v 1) then None else
    if Rltb ctiny t then Some (ray_project ray t, u, v) else None.
Proof. reflexivity. Qed.
(** u = v = 9/10: inside the parallelogram, outside the triangle *)
Lemma intersect_triangle_pinned_unsound :
  exists (ray : Ray R) (v0 v1 v2 p : V) (u v : R),
    intersect_triangle_pinned ray v0 v1 v2 = Some (p, u, v) /\ 1 < u + v.
Proof.
  set (ray := mkRay (mkV3 (9/10) (9/10) 1) (mkV3 0 0 (-1))). set (v0 := mkV3 0 0 0). set (v1 := mkV3 1 0 0). set (v2 := mkV3 0 1 0).
  assert (Ea : tri_det ray v0 v1 v2 = 1) by (unfold tri_det, ray, v0, v1, v2; vcbn; ring).
  assert (Eu : mt_u ray v0 v1 v2 = 9/10) by (unfold mt_u; rewrite Ea; unfold ray, v0, v1, v2; vcbn; field).
  assert (Ev : mt_v ray v0 v1 v2 = 9/10) by (unfold mt_v; rewrite Ea; unfold ray, v0, v1, v2; vcbn; field).
  assert (Et : mt_t ray v0 v1 v2 = 1) by (unfold mt_t; rewrite Ea; unfold ray, v0, v1, v2; vcbn; field).
  exists ray, v0, v1, v2, (ray_project ray 1), (9/10), (9/10). split; [|lra].
  pose proof ctiny_pos. pose proof ctiny_small.
  rewrite intersect_triangle_pinned_eq. cbv zeta. rewrite Ea, Eu, Ev, Et.
  rewrite (Rltb_ge 1), (Rltb_lt ctiny), !Rleb_le by lra. rewrite andb_false_r. reflexivity.
Qed.

(** ** Triangle3D::intersect / simple_intersect (a Triangle3D never carries a transform) *)
Definition tri_N (t : Tri R) : V := vcross (vsub (tb t) (ta t)) (vsub (tc t) (ta t)).
Definition in_triangle (t : Tri R) (p : V) : Prop :=
  exists u v, p = tri_point (ta t) (tb t) (tc t) u v /\ 0 <= u /\ 0 <= v /\ u + v <= 1.

Lemma tri_intersect_spec (t : Tri R) (ray : Ray R) (i : Info R) :
  tri_intersect t ray = Some i ->
  (exists tt, ctiny < tt /\ ip i = ray_project ray tt) /\ in_triangle t (ip i) /\
  idpdu i = vsub (tb t) (ta t) /\ idpdv i = vsub (tc t) (ta t) /\
  vlen2 (tri_N t) <> 0 /\ vdot (tri_N t) (rdir ray) <> 0 /\
  vdot (inormal i) (rdir ray) < 0 /\ vlen2 (inormal i) = 1 /\
  vdot (inormal i) (idpdu i) = 0 /\ vdot (inormal i) (idpdv i) = 0 /\
  (vdot (tri_N t) (rdir ray) < 0 -> iside i = Front /\ inormal i = vnormalize (tri_N t)) /\
  (0 < vdot (tri_N t) (rdir ray) -> iside i = Back /\ inormal i = vneg (vnormalize (tri_N t))).
Proof.
  unfold tri_intersect, tri_intersect_local_ray. intros H.
  destruct (intersect_triangle ray (ta t) (tb t) (tc t)) as [[[p u] v]|] eqn:E; [|discriminate].
  pose proof (intersect_triangle_det _ _ _ _ _ E) as Hb. pose proof ctiny_pos as Hc.
  apply intersect_triangle_sound in E. destruct E as (tt & Ht & Hp & Hq & Hu & Hv & Huv).
  fold (tri_N t) in H.
  assert (Hd : vdot (tri_N t) (rdir ray) <> 0).
  { intros Z. apply Hb. rewrite tri_det_normal. fold (tri_N t). rewrite Z. lra. }
  assert (Hn : vlen2 (tri_N t) <> 0).
  { intros Z. apply vlen2_zero in Z. apply Hd. rewrite Z. vring. }
  destruct (vnormalize_dot_sign (tri_N t) (rdir ray) Hn) as (S1 & S2 & S3).
  destruct (vcross_perp (vsub (tb t) (ta t)) (vsub (tc t) (ta t))) as (P1 & P2). fold (tri_N t) in P1, P2.
  destruct (get_side _ _) as [n sd] eqn:G in H. injection H as <-. cbn [ip inormal iside idpdu idpdv].
  assert (G1 : n = fst (get_side (vnormalize (tri_N t)) (rdir ray))) by (rewrite G; reflexivity).
  repeat split; try assumption; try (exists tt; split; assumption); try (exists u, v; repeat split; assumption).
  - rewrite G1. apply get_side_faces. tauto.
  - rewrite G1, get_side_len2 by tauto. apply vnormalize_len2, Hn.
  - rewrite G1. apply get_side_perp. rewrite vnormalize_dot, P1. unfold Rdiv. ring.
  - rewrite G1. apply get_side_perp. rewrite vnormalize_dot, P2. unfold Rdiv. ring.
  - rewrite get_side_front in G by tauto. congruence.
  - rewrite get_side_front in G by tauto. congruence.
  - rewrite get_side_back in G by tauto. congruence.
  - rewrite get_side_back in G by tauto. congruence.
Qed.

(** the same triangle reached from its two sides: side and normal both flip *)
Lemma tri_two_sided (t : Tri R) (r1 r2 : Ray R) (i1 i2 : Info R) :
  tri_intersect t r1 = Some i1 -> tri_intersect t r2 = Some i2 ->
  vdot (tri_N t) (rdir r1) < 0 -> 0 < vdot (tri_N t) (rdir r2) ->
  iside i1 = Front /\ iside i2 = Back /\ inormal i2 = vneg (inormal i1).
Proof.
  intros H1 H2 L G. apply tri_intersect_spec in H1, H2.
  destruct H1 as (_&_&_&_&_&_&_&_&_&_&F1&_), H2 as (_&_&_&_&_&_&_&_&_&_&_&B2).
  destruct (F1 L) as (S1 & N1), (B2 G) as (S2 & N2). rewrite N1, N2. auto.
Qed.

Lemma tri_intersect_some_iff (t : Tri R) (ray : Ray R) :
  (exists i, tri_intersect t ray = Some i) <-> (exists x, intersect_triangle ray (ta t) (tb t) (tc t) = Some x).
Proof.
  unfold tri_intersect, tri_intersect_local_ray.
  destruct (intersect_triangle ray (ta t) (tb t) (tc t)) as [[[p u] v]|].
  - destruct (get_side _ _). split; intros; eexists; reflexivity.
  - split; intros [x H]; discriminate.
Qed.
Lemma tri_intersect_complete (t : Tri R) (ray : Ray R) (tt u v : R) :
  ~ (- ctiny < tri_det ray (ta t) (tb t) (tc t) < ctiny) ->
  ray_project ray tt = tri_point (ta t) (tb t) (tc t) u v -> ctiny < tt -> 0 <= u -> 0 <= v -> u + v <= 1 ->
  exists i, tri_intersect t ray = Some i /\ ip i = ray_project ray tt.
Proof.
  intros. pose proof (intersect_triangle_complete ray _ _ _ tt u v H H0 H1 H2 H3 H4) as E.
  unfold tri_intersect, tri_intersect_local_ray. rewrite E. destruct (get_side _ _). eexists; split; reflexivity.
Qed.
Lemma tri_intersect_miss (t : Tri R) (ray : Ray R) (tt u v : R) :
  ray_project ray tt = tri_point (ta t) (tb t) (tc t) u v -> (u < 0 \/ v < 0 \/ 1 < u + v \/ tt <= ctiny) ->
  tri_intersect t ray = None.
Proof. intros. unfold tri_intersect, tri_intersect_local_ray. rewrite (intersect_triangle_miss ray _ _ _ tt u v) by assumption. reflexivity. Qed.

Lemma tri_simple_intersect_sound (t : Tri R) (ray : Ray R) (p : V) :
  tri_simple_intersect t ray = Some p ->
  (exists tt, ctiny < tt /\ p = ray_project ray tt) /\ in_triangle t p.
Proof.
  unfold tri_simple_intersect. destruct (id_ray_world ray) as (dt & P & _ & Pr).
  destruct (tr_inv_ray tr_new ray) as [[r' oe] de]. cbn [fst] in Pr.
  destruct (intersect_triangle r' (ta t) (tb t) (tc t)) as [[[q u] v]|] eqn:E; [|discriminate].
  intros Hq. injection Hq as <-. apply intersect_triangle_sound in E. destruct E as (tt & Ht & Hp & Hq & Hu & Hv & Huv).
  split; [|exists u, v; repeat split; assumption].
  exists (dt + tt). split; [lra|]. rewrite Hp. apply Pr.
Qed.

(** the normal cached by Triangle3D::new ((b-a) x (c-b), normalised) is the right-hand-rule normal used for the side *)
Lemma tri_new_normal (a b c : V) (t : Tri R) : tri_new a b c = Ok t ->
  ta t = a /\ tb t = b /\ tc t = c /\ tnormal t = vnormalize (tri_N t).
Proof.
  unfold tri_new. destruct (vcompare a b || vcompare a c || vcompare b c); [discriminate|].
  destruct (is_collinear a b c) as [col|e|s]; cbn [unwrap rbind]; try discriminate.
  destruct col; [discriminate|]. intros H. injection H as <-. cbn [ta tb tc tnormal]. repeat split.
  unfold tri_normal_of, tri_N. cbn [ta tb tc]. f_equal. vring.
Qed.
