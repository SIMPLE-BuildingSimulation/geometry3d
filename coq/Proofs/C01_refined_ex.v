(** * C01_refined_ex: non-vacuity for Proofs/C01_refined.v.
    binary64 (vm_compute): the unit square [w4_poly]: the [from_polygon] run is sanitize-stable, [mesh_polygon 100 . 0.1 1.5]
    returns Ok RDone, the refinement trace has >= 10 elementary steps, >= 10 triangles are returned and all of them are live.
    reals: the hypotheses that speak of the polygon, for the same square in the frame ((0,0,0), (1,0,0), (0,1,0)): orthonormal frame,
    Jordan hypothesis on the outline, separation, planarity (Proofs/Mesh_links_init_ex.v), and the pointwise Jordan data at the
    sample point q = (1/3, 1/4) with the ray (1, 0): generic, the outline winds once.  (The trace side conditions [side] are
    stated on the real instance, which cannot be executed: they are not witnessed on a refined run -- as in Properties/C08_refine.v.) *)
From Coq Require Import ZArith Reals Lra Lia List Bool Arith Floats.
Set Warnings "-inexact-float".
From G3 Require Import Model.Num Model.NumF Model.Base Model.Vec Model.Segment Model.Triangle Model.Loop Model.Polygon Model.Triangulation
  Theory.RInst Theory.Cyclic Theory.Winding
  Proofs.Mesh_base Proofs.Mesh_region Proofs.Mesh_links Proofs.Mesh_refine_trace Proofs.Mesh_witness
  Proofs.C05_pointtest Proofs.C01_tiling Proofs.C01_polygon Proofs.Mesh_links_init Proofs.Mesh_links_init_ex Proofs.C01_refined.
Import ListNotations.

Definition w4_refined : Mesh float := match mesh_polygon 100 w4_poly 0.1%float 1.5%float with Ok (M, _) => M | _ => mesh_new end.
Lemma refined_float_nonvacuous :
  stable_run w4_poly w4_mesh /\ mesh_polygon 100 w4_poly 0.1%float 1.5%float = Ok (w4_refined, RDone) /\
  refine 100 0.1%float 1.5%float w4_mesh = (w4_refined, Ok RDone) /\
  Nat.leb 10 (length (refine_trace 100 0.1%float 1.5%float w4_mesh)) = true /\
  live_tris w4_refined = get_trilist w4_refined /\ Nat.leb 10 (length (get_trilist w4_refined)) = true.
Proof.
  assert (Er : w4_refined = w4_refined_lit) by (unfold w4_refined; rewrite w4_mesh_polygon; reflexivity). rewrite Er.
  pose proof w4_mesh_polygon as E. destruct (proj1 (mesh_polygon_inv _ _ _ _ _ _) E) as (M0 & E0 & E1).
  rewrite w4_from_polygon in E0. injection E0 as <-.
  split; [exact w4_stable|]. split; [exact E|]. rewrite w4_mesh_lit. split; [exact E1|]. split; [vm_compute; reflexivity|].
  split; [exact (mesh_polygon_live_reported _ _ _ _ _ E) | reflexivity].
Qed.

Local Open Scope R_scope.
Lemma refined_real_nonvacuous :
  let o := r3 0 0 in let e1 := r3 1 0 in let e2 := r3 0 1 in
  let O2 := map (plane2 o e1 e2) sqL in let d : Winding.P2 := (1, 0) in let q : Winding.P2 := (/ 3, / 4) in
  vdot e1 e1 = 1 /\ vdot e2 e2 = 1 /\ vdot e1 e2 = 0 /\
  jordan_le1 O2 /\ VSEP (fun x : V3 R => In x sqL) /\ (forall v : V3 R, In v sqL -> in_plane o e1 e2 v) /\
  generic d q O2 /\ wn d O2 q = 1%Z.
Proof.
  cbn zeta. destruct init_links_real_nonvacuous as (A1 & A2 & A3 & Epr & HJ & HV & HP). cbn zeta in *.
  split; [exact A1|]. split; [exact A2|]. split; [exact A3|]. split; [exact HJ|]. split; [exact HV|]. split; [exact HP|].
  rewrite Epr. split.
  - intros v Hv. cbn [In] in Hv. unfold hgt. repeat (destruct Hv as [<- | Hv]); try contradiction; cbn [fst snd]; lra.
  - wn_eval.
Qed.
