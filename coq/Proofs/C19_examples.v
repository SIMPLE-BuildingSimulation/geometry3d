(** * C19: concrete witnesses -- non-vacuity of the hypotheses, and refutations, on the real instance
    and (executed by [vm_compute]) on the primitive-float instance that runs against the crate. *)
From Coq Require Import ZArith Reals Lra Bool List Psatz Floats.
From G3 Require Import Model.Num Model.NumF Model.Base Model.Vec Model.BBox Model.Transform Model.Hit Model.Segment Model.PinnedSegment
  Model.Triangle Model.Areas Theory.RInst Proofs.C19_vec Proofs.C19_segment Proofs.C19_triangle Proofs.C19_areas.
Local Open Scope R_scope.

Lemma not_tiny_unit (a : V) : 1 <= vx a \/ 1 <= vy a \/ 1 <= vz a -> ~ tiny a.
Proof.
  intros H (A & B & C). pose proof tinyR_small. revert A B C. unfold Rabs. repeat destruct (Rcase_abs _); intros; lra.
Qed.

Lemma ex_parallel : vis_parallel (mkV3 1 0 0 : V) (mkV3 2 0 0) = true /\ vis_same_direction (mkV3 1 0 0 : V) (mkV3 2 0 0) = true
                    /\ vis_same_direction (mkV3 1 0 0 : V) (mkV3 (-2) 0 0) = false /\ vis_parallel (mkV3 1 0 0 : V) (mkV3 0 1 0) = false.
Proof.
  split; [|split; [|split]].
  - apply vis_parallel_spec. repeat split; try (apply not_tiny_unit; cbn [vx vy vz]; lra). unfold e5. vcbn. lra.
  - apply vis_same_direction_spec. repeat split; try (apply not_tiny_unit; cbn [vx vy vz]; lra); unfold e5; vcbn; lra.
  - destruct (vis_same_direction _ _) eqn:E; [|reflexivity]. apply vis_same_direction_spec in E. destruct E as (_ & _ & _ & E). revert E. vcbn. lra.
  - destruct (vis_parallel _ _) eqn:E; [|reflexivity]. apply vis_parallel_spec in E. destruct E as (_ & _ & E). revert E. unfold e5. vcbn. lra.
Qed.
Lemma ex_perpendicular : exists w, vget_perpendicular (mkV3 3 4 0 : V) = Ok w.
Proof.
  destruct (vget_perpendicular (mkV3 3 4 0 : V)) as [w|e|q] eqn:E; [eauto| |].
  - apply (proj2 (vget_perpendicular_err _)) in E. destruct E as (_ & A & _). exfalso. revert A. cbn [vx]. pose proof ctiny_small.
    unfold Rabs. destruct (Rcase_abs 3); lra.
  - exfalso. exact (proj1 (vget_perpendicular_err _) q E).
Qed.
(** finding F11: the parallelism tolerance is absolute; two 5 cm edges at 26.6 degrees are "same direction" *)
Definition f11_a : V := mkV3 (5/100) 0 0.
Definition f11_b : V := mkV3 (4/100) (2/100) 0.
Lemma not_tiny_cm (a : V) : 1/100 <= vx a -> ~ tiny a.
Proof. intros H (A & _). pose proof tinyR_small. revert A. unfold Rabs. destruct (Rcase_abs _); lra. Qed.
Lemma f11_parallel : vis_same_direction f11_a f11_b = true /\ vlen2 (vcross f11_a f11_b) = vlen2 f11_a * vlen2 f11_b * (1 / 5).
Proof.
  split.
  - apply vis_same_direction_spec. unfold f11_a, f11_b. repeat split; try (apply not_tiny_cm; cbn [vx]; lra); unfold e5; vcbn; lra.
  - unfold f11_a, f11_b. vcbn. lra.
Qed.
Definition f11_s : S := seg_new (mkV3 0 0 0) (mkV3 (5/100) 0 0).
Definition f11_r : S := seg_new (mkV3 0 (-1/100) 0) (mkV3 (4/100) (1/100) 0).
Lemma f11_refuted :
  seg_at f11_s (2/5) = seg_at f11_r (1/2) /\ crossing_window (2/5) (1/2) /\
  seg_get_intersection_pt f11_s f11_r = None /\ seg_intersect f11_s f11_r = None /\ seg_touches f11_s f11_r = None.
Proof.
  assert (G : seg_get_intersection_pt f11_s f11_r = None).
  { rewrite gip_unfold. replace (vis_same_direction _ _) with true; [reflexivity|]. symmetry.
    replace (seg_as_vec f11_s) with f11_a by (unfold f11_s, f11_a, seg_as_vec, seg_new; cbn [sstart send]; apply v3_eq; vcbn; lra).
    replace (seg_as_vec f11_r) with f11_b by (unfold f11_r, f11_b, seg_as_vec, seg_new; cbn [sstart send]; apply v3_eq; vcbn; lra).
    apply f11_parallel. }
  split; [|split; [|split; [exact G|]]].
  - unfold seg_at, f11_s, f11_r, seg_as_vec, seg_new. cbn [sstart send]. apply v3_eq; vcbn; lra.
  - unfold crossing_window, e8. lra.
  - unfold seg_intersect, seg_touches. rewrite G. auto.
Qed.

(** ** segments: a coplanar crossing that is reported, with the right parameters *)
Definition x_s : S := seg_new (mkV3 (-1) 0 0) (mkV3 1 0 0).
Definition x_r : S := seg_new (mkV3 0 (-1) 0) (mkV3 0 3 0).
Lemma ex_crossing : seg_get_intersection_pt x_s x_r = Some (1/2, 1/4) /\ coplanar x_s x_r /\
                    seg_intersect x_s x_r = Some (mkV3 0 0 0).
Proof.
  assert (P : seg_at x_s (1/2) = seg_at x_r (1/4)).
  { unfold seg_at, x_s, x_r, seg_as_vec, seg_new. cbn [sstart send]. apply v3_eq; vcbn; lra. }
  assert (G : seg_get_intersection_pt x_s x_r = Some (1/2, 1/4)).
  { apply gip_reports; [exact P | |].
    - destruct (vis_same_direction _ _) eqn:E; [|reflexivity]. apply vis_same_direction_spec in E. destruct E as (_ & _ & E & _).
      revert E. unfold x_s, x_r, seg_as_vec, seg_new, e5. cbn [sstart send]. vcbn. nra.
    - left. unfold x_s, x_r, seg_normal, seg_as_vec, seg_new, e5. cbn [sstart send]. vcbn. unfold Rabs. destruct (Rcase_abs _); nra. }
  split; [exact G|]. split.
  - exact (common_point_coplanar _ _ _ _ P).
  - apply seg_intersect_spec. exists (1/2), (1/4). split; [exact G|]. split; [unfold crossing_window, e8; lra|].
    unfold seg_at, x_s, seg_as_vec, seg_new. cbn [sstart send]. apply v3_eq; vcbn; lra.
Qed.
Lemma ex_long : long_enough (mkV3 0 0 0 : V) (mkV3 1 2 3).
Proof. left. cbn [vx]. unfold e5, Rabs. destruct (Rcase_abs _); lra. Qed.

(** ** triangles: the unit right triangle is accepted and non-degenerate *)
Definition t_a : V := mkV3 0 0 0.
Definition t_b : V := mkV3 1 0 0.
Definition t_c : V := mkV3 0 1 0.
Lemma vcompare_far (a p : V) : 1 <= vx a - vx p \/ 1 <= vx p - vx a \/ 1 <= vy a - vy p \/ 1 <= vy p - vy a -> vcompare a p = false.
Proof.
  intros H. destruct (vcompare a p) eqn:E; [|reflexivity]. apply vcompare_spec in E. destruct E as (A & B & _). revert A B.
  unfold e5, Rabs. repeat destruct (Rcase_abs _); intros; lra.
Qed.
Lemma ex_triangle : exists t, tri_new t_a t_b t_c = Ok t /\ tri_nondeg t /\ tri_det t <> 0.
Proof.
  assert (L : vlen (vcross (vsub t_b t_a) (vsub t_c t_b)) = 1).
  { unfold vlen, t_a, t_b, t_c. vcbn. rnumg. transitivity (R_sqrt.sqrt 1); [f_equal; ring | apply R_sqrt.sqrt_1]. }
  destruct (tri_new_accepts t_a t_b t_c) as (t & E).
  - apply vcompare_far; unfold t_a, t_b; cbn [vx vy]; lra.
  - apply vcompare_far; unfold t_a, t_c; cbn [vx vy]; lra.
  - apply vcompare_far; unfold t_b, t_c; cbn [vx vy]; lra.
  - rewrite L. unfold e5. lra.
  - exists t. split; [exact E|]. destruct (tri_new_ok _ _ _ _ E) as (Ea & Eb & Ec & _).
    assert (N : tri_nondeg t) by (unfold tri_nondeg, tri_e1, tri_e2; rewrite Ea, Eb, Ec; unfold t_a, t_b, t_c; vcbn; lra).
    split; [exact N|]. rewrite tri_det_cross. exact N.
Qed.

(** ** executed witnesses on primitive floats (what runs against the crate) *)
Local Open Scope float_scope.
Definition fs (a b c d e f : float) : Seg float := seg_new (mkV3 a b c) (mkV3 d e f).
(** F5 (fixed by ec384e6): skew segments one unit apart "crossed" at (0.5, 0, 0) in the pinned code; the live code rejects them *)
Lemma f5_float :
  seg_intersect_pinned (fs 0 0 0 1 0 0) (fs 0.5 (-1) 1 0.5 1 1) = Some (mkV3 0.5 0 0) /\
  seg_touches_pinned (fs 0 0 0 1 0 0) (fs 0.5 (-1) 1 0.5 1 1) = Some (mkV3 0.5 0 0) /\
  seg_get_intersection_pt_pinned (fs 0 0 0 1 0 0) (fs 0.5 (-1) 1 0.5 1 1) = Some (0.5, 0.5) /\
  seg_get_intersection_pt (fs 0 0 0 1 0 0) (fs 0.5 (-1) 1 0.5 1 1) = None /\
  seg_intersect (fs 0 0 0 1 0 0) (fs 0.5 (-1) 1 0.5 1 1) = None /\ seg_touches (fs 0 0 0 1 0 0) (fs 0.5 (-1) 1 0.5 1 1) = None.
Proof. repeat split; vm_compute; reflexivity. Qed.
(** F5 (fixed): common start point -- pinned: never reported; live: a touch at the common point, not a crossing *)
Lemma common_start_float :
  seg_get_intersection_pt_pinned (fs 0 0 0 1 0 0) (fs 0 0 0 0 1 0) = None /\ seg_touches_pinned (fs 0 0 0 1 0 0) (fs 0 0 0 0 1 0) = None /\
  seg_touches (fs 0 0 0 1 0 0) (fs 0 0 0 0 1 0) = Some (mkV3 0 0 0) /\ seg_intersect (fs 0 0 0 1 0 0) (fs 0 0 0 0 1 0) = None.
Proof. repeat split; vm_compute; reflexivity. Qed.
(** contains_point reads the parameter along x as soon as |dx| > EPSILON: (0,2,0) "is on" (0,0,0)-(1e-15,1,0) *)
Lemma noise_axis_float :
  seg_contains_point (fs 0 0 0 0x1.203af9ee75616p-50 1 0) (mkV3 0 2 0) = Ok true /\
  seg_contains_point (fs 0 0 0 0 1 0) (mkV3 0 2 0) = Ok false.
Proof. split; vm_compute; reflexivity. Qed.
