(** * C15, float tier: the computed transformed box contains the computed image of every float point of the box.
    For every Flocq binary format ([NumB prec emax]); no error term: rounding is monotone.

    Over the reals the statement is Proofs/C15_bounds.v ([bbox_by_contains_image]: an affine function on a box is bounded
    by its values at the eight corners).  In floating point both sides are COMPUTED: the eight corner images are rounded,
    and so is the image of an interior point.  The argument here:
    - [ev]: the non-NaN floats embedded in the reals, [+-inf] sent to [+-2^emax]; [Bleb] is [<=] of the images ([leb_ev]);
    - an operation whose result [v] is the IEEE rounding of the exact value [r] ([C07_interval.is_rnd]) has
      [ev v = clamp (RN r)] ([rnd_ev]): rounding THEN saturation, both monotone.  Hence [+] is monotone in both arguments
      in the extended order as long as no NaN appears, overflow included ([add_mono]), and [m * .] is monotone / antitone
      according to the sign of [m] ([mul_mono_pos], [mul_mono_neg]);
    - a row [((m0*x + m1*y) + m2*z) + m3] of [mul4x4point], in the association of the code, is therefore bounded below and
      above by its COMPUTED values at two corners of the box chosen by the signs of [m0 m1 m2] ([row_sandwich]); and it is
      NaN-free as soon as the eight corner values are ([sandwich_ok]: a NaN inside the box is a NaN at a corner);
    - the bottom row of an affine matrix evaluates to exactly 1 on finite coordinates, and the division by it changes
      nothing, infinities included ([w_one], [div_w]);
    - [bbox_by] is the hull of the eight computed corner images ([bbox_by_fold], order lemmas of Proofs/C15_order.v at
      [ok := not NaN]).
    Statements: Properties/C15_float.v. *)
From Coq Require Import ZArith Reals Bool Lra Lia List.
From Flocq Require Import Core BinarySingleNaN.
From G3 Require Import Model.Num Model.Base Model.Vec Model.BBox Model.Transform Model.Bounds.
From G3 Require Import Proofs.C15_order.
From G3 Require Proofs.C07_interval Proofs.C16_errbound Proofs.C14_special.
Import ListNotations.
Local Open Scope R_scope.

(** ** definitions used by the statements, generic over [Num] (evaluable on every instance) *)
Section Defs.
  Context {K : Type} {NK : Num K}.
  Definition v_nan_free (v : V3 K) : bool := negb (nis_nan (vx v)) && negb (nis_nan (vy v)) && negb (nis_nan (vz v)).
  (** corner [(i,j,k)] of a box: [false] = the coordinate of [bmin], [true] = that of [bmax] *)
  Definition corner (b : BBox K) (i j k : bool) : V3 K :=
    mkV3 (if i then vx (bmax b) else vx (bmin b)) (if j then vy (bmax b) else vy (bmin b)) (if k then vz (bmax b) else vz (bmin b)).
  (** the eight corners in the order in which [transform_bbox] visits them *)
  Definition corners8 (b : BBox K) : list (V3 K) :=
    [corner b false false false; corner b true false false; corner b false true false; corner b false false true;
     corner b false true true; corner b true true false; corner b true false true; corner b true true true].
  Definition bbox_by_nan_free (m : M4 K) (b : BBox K) : bool :=
    forallb (fun c => v_nan_free (mul4x4point m c)) (corners8 b).
  (** the hull of a non-empty list of points as [transform_bbox] builds it *)
  Definition hull8 (l : list (V3 K)) : BBox K :=
    match l with p0 :: l' => fold_left bbox_from_union_point l' (bbox_from_point p0) | [] => bbox_from_point (mkV3 n0 n0 n0) end.
  Lemma bbox_by_fold (m : M4 K) (b : BBox K) : bbox_by m b = hull8 (map (mul4x4point m) (corners8 b)).
  Proof. reflexivity. Qed.
  (** [transform_bbox] with the [k]-th corner forgotten (for the necessity witnesses) *)
  Fixpoint drop8 {A} (k : nat) (l : list A) : list A :=
    match k, l with O, _ :: l' => l' | S k', x :: l' => x :: drop8 k' l' | _, [] => [] end.
  Definition bbox_by_forgetting (k : nat) (m : M4 K) (b : BBox K) : BBox K := hull8 (map (mul4x4point m) (drop8 k (corners8 b))).
  (** rows 0..2 of the matrix (the bottom row is [affine_last]) *)
  Definition rows012 (P : K -> Prop) (m : M4 K) : Prop :=
    (P (m00 m) /\ P (m01 m) /\ P (m02 m) /\ P (m03 m)) /\ (P (m10 m) /\ P (m11 m) /\ P (m12 m) /\ P (m13 m)) /\
    (P (m20 m) /\ P (m21 m) /\ P (m22 m) /\ P (m23 m)).
  (** the bottom row is exactly (0, 0, 0, 1) (either zero), as a boolean *)
  Definition affine_last_b (m : M4 K) : bool :=
    ((m30 m =? n0) && (m31 m =? n0) && (m32 m =? n0) && (m33 m =? n1))%num.
  (** where the attached transform, if any, puts a point *)
  Definition place_pt (t : option (Tr K)) (p : V3 K) : V3 K := match t with Some t => tr_pt t p | None => p end.
  (** finite (neither NaN nor infinite), as a boolean: [|x| < inf] *)
  Definition fin_b (x : K) : bool := (nabs x <? ninf)%num.
  Definition fin3_b (v : V3 K) : bool := fin_b (vx v) && fin_b (vy v) && fin_b (vz v).
  Definition rows012_b (m : M4 K) : bool :=
    fin_b (m00 m) && fin_b (m01 m) && fin_b (m02 m) && fin_b (m03 m) && fin_b (m10 m) && fin_b (m11 m) && fin_b (m12 m) && fin_b (m13 m) &&
    fin_b (m20 m) && fin_b (m21 m) && fin_b (m22 m) && fin_b (m23 m).
  (** every hypothesis of the float-tier theorem on a matrix and a box, evaluable: finite rows 0..2, bottom row (0,0,0,1),
      finite box corners, no NaN among the eight computed corner images *)
  Definition tr_ok_b (m : M4 K) (b : BBox K) : bool :=
    rows012_b m && affine_last_b m && fin3_b (bmin b) && fin3_b (bmax b) && bbox_by_nan_free m b.
End Defs.

Section C15_float.
  Variable prec emax : Z.
  Context (Hprec : FLX.Prec_gt_0 prec) (Hmax : Prec_lt_emax prec emax).
  Notation bf := (binary_float prec emax).
  Notation RN := (C07_interval.RN prec emax).
  Local Instance NBf : Num bf := NumB prec emax Hprec Hmax.
  Notation fin x := (is_finite x = true).
  Notation M := (bpow radix2 emax).
  Notation RN_mono := (C07_interval.RN_le prec emax Hprec).
  Notation RN_zero := (C07_interval.RN_0 prec emax).

  Definition okN (x : bf) : Prop := is_nan x = false.
  Definition ev (x : bf) : R := match x with B754_infinity s => if s then - M else M | _ => B2R x end.
  Definition clamp (r : R) : R := Rmax (- M) (Rmin M r).

  Lemma M_pos : 0 < M. Proof. apply bpow_gt_0. Qed.
  Lemma fin_ok (x : bf) : fin x -> okN x.
  Proof. exact (C07_interval.finite_not_nan prec emax x). Qed.
  Lemma ev_fin (x : bf) : fin x -> ev x = B2R x /\ - M < ev x < M.
  Proof.
    intros F. assert (E : ev x = B2R x) by (destruct x; try reflexivity; discriminate). split. exact E. rewrite E.
    pose proof (abs_B2R_lt_emax prec emax x) as H. apply Rabs_def2 in H. lra.
  Qed.
  Lemma ok_cases (x : bf) : okN x -> fin x \/ x = B754_infinity false \/ x = B754_infinity true.
  Proof. destruct x as [s|[|]| |s m e H]; unfold okN; simpl; intros; try discriminate; auto. Qed.
  Lemma ev_range (x : bf) : - M <= ev x <= M.
  Proof.
    pose proof M_pos. destruct x as [s|[|]| |s m e Hb] eqn:E; simpl; try lra.
    assert (F : fin x) by (rewrite E; reflexivity). rewrite E in F. destruct (ev_fin _ F) as (E1 & E2). simpl in E2. lra.
  Qed.
  Lemma ev_top (x : bf) : okN x -> M <= ev x -> x = B754_infinity false.
  Proof.
    intros O H. pose proof M_pos. destruct (ok_cases x O) as [F|[->| ->]]; [|reflexivity|simpl in H; lra].
    destruct (ev_fin x F). lra.
  Qed.
  Lemma ev_bot (x : bf) : okN x -> ev x <= - M -> x = B754_infinity true.
  Proof.
    intros O H. pose proof M_pos. destruct (ok_cases x O) as [F|[->| ->]]; [|simpl in H; lra|reflexivity].
    destruct (ev_fin x F). lra.
  Qed.

  Lemma compare_ev (x y : bf) : okN x -> okN y -> Bcompare x y = Some (Rcompare (ev x) (ev y)).
  Proof.
    intros Ox Oy. pose proof M_pos.
    destruct (ok_cases x Ox) as [Fx|[->| ->]], (ok_cases y Oy) as [Fy|[->| ->]];
      try (destruct (ev_fin x Fx) as (Ex & Bx)); try (destruct (ev_fin y Fy) as (Ey & By)); cbn [ev].
    - rewrite Bcompare_correct, Ex, Ey by assumption. reflexivity.
    - rewrite Rcompare_Lt by lra. destruct x; try discriminate; reflexivity.
    - rewrite Rcompare_Gt by lra. destruct x; try discriminate; reflexivity.
    - rewrite Rcompare_Gt by lra. destruct y; try discriminate; reflexivity.
    - rewrite Rcompare_Eq by reflexivity. reflexivity.
    - rewrite Rcompare_Gt by lra. reflexivity.
    - rewrite Rcompare_Lt by lra. destruct y; try discriminate; reflexivity.
    - rewrite Rcompare_Lt by lra. reflexivity.
    - rewrite Rcompare_Eq by reflexivity. reflexivity.
  Qed.
  Lemma leb_ev (x y : bf) : okN x -> okN y -> Bleb x y = Rle_bool (ev x) (ev y).
  Proof.
    intros Ox Oy. unfold Bleb, SpecFloat.SFleb. change (SpecFloat.SFcompare (B2SF x) (B2SF y)) with (Bcompare x y).
    rewrite compare_ev by assumption. unfold Rle_bool. destruct (Rcompare _ _); reflexivity.
  Qed.
  Lemma leb_true (x y : bf) : okN x -> okN y -> (Bleb x y = true <-> ev x <= ev y).
  Proof.
    intros Ox Oy. rewrite leb_ev by assumption. destruct (Rle_bool_spec (ev x) (ev y)); split; intros; try lra; try reflexivity; discriminate.
  Qed.
  (** a comparison that holds involves no NaN *)
  Lemma leb_ok (x y : bf) : Bleb x y = true -> okN x /\ okN y.
  Proof. destruct x as [s|s| |s m e H], y as [s'|s'| |s' m' e' H']; unfold okN; simpl; intros; try discriminate; auto. Qed.

  Lemma clamp_le (r r' : R) : r <= r' -> clamp r <= clamp r'.
  Proof. intros H. unfold clamp, Rmax, Rmin. repeat destruct (Rle_dec _ _); lra. Qed.
  Lemma rnd_ev (v : bf) (r : R) : C07_interval.is_rnd prec emax v r -> okN v /\ ev v = clamp (RN r).
  Proof.
    pose proof M_pos as HM. intros (S0 & S1 & [[F E]|[s [-> Hov]]]).
    - split. apply fin_ok, F. destruct (ev_fin v F) as (E1 & B). rewrite <- E, <- E1.
      unfold clamp, Rmax, Rmin. repeat destruct (Rle_dec _ _); lra.
    - split. reflexivity. simpl in S0, S1. destruct s; simpl.
      + specialize (S1 eq_refl). assert (L : RN r <= 0) by (rewrite <- RN_zero; apply RN_mono; exact S1).
        rewrite Rabs_left1 in Hov by exact L. unfold clamp, Rmax, Rmin. repeat destruct (Rle_dec _ _); lra.
      + pose proof (@C07_interval.RN_nonneg prec emax _ r (S0 eq_refl)) as L.
        rewrite Rabs_pos_eq in Hov by exact L. unfold clamp, Rmax, Rmin. repeat destruct (Rle_dec _ _); lra.
  Qed.

  Lemma add_ev_fin (x y : bf) : fin x -> fin y -> okN (x + y)%num /\ ev (x + y)%num = clamp (RN (ev x + ev y)).
  Proof.
    intros Fx Fy. rewrite (proj1 (ev_fin x Fx)), (proj1 (ev_fin y Fy)).
    apply rnd_ev. apply C07_interval.is_rnd_plus; assumption.
  Qed.
  Lemma mul_ev_fin (x y : bf) : fin x -> fin y -> okN (x * y)%num /\ ev (x * y)%num = clamp (RN (B2R x * B2R y)).
  Proof. intros Fx Fy. apply rnd_ev. apply C07_interval.is_rnd_mult; assumption. Qed.

  Lemma plus_inf_l (s : bool) (y : bf) : fin y -> (B754_infinity s + y)%num = B754_infinity s.
  Proof. destruct y; simpl; intros; try discriminate; reflexivity. Qed.
  Lemma plus_inf_r (s : bool) (x : bf) : fin x -> (x + B754_infinity s)%num = B754_infinity s.
  Proof. destruct x; simpl; intros; try discriminate; reflexivity. Qed.
  Lemma add_ok_inv (x y : bf) : okN (x + y)%num -> okN x /\ okN y.
  Proof.
    unfold okN. destruct x as [s|s| |s m e Hb], y as [s'|s'| |s' m' e' Hb']; intros H; try (split; reflexivity);
      exfalso; revert H; simpl; discriminate.
  Qed.
  (** NaN only from [inf - inf] *)
  Lemma add_nan (x y : bf) : okN x -> okN y -> ~ okN (x + y)%num ->
    (x = B754_infinity false /\ y = B754_infinity true) \/ (x = B754_infinity true /\ y = B754_infinity false).
  Proof.
    intros Ox Oy N. destruct (ok_cases x Ox) as [Fx|[->| ->]], (ok_cases y Oy) as [Fy|[->| ->]]; auto; exfalso; apply N.
    - apply add_ev_fin; assumption.
    - rewrite plus_inf_r by assumption. reflexivity.
    - rewrite plus_inf_r by assumption. reflexivity.
    - rewrite plus_inf_l by assumption. reflexivity.
    - reflexivity.
    - rewrite plus_inf_l by assumption. reflexivity.
    - reflexivity.
  Qed.
  Lemma add_inf (s : bool) (x y : bf) : okN x -> okN y -> okN (x + y)%num -> x = B754_infinity s \/ y = B754_infinity s ->
    (x + y)%num = B754_infinity s.
  Proof.
    intros Ox Oy O [-> | ->].
    - destruct (ok_cases y Oy) as [Fy|[->| ->]]; [apply plus_inf_l, Fy | |]; destruct s; reflexivity || discriminate O.
    - destruct (ok_cases x Ox) as [Fx|[->| ->]]; [apply plus_inf_r, Fx | |]; destruct s; reflexivity || discriminate O.
  Qed.
  Lemma add_fin_ok (x y : bf) : okN x -> fin y -> okN (x + y)%num.
  Proof.
    intros Ox Fy. destruct (ok_cases x Ox) as [Fx|[->| ->]].
    - apply add_ev_fin; assumption.
    - rewrite plus_inf_l by assumption. reflexivity.
    - rewrite plus_inf_l by assumption. reflexivity.
  Qed.

  (** round-to-nearest addition is monotone in both arguments in the extended order, overflow included, as long as
      neither sum is NaN *)
  Theorem add_mono (x x' y y' : bf) : okN x -> okN x' -> okN y -> okN y' -> ev x <= ev x' -> ev y <= ev y' ->
    okN (x + y)%num -> okN (x' + y')%num -> ev (x + y)%num <= ev (x' + y')%num.
  Proof.
    intros Ox Ox' Oy Oy' Lx Ly O O'. pose proof M_pos as HM.
    assert (Bot : x = B754_infinity true \/ y = B754_infinity true -> ev (x + y)%num <= ev (x' + y')%num).
    { intros Hc. rewrite (add_inf true x y Ox Oy O Hc). simpl. apply ev_range. }
    assert (Top : x' = B754_infinity false \/ y' = B754_infinity false -> ev (x + y)%num <= ev (x' + y')%num).
    { intros Hc. rewrite (add_inf false x' y' Ox' Oy' O' Hc). simpl. apply ev_range. }
    destruct (ok_cases x Ox) as [Fx|[Ex|Ex]]; [| |apply Bot; auto].
    2:{ apply Top. left. apply ev_top. exact Ox'. rewrite Ex in Lx. exact Lx. }
    destruct (ok_cases y Oy) as [Fy|[Ey|Ey]]; [| |apply Bot; auto].
    2:{ apply Top. right. apply ev_top. exact Oy'. rewrite Ey in Ly. exact Ly. }
    destruct (ok_cases x' Ox') as [Fx'|[Ex'|Ex']]; [|apply Top; auto|].
    2:{ exfalso. rewrite Ex' in Lx. simpl in Lx. destruct (ev_fin x Fx). lra. }
    destruct (ok_cases y' Oy') as [Fy'|[Ey'|Ey']]; [|apply Top; auto|].
    2:{ exfalso. rewrite Ey' in Ly. simpl in Ly. destruct (ev_fin y Fy). lra. }
    rewrite (proj2 (add_ev_fin x y Fx Fy)), (proj2 (add_ev_fin x' y' Fx' Fy')).
    apply clamp_le, RN_mono. lra.
  Qed.

  (** a NaN between the corners is a NaN at a (mixed) corner *)
  Lemma sandwich_ok (aL a aU bL b bU : bf) : okN aL -> okN a -> okN aU -> okN bL -> okN b -> okN bU ->
    ev aL <= ev a <= ev aU -> ev bL <= ev b <= ev bU -> okN (aU + bL)%num -> okN (aL + bU)%num -> okN (a + b)%num.
  Proof.
    intros OaL Oa OaU ObL Ob ObU [La Ua] [Lb Ub] O1 O2.
    destruct (is_nan (a + b)%num) eqn:E; [exfalso|exact E].
    destruct (add_nan a b Oa Ob) as [[Ea Eb]|[Ea Eb]]. { unfold okN. rewrite E. discriminate. }
    - rewrite Ea in Ua. rewrite Eb in Lb. simpl in Ua, Lb.
      rewrite (ev_top aU OaU Ua), (ev_bot bL ObL Lb) in O1. discriminate O1.
    - rewrite Ea in La. rewrite Eb in Ub. simpl in La, Ub.
      rewrite (ev_bot aL OaL La), (ev_top bU ObU Ub) in O2. discriminate O2.
  Qed.

  Theorem mul_mono_pos (m x x' : bf) : fin m -> fin x -> fin x' -> 0 <= B2R m -> B2R x <= B2R x' ->
    ev (m * x)%num <= ev (m * x')%num.
  Proof.
    intros Fm Fx Fx' Hm Hx. rewrite (proj2 (mul_ev_fin m x Fm Fx)), (proj2 (mul_ev_fin m x' Fm Fx')).
    apply clamp_le, RN_mono. apply Rmult_le_compat_l; assumption.
  Qed.
  Theorem mul_mono_neg (m x x' : bf) : fin m -> fin x -> fin x' -> B2R m <= 0 -> B2R x <= B2R x' ->
    ev (m * x')%num <= ev (m * x)%num.
  Proof.
    intros Fm Fx Fx' Hm Hx. rewrite (proj2 (mul_ev_fin m x Fm Fx)), (proj2 (mul_ev_fin m x' Fm Fx')).
    apply clamp_le, RN_mono. apply Rmult_le_compat_neg_l; assumption.
  Qed.

  Definition sel (s : bool) (lo hi : bf) : bf := if s then hi else lo.
  Lemma sel_fin (s : bool) (lo hi : bf) : fin lo -> fin hi -> fin (sel s lo hi).
  Proof. destruct s; auto. Qed.
  (** one term [m * x] of a row: bounded by its computed values at the two ends of the range, chosen by the sign of [m] *)
  Lemma term_bounds (m lo hi x : bf) : fin m -> fin lo -> fin hi -> fin x -> B2R lo <= B2R x <= B2R hi ->
    exists sL sU : bool, ev (m * sel sL lo hi)%num <= ev (m * x)%num <= ev (m * sel sU lo hi)%num.
  Proof.
    intros Fm Fl Fh Fx [L U]. destruct (Rle_dec 0 (B2R m)) as [P|N].
    - exists false, true. split; apply mul_mono_pos; assumption.
    - exists true, false. split; apply mul_mono_neg; try assumption; lra.
  Qed.

  (** ** one row of [mul4x4point], in the association of the code *)
  Definition frow (m0 m1 m2 m3 x y z : bf) : bf := (m0 * x + m1 * y + m2 * z + m3)%num.

  Theorem row_sandwich (m0 m1 m2 m3 x0 x1 y0 y1 z0 z1 x y z : bf) :
    fin m0 -> fin m1 -> fin m2 -> fin m3 -> fin x0 -> fin x1 -> fin y0 -> fin y1 -> fin z0 -> fin z1 -> fin x -> fin y -> fin z ->
    B2R x0 <= B2R x <= B2R x1 -> B2R y0 <= B2R y <= B2R y1 -> B2R z0 <= B2R z <= B2R z1 ->
    (forall a b c : bool, okN (frow m0 m1 m2 m3 (sel a x0 x1) (sel b y0 y1) (sel c z0 z1))) ->
    okN (frow m0 m1 m2 m3 x y z) /\
    exists aL bL cL aU bU cU : bool,
      ev (frow m0 m1 m2 m3 (sel aL x0 x1) (sel bL y0 y1) (sel cL z0 z1)) <= ev (frow m0 m1 m2 m3 x y z) <=
      ev (frow m0 m1 m2 m3 (sel aU x0 x1) (sel bU y0 y1) (sel cU z0 z1)).
  Proof.
    intros Fm0 Fm1 Fm2 Fm3 Fx0 Fx1 Fy0 Fy1 Fz0 Fz1 Fx Fy Fz Hx Hy Hz Hc.
    destruct (term_bounds m0 x0 x1 x Fm0 Fx0 Fx1 Fx Hx) as (aL & aU & Ha).
    destruct (term_bounds m1 y0 y1 y Fm1 Fy0 Fy1 Fy Hy) as (bL & bU & Hb).
    destruct (term_bounds m2 z0 z1 z Fm2 Fz0 Fz1 Fz Hz) as (cL & cU & Hcz).
    unfold frow in *.
    assert (O2 : forall a b c, okN (m0 * sel a x0 x1 + m1 * sel b y0 y1 + m2 * sel c z0 z1)%num).
    { intros a b c. exact (proj1 (add_ok_inv _ _ (Hc a b c))). }
    assert (O1 : forall a b, okN (m0 * sel a x0 x1 + m1 * sel b y0 y1)%num).
    { intros a b. exact (proj1 (add_ok_inv _ _ (O2 a b false))). }
    assert (T0 : forall a, okN (m0 * sel a x0 x1)%num) by (intros a; apply mul_ev_fin; [assumption | apply sel_fin; assumption]).
    assert (T1 : forall b, okN (m1 * sel b y0 y1)%num) by (intros b; apply mul_ev_fin; [assumption | apply sel_fin; assumption]).
    assert (T2 : forall c, okN (m2 * sel c z0 z1)%num) by (intros c; apply mul_ev_fin; [assumption | apply sel_fin; assumption]).
    assert (t0 : okN (m0 * x)%num) by (apply mul_ev_fin; assumption).
    assert (t1 : okN (m1 * y)%num) by (apply mul_ev_fin; assumption).
    assert (t2 : okN (m2 * z)%num) by (apply mul_ev_fin; assumption).
    assert (s1 : okN (m0 * x + m1 * y)%num).
    { apply sandwich_ok with (aL := (m0 * sel aL x0 x1)%num) (aU := (m0 * sel aU x0 x1)%num)
                             (bL := (m1 * sel bL y0 y1)%num) (bU := (m1 * sel bU y0 y1)%num); auto. }
    assert (B1 : ev (m0 * sel aL x0 x1 + m1 * sel bL y0 y1)%num <= ev (m0 * x + m1 * y)%num <= ev (m0 * sel aU x0 x1 + m1 * sel bU y0 y1)%num).
    { split; apply add_mono; auto; tauto. }
    assert (s2 : okN (m0 * x + m1 * y + m2 * z)%num).
    { apply sandwich_ok with (aL := (m0 * sel aL x0 x1 + m1 * sel bL y0 y1)%num) (aU := (m0 * sel aU x0 x1 + m1 * sel bU y0 y1)%num)
                             (bL := (m2 * sel cL z0 z1)%num) (bU := (m2 * sel cU z0 z1)%num); auto. }
    assert (B2 : ev (m0 * sel aL x0 x1 + m1 * sel bL y0 y1 + m2 * sel cL z0 z1)%num <= ev (m0 * x + m1 * y + m2 * z)%num
                 <= ev (m0 * sel aU x0 x1 + m1 * sel bU y0 y1 + m2 * sel cU z0 z1)%num).
    { split; apply add_mono; auto; tauto. }
    (* + m3: a finite float, no NaN possible *)
    split. apply add_fin_ok; assumption.
    exists aL, bL, cL, aU, bU, cU.
    split; apply add_mono; auto using fin_ok; try tauto; try lra; apply add_fin_ok; auto.
  Qed.

  (** ** the homogeneous coordinate: exactly 1, and dividing by it changes nothing *)
  Notation affine_last := (C16_errbound.affine_last prec emax).
  Notation fin3 := (C16_errbound.fin3 prec emax).
  Definition wrow (m : M4 bf) (p : V3 bf) : bf := frow (m30 m) (m31 m) (m32 m) (m33 m) (vx p) (vy p) (vz p).
  Lemma w_one (m : M4 bf) (p : V3 bf) : affine_last m -> fin3 p -> fin (wrow m p) /\ B2R (wrow m p) = 1.
  Proof. exact (C16_errbound.w_one prec emax Hprec Hmax m p). Qed.
  (** [a / w] with [w = 1]: the same extended value, NaN iff [a] is *)
  Lemma div_w (a w : bf) : fin w -> B2R w = 1 -> is_nan (a / w)%num = is_nan a /\ (okN a -> ev (a / w)%num = ev a).
  Proof.
    intros Fw Vw.
    destruct (is_finite a) eqn:Fa.
    - destruct (C16_errbound.div_one prec emax Hprec Hmax a w Fa Fw Vw) as (F & V).
      change (@ndiv bf (C16_errbound.NB16 prec emax Hprec Hmax) a w) with (a / w)%num in F, V.
      split.
      + rewrite (fin_ok _ F), (fin_ok _ Fa). reflexivity.
      + intros _. rewrite (proj1 (ev_fin _ F)), (proj1 (ev_fin _ Fa)). exact V.
    - destruct w as [sw|sw| |sw mw ew Hw]; try discriminate.
      { simpl in Vw. lra. }
      destruct sw.
      { exfalso. simpl in Vw. pose proof (F2R_lt_0 radix2 (Float radix2 (Zneg mw) ew) ltac:(simpl; lia)). simpl in *. lra. }
      destruct a as [sa|[|]| |sa ma ea Ha]; try discriminate; split; try reflexivity; intros; reflexivity.
  Qed.

  Lemma pt_coords (m : M4 bf) (p : V3 bf) :
    mul4x4point m p =
    mkV3 (frow (m00 m) (m01 m) (m02 m) (m03 m) (vx p) (vy p) (vz p) / wrow m p)%num
         (frow (m10 m) (m11 m) (m12 m) (m13 m) (vx p) (vy p) (vz p) / wrow m p)%num
         (frow (m20 m) (m21 m) (m22 m) (m23 m) (vx p) (vy p) (vz p) / wrow m p)%num.
  Proof. (* unfolded by hand: left to itself the conversion goes through the instance first *)
    unfold mul4x4point, vdivs, wrow, frow. cbn [vx vy vz]. reflexivity.
  Qed.

  (** ** the order lemmas of Proofs/C15_order.v at [ok := not NaN] (infinities included) *)
  Lemma N_lt_nle (x y : bf) : okN x -> okN y -> (x <? y)%num = negb (y <=? x)%num.
  Proof. intros Ox Oy. exact (C07_interval.Bltb_negb_Bleb prec emax y x Oy Ox). Qed.
  Lemma N_le_total (x y : bf) : okN x -> okN y -> (x <=? y)%num = false -> (y <=? x)%num = true.
  Proof. intros Ox Oy H. exact (C07_interval.Bltb_Bleb _ _ (C07_interval.Bleb_false_Bltb _ _ Ox Oy H)). Qed.
  Lemma N_le_refl (x : bf) : okN x -> (x <=? x)%num = true.
  Proof. intros Ox. cbn [nleb NBf NumB]. rewrite leb_ev by assumption. apply Rle_bool_true. lra. Qed.
  Lemma N_le_trans (x y z : bf) : okN x -> okN y -> okN z -> (x <=? y)%num = true -> (y <=? z)%num = true -> (x <=? z)%num = true.
  Proof. intros Ox Oy Oz. cbn [nleb NBf NumB]. rewrite !leb_true by assumption. lra. Qed.

  Definition vleE (a b : V3 bf) : Prop := ev (vx a) <= ev (vx b) /\ ev (vy a) <= ev (vy b) /\ ev (vz a) <= ev (vz b).
  Definition inE (b : BBox bf) (q : V3 bf) : Prop := vleE (bmin b) q /\ vleE q (bmax b).
  Lemma vle_E (a b : V3 bf) : okv okN a -> okv okN b -> (vle a b <-> vleE a b).
  Proof.
    intros (A1 & A2 & A3) (B1 & B2 & B3). unfold vle, vleE, le. cbn [nleb NBf NumB].
    rewrite !leb_true by assumption. tauto.
  Qed.
  (** the hull of NaN-free points is NaN-free and contains each of them *)
  Lemma hull8_in (l : list (V3 bf)) : l <> [] -> Forall (okv okN) l ->
    okb okN (hull8 l) /\ forall q, In q l -> inE (hull8 l) q.
  Proof.
    destruct l as [|p0 l]; [congruence|]. intros _ Hl. inversion Hl as [|? ? O0 Hl']; subst. cbn [hull8].
    destruct (g_hull_in okN N_lt_nle N_le_total N_le_refl N_le_trans p0 l O0 Hl') as (Oh & Hh).
    split; [exact Oh|]. intros q Hq. destruct (Hh q) as (L & U); [destruct Hq; auto|].
    assert (Oq : okv okN q) by (rewrite Forall_forall in Hl; apply Hl, Hq).
    split; apply vle_E; assumption || apply Oh.
  Qed.

  Lemma between_fin (lo x hi : bf) : fin lo -> fin hi -> Bleb lo x = true -> Bleb x hi = true ->
    fin x /\ B2R lo <= B2R x <= B2R hi.
  Proof.
    intros Fl Fh L U. destruct (leb_ok _ _ L) as (Ol & Ox). destruct (leb_ok _ _ U) as (_ & Oh).
    apply leb_true in L, U; try assumption.
    destruct (ev_fin lo Fl) as (El & Bl). destruct (ev_fin hi Fh) as (Eh & Bh).
    assert (Fx : fin x).
    { destruct (ok_cases x Ox) as [F|[E|E]]; [exact F| |]; rewrite E in *; simpl in L, U; exfalso; lra. }
    split. exact Fx. rewrite <- El, <- Eh, <- (proj1 (ev_fin x Fx)). lra.
  Qed.
  Lemma corner_sel (b : BBox bf) (i j k : bool) :
    corner b i j k = mkV3 (sel i (vx (bmin b)) (vx (bmax b))) (sel j (vy (bmin b)) (vy (bmax b))) (sel k (vz (bmin b)) (vz (bmax b))).
  Proof. reflexivity. Qed.
  Lemma corner_in (b : BBox bf) (i j k : bool) : In (corner b i j k) (corners8 b).
  Proof. destruct i, j, k; cbn [corners8 In]; tauto. Qed.
  Lemma v_nan_free_ok (v : V3 bf) : v_nan_free v = true <-> okv okN v.
  Proof.
    unfold v_nan_free, okv, okN. cbn [nis_nan NBf NumB]. rewrite !andb_true_iff, !negb_true_iff. tauto.
  Qed.

  Lemma row_image (m : M4 bf) (b : BBox bf) (p : V3 bf) (m0 m1 m2 m3 : bf) :
    affine_last m -> fin3 (bmin b) -> fin3 (bmax b) -> bbox_point_inside b p = true ->
    fin m0 -> fin m1 -> fin m2 -> fin m3 ->
    (forall q, In q (corners8 b) -> okN (frow m0 m1 m2 m3 (vx q) (vy q) (vz q) / wrow m q)%num) ->
    let c := (frow m0 m1 m2 m3 (vx p) (vy p) (vz p) / wrow m p)%num in
    okN c /\ exists qL qU, In qL (corners8 b) /\ In qU (corners8 b) /\
      ev (frow m0 m1 m2 m3 (vx qL) (vy qL) (vz qL) / wrow m qL)%num <= ev c <=
      ev (frow m0 m1 m2 m3 (vx qU) (vy qU) (vz qU) / wrow m qU)%num.
  Proof.
    intros Haff (Fx0 & Fy0 & Fz0) (Fx1 & Fy1 & Fz1) Hin G0 G1 G2 G3 Ok c.
    unfold bbox_point_inside in Hin. cbn [nleb NBf NumB] in Hin. rewrite !andb_true_iff in Hin.
    destruct Hin as (((((X0 & X1) & Y0) & Y1) & Z0) & Z1).
    destruct (between_fin _ _ _ Fx0 Fx1 X0 X1) as (Fx & Hx). destruct (between_fin _ _ _ Fy0 Fy1 Y0 Y1) as (Fy & Hy).
    destruct (between_fin _ _ _ Fz0 Fz1 Z0 Z1) as (Fz & Hz).
    (* [w = 1] at the point and at every corner, so the division neither changes a value nor makes a NaN *)
    assert (Wc : forall i j k, fin (wrow m (corner b i j k)) /\ B2R (wrow m (corner b i j k)) = 1).
    { intros [|] [|] [|]; apply (w_one _ _ Haff); repeat split; assumption. }
    destruct (w_one m p Haff) as (Fwp & Vwp); [repeat split; assumption|].
    assert (Ok' : forall i j k, okN (frow m0 m1 m2 m3 (sel i (vx (bmin b)) (vx (bmax b))) (sel j (vy (bmin b)) (vy (bmax b))) (sel k (vz (bmin b)) (vz (bmax b))))).
    { intros i j k. specialize (Ok _ (corner_in b i j k)). destruct (Wc i j k) as (Fw & Vw).
      unfold okN in *. rewrite (proj1 (div_w _ _ Fw Vw)) in Ok. exact Ok. }
    destruct (row_sandwich m0 m1 m2 m3 _ _ _ _ _ _ (vx p) (vy p) (vz p) G0 G1 G2 G3 Fx0 Fx1 Fy0 Fy1 Fz0 Fz1 Fx Fy Fz Hx Hy Hz Ok')
      as (Op & aL & bL & cL & aU & bU & cU & Hb).
    destruct (div_w (frow m0 m1 m2 m3 (vx p) (vy p) (vz p)) _ Fwp Vwp) as (Np & Ep).
    split. { unfold c, okN. rewrite Np. exact Op. }
    exists (corner b aL bL cL), (corner b aU bU cU). split. apply corner_in. split. apply corner_in.
    unfold c. rewrite (Ep Op).
    destruct (Wc aL bL cL) as (FwL & VwL). destruct (Wc aU bU cU) as (FwU & VwU).
    pose proof (proj2 (div_w _ _ FwL VwL) (Ok' aL bL cL)) as EL. pose proof (proj2 (div_w _ _ FwU VwU) (Ok' aU bU cU)) as EU.
    unfold sel in EL, EU, Hb. cbn [corner vx vy vz] in EL, EU |- *. rewrite EL, EU. exact Hb.
  Qed.

  Lemma corners_suffice_float (m : M4 bf) (b h : BBox bf) (p : V3 bf) :
    rows012 (fun x : bf => fin x) m -> affine_last m -> fin3 (bmin b) -> fin3 (bmax b) ->
    (forall q, In q (corners8 b) -> okv okN (mul4x4point m q)) -> okb okN h ->
    (forall q, In q (corners8 b) -> inE h (mul4x4point m q)) ->
    bbox_point_inside b p = true -> bbox_point_inside h (mul4x4point m p) = true.
  Proof.
    intros ((F00 & F01 & F02 & F03) & (F10 & F11 & F12 & F13) & (F20 & F21 & F22 & F23)) Haff F0 F1 Oc
           ((O1 & O2 & O3) & (O4 & O5 & O6)) Hc Hin.
    (* row by row: the coordinate is between two corner images, which are between the ends of [h] *)
    unfold bbox_point_inside. cbn [nleb NBf NumB]. rewrite pt_coords. cbn [vx vy vz].
    destruct (row_image m b p _ _ _ _ Haff F0 F1 Hin F00 F01 F02 F03) as (Ox & xL & xU & IxL & IxU & Bx).
    { intros q Hq. specialize (Oc q Hq). rewrite pt_coords in Oc. apply Oc. }
    destruct (row_image m b p _ _ _ _ Haff F0 F1 Hin F10 F11 F12 F13) as (Oy & yL & yU & IyL & IyU & By).
    { intros q Hq. specialize (Oc q Hq). rewrite pt_coords in Oc. apply Oc. }
    destruct (row_image m b p _ _ _ _ Haff F0 F1 Hin F20 F21 F22 F23) as (Oz & zL & zU & IzL & IzU & Bz).
    { intros q Hq. specialize (Oc q Hq). rewrite pt_coords in Oc. apply Oc. }
    destruct (Hc _ IxL) as ((HxL & _) & _). destruct (Hc _ IxU) as (_ & (HxU & _)).
    destruct (Hc _ IyL) as ((_ & HyL & _) & _). destruct (Hc _ IyU) as (_ & (_ & HyU & _)).
    destruct (Hc _ IzL) as ((_ & _ & HzL) & _). destruct (Hc _ IzU) as (_ & (_ & _ & HzU)).
    clear Hc Oc. rewrite pt_coords in *. cbn [vx vy vz] in *.
    repeat (apply andb_true_intro; split); apply leb_true; try assumption; lra.
  Qed.

  Theorem bbox_by_contains_image_float (m : M4 bf) (b : BBox bf) (p : V3 bf) :
    rows012 (fun x : bf => fin x) m -> affine_last m -> fin3 (bmin b) -> fin3 (bmax b) ->
    bbox_by_nan_free m b = true -> bbox_point_inside b p = true ->
    bbox_point_inside (bbox_by m b) (mul4x4point m p) = true.
  Proof.
    intros Hr Haff F0 F1 Hnf Hin.
    unfold bbox_by_nan_free in Hnf. rewrite forallb_forall in Hnf.
    assert (Oc : forall q, In q (corners8 b) -> okv okN (mul4x4point m q)) by (intros; apply v_nan_free_ok, Hnf; assumption).
    rewrite bbox_by_fold.
    destruct (hull8_in (map (mul4x4point m) (corners8 b))) as (Oh & Hh).
    { discriminate. }
    { apply Forall_forall. intros q Hq. apply in_map_iff in Hq. destruct Hq as (c0 & <- & Hc0). apply Oc, Hc0. }
    apply corners_suffice_float with b; try assumption. intros q Hq. apply Hh, in_map, Hq.
  Qed.

  (** ** the same facts in terms of the float comparison [Bleb] *)
  Theorem add_mono_leb (x x' y y' : bf) : Bleb x x' = true -> Bleb y y' = true ->
    is_nan (x + y)%num = false -> is_nan (x' + y')%num = false -> Bleb (x + y)%num (x' + y')%num = true.
  Proof.
    intros Lx Ly O O'. destruct (leb_ok _ _ Lx) as (Ox & Ox'). destruct (leb_ok _ _ Ly) as (Oy & Oy').
    apply leb_true; try assumption. apply add_mono; try assumption; apply leb_true; assumption.
  Qed.
  Theorem mul_mono_leb (m x x' : bf) : fin m -> fin x -> fin x' -> Bleb x x' = true ->
    (0 <= B2R m -> Bleb (m * x)%num (m * x')%num = true) /\ (B2R m <= 0 -> Bleb (m * x')%num (m * x)%num = true).
  Proof.
    intros Fm Fx Fx' L. apply (C07_interval.Bleb_finite _ _ Fx Fx') in L.
    split; intros Hm; (apply leb_true; [apply mul_ev_fin; assumption | apply mul_ev_fin; assumption |]).
    - apply mul_mono_pos; assumption.
    - apply mul_mono_neg; assumption.
  Qed.
  Theorem row_between_corners (m0 m1 m2 m3 x0 x1 y0 y1 z0 z1 x y z : bf) :
    fin m0 -> fin m1 -> fin m2 -> fin m3 -> fin x0 -> fin x1 -> fin y0 -> fin y1 -> fin z0 -> fin z1 ->
    Bleb x0 x = true -> Bleb x x1 = true -> Bleb y0 y = true -> Bleb y y1 = true -> Bleb z0 z = true -> Bleb z z1 = true ->
    (forall a b c : bool, is_nan (frow m0 m1 m2 m3 (sel a x0 x1) (sel b y0 y1) (sel c z0 z1)) = false) ->
    is_nan (frow m0 m1 m2 m3 x y z) = false /\
    exists aL bL cL aU bU cU : bool,
      Bleb (frow m0 m1 m2 m3 (sel aL x0 x1) (sel bL y0 y1) (sel cL z0 z1)) (frow m0 m1 m2 m3 x y z) = true /\
      Bleb (frow m0 m1 m2 m3 x y z) (frow m0 m1 m2 m3 (sel aU x0 x1) (sel bU y0 y1) (sel cU z0 z1)) = true.
  Proof.
    intros Fm0 Fm1 Fm2 Fm3 Fx0 Fx1 Fy0 Fy1 Fz0 Fz1 X0 X1 Y0 Y1 Z0 Z1 Hc.
    destruct (between_fin _ _ _ Fx0 Fx1 X0 X1) as (Fx & Hx). destruct (between_fin _ _ _ Fy0 Fy1 Y0 Y1) as (Fy & Hy).
    destruct (between_fin _ _ _ Fz0 Fz1 Z0 Z1) as (Fz & Hz).
    destruct (row_sandwich m0 m1 m2 m3 x0 x1 y0 y1 z0 z1 x y z) as (Op & aL & bL & cL & aU & bU & cU & HL & HU); try assumption.
    split. exact Op. exists aL, bL, cL, aU, bU, cU. split; apply leb_true; try assumption; apply Hc.
  Qed.

  (** ** [transform_bbox] / [inv_transform_bbox] and the world bounds of the primitives *)
  Definition tr_ok (m : M4 bf) (b : BBox bf) : Prop :=
    rows012 (fun x : bf => fin x) m /\ affine_last m /\ bbox_by_nan_free m b = true.
  Theorem tr_bbox_contains_float (t : Tr bf) (b : BBox bf) (p : V3 bf) : fin3 (bmin b) -> fin3 (bmax b) ->
    bbox_point_inside b p = true ->
    (tr_ok (elements t) b -> bbox_point_inside (tr_bbox t b) (tr_pt t p) = true) /\
    (tr_ok (inv_elements t) b -> bbox_point_inside (tr_inv_bbox t b) (tr_inv_pt t p) = true).
  Proof.
    intros F0 F1 Hin. split; intros (Hr & Ha & Hn); apply bbox_by_contains_image_float; assumption.
  Qed.
  Definition tr_ok_opt (t : option (Tr bf)) (b : BBox bf) : Prop := match t with Some t => tr_ok (elements t) b | None => True end.
  Theorem world_bounds_contain_float (t : option (Tr bf)) (lb : BBox bf) (p : V3 bf) : fin3 (bmin lb) -> fin3 (bmax lb) ->
    tr_ok_opt t lb -> bbox_point_inside lb p = true -> bbox_point_inside (world_bounds t lb) (place_pt t p) = true.
  Proof.
    intros F0 F1 Ht Hin. destruct t as [t|]; cbn [world_bounds place_pt tr_ok_opt] in *; [|exact Hin].
    destruct Ht as (Hr & Ha & Hn). apply bbox_by_contains_image_float; assumption.
  Qed.
  (** the local bounds of spheres and cylinders have finite corners when radius and clips are finite *)
  Lemma quadric_bounds_fin (r zmin zmax : bf) : fin r -> fin zmin -> fin zmax ->
    fin3 (bmin (sphere_bounds r zmin zmax)) /\ fin3 (bmax (sphere_bounds r zmin zmax)).
  Proof.
    intros Fr F0 F1. assert (Fn : fin (- r)%num) by (cbn [nneg NBf NumB]; rewrite is_finite_Bopp; exact Fr).
    destruct (F_new_normalises prec emax Hprec Hmax (mkV3 (- r) (- r) zmin)%num (mkV3 r r zmax)) as (_ & _ & _ & O).
    - repeat split; assumption.
    - repeat split; assumption.
    - exact O.
  Qed.
  Theorem sphere_world_bounds_float (t : option (Tr bf)) (r zmin zmax : bf) (p : V3 bf) : fin r -> fin zmin -> fin zmax ->
    tr_ok_opt t (sphere_bounds r zmin zmax) -> bbox_point_inside (sphere_bounds r zmin zmax) p = true ->
    bbox_point_inside (world_bounds t (sphere_bounds r zmin zmax)) (place_pt t p) = true.
  Proof. intros Fr F0 F1. destruct (quadric_bounds_fin r zmin zmax Fr F0 F1). apply world_bounds_contain_float; assumption. Qed.
  Theorem cylinder_world_bounds_float (t : option (Tr bf)) (r zmin zmax : bf) (p : V3 bf) : fin r -> fin zmin -> fin zmax ->
    tr_ok_opt t (cylinder_bounds r zmin zmax) -> bbox_point_inside (cylinder_bounds r zmin zmax) p = true ->
    bbox_point_inside (world_bounds t (cylinder_bounds r zmin zmax)) (place_pt t p) = true.
  Proof. exact (sphere_world_bounds_float t r zmin zmax p). Qed.
  (** triangles carry no transform: world bounds = local bounds, for every input *)
  Theorem triangle_world_bounds_float (a b c p : V3 bf) :
    bbox_point_inside (triangle_world_bounds a b c) p = bbox_point_inside (triangle_bounds a b c) p.
  Proof. reflexivity. Qed.

  (** ** an evaluable criterion for [affine_last] *)
  Lemma affine_last_b_sound (m : M4 bf) : affine_last_b m = true -> affine_last m.
  Proof.
    unfold affine_last_b. cbn [neqb NBf NumB]. rewrite !andb_true_iff. intros (((E0 & E1) & E2) & E3).
    assert (Z0 : fin (@n0 bf NBf) /\ B2R (@n0 bf NBf) = 0) by (split; reflexivity).
    destruct Z0 as (Fz & Vz). destruct (C14_special.n1_one prec emax Hprec Hmax : fin (@n1 bf NBf) /\ B2R (@n1 bf NBf) = 1) as (F1 & V1).
    destruct (C07_interval.Beqb_fin _ _ Fz E0) as (G0 & W0). destruct (C07_interval.Beqb_fin _ _ Fz E1) as (G1 & W1).
    destruct (C07_interval.Beqb_fin _ _ Fz E2) as (G2 & W2). destruct (C07_interval.Beqb_fin _ _ F1 E3) as (G3 & W3).
    unfold C16_errbound.affine_last. rewrite W0, W1, W2, W3, Vz, V1. tauto.
  Qed.

  (** ** the fully evaluable form *)
  Lemma fin_b_sound (x : bf) : fin_b x = true <-> fin x.
  Proof. unfold fin_b. cbn [nltb nabs ninf NBf NumB]. destruct x as [s|s| |s m e Hb]; simpl; split; intros; try discriminate; reflexivity. Qed.
  Lemma fin3_b_sound (v : V3 bf) : fin3_b v = true <-> fin3 v.
  Proof. unfold fin3_b, C16_errbound.fin3. rewrite !andb_true_iff, !fin_b_sound. tauto. Qed.
  Lemma tr_ok_b_sound (m : M4 bf) (b : BBox bf) : tr_ok_b m b = true -> tr_ok m b /\ fin3 (bmin b) /\ fin3 (bmax b).
  Proof.
    unfold tr_ok_b, rows012_b. intros H.
    (* peeled conjunct by conjunct: rewriting with [andb_true_iff] under sixteen conjunctions is slow to check *)
    repeat (apply andb_prop in H; let K := fresh "K" in destruct H as [H K]).
    split; [split; [|split; [apply affine_last_b_sound|]] | split; apply fin3_b_sound]; try assumption.
    repeat split; apply fin_b_sound; assumption.
  Qed.
  Theorem bbox_by_contains_image_float_b (m : M4 bf) (b : BBox bf) (p : V3 bf) :
    tr_ok_b m b = true -> bbox_point_inside b p = true -> bbox_point_inside (bbox_by m b) (mul4x4point m p) = true.
  Proof.
    intros Hok Hin. destruct (tr_ok_b_sound m b Hok) as ((Hr & Ha & Hn) & F0 & F1).
    apply bbox_by_contains_image_float; assumption.
  Qed.
End C15_float.

(** ** non-vacuity at binary64 and binary32 *)
Lemma nonvacuous64 :
  let t := @tr_mul_assign _ NumB64 (tr_translate n1 n2 (nofZ 3)) (tr_scale n2 (- n1)%num nhalf) in
  let b := @bbox_new _ NumB64 (mkV3 n1 n1 n1) (mkV3 n0 n0 n0) in
  @tr_ok_b _ NumB64 (elements t) b = true /\ @tr_ok_b _ NumB64 (inv_elements t) b = true /\
  @bbox_point_inside _ NumB64 b (mkV3 nhalf (nhalf * nhalf)%num n1) = true.
Proof. intros t b. rewrite <- !andb_true_iff. vm_compute. reflexivity. Qed.
Lemma nonvacuous32 :
  let t := @tr_mul_assign _ NumB32 (tr_translate n1 n2 (nofZ 3)) (tr_scale n2 (- n1)%num nhalf) in
  let b := @bbox_new _ NumB32 (mkV3 n1 n1 n1) (mkV3 n0 n0 n0) in
  @tr_ok_b _ NumB32 (elements t) b = true /\ @tr_ok_b _ NumB32 (inv_elements t) b = true /\
  @bbox_point_inside _ NumB32 b (mkV3 nhalf (nhalf * nhalf)%num n1) = true.
Proof. intros t b. rewrite <- !andb_true_iff. vm_compute. reflexivity. Qed.
