(** * Quadric_hit: surface data at a sphere / cylinder hit (C13 part pquadric), on the real instance. *)
From Coq Require Import ZArith Reals Lra Bool List Psatz.
From G3 Require Import Model.Num Model.Base Model.Vec Model.BBox Model.RoundError Model.Transform Model.Hit Model.Sphere Model.Cylinder.
From G3 Require Import Theory.RInst Theory.VecR Proofs.C06_transform Proofs.Flat_base Proofs.Quadric_base Proofs.Quadric_sphere Proofs.Quadric_cylinder.
Local Open Scope R_scope.

(** ** [get_side], with the Back normal written as the code computes it: [n * (-1)] *)
Lemma get_side_back (n d : V) : 0 < vdot n d -> get_side n d = (vscale n (- 1), Back).
Proof. intros H. rewrite vscale_m1. apply Flat_base.get_side_back, H. Qed.
Lemma get_side_na (n d : V) : vdot n d = 0 -> get_side n d = (mkV3 0 0 0, NonApplicable).
Proof. exact (Flat_base.get_side_na n d). Qed.
(** two rays arriving at the same surface point from opposite sides get opposite normals and sides *)
Lemma get_side_flips (n d d' : V) : vdot n d < 0 -> 0 < vdot n d' ->
  snd (get_side n d) = Front /\ snd (get_side n d') = Back /\ fst (get_side n d') = vscale (fst (get_side n d)) (- 1).
Proof. intros L G. rewrite get_side_front, get_side_back by assumption. auto. Qed.

(** normalising [k . p] for k > 0 and |p| = r > 0 gives p / r *)
Lemma vnormalize_scaled (p : V) (k r : R) : 0 < k -> 0 < r -> vlen2 p = r * r ->
  vnormalize (vscale p k) = vscale p (1 / r).
Proof.
  intros Hk Hr H. rewrite vnormalize_scale, vlen_vscale, vscale_vscale, Rabs_pos_eq by lra.
  unfold vlen. rewrite H. rnumg. rewrite sqrt_square by lra. f_equal. field. lra.
Qed.
Lemma vlen2_unit (p : V) (r : R) : 0 < r -> vlen2 p = r * r -> vlen2 (vscale p (1 / r)) = 1.
Proof. intros Hr H. rewrite vlen2_vscale, H. field. lra. Qed.

Section SphereData.
  Context (s : S) (p : V).
  Context (Hr : 0 < sradius s) (Hon : on_sphere s p).

  Lemma sph_cos_theta_range : -1 <= vz p / sradius s <= 1.
  Proof.
    pose proof (on_sphere_z s p Hr Hon) as [A B]. split.
    - apply (Rmult_le_reg_r (sradius s)); [exact Hr|]. unfold Rdiv. rewrite Rmult_assoc, Rinv_l by lra. lra.
    - apply (Rmult_le_reg_r (sradius s)); [exact Hr|]. unfold Rdiv. rewrite Rmult_assoc, Rinv_l by lra. lra.
  Qed.
  Lemma fclamp11_id (x : R) : -1 <= x <= 1 -> fclamp11 x = x.
  Proof.
    intros [A B]. unfold fclamp11. rnumg. rewrite (Rltb_ge x) by lra. rewrite Rltb_ge by lra. reflexivity.
  Qed.
  (** sin(theta) as the code computes it, [sin (acos (z / r))], is sqrt(1 - (z/r)^2) >= 0, and r sin(theta) is the
      distance of the hit from the z axis *)
  Lemma sph_sin_theta : sphere_sin_theta s p = sqrt (1 - (vz p / sradius s) * (vz p / sradius s)).
  Proof.
    unfold sphere_sin_theta. rnumg. rewrite fclamp11_id by apply sph_cos_theta_range.
    rewrite sin_acos by apply sph_cos_theta_range. reflexivity.
  Qed.
  Lemma sph_sin_theta_sq :
    sradius s * sradius s * (sphere_sin_theta s p * sphere_sin_theta s p) = vx p * vx p + vy p * vy p.
  Proof.
    rewrite sph_sin_theta. pose proof sph_cos_theta_range as [A B].
    rewrite sqrt_sqrt by nra. pose proof Hon as Hon'. unfold on_sphere in Hon'. revert Hon'. vcbn. intros Hon'.
    replace (sradius s * sradius s * (1 - vz p / sradius s * (vz p / sradius s))) with (sradius s * sradius s - vz p * vz p) by (field; lra).
    lra.
  Qed.
  Lemma sph_sin_theta_nonneg : 0 <= sphere_sin_theta s p.
  Proof. rewrite sph_sin_theta. apply sqrt_pos. Qed.
  (** the poles are exactly where it vanishes *)
  Lemma sph_sin_theta_zero_iff : sphere_sin_theta s p = 0 <-> (vx p = 0 /\ vy p = 0).
  Proof.
    pose proof sph_sin_theta_sq as H. split.
    - intros E. rewrite E in H. split; nra.
    - intros [E1 E2]. rewrite E1, E2 in H.
      assert (Q : sphere_sin_theta s p * sphere_sin_theta s p = 0).
      { apply (Rmult_eq_reg_l (sradius s * sradius s)); [lra | nra]. }
      apply Rmult_integral in Q. destruct Q; assumption.
  Qed.

  (** both tangents are orthogonal to the gradient 2p of x^2+y^2+z^2 *)
  Lemma sphere_dpdu_tangent : vdot (sphere_dpdu s p) p = 0.
  Proof. unfold sphere_dpdu. vring. Qed.

  Context (Hpole : sphere_sin_theta s p <> 0).
  Lemma sphere_dpdv_tangent : vdot (sphere_dpdv s p) p = 0.
  Proof.
    pose proof sph_sin_theta_sq as H. unfold sphere_dpdv. set (st := sphere_sin_theta s p) in *.
    destruct p as [px py pz]. unfold vdot, vscale. cbn [vx vy vz] in *. unfold n1. rnum.
    assert (E : forall A, A = 0 -> A / (sradius s * st) = 0) by (intros A ->; field; split; lra).
    transitivity ((sdelta_theta s * pz * (px * px + py * py - sradius s * sradius s * (st * st))) / (sradius s * st)); [field; split; lra|].
    apply E. rewrite <- H. ring.
  Qed.
  (** dpdv x dpdu = (delta_theta phi_max r sin theta) . p *)
  Lemma sphere_cross : vcross (sphere_dpdv s p) (sphere_dpdu s p) =
    vscale p (sdelta_theta s * sphi_max s * sradius s * sphere_sin_theta s p).
  Proof.
    pose proof sph_sin_theta_sq as H. unfold sphere_dpdv, sphere_dpdu. set (st := sphere_sin_theta s p) in *.
    destruct p as [px py pz]. unfold vcross, vscale. cbn [vx vy vz] in *. unfold n1, n0. rnum.
    apply v3_eq; cbn [vx vy vz]; try (field; split; lra).
    transitivity (sdelta_theta s * sphi_max s * pz * (px * px + py * py) / (sradius s * st)); [field; split; lra|].
    rewrite <- H. field. split; lra.
  Qed.
  Context (Hphi : 0 < sphi_max s) (Hdt : 0 < sdelta_theta s).
  (** the normal before [get_side] is the outward unit normal p / r *)
  Lemma sphere_normal_outward : vnormalize (vcross (sphere_dpdv s p) (sphere_dpdu s p)) = vscale p (1 / sradius s).
  Proof.
    rewrite sphere_cross. apply vnormalize_scaled; [|exact Hr | exact Hon].
    pose proof sph_sin_theta_nonneg. assert (0 < sphere_sin_theta s p) by lra.
    repeat apply Rmult_lt_0_compat; assumption.
  Qed.

  (** the reported hit data *)
  Lemma sphere_info_data (ray : Ray R) (phi : R) :
    let i := sphere_info s ray p phi in
    let d := rdir ray in
    ip i = p /\ vdot (idpdu i) p = 0 /\ vdot (idpdv i) p = 0 /\
    (vdot p d < 0 -> iside i = Front /\ inormal i = vscale p (1 / sradius s)) /\
    (0 < vdot p d -> iside i = Back /\ inormal i = vscale (vscale p (1 / sradius s)) (- 1)) /\
    (vdot p d <> 0 -> vdot (inormal i) d < 0 /\ vlen2 (inormal i) = 1 /\
                       vdot (inormal i) (idpdu i) = 0 /\ vdot (inormal i) (idpdv i) = 0).
  Proof.
    cbv zeta. unfold sphere_info.
    destruct (info_new_fields ray p (sphere_dpdu s p) (sphere_dpdv s p)) as (E1 & E2 & E3 & E4 & E5).
    rewrite E1, E2, E3, E4, E5, sphere_normal_outward. set (n := vscale p (1 / sradius s)).
    assert (Hd : vdot n (rdir ray) = 1 / sradius s * vdot p (rdir ray)) by apply vdot_vscale_l.
    assert (Hi : 0 < 1 / sradius s) by (apply Rdiv_lt_0_compat; lra).
    assert (U : vlen2 n = 1) by (apply vlen2_unit; assumption).
    assert (Tu : vdot n (sphere_dpdu s p) = 0) by (unfold n; rewrite vdot_vscale_l, vdot_comm, sphere_dpdu_tangent; ring).
    assert (Tv : vdot n (sphere_dpdv s p) = 0) by (unfold n; rewrite vdot_vscale_l, vdot_comm, sphere_dpdv_tangent; ring).
    split; [reflexivity|]. split; [apply sphere_dpdu_tangent|]. split; [apply sphere_dpdv_tangent|]. split; [|split].
    - intros L. rewrite get_side_front by nra. auto.
    - intros G. rewrite get_side_back by nra. auto.
    - intros N. assert (N' : vdot n (rdir ray) <> 0) by nra.
      rewrite get_side_len2 by exact N'. auto using get_side_faces, get_side_perp.
  Qed.
End SphereData.

(** the pole: with p = (0, 0, r) the code's sin(theta) is 0 and the tangent dpdv is not a finite vector of the
    real model either: the division 1 / r / sin(theta) is a division by zero (F8) *)
Lemma sphere_pole_sin_theta (s : S) : 0 < sradius s -> sphere_sin_theta s (mkV3 0 0 (sradius s)) = 0.
Proof.
  intros Hr. apply sph_sin_theta_zero_iff; [exact Hr | | cbn [vx vy]; auto].
  unfold on_sphere. vring.
Qed.

Section CylData.
  Context (c : C) (p : V).
  Context (Hr : 0 < cradius c) (Hon : on_cyl c p).
  Definition radial (q : V) : V := mkV3 (vx q) (vy q) 0.   (* half the gradient of x^2 + y^2 *)

  Lemma cyl_tangents : vdot (cyl_dpdu c p) (radial p) = 0 /\ vdot (cyl_dpdv c p) (radial p) = 0.
  Proof. unfold cyl_dpdu, cyl_dpdv, radial. split; vring. Qed.
  Lemma cyl_cross : vcross (cyl_dpdv c p) (cyl_dpdu c p) = vscale (radial p) (- ((czmax c - czmin c) * cphi_max c)).
  Proof.
    unfold cyl_dpdu, cyl_dpdv, radial. vring.
  Qed.
  Context (Hphi : 0 < cphi_max c) (Hz : czmin c < czmax c).
  Lemma radial_len2 : vlen2 (radial p) = cradius c * cradius c.
  Proof. unfold on_cyl in Hon. unfold radial. vcbn. lra. Qed.
  (** the normal before [get_side] is radial and points INWARDS: - (x, y, 0) / r *)
  Lemma cyl_normal_inward : vnormalize (vcross (cyl_dpdv c p) (cyl_dpdu c p)) = vscale (radial p) (- (1 / cradius c)).
  Proof.
    rewrite cyl_cross. replace (- ((czmax c - czmin c) * cphi_max c)) with (- 1 * ((czmax c - czmin c) * cphi_max c)) by ring.
    rewrite <- vscale_vscale, (vnormalize_scaled _ _ (cradius c)), vscale_vscale; [f_equal; ring | nra | exact Hr |].
    rewrite vlen2_vscale, radial_len2. ring.
  Qed.
  Lemma cyl_info_data (ray : Ray R) (phi : R) :
    let i := cyl_info c ray p phi in
    let d := rdir ray in
    ip i = p /\ vdot (idpdu i) (radial p) = 0 /\ vdot (idpdv i) (radial p) = 0 /\
    (0 < vdot (radial p) d -> iside i = Front /\ inormal i = vscale (radial p) (- (1 / cradius c))) /\
    (vdot (radial p) d < 0 -> iside i = Back /\ inormal i = vscale (radial p) (1 / cradius c)) /\
    (vdot (radial p) d <> 0 -> vdot (inormal i) d < 0 /\ vlen2 (inormal i) = 1 /\
                                vdot (inormal i) (idpdu i) = 0 /\ vdot (inormal i) (idpdv i) = 0).
  Proof.
    cbv zeta. unfold cyl_info.
    destruct (info_new_fields ray p (cyl_dpdu c p) (cyl_dpdv c p)) as (E1 & E2 & E3 & E4 & E5).
    rewrite E1, E2, E3, E4, E5, cyl_normal_inward. destruct cyl_tangents as [Tu Tv].
    set (n := vscale (radial p) (- (1 / cradius c))).
    assert (Hd : vdot n (rdir ray) = - (1 / cradius c) * vdot (radial p) (rdir ray)) by apply vdot_vscale_l.
    assert (Hi : 0 < 1 / cradius c) by (apply Rdiv_lt_0_compat; lra).
    assert (U : vlen2 n = 1) by (unfold n; rewrite vlen2_vscale, radial_len2; field; lra).
    assert (Nu : vdot n (cyl_dpdu c p) = 0) by (unfold n; rewrite vdot_vscale_l, vdot_comm, Tu; ring).
    assert (Nv : vdot n (cyl_dpdv c p) = 0) by (unfold n; rewrite vdot_vscale_l, vdot_comm, Tv; ring).
    split; [reflexivity|]. split; [exact Tu|]. split; [exact Tv|]. split; [|split].
    - intros G. rewrite get_side_front by nra. auto.
    - intros L. rewrite Flat_base.get_side_back by nra. split; [reflexivity|]. cbn [fst]. unfold n. vring.
    - intros N. assert (N' : vdot n (rdir ray) <> 0) by nra.
      rewrite get_side_len2 by exact N'. auto using get_side_faces, get_side_perp.
  Qed.
End CylData.

(** ** hit data carried to world space ([IntersectionInfo::transform]) *)
Definition rigid (t : T) : Prop := forall u v : V, vdot (tr_vec t u) (tr_vec t v) = vdot u v.
Theorem info_transform_coherent (t : T) (i : Info R) (ray : Ray R) (g : V) : Inv t ->
  let i' := info_transform i t in
  let dl := rdir (fst (fst (tr_inv_ray t ray))) in
  (* the world normal against the world direction = the local normal against the local direction *)
  vdot (inormal i') (rdir ray) = vdot (inormal i) dl /\
  (* the world normal stays perpendicular to the world tangents *)
  vdot (inormal i') (idpdu i') = vdot (inormal i) (idpdu i) /\
  vdot (inormal i') (idpdv i') = vdot (inormal i) (idpdv i) /\
  (* the world tangents stay tangent: g = local gradient, M^-T g = world gradient *)
  vdot (tr_normal t g) (idpdu i') = vdot g (idpdu i) /\ vdot (tr_normal t g) (idpdv i') = vdot g (idpdv i) /\
  iside i' = iside i /\ tr_inv_pt t (ip i') = ip i /\
  (rigid t -> vlen2 (inormal i') = vlen2 (inormal i)).
Proof.
  intros Hi. cbv zeta. unfold info_transform. cbn [inormal idpdu idpdv iside ip].
  destruct (inv_ray_world t ray Hi) as (dt & _ & D & _). rewrite D.
  rewrite <- (vec_inv_vec t (rdir ray) Hi) at 1. rewrite !normal_dot_vec by exact Hi.
  repeat split; try reflexivity; [apply inv_pt_pt; exact Hi | intros Hrig; apply rigid_normal_len; assumption].
Qed.

From Coq Require Import Floats.
From G3 Require Import Model.NumF.
Lemma sphere_pole_witness :
  let s : Sphere float := mkSphere 1%float (-1)%float 1%float (2 * Fpi)%float Fpi 0%float None in
  let ray : Ray float := mkRay (mkV3 0 0 3)%float (mkV3 0 0 (-1))%float in
  match sphere_intersect s ray with
  | Some i => iside i = NonApplicable /\ PrimFloat.eqb (vlen (inormal i)) 0 = true /\
              PrimFloat.is_nan (vy (idpdv i)) = true /\ sphere_info_debug_ok s (ip i) = false
  | None => False
  end.
Proof. vm_compute. repeat split. Qed.

Lemma hit_nonvacuous_proof :
  let s := mkSphere 1 (-1) 1 (2 * PI) PI 0 None in
  let c := mkCyl 1 0 2 (2 * PI) None in
  0 < sradius s /\ on_sphere s (mkV3 1 0 0) /\ sphere_sin_theta s (mkV3 1 0 0) <> 0 /\ 0 < sphi_max s /\ 0 < sdelta_theta s /\
  0 < cradius c /\ on_cyl c (mkV3 1 0 1) /\ 0 < cphi_max c /\ czmin c < czmax c.
Proof.
  cbv zeta. cbn [sradius sphi_max sdelta_theta cradius cphi_max czmin czmax]. pose proof PI_RGT_0.
  assert (Hon : on_sphere (mkSphere 1 (-1) 1 (2 * PI) PI 0 None) (mkV3 1 0 0)).
  { unfold on_sphere. cbn [sradius]. vring. }
  assert (Hr : 0 < sradius (mkSphere 1 (-1) 1 (2 * PI) PI 0 None)) by (cbn [sradius]; lra).
  assert (Hs : sphere_sin_theta (mkSphere 1 (-1) 1 (2 * PI) PI 0 None) (mkV3 1 0 0) <> 0).
  { intros E. apply (proj1 (sph_sin_theta_zero_iff _ _ Hr Hon)) in E. cbn [vx] in E. lra. }
  assert (Hc : on_cyl (mkCyl 1 0 2 (2 * PI) None) (mkV3 1 0 1)) by (unfold on_cyl; cbn [cradius vx vy]; ring).
  repeat (split; [first [lra | exact Hon | exact Hs | exact Hc]|]). lra.
Qed.
