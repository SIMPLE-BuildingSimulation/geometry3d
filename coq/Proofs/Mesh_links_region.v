(** * Mesh_links_region (C08): with the link geometry as an invariant ([GEO] = LNKG + DIST + SEP, Proofs/Mesh_links*.v) the
    geometric hypotheses of Proofs/Mesh_region.v hold by themselves: [flip_shared] on every edge, the rotation and neighbour
    parts of [split_edge_ok].  Hence area and coverage along restore_delaunay and along histories, WITHOUT any invariant
    hypothesis.  Real instance. *)
From Coq Require Import ZArith Bool List Arith Lia Permutation Reals Lra.
From G3 Require Import Model.Num Model.Base Model.Vec Model.Segment Model.Triangle Model.Loop Model.Polygon Model.Triangulation
  Theory.RInst Theory.Cyclic Theory.Winding
  Proofs.Mesh_base Proofs.Mesh_wf Proofs.Mesh_sites Proofs.Mesh_conf Proofs.Mesh_region Proofs.Mesh_atomic Proofs.Mesh_links Proofs.Mesh_links_steps.
From G3 Require Proofs.C05_pointtest.
Import ListNotations.

Section LinksRegion.
  Local Open Scope R_scope.
  Notation VR := (V3 R).

  Lemma rot3_of_edge {K} {NK : Num K} (T : Tri K) (e : Edge) (a b c : V3 K) : edge_pts T e = (a, b) -> opp_v T e = c -> rot3 (tri_pts T) (a, b, c).
  Proof. destruct e; cbn; intros H1 H2; inversion H1; subst; unfold tri_pts; auto. Qed.
  Lemma flip_verts_inv {K} {NK : Num K} (T Tn : Tri K) (e : Edge) (a b c o : V3 K) : flip_verts T Tn e = Ok (a, b, c, o) ->
    edge_pts T e = (a, b) /\ opp_v T e = c /\ get_opposite_vertex Tn (seg_new a b) = Ok o.
  Proof.
    unfold flip_verts. intros H.
    destruct (tri_vertex T (N.modulo (edge_as_i e) 3)) as [a'| |] eqn:Ea; cbn [rbind] in H; try discriminate.
    destruct (tri_vertex T (N.modulo (edge_as_i e + 1) 3)) as [b'| |] eqn:Eb; cbn [rbind] in H; try discriminate.
    destruct (tri_vertex T (N.modulo (edge_as_i e + 2) 3)) as [c'| |] eqn:Ec; cbn [rbind] in H; try discriminate.
    destruct (get_opposite_vertex Tn (seg_new a' b')) as [o'| |] eqn:Eo; cbn [rbind] in H; try discriminate.
    inversion H; subst. destruct (flip_abc T e a b c Ea Eb Ec). repeat split; assumption.
  Qed.

  (** [GEO] gives [flip_shared] on every edge *)
  Theorem GEO_flip_shared (M : Mesh R) (i : nat) (e : Edge) : GEO M -> flip_shared M i e.
  Proof.
    intros (HL & HD & HS) t ni nb a b c op Et Ev En Enb Evn FV.
    assert (Lt : lvM M i (tp_tri t)) by (apply slot_lvT; assumption). assert (Ln : lvM M ni (tp_tri nb)) by (apply slot_lvT; assumption).
    assert (Elk : lk M i e = Some ni) by (unfold lk; rewrite Et; exact En).
    destruct (good_inv M i _ e ni HL Lt Elk) as (Hne & U & k & LU & Ek & Gk). rewrite (lvM_fun _ _ _ _ LU Ln) in *. clear LU U.
    split; [exact Hne|]. destruct (flip_verts_inv _ _ _ _ _ _ _ FV) as (Pab & Pc & Eo).
    set (P := mesh_vert M). pose proof (mesh_vert_tri _ _ _ Lt) as IT. pose proof (mesh_vert_tri _ _ _ Ln) as IN.
    assert (Pa : P a /\ P b) by (pose proof (edge_pts_in P _ e IT) as Q; rewrite Pab in Q; exact Q). destruct Pa as [Pa Pb].
    assert (Po : op = opp_v (tp_tri nb) k).
    { apply (opposite_exact P (tp_tri nb) (seg_new a b) k op HS IN (HD _ _ Ln) Pa Pb); [|exact Eo]. right. cbn [pair_of seg_new sstart send]. rewrite Gk, Pab, rev2_invol. reflexivity. }
    apply (rot3_of_edge _ k); [rewrite Gk, Pab; reflexivity | symmetry; exact Po].
  Qed.

  (** ... and the structural half of the split_edge hypothesis: what remains is where the point lies on the edge of slot i *)
  Definition edge_hyp (Q : VR -> VR -> VR -> Prop) (M : Mesh R) (i : nat) (e : Edge) (p : VR) : Prop :=
    forall t, nth_error (tris M) i = Some t -> tp_valid t = true -> Q p (fst (edge_pts (tp_tri t) e)) (snd (edge_pts (tp_tri t) e)).
  Lemma hemi_verts_exact (P : VR -> Prop) (T : Tri R) (sg : Seg R) (es : Edge) (a b c : VR) :
    VSEP P -> tri_in P T -> tri_distinct T -> P (sstart sg) -> P (send sg) -> same_seg (pair_of sg) (edge_pts T es) ->
    hemi_verts T sg = Ok (a, b, c) -> edge_pts T es = (a, b) /\ opp_v T es = c.
  Proof.
    intros HP IT DT Ps1 Ps2 Hs H. unfold hemi_verts in H. rewrite (edge_index_complete P HP T sg es IT DT Ps1 Ps2 Hs) in H. cbn [rbind] in H.
    destruct (tri_segment_pts T es) as (ab & Eab & Pab). rewrite Eab in H. cbn [rbind] in H.
    destruct (get_opposite_vertex T ab) as [c'| |] eqn:Ec; cbn [rbind] in H; try discriminate. inversion H; subst.
    split; [symmetry; exact Pab|]. symmetry. destruct (edge_pts_in P T es IT) as [Q1 Q2]. rewrite <- Pab in Q1, Q2.
    apply (opposite_exact P T ab es c HP IT DT Q1 Q2); [left; exact Pab | exact Ec].
  Qed.
  Theorem GEO_split_edge_ok (Q : VR -> VR -> VR -> Prop) (M : Mesh R) (i : nat) (e : Edge) (p : VR) :
    (forall p a b, Q p a b -> Q p b a) -> GEO M -> edge_hyp Q M i e p -> split_edge_ok Q M i e p.
  Proof.
    intros Qsym (HL & HD & HS) Hq t sg Et Ev Esg. set (P := mesh_vert M).
    assert (Lt : lvM M i (tp_tri t)) by (apply slot_lvT; assumption). pose proof (mesh_vert_tri _ _ _ Lt) as IT. pose proof (HD _ _ Lt) as DT.
    destruct (tri_segment_pts (tp_tri t) e) as (sg' & Esg' & Psg). rewrite Esg in Esg'. inversion Esg'; subst sg'. clear Esg'.
    assert (Ps : P (sstart sg) /\ P (send sg)) by (pose proof (edge_pts_in P _ e IT) as R0; rewrite <- Psg in R0; exact R0). destruct Ps as [Ps1 Ps2].
    split.
    - intros a b c Hv. destruct (hemi_verts_exact P _ sg e a b c HS IT DT Ps1 Ps2 (or_introl Psg) Hv) as [Pab Pc].
      split; [eapply rot3_of_edge; eassumption|]. pose proof (Hq t Et Ev) as R0. rewrite Pab in R0. exact R0.
    - intros ni En. assert (Elk : lk M i e = Some ni) by (unfold lk; rewrite Et; exact En).
      destruct (good_inv M i _ e ni HL Lt Elk) as (Hne & Tn & k & Ln & Ek & Gk). split; [exact Hne|].
      destruct (lvT_slot _ _ _ Ln) as (nb & Enb & Evn & Qn). exists nb. split; [exact Enb|]. split; [exact Evn|]. rewrite Qn.
      pose proof (mesh_vert_tri _ _ _ Ln) as IN. pose proof (HD _ _ Ln) as DN.
      intros a b c Hv. assert (Hs : same_seg (pair_of sg) (edge_pts Tn k)) by (right; rewrite Psg, Gk, rev2_invol; reflexivity).
      destruct (hemi_verts_exact P Tn sg k a b c HS IN DN Ps1 Ps2 Hs Hv) as [Pab Pc].
      split; [eapply rot3_of_edge; eassumption|]. pose proof (Hq t Et Ev) as R0. rewrite Gk in Pab.
      destruct (edge_pts (tp_tri t) e) as [x y]. cbn [rev2 fst snd] in *. inversion Pab; subst. apply Qsym. exact R0.
  Qed.
  Lemma on_line_sym (p a b : VR) : on_line p a b -> on_line p b a.
  Proof.
    intros (s & ->). exists (1 - s). destruct a as [a1 a2 a3], b as [b1 b2 b3]. unfold vadd, vscale, vsub. cbn [vx vy vz]. rnum. f_equal; ring.
  Qed.
  Lemma between_sym (p a b : VR) : between p a b -> between p b a.
  Proof.
    intros (s & Hs & ->). exists (1 - s). split; [lra|]. destruct a as [a1 a2 a3], b as [b1 b2 b3]. unfold vadd, vscale, vsub. cbn [vx vy vz]. rnum. f_equal; ring.
  Qed.
  (** the point at which [refine] splits an edge (the midpoint of the longest edge) lies exactly on that edge, strictly inside *)
  Lemma refine_midpoint_between (T : Tri R) (s_i : N) (s : Seg R) (ed : Edge) :
    longest_edge T = Ok (s_i, s) -> edge_from_i s_i = Ok ed -> between (seg_midpoint s) (fst (edge_pts T ed)) (snd (edge_pts T ed)).
  Proof.
    unfold longest_edge. cbn [tri_segment rbind]. intros H He.
    assert (Hm : forall a b : VR, between (seg_midpoint (seg_new a b)) a b).
    { intros a b. exists (/ 2). split; [lra|]. destruct a as [a1 a2 a3], b as [b1 b2 b3].
      unfold seg_midpoint, seg_new, vadd, vscale, vsub. cbn [sstart send vx vy vz]. unfold nhalf. rnum. f_equal; field. }
    destruct (nltb (slength (tri_ab T)) (slength (tri_bc T))); destruct (nltb _ (slength (tri_ca T))); inversion H; subst; cbn in He; inversion He; subst; apply Hm.
  Qed.
End LinksRegion.

(** ** area, coverage (and the invariant itself) along the steps and along histories, with no invariant hypothesis *)
Section GeoRegion.
  Local Open Scope R_scope.
  Notation VR := (V3 R).
  Variables o e1 e2 : V3 R.
  Notation pr := (C05_pointtest.plane2 o e1 e2).
  Notation area2 := (mesh_area2 o e1 e2).
  Notation coverM := (mesh_cover o e1 e2).

  Theorem region_flip_geo (i : nat) (e : Edge) (M M' : Mesh R) :
    GEO M -> flip_diagonal i e M = (M', Ok tt) -> GEO M' /\ Same o e1 e2 M M'.
  Proof. intros HG H. split; [eapply flip_GEO; eassumption | exact (region_flip o e1 e2 _ _ _ _ (GEO_flip_shared M i e HG) H)]. Qed.
  Theorem region_restore_geo (m : R) (M M' : Mesh R) :
    GEO M -> restore_delaunay m M = (M', Ok tt) -> GEO M' /\ Same o e1 e2 M M'.
  Proof. apply (region_restore o e1 e2 GEO GEO_flip_shared (fun M i e M' => flip_GEO i e M M')). Qed.
  Lemma GEO_of (M : Mesh R) (p : VR) : LNKG M -> DIST M -> SEPp M p -> GEO M.
  Proof. intros A B C. split; [exact A | split; [exact B | eapply SEPp_SEP; exact C]]. Qed.
  Theorem region_split_triangle_geo (i : nat) (p : VR) (M M' : Mesh R) :
    GEO M -> SEPp M p -> split_triangle i p M = (M', Ok tt) -> GEO M' /\ Same o e1 e2 M M'.
  Proof. intros (A & B & _) HS H. split; [eapply split_triangle_GEO; eassumption | exact (region_split_triangle o e1 e2 _ _ _ _ H)]. Qed.
  Theorem region_split_edge_geo_area (i : nat) (e : Edge) (p : VR) (M M' : Mesh R) :
    GEO M -> SEPp M p -> edge_hyp on_line M i e p -> split_edge i e p M = (M', Ok tt) -> GEO M' /\ area2 M' = area2 M.
  Proof.
    intros HG HS Hq H. pose proof HG as (A & B & _). split; [eapply split_edge_GEO; eassumption|].
    eapply region_split_edge_area; [apply (GEO_split_edge_ok on_line M i e p on_line_sym HG Hq) | exact H].
  Qed.
  Theorem region_split_edge_geo_cover (i : nat) (e : Edge) (p : VR) (M M' : Mesh R) (d q : P2) :
    GEO M -> edge_hyp between M i e p -> hgt d q (pr p) <> 0 -> split_edge i e p M = (M', Ok tt) -> coverM d M' q = coverM d M q.
  Proof.
    intros HG Hq Hg H. eapply region_split_edge_cover; [apply (GEO_split_edge_ok between M i e p between_sym HG Hq) | exact Hg | exact H].
  Qed.
  Definition add_point_hyp (Q : VR -> VR -> VR -> Prop) (M : Mesh R) (p : VR) : Prop :=
    forall i loc, find_container (tris M) 0 p = Some (i, loc) ->
      match loc with EdgeAB => edge_hyp Q M i Ab p | EdgeBC => edge_hyp Q M i Bc p | EdgeAC => edge_hyp Q M i Ca p | _ => True end.
  Lemma add_point_ok_geo (Q : VR -> VR -> VR -> Prop) (M : Mesh R) (p : VR) :
    (forall p a b, Q p a b -> Q p b a) -> GEO M -> add_point_hyp Q M p -> add_point_ok Q M p.
  Proof. intros Qs HG H i loc E. specialize (H i loc E). destruct loc; try exact I; apply GEO_split_edge_ok; assumption. Qed.

  (** *** histories *)
  Definition step_hyp (Q : VR -> VR -> VR -> Prop) (Gn : VR -> Prop) (M : Mesh R) (op : mop R) : Prop :=
    match op with
    | OSplitTriangle _ p => SEPp M p
    | OFlip _ _ => True
    | OSplitEdge i e p => SEPp M p /\ (forall ed, edge_from_i e = Ok ed -> edge_hyp Q M i ed p) /\ Gn p
    | ORestore _ => True
    | OAddPoint p => SEPp M p /\ add_point_hyp Q M p /\ Gn p
    | ORefine _ _ _ => False
    end.
  Fixpoint run_hyp (Q : VR -> VR -> VR -> Prop) (Gn : VR -> Prop) (M : Mesh R) (ops : list (mop R)) : Prop :=
    match ops with
    | [] => True
    | op :: tl => step_hyp Q Gn M op /\ (exists x, snd (mesh_step op M) = Ok x) /\ run_hyp Q Gn (fst (mesh_step op M)) tl
    end.
  Lemma step_GEO (Q : VR -> VR -> VR -> Prop) (Gn : VR -> Prop) (op : mop R) (M M' : Mesh R) (x : option bool) :
    GEO M -> step_hyp Q Gn M op -> mesh_step op M = (M', Ok x) -> GEO M'.
  Proof.
    intros HG Hs H. pose proof HG as (A & B & _). apply step_inv in H. destruct op; cbn [step_hyp] in Hs.
    - destruct H as (ed & _ & H). destruct Hs as (S1 & _). eapply split_edge_GEO; eassumption.
    - eapply split_triangle_GEO; eassumption.
    - destruct H as (ed & _ & H). eapply flip_GEO; eassumption.
    - eapply restore_GEO; eassumption.
    - destruct H as (b & H). destruct Hs as (S1 & _). eapply add_point_GEO; eassumption.
    - contradiction.
  Qed.
  Lemma history_geo {X} (phi : Mesh R -> X) Q Gn :
    (forall M op M' x, GEO M -> step_hyp Q Gn M op -> mesh_step op M = (M', Ok x) -> phi M' = phi M) ->
    forall ops M, GEO M -> run_hyp Q Gn M ops -> GEO (fst (mesh_run M ops)) /\ phi (fst (mesh_run M ops)) = phi M.
  Proof.
    intros Hstep ops M HG. apply (mesh_run_inv (step_hyp Q Gn) (run_hyp Q Gn) (fun M' => GEO M' /\ phi M' = phi M) (fun _ _ _ H => H)); [|split; [exact HG | reflexivity]].
    intros M1 op M2 x [HG1 E] Hs H. split; [exact (step_GEO Q Gn op M1 M2 x HG1 Hs H) | rewrite <- E; eapply Hstep; eassumption].
  Qed.
  Theorem region_history_geo_area (ops : list (mop R)) (M : Mesh R) :
    GEO M -> run_hyp on_line (fun _ => True) M ops -> GEO (fst (mesh_run M ops)) /\ area2 (fst (mesh_run M ops)) = area2 M.
  Proof.
    apply (history_geo area2). clear M ops. intros M op M' x HG Hs H. apply step_inv in H. destruct op; cbn [step_hyp] in Hs.
    - destruct H as (ed & Eed & H). destruct Hs as (S1 & S2 & _). exact (proj2 (region_split_edge_geo_area _ _ _ _ _ HG S1 (S2 ed Eed) H)).
    - apply (region_split_triangle o e1 e2 _ _ _ _ H).
    - destruct H as (ed & Eed & H). exact (proj1 (proj2 (region_flip_geo _ _ _ _ HG H))).
    - exact (proj1 (proj2 (region_restore_geo _ _ _ HG H))).
    - destruct H as (b & H). destruct Hs as (S1 & S2 & _). eapply region_add_point_area; [apply add_point_ok_geo; [exact on_line_sym | exact HG | exact S2] | exact H].
    - contradiction.
  Qed.
  Theorem region_history_geo_cover (d q : P2) (ops : list (mop R)) (M : Mesh R) :
    GEO M -> run_hyp between (fun p => hgt d q (pr p) <> 0) M ops -> coverM d (fst (mesh_run M ops)) q = coverM d M q.
  Proof.
    intros HG H. apply (history_geo (fun M => coverM d M q) between (fun p => hgt d q (pr p) <> 0)); try assumption.
    clear M ops HG H. intros M op M' x HG Hs H. apply step_inv in H. destruct op; cbn [step_hyp] in Hs.
    - destruct H as (ed & Eed & H). destruct Hs as (S1 & S2 & S3). exact (region_split_edge_geo_cover _ _ _ _ _ d q HG (S2 ed Eed) S3 H).
    - apply (region_split_triangle o e1 e2 _ _ _ _ H).
    - destruct H as (ed & Eed & H). exact (proj2 (proj2 (region_flip_geo _ _ _ _ HG H)) d q).
    - exact (proj2 (proj2 (region_restore_geo _ _ _ HG H)) d q).
    - destruct H as (b & H). destruct Hs as (S1 & S2 & S3). eapply region_add_point_cover; [apply add_point_ok_geo; [exact between_sym | exact HG | exact S2] | exact S3 | exact H].
    - contradiction.
  Qed.
End GeoRegion.

(** ** orientation along restore_delaunay and histories: the frame is orthonormal and the mesh lies in its plane *)
Section GeoOrientation.
  Local Open Scope R_scope.
  Notation VR := (V3 R).
  Variables o e1 e2 : V3 R.
  Notation pr := (C05_pointtest.plane2 o e1 e2).
  Hypothesis E11 : vdot e1 e1 = 1.
  Hypothesis E22 : vdot e2 e2 = 1.
  Hypothesis E12 : vdot e1 e2 = 0.
  Definition InPlane (M : Mesh R) : Prop := forall x, mesh_vert M x -> in_plane o e1 e2 x.

  (** the flips that restore_delaunay proposes passed the model's convexity test *)
  Lemma gfar_convex (M : Mesh R) (i : nat) (e : Edge) (ar : R) : get_flipped_aspect_ratio M i e = Ok (Some ar) ->
    exists t ni nb a b c op, nth_error (tris M) i = Some t /\ tp_neighbour t e = Some ni /\ nth_error (tris M) ni = Some nb /\
      flip_verts (tp_tri t) (tp_tri nb) e = Ok (a, b, c, op) /\ is_convex a op b c = true.
  Proof.
    unfold get_flipped_aspect_ratio. destruct (nth_error (tris M) i) as [t|] eqn:Et; [|discriminate].
    destruct (negb (tp_valid t)); [discriminate|]. destruct (tp_is_constrained t e); [discriminate|].
    destruct (tp_neighbour t e) as [ni|] eqn:En; [|discriminate]. destruct (nth_error (tris M) ni) as [nb|] eqn:Enb; [|discriminate].
    destruct (negb (tp_valid nb)); [discriminate|]. destruct (Nat.eqb _ _); [discriminate|].
    destruct (tri_vertex (tp_tri t) (N.modulo (edge_as_i e) 3)) as [a| |] eqn:Ea; cbn [rbind]; try discriminate.
    destruct (tri_vertex (tp_tri t) (N.modulo (edge_as_i e + 1) 3)) as [b| |] eqn:Eb; cbn [rbind]; try discriminate.
    destruct (tri_vertex (tp_tri t) (N.modulo (edge_as_i e + 2) 3)) as [c| |] eqn:Ec; cbn [rbind]; try discriminate.
    destruct (get_opposite_vertex (tp_tri nb) (seg_new a b)) as [op| |] eqn:Eo; cbn [rbind]; try discriminate.
    destruct (is_convex a op b c) eqn:Ecv; cbn [negb]; [|discriminate]. intros _.
    exists t, ni, nb, a, b, c, op. split; [reflexivity|]. split; [exact En|]. split; [exact Enb|]. split; [|exact Ecv].
    unfold flip_verts. rewrite Ea; cbn [rbind]. rewrite Eb; cbn [rbind]. rewrite Ec; cbn [rbind]. rewrite Eo. reflexivity.
  Qed.
  Lemma opposite_is_vertex {K} {NK : Num K} (T : Tri K) (s : Seg K) (x : V3 K) : get_opposite_vertex T s = Ok x -> x = ta T \/ x = tb T \/ x = tc T.
  Proof. unfold get_opposite_vertex. destruct (tri_get_edge_index_from_segment T s) as [[|[[]|[]|]]|]; cbn; intros H; inversion H; auto. Qed.
  Lemma tri2_pos (M : Mesh R) (j : nat) (T : Tri R) : AllPos o e1 e2 M -> lvM M j T -> pos3 (t2 o e1 e2 T).
  Proof.
    intros HA L. destruct (lvT_slot _ _ _ L) as (t & Et & Ev & <-). unfold AllPos in HA. rewrite Forall_forall in HA. apply HA.
    unfold tris2. apply in_map. eapply in_live; eassumption.
  Qed.
  Lemma gfar_flip_convex (M : Mesh R) (i : nat) (e : Edge) (ar : R) :
    InPlane M -> AllPos o e1 e2 M -> get_flipped_aspect_ratio M i e = Ok (Some ar) -> flip_convex o e1 e2 M i e.
  Proof.
    intros HI HA Hg t ni nb a b c op Et En Enb FV.
    destruct (gfar_convex M i e ar Hg) as (t' & ni' & nb' & a' & b' & c' & op' & Et' & En' & Enb' & FV' & Hcv).
    rewrite Et in Et'. inversion Et'; subst t'. rewrite En in En'. inversion En'; subst ni'. rewrite Enb in Enb'. inversion Enb'; subst nb'.
    rewrite FV in FV'. inversion FV'; subst a' b' c' op'. clear Et' En' Enb' FV'.
    assert (Vt : tp_valid t = true /\ tp_valid nb = true).
    { unfold get_flipped_aspect_ratio in Hg. rewrite Et in Hg. destruct (tp_valid t); [|discriminate]. cbn [negb] in Hg. destruct (tp_is_constrained t e); [discriminate|].
      rewrite En, Enb in Hg. destruct (tp_valid nb); [split; reflexivity | discriminate]. }
    destruct Vt as [Ev Evn]. destruct (flip_verts_inv _ _ _ _ _ _ _ FV) as (Pab & Pc & Eo).
    assert (Lt : lvM M i (tp_tri t)) by (apply slot_lvT; assumption). assert (Ln : lvM M ni (tp_tri nb)) by (apply slot_lvT; assumption).
    assert (Ia : in_plane o e1 e2 a /\ in_plane o e1 e2 b /\ in_plane o e1 e2 c).
    { pose proof (edge_pts_in (mesh_vert M) _ e (mesh_vert_tri _ _ _ Lt)) as Q0. rewrite Pab in Q0. destruct Q0 as [Q1 Q2].
      split; [apply HI; exact Q1|]. split; [apply HI; exact Q2|]. apply HI. rewrite <- Pc. apply opp_v_in. eapply mesh_vert_tri; exact Lt. }
    destruct Ia as (Ia & Ib & Ic).
    assert (Io : in_plane o e1 e2 op) by (apply HI; exists ni, (tp_tri nb); split; [exact Ln | apply (opposite_is_vertex _ _ _ Eo)]).
    apply (is_convex_flip_convex o e1 e2 E11 E22 E12 a op b c Ia Io Ib Ic Hcv).
    pose proof (tri2_pos M i _ HA Lt) as Hp. apply (pos3_rot3 _ _ (rot3_t2 o e1 e2 _ _ _ _ (rot3_of_edge _ e a b c Pab Pc))) in Hp. exact Hp.
  Qed.

  Definition POS (M : Mesh R) : Prop := GEO M /\ InPlane M /\ AllPos o e1 e2 M.
  Lemma flip_InPlane (i : nat) (e : Edge) (M M' : Mesh R) : GEO M -> InPlane M -> flip_diagonal i e M = (M', Ok tt) -> InPlane M'.
  Proof. intros (HL & HD & HS) HI H x Hx. apply HI. exact (proj2 (proj2 (flip_LNKG i e M M' HL HS HD H)) x Hx). Qed.
  (** restore_delaunay keeps a positively oriented planar mesh positively oriented *)
  Theorem restore_POS (m : R) (M M' : Mesh R) : POS M -> restore_delaunay m M = (M', Ok tt) -> POS M'.
  Proof.
    intros HP H. refine (proj1 (restore_ind POS (fun _ _ => True) (fun _ => I) (fun _ _ _ _ _ => I) _ m M M' HP H)).
    intros i e ar M0 M1 (HG & HI & HA) Hg H1. split; [|exact I].
    split; [eapply flip_GEO; eassumption|]. split; [eapply flip_InPlane; eassumption|].
    eapply pos_mesh_flip; [apply GEO_flip_shared; exact HG | eapply gfar_flip_convex; eassumption | exact H1 | exact HA].
  Qed.

  (** *** histories *)
  Definition inside_hyp (M : Mesh R) (i : nat) (p : VR) : Prop :=
    forall t, nth_error (tris M) i = Some t ->
      inside_tri (pr (ta (tp_tri t))) (pr (tb (tp_tri t))) (pr (tc (tp_tri t))) (pr p).
  Definition step_hyp_pos (M : Mesh R) (op : mop R) : Prop :=
    match op with
    | OSplitTriangle i p => SEPp M p /\ in_plane o e1 e2 p /\ inside_hyp M i p
    | OFlip i e => forall ed, edge_from_i e = Ok ed -> flip_convex o e1 e2 M i ed
    | OSplitEdge i e p => SEPp M p /\ in_plane o e1 e2 p /\ (forall ed, edge_from_i e = Ok ed -> edge_hyp between M i ed p)
    | ORestore _ => True
    | OAddPoint p => SEPp M p /\ in_plane o e1 e2 p /\ add_point_hyp between M p /\
                     (forall i, find_container (tris M) 0 p = Some (i, Inside) -> inside_hyp M i p)
    | ORefine _ _ _ => False
    end.
  Fixpoint run_pos (M : Mesh R) (ops : list (mop R)) : Prop :=
    match ops with
    | [] => True
    | op :: tl => step_hyp_pos M op /\ (exists x, snd (mesh_step op M) = Ok x) /\ run_pos (fst (mesh_step op M)) tl
    end.
  Lemma InPlane_or (M M' : Mesh R) (p : VR) : InPlane M -> in_plane o e1 e2 p -> (forall x, mesh_vert M' x -> vert_or M p x) -> InPlane M'.
  Proof. intros HI Hp H x Hx. destruct (H x Hx) as [Q | ->]; [apply HI; exact Q | exact Hp]. Qed.
  Lemma split_triangle_POS (i : nat) (p : VR) (M M' : Mesh R) :
    POS M -> SEPp M p -> in_plane o e1 e2 p -> inside_hyp M i p -> split_triangle i p M = (M', Ok tt) -> POS M'.
  Proof.
    intros ((HL & HD & HS) & HI & HA) S1 S2 S3 H. destruct (split_triangle_LNKG i p M M' HL HD S1 H) as (A & B & C).
    split; [split; [exact A | split; [exact B | exact (VSEP_sub _ _ C S1)]]|]. split; [eapply InPlane_or; eassumption|].
    eapply pos_mesh_split_triangle; eassumption.
  Qed.
  Lemma split_edge_POS (i : nat) (e : Edge) (p : VR) (M M' : Mesh R) :
    POS M -> SEPp M p -> in_plane o e1 e2 p -> edge_hyp between M i e p -> split_edge i e p M = (M', Ok tt) -> POS M'.
  Proof.
    intros (HG & HI & HA) S1 S2 S3 H. pose proof HG as (HL & HD & HS). destruct (split_edge_LNKG i e p M M' HL HD S1 H) as (A & B & C).
    split; [split; [exact A | split; [exact B | exact (VSEP_sub _ _ C S1)]]|]. split; [eapply InPlane_or; eassumption|].
    eapply pos_mesh_split_edge; [apply (GEO_split_edge_ok between M i e p between_sym HG S3) | exact H | exact HA].
  Qed.
  Lemma step_POS (op : mop R) (M M' : Mesh R) (x : option bool) : POS M -> step_hyp_pos M op -> mesh_step op M = (M', Ok x) -> POS M'.
  Proof.
    intros HP Hs H. apply step_inv in H. destruct op; cbn [step_hyp_pos] in Hs.
    - destruct H as (ed & Eed & H). destruct Hs as (S1 & S2 & S3). eapply split_edge_POS; try eassumption. apply S3. exact Eed.
    - destruct Hs as (S1 & S2 & S3). eapply split_triangle_POS; eassumption.
    - destruct H as (ed & Eed & H). destruct HP as (HG & HI & HA). split; [eapply flip_GEO; eassumption|]. split; [eapply flip_InPlane; eassumption|].
      eapply pos_mesh_flip; [apply GEO_flip_shared; exact HG | apply Hs; exact Eed | exact H | exact HA].
    - eapply restore_POS; eassumption.
    - destruct H as (b & H). destruct Hs as (S1 & S2 & S3 & S4). unfold add_point in H.
      destruct (find_container (tris M) 0 p) as [[i loc]|] eqn:Ef; [|discriminate]. specialize (S3 i loc Ef).
      apply aptt_cases in H. destruct H as [-> | [(-> & H) | (ed & Hed & H)]]; [exact HP | |].
      + eapply split_triangle_POS; try eassumption. apply S4. reflexivity.
      + destruct loc; try contradiction; subst ed; eapply split_edge_POS; eassumption.
    - contradiction.
  Qed.
  Theorem history_POS (ops : list (mop R)) : forall M, POS M -> run_pos M ops -> POS (fst (mesh_run M ops)).
  Proof. exact (mesh_run_inv step_hyp_pos run_pos POS (fun _ _ _ H => H) (fun M op M' x HP Hs H => step_POS op M M' x HP Hs H) ops). Qed.
End GeoOrientation.
