(** * Mesh_links_init (C08 / C01): the mesh produced by [from_polygon] satisfies the link-geometry invariant [LNKG].

    B1 (every number instance).  [EM M] ("edge-manifold"): no two different live slots hold the same DIRECTED edge
    (Leibniz equality of the two end points, in order).  With the separation hypothesis [SEP] this is all that
    [mark_neighbourhouds] needs: it scans the pairs this_i < other_i, for the first edge of [this] whose segment
    [seg_compare]s equal to an edge of [other] it calls [mark_as_neighbours this_i e other_i] and breaks.  Under SEP the
    comparison is an exact UNORDERED match ([seg_compare_exact]); by EM the match is REVERSED; a link already present on
    (this_i, e) can only point to other_i (two mates of one edge would hold the same directed edge), and then the call
    rewrites the two entries with the values they already have; otherwise it is a [G_mark_sep] with an empty exempt set
    (the possible victim of the overwritten entry of [other] would hold the directed edge of [this]).  Invariant over
    [mn_outer] / [mn_inner] / the edge loop: the skeleton is that of the initial mesh and LNKG holds (no "pairs visited"
    bookkeeping is needed: LNKG only speaks of the links that ARE set).  The clipping loop only pushes and constrains:
    before [mark_neighbourhouds] no link is set, and every live triangle is the value of [tri_new] on its own corners
    (so under SEP its corners are distinct: DIST).

    B2 (reals).  For a sanitize-stable successful run whose polygon normal is a positive multiple of e1 x e2 (all ears
    counter-clockwise in the plane coordinates: C01) and whose closed merged outline winds at most once around every
    point off the outline (Jordan hypothesis of C01), EM holds: two ears holding the same directed edge (u,v) both
    contain the points just left of its midpoint; one such point lies on no line through two different projected
    outline vertices ([common_point]: a generic direction, then finitely many excluded parameters), a generic ray from it
    exists ([generic_dir]), and [C01_tiling_no_overlap] gives the contradiction. *)
From Coq Require Import ZArith Bool List Arith Lia Reals Lra Psatz.
From G3 Require Import Model.Num Model.Base Model.Vec Model.Segment Model.Triangle Model.Loop Model.Polygon Model.Triangulation
  Proofs.Mesh_base Proofs.Mesh_wf Proofs.Mesh_sites Proofs.Mesh_conf Proofs.Mesh_fp Proofs.Mesh_init Proofs.Mesh_fp_sites
  Proofs.Mesh_region Proofs.Mesh_atomic Proofs.Mesh_links Proofs.Mesh_links_steps.
Import ListNotations.

(** * B1: [mark_neighbourhouds] establishes LNKG on an edge-manifold skeleton (every number instance)            *)
Section InitLinks.
  Context {K : Type} {NK : Num K}.
  Notation V := (V3 K).
  Notation TP := (TriPiece K).
  Notation Mesh := (Mesh K).

  (** no two different live slots hold the same directed edge *)
  Definition EM (M : Mesh) : Prop :=
    forall i j Ti Tj e e', i <> j -> lvM M i Ti -> lvM M j Tj -> edge_pts Ti e <> edge_pts Tj e'.

  (** equivalently: edges of two different slots with the same end points are REVERSED ... *)
  Lemma EM_reversed (M : Mesh) (i j : nat) (Ti Tj : Tri K) (e e' : Edge) :
    EM M -> i <> j -> lvM M i Ti -> lvM M j Tj -> same_seg (edge_pts Ti e) (edge_pts Tj e') -> edge_pts Tj e' = rev2 (edge_pts Ti e).
  Proof.
    intros HE Hij Li Lj [E|E]; [exfalso; exact (HE i j Ti Tj e e' Hij Li Lj E) | rewrite E; symmetry; apply rev2_invol].
  Qed.
  (** ... and an (undirected) edge belongs to at most two slots *)
  Lemma EM_at_most_two (M : Mesh) (i j k : nat) (Ti Tj Tk : Tri K) (e e' e'' : Edge) :
    EM M -> DIST M -> i <> j -> lvM M i Ti -> lvM M j Tj -> lvM M k Tk ->
    same_seg (edge_pts Ti e) (edge_pts Tj e') -> same_seg (edge_pts Ti e) (edge_pts Tk e'') -> k = i \/ k = j.
  Proof.
    intros HE HD Hij Li Lj Lk S1 S2.
    destruct (Nat.eq_dec k i) as [Hki|Hki]; [left; exact Hki|]. destruct (Nat.eq_dec k j) as [Hkj|Hkj]; [right; exact Hkj|]. exfalso.
    pose proof (EM_reversed M i j Ti Tj e e' HE Hij Li Lj S1) as R1.
    assert (Hik : i <> k) by (intros Q; apply Hki; symmetry; exact Q).
    pose proof (EM_reversed M i k Ti Tk e e'' HE Hik Li Lk S2) as R2.
    assert (Hjk : j <> k) by (intros Q; apply Hkj; symmetry; exact Q).
    apply (HE j k Tj Tk e' e'' Hjk Lj Lk). rewrite R1, R2. reflexivity.
  Qed.
  (** conversely the reversed form gives EM on meshes whose triangles have distinct corners *)
  Lemma EM_of_reversed (M : Mesh) : DIST M ->
    (forall i j Ti Tj e e', i <> j -> lvM M i Ti -> lvM M j Tj -> same_seg (edge_pts Ti e) (edge_pts Tj e') -> edge_pts Tj e' = rev2 (edge_pts Ti e)) -> EM M.
  Proof.
    intros HD H i j Ti Tj e e' Hij Li Lj E.
    assert (R : edge_pts Tj e' = rev2 (edge_pts Ti e)) by (apply (H i j); try assumption; left; exact E).
    apply (edge_pts_neq Ti e (HD i Ti Li)). rewrite <- E in R. rewrite R at 1. reflexivity.
  Qed.

  (** EM, SEP, DIST only look at the skeleton *)
  Lemma EM_skel (M M' : Mesh) : skel (tris M') = skel (tris M) -> EM M -> EM M'.
  Proof. intros Hs H i j Ti Tj e e' Hij Li Lj. apply (H i j); [exact Hij | apply (lvM_skel _ _ Hs); exact Li | apply (lvM_skel _ _ Hs); exact Lj]. Qed.
  Lemma mesh_vert_skel (M M' : Mesh) : skel (tris M') = skel (tris M) -> forall x, mesh_vert M' x -> mesh_vert M x.
  Proof. intros Hs x (j & T & L & Hx). exists j, T. split; [apply (lvM_skel _ _ Hs); exact L | exact Hx]. Qed.
  Lemma SEP_skel (M M' : Mesh) : skel (tris M') = skel (tris M) -> SEP M -> SEP M'.
  Proof. intros Hs H x y Hx Hy. apply H; apply (mesh_vert_skel _ _ Hs); assumption. Qed.
  Lemma DIST_skel (M M' : Mesh) : skel (tris M') = skel (tris M) -> DIST M -> DIST M'.
  Proof. intros Hs H j T L. apply (H j). apply (lvM_skel _ _ Hs). exact L. Qed.

  (** an Ok outcome of [mark_as_neighbours]: two different live slots *)
  Lemma mark_ok_live (i1 i2 : nat) (e1 : Edge) (M M' : Mesh) :
    mark_as_neighbours i1 e1 i2 M = (M', Ok tt) ->
    i1 <> i2 /\ exists t1 t2, nth_error (tris M) i1 = Some t1 /\ tp_valid t1 = true /\ nth_error (tris M) i2 = Some t2 /\ tp_valid t2 = true.
  Proof.
    intros H. unfold mark_as_neighbours in H. destruct (Nat.eqb_spec i1 i2) as [Heq|Hne]; [unfold mlift in H; discriminate H|].
    split; [exact Hne|].
    apply bind_get_ok in H. destruct H as (t1 & E1 & H). destruct (tp_valid t1) eqn:V1; cbn [negb] in H; [|unfold mlift in H; discriminate H].
    apply bind_lift_ok in H. destruct H as (sg & Es & H).
    apply bind_get_ok in H. destruct H as (t2 & E2 & H). destruct (tp_valid t2) eqn:V2; cbn [negb] in H; [|unfold mlift in H; discriminate H].
    exists t1, t2. repeat split; assumption.
  Qed.
  (** under separation the edge of T2 found from the segment of (T1, e1) is THE reversed edge *)
  Lemma det_edge (P : V -> Prop) (T1 T2 : Tri K) (e1 k0 : Edge) :
    VSEP P -> tri_in P T1 -> tri_in P T2 -> tri_distinct T2 -> edge_pts T2 k0 = rev2 (edge_pts T1 e1) ->
    forall sg k, tri_segment T1 (edge_as_i e1) = Ok sg -> tri_get_edge_index_from_segment T2 sg = Some k -> k = edge_as_i k0.
  Proof.
    intros HP I1 I2 D2 Hgeo sg k Es Ek. destruct (tri_segment_pts T1 e1) as (sg' & Es' & Ep). rewrite Es in Es'. inversion Es'; subst sg'.
    destruct (edge_pts_in P T1 e1 I1) as [Q1 Q2]. rewrite <- Ep in Q1, Q2. cbn [pair_of fst snd] in Q1, Q2.
    apply (edge_index_exact P HP T2 sg k0 k I2 D2 Q1 Q2); [|exact Ek]. right. rewrite Ep, Hgeo, rev2_invol. reflexivity.
  Qed.

  (** one call of [mark_as_neighbours] as [mark_edge_pair] issues it *)
  Lemma mark_pair_step (M0 M M' : Mesh) (i1 i2 : nat) (e1 : Edge) (t1 t2 : TP) (sg : Seg K) (k : N) :
    SEP M0 -> DIST M0 -> EM M0 -> skel (tris M) = skel (tris M0) -> LNKG M ->
    nth_error (tris M) i1 = Some t1 -> nth_error (tris M) i2 = Some t2 ->
    tri_segment (tp_tri t1) (edge_as_i e1) = Ok sg ->
    tri_get_edge_index_from_segment (tp_tri t2) sg = Some k ->
    mark_as_neighbours i1 e1 i2 M = (M', Ok tt) ->
    skel (tris M') = skel (tris M0) /\ LNKG M'.
  Proof.
    intros HS HD HE Hsk HL E1 E2 Es Ek H.
    pose proof (sk_mark _ _ _ _ _ _ H) as Hsk'. unfold Rskel in Hsk'. split; [rewrite Hsk'; exact Hsk|].
    destruct (mark_ok_live _ _ _ _ _ H) as (Hne & u1 & u2 & F1 & V1 & F2 & V2).
    rewrite E1 in F1. inversion F1; subst u1. rewrite E2 in F2. inversion F2; subst u2. clear F1 F2.
    set (T1 := tp_tri t1) in *. set (T2 := tp_tri t2) in *.
    assert (L1 : lvM M i1 T1) by (apply slot_lvT; assumption). assert (L2 : lvM M i2 T2) by (apply slot_lvT; assumption).
    assert (L1' : lvM M0 i1 T1) by (apply (lvM_skel _ _ Hsk); exact L1). assert (L2' : lvM M0 i2 T2) by (apply (lvM_skel _ _ Hsk); exact L2).
    pose proof (mesh_vert_tri _ _ _ L1') as I1. pose proof (mesh_vert_tri _ _ _ L2') as I2.
    pose proof (HD _ _ L1') as D1. pose proof (HD _ _ L2') as D2.
    (* the edge of T2 that was found *)
    destruct (tri_segment_pts T1 e1) as (sg' & Es' & Ep). rewrite Es in Es'. inversion Es'; subst sg'. clear Es'.
    destruct (edge_pts_in _ T1 e1 I1) as [Q1 Q2]. rewrite <- Ep in Q1, Q2. cbn [pair_of fst snd] in Q1, Q2.
    destruct (edge_index_sound _ HS T2 sg k I2 Q1 Q2 Ek) as (k0 & -> & Hss). rewrite Ep in Hss.
    pose proof (EM_reversed M0 i1 i2 T1 T2 e1 k0 HE Hne L1' L2' Hss) as Hgeo.
    assert (EMM : EM M) by (apply (EM_skel M0 M Hsk); exact HE).
    destruct (lk M i1 e1) as [x|] eqn:Elk.
    - (* already linked: necessarily to i2, and the call rewrites what is there *)
      destruct (good_inv M i1 T1 e1 x HL L1 Elk) as (Hx1 & U & k' & LU & Elk' & EU).
      assert (Hx : x = i2).
      { destruct (Nat.eq_dec x i2) as [Q|Q]; [exact Q|]. exfalso. apply (EMM x i2 U T2 k' k0 Q LU L2). rewrite EU, Hgeo. reflexivity. }
      subst x. rewrite (lvM_fun _ _ _ _ LU L2) in EU.
      assert (Hk' : k' = k0) by (apply (edge_unique T2 (rev2 (edge_pts T1 e1)) k' k0 D2); left; [symmetry; exact EU | symmetry; exact Hgeo]).
      subst k'.
      destruct (mark_exact i1 e1 i2 T1 T2 k0 M M' L1 L2 Hne (det_edge _ T1 T2 e1 k0 HS I1 I2 D2 Hgeo) H) as (_ & A1 & A2 & A3).
      assert (Hlk : forall j e, lk M' j e = lk M j e).
      { intros j e. destruct (Nat.eq_dec j i1) as [->|Hj1]; [destruct (edge_eq_dec e e1) as [->|He1]; [rewrite A1, Elk; reflexivity|]|].
        - destruct (edge_eq_dec e k0) as [->|He0]; apply A3; intros [Q1' Q2']; try contradiction; apply Hne; exact Q1'.
        - destruct (Nat.eq_dec j i2) as [->|Hj2]; [destruct (edge_eq_dec e k0) as [->|He0]; [rewrite A2, Elk'; reflexivity|]|];
            apply A3; intros [Q1' Q2']; contradiction. }
      apply (G_LNKG (fun _ _ => False)); [|intros; intros Q; exact Q].
      apply (G_ext _ M M' Hsk' Hlk). apply LNKG_G. exact HL.
    - (* a fresh link *)
      destruct (G_mark_sep (mesh_vert M0) (fun _ _ => False) i1 e1 i2 T1 T2 k0 M M' HS I1 I2 D2 (LNKG_G M HL) L1 L2 Hne Hgeo Elk) as (A & _); [|exact H|].
      + intros x U e'' Ex LU EU. destruct (Nat.eq_dec x i1) as [->|Q].
        * split; [reflexivity|]. rewrite (lvM_fun _ _ _ _ LU L1) in EU.
          apply (edge_unique T1 (edge_pts T1 e1) e'' e1 D1); left; [symmetry; exact EU | reflexivity].
        * exfalso. exact (EMM x i1 U T1 e'' e1 Q LU L1 EU).
      + apply (G_LNKG _ M' A). intros j T e n _ _ (Q & _). exact Q.
  Qed.

  (** the edge loop of [mark_edge_pair], the two pair loops *)
  Lemma mep_go_links (M0 : Mesh) (a b : nat) : SEP M0 -> DIST M0 -> EM M0 -> forall (js : list N) (M M' : Mesh),
    skel (tris M) = skel (tris M0) -> LNKG M -> mep_go a b js M = (M', Ok tt) -> skel (tris M') = skel (tris M0) /\ LNKG M'.
  Proof.
    intros HS HD HE. induction js as [|j js IH]; intros M M' Hsk HL H; cbn [mep_go] in H.
    - unfold mret in H. inversion H; subst. split; assumption.
    - apply bind_get_ok in H. destruct H as (t & Et & H).
      apply bind_lift_ok in H. destruct H as (sg & Es & H).
      apply bind_get_ok in H. destruct H as (o & Eo & H).
      destruct (tri_get_edge_index_from_segment (tp_tri o) sg) as [k|] eqn:Ek.
      + apply bind_lift_ok in H. destruct H as (e & Ee & H).
        apply (mark_pair_step M0 M M' a b e t o sg k); try assumption. rewrite (edge_from_i_as_i _ _ Ee). exact Es.
      + apply (IH M M'); assumption.
  Qed.
  Lemma inner_links (M0 : Mesh) (a : nat) : SEP M0 -> DIST M0 -> EM M0 -> forall (cnt b : nat) (M M' : Mesh),
    skel (tris M) = skel (tris M0) -> LNKG M -> mn_inner a b cnt M = (M', Ok tt) -> skel (tris M') = skel (tris M0) /\ LNKG M'.
  Proof.
    intros HS HD HE. induction cnt as [|c IH]; intros b M M' Hsk HL H; cbn [mn_inner] in H.
    - unfold mret in H. inversion H; subst. split; assumption.
    - apply mbind_ok in H. destruct H as (u & M1 & H1 & H2). destruct u. rewrite mark_edge_pair_eq in H1.
      destruct (mep_go_links M0 a b HS HD HE _ M M1 Hsk HL H1) as [Hsk1 HL1]. apply (IH (S b) M1 M'); assumption.
  Qed.
  Lemma outer_links (M0 : Mesh) (n : nat) : SEP M0 -> DIST M0 -> EM M0 -> forall (cnt a : nat) (M M' : Mesh),
    skel (tris M) = skel (tris M0) -> LNKG M -> mn_outer n a cnt M = (M', Ok tt) -> skel (tris M') = skel (tris M0) /\ LNKG M'.
  Proof.
    intros HS HD HE. induction cnt as [|c IH]; intros a M M' Hsk HL H; cbn [mn_outer] in H.
    - unfold mret in H. inversion H; subst. split; assumption.
    - apply mbind_ok in H. destruct H as (u & M1 & H1 & H2). destruct u.
      destruct (inner_links M0 a HS HD HE _ _ M M1 Hsk HL H1) as [Hsk1 HL1]. apply (IH (S a) M1 M'); assumption.
  Qed.
  (** [mark_neighbourhouds] keeps LNKG (in particular: establishes it on a mesh without links) *)
  Theorem mark_neighbourhouds_links (M M' : Mesh) :
    SEP M -> DIST M -> EM M -> LNKG M -> mark_neighbourhouds M = (M', Ok tt) -> skel (tris M') = skel (tris M) /\ LNKG M'.
  Proof. intros HS HD HE HL H. unfold mark_neighbourhouds in H. exact (outer_links M _ HS HD HE _ _ M M' eq_refl HL H). Qed.

  (** no link is set; every live triangle is [tri_new] of its own corners *)
  Definition Fresh (M : Mesh) : Prop :=
    (forall j e, lk M j e = None) /\ (forall j T, lvM M j T -> tri_new (ta T) (tb T) (tc T) = Ok T).
  Lemma Fresh_new : Fresh mesh_new.
  Proof. split; [intros [|j] e; reflexivity | intros [|j] T L; unfold lvM, lvT in L; cbn in L; discriminate L]. Qed.
  Lemma Fresh_push a b c la (M M' : Mesh) n : mesh_push a b c la M = (M', Ok n) -> Fresh M -> Fresh M'.
  Proof.
    intros H [F1 F2]. destruct (push_lk_lv _ _ _ _ _ _ _ H) as (T & ET & LT & Hnone & _ & Hold). split.
    - intros j e. destruct (Nat.eq_dec j n) as [->|Hj]; [apply Hnone | rewrite (proj1 (Hold j Hj)); apply F1].
    - intros j U L. destruct (Nat.eq_dec j n) as [->|Hj].
      + rewrite (lvM_fun _ _ _ _ L LT). destruct (tri_new_verts _ _ _ _ ET) as (-> & -> & ->). exact ET.
      + apply (F2 j). apply (proj2 (Hold j Hj)). exact L.
  Qed.
  Lemma Fresh_Meq (M M' : Mesh) : Meq M M' -> Fresh M -> Fresh M'.
  Proof. intros [Hs Hl] [F1 F2]. split; [intros j e; rewrite Hl; apply F1 | intros j T L; apply (F2 j); apply (lvM_skel _ _ Hs); exact L]. Qed.
  Lemma Fresh_LNKG (M : Mesh) : Fresh M -> LNKG M.
  Proof. intros [F1 _] j T L e k E. rewrite F1 in E. discriminate E. Qed.
  Lemma Fresh_DIST (M : Mesh) : Fresh M -> SEP M -> DIST M.
  Proof.
    intros [_ F2] HS j T L. destruct (mesh_vert_tri _ _ _ L) as (A & B & C).
    exact (tri_new_distinct _ HS _ _ _ T A B C (F2 j T L)).
  Qed.

  (** [mark_neighbourhouds] keeps the skeleton, whatever the outcome *)
  Lemma sk_neighbourhouds : Pres Rskel (mark_neighbourhouds (K:=K)).
  Proof. exact (pres_neighbourhouds Rskel Rskel_refl Rskel_trans sk_mark). Qed.

  (** B1: the initial mesh has exact, reversed, reciprocal links, and triangles with distinct corners *)
  Theorem from_polygon_links (P : Poly K) (M : Mesh) :
    from_polygon P = Ok M -> SEP M -> EM M -> LNKG M /\ DIST M.
  Proof.
    intros H HS HE. destruct (from_polygon_reach Fresh Fresh_push (fun s i e M1 M2 r Hc => Fresh_Meq M1 M2 (Meq_constrain true s i e M1 M2 r Hc)) P M Fresh_new H) as (t & Ft & Hm).
    assert (Hsk : skel (tris M) = skel (tris t)) by exact (sk_neighbourhouds _ _ _ Hm).
    assert (Hsk' : skel (tris t) = skel (tris M)) by (symmetry; exact Hsk).
    pose proof (SEP_skel M t Hsk' HS) as HSt. pose proof (EM_skel M t Hsk' HE) as HEt. pose proof (Fresh_DIST t Ft HSt) as HDt.
    destruct (mark_neighbourhouds_links t M HSt HDt HEt (Fresh_LNKG t Ft) Hm) as [_ HL].
    split; [exact HL | exact (DIST_skel t M Hsk HDt)].
  Qed.
  Corollary from_polygon_GEO_of_EM (P : Poly K) (M : Mesh) : from_polygon P = Ok M -> SEP M -> EM M -> GEO M.
  Proof. intros H HS HE. destruct (from_polygon_links P M H HS HE) as [HL HD]. split; [exact HL | split; [exact HD | exact HS]]. Qed.
End InitLinks.

(** * B2: plane geometry -- two counter-clockwise triangles on one directed edge overlap at a generic point      *)
From G3 Require Import Theory.RInst Theory.Cyclic Theory.Winding Proofs.C05_pointtest Proofs.C01_tiling
  Proofs.Mesh_links_region Proofs.Mesh_refine_trace Proofs.Mesh_refine_region.
Local Open Scope R_scope.

Section Geo2.
  Notation PP := Winding.P2.

  (** finitely many reals miss a point of every interval (0, t0) *)
  Lemma avoid_reals (rs : list R) : forall t0 : R, 0 < t0 -> exists t : R, 0 < t < t0 /\ forall r, In r rs -> t <> r.
  Proof.
    induction rs as [|r rs IH]; intros t0 H0.
    - exists (t0 / 2). split; [lra | intros r []].
    - destruct (Rlt_dec 0 r) as [Hr|Hr].
      + destruct (IH (Rmin t0 r)) as (t & Ht & Hn); [apply Rmin_glb_lt; assumption|].
        exists t. pose proof (Rmin_l t0 r). pose proof (Rmin_r t0 r). split; [lra|]. intros r' [<-|Hin]; [lra | apply Hn; exact Hin].
      + destruct (IH t0 H0) as (t & Ht & Hn). exists t. split; [exact Ht|]. intros r' [<-|Hin]; [lra | apply Hn; exact Hin].
  Qed.
  (** an affine function positive at 0 stays positive on some (0, t0) *)
  Lemma affine_pos (f0 f1 : R) : 0 < f0 -> exists t0 : R, 0 < t0 /\ forall t, 0 < t < t0 -> 0 < f0 + t * f1.
  Proof.
    intros H. destruct (Rle_dec 0 f1) as [Hf|Hf].
    - exists 1. split; [lra|]. intros t Ht. nra.
    - assert (Hn : 0 < - f1) by lra. exists (f0 / - f1). split; [apply Rdiv_lt_0_compat; lra|]. intros t [Ht1 Ht2].
      assert (Hm : t * (- f1) < f0).
      { apply (Rmult_lt_compat_r (- f1)) in Ht2; [|exact Hn]. unfold Rdiv in Ht2. rewrite Rmult_assoc, Rinv_l in Ht2; lra. }
      lra.
  Qed.
  (** [Winding.avoid_directions] without the side condition: the zero vectors of the list are ignored *)
  Lemma avoid_directions_nz (ws : list PP) :
    exists t0 : R, forall t : R, t0 < t -> forall w, In w ws -> w <> (0, 0) -> snd w - t * fst w <> 0.
  Proof.
    induction ws as [|w ws IH].
    - exists 0. intros t _ w [].
    - destruct IH as [t0 Ht0]. destruct (Req_dec (fst w) 0) as [Hx|Hx].
      + exists t0. intros t Ht w' [Hw|Hw] Hnz; [subst w'|apply Ht0; assumption].
        rewrite Hx, Rmult_0_r, Rminus_0_r. intros Hy. apply Hnz. destruct w as [wx wy]; cbn [fst snd] in *; subst; reflexivity.
      + exists (Rmax t0 (snd w / fst w)). intros t Ht w' [Hw|Hw] Hnz.
        * subst w'. intros H.
          assert (Ht' : snd w / fst w < t) by (eapply Rle_lt_trans; [apply Rmax_r|exact Ht]).
          assert (t = snd w / fst w) by (field_simplify_eq; [lra|exact Hx]). lra.
        * apply Ht0; [|assumption|assumption]. eapply Rle_lt_trans; [apply Rmax_l|exact Ht].
  Qed.

  (** (v - u) x w *)
  Definition crs (u v w : PP) : R := (fst v - fst u) * snd w - (snd v - snd u) * fst w.
  Definition shift (m w : PP) (t : R) : PP := (fst m + t * fst w, snd m + t * snd w).
  Lemma orient_shift (u v m w : PP) (t : R) : orient u v (shift m w t) = orient u v m + t * crs u v w.
  Proof. unfold orient, shift, crs. cbn [fst snd]. ring. Qed.
  Lemma pp_eq_dec (u v : PP) : u = v \/ u <> v.
  Proof.
    destruct u as [ux uy], v as [vx vy]. destruct (Req_dec ux vx) as [->|Hx]; [destruct (Req_dec uy vy) as [->|Hy]|].
    - left; reflexivity.
    - right; intros E; inversion E; contradiction.
    - right; intros E; inversion E; contradiction.
  Qed.

  (** a direction to the left of a -> b that is parallel to no line through two different points of S *)
  Lemma generic_left (S : list PP) (a b : PP) : a <> b ->
    exists w : PP, 0 < crs a b w /\ forall u v, In u S -> In v S -> u <> v -> crs u v w <> 0.
  Proof.
    intros Hab.
    set (dv := fun uv : PP * PP => (fst (snd uv) - fst (fst uv), snd (snd uv) - snd (fst uv))).
    destruct (avoid_directions_nz (dv (a, b) :: map dv (list_prod S S))) as [t0 Ht0].
    specialize (Ht0 (t0 + 1) ltac:(lra)). set (tau := t0 + 1) in *.
    assert (Hnz : forall u v : PP, u <> v -> dv (u, v) <> (0, 0)).
    { intros u v Huv E. apply Huv. unfold dv in E. cbn [fst snd] in E. inversion E. destruct u, v; cbn [fst snd] in *. f_equal; lra. }
    assert (Hall : forall u v, (u = a /\ v = b) \/ (In u S /\ In v S) -> u <> v -> crs u v (1, tau) <> 0).
    { intros u v Hin Huv. assert (Hi : In (dv (u, v)) (dv (a, b) :: map dv (list_prod S S))).
      { destruct Hin as [[-> ->] | [Hu Hv]]; [left; reflexivity | right; apply in_map; apply in_prod; assumption]. }
      pose proof (Ht0 _ Hi (Hnz u v Huv)) as H. unfold dv in H. cbn [fst snd] in H. unfold crs. cbn [fst snd]. intros Q. apply H. lra. }
    pose proof (Hall a b (or_introl (conj eq_refl eq_refl)) Hab) as Hk.
    destruct (Rlt_dec 0 (crs a b (1, tau))) as [Hp|Hp].
    - exists (1, tau). split; [exact Hp|]. intros u v Hu Hv Huv. apply Hall; [right; split; assumption | exact Huv].
    - exists (-1, - tau). assert (E : forall u v, crs u v (-1, - tau) = - crs u v (1, tau)) by (intros; unfold crs; cbn [fst snd]; ring).
      split; [rewrite E; lra|]. intros u v Hu Hv Huv. rewrite E. pose proof (Hall u v (or_intror (conj Hu Hv)) Huv). lra.
  Qed.

  (** the point: strictly inside both triangles, on no line through two different points of S *)
  Lemma common_point (S : list PP) (a b c c' : PP) :
    0 < orient a b c -> 0 < orient a b c' ->
    exists q : PP, inside_tri a b c q /\ inside_tri a b c' q /\ forall u v, In u S -> In v S -> u <> v -> orient u v q <> 0.
  Proof.
    intros Hc Hc'.
    assert (Hab : a <> b) by (intros ->; rewrite orient_self in Hc; lra).
    destruct (generic_left S a b Hab) as (w & Hw & Hgen).
    set (m := lerp a b (/ 2)).
    assert (M0 : orient a b m = 0) by (unfold orient, m, lerp; cbn [fst snd]; field).
    assert (M1 : forall x, orient b x m = orient a b x / 2) by (intros x; unfold orient, m, lerp; cbn [fst snd]; field).
    assert (M2 : forall x, orient x a m = orient a b x / 2) by (intros x; unfold orient, m, lerp; cbn [fst snd]; field).
    destruct (affine_pos (orient b c m) (crs b c w)) as (t1 & P1 & Q1); [rewrite M1; lra|].
    destruct (affine_pos (orient c a m) (crs c a w)) as (t2 & P2 & Q2); [rewrite M2; lra|].
    destruct (affine_pos (orient b c' m) (crs b c' w)) as (t3 & P3 & Q3); [rewrite M1; lra|].
    destruct (affine_pos (orient c' a m) (crs c' a w)) as (t4 & P4 & Q4); [rewrite M2; lra|].
    set (t0 := Rmin (Rmin t1 t2) (Rmin t3 t4)).
    assert (B : 0 < t0 /\ t0 <= t1 /\ t0 <= t2 /\ t0 <= t3 /\ t0 <= t4).
    { unfold t0. pose proof (Rmin_l (Rmin t1 t2) (Rmin t3 t4)). pose proof (Rmin_r (Rmin t1 t2) (Rmin t3 t4)).
      pose proof (Rmin_l t1 t2). pose proof (Rmin_r t1 t2). pose proof (Rmin_l t3 t4). pose proof (Rmin_r t3 t4).
      split; [repeat apply Rmin_glb_lt; assumption | lra]. }
    destruct B as (B0 & B1 & B2 & B3 & B4).
    set (root := fun uv : PP * PP => - orient (fst uv) (snd uv) m / crs (fst uv) (snd uv) w).
    destruct (avoid_reals (map root (list_prod S S)) t0 B0) as (t & Ht & Hr).
    exists (shift m w t). split; [|split].
    - left. rewrite !orient_shift, M0. split; [nra | split; [apply Q1; lra | apply Q2; lra]].
    - left. rewrite !orient_shift, M0. split; [nra | split; [apply Q3; lra | apply Q4; lra]].
    - intros u v Hu Hv Huv. rewrite orient_shift. intros E. pose proof (Hgen u v Hu Hv Huv) as Hk.
      apply (Hr (root (u, v))); [apply in_map; apply in_prod; assumption|].
      unfold root. cbn [fst snd]. field_simplify_eq; [lra | exact Hk].
  Qed.

  (** a ray from q that is generic for the chain *)
  Lemma generic_dir (L : list PP) (q : PP) : (forall v, In v L -> v <> q) -> exists d : PP, generic d q L.
  Proof.
    intros Hq. destruct (avoid_directions (map (fun v : PP => (fst v - fst q, snd v - snd q)) L)) as [t0 Ht0].
    { intros w Hw. apply in_map_iff in Hw. destruct Hw as (v & <- & Hv). intros E. apply (Hq v Hv). inversion E. destruct v, q; cbn [fst snd] in *. f_equal; lra. }
    exists (1, t0 + 1). intros v Hv. pose proof (Ht0 (t0 + 1) ltac:(lra) _ (in_map _ _ _ Hv)) as H. cbn [fst snd] in H.
    unfold hgt. cbn [fst snd]. intros Q. apply H. lra.
  Qed.

  Lemma nth_split2 {A : Type} (l : list A) (i j : nat) (x y : A) :
    (i < j)%nat -> nth_error l i = Some x -> nth_error l j = Some y -> exists l1 l2 l3, l = l1 ++ x :: l2 ++ y :: l3.
  Proof.
    intros Hij Hi Hj. destruct (nth_error_split l i Hi) as (l1 & r & -> & Hl).
    rewrite nth_error_app2 in Hj by lia. rewrite Hl in Hj. destruct (j - i)%nat as [|k] eqn:Ek; [lia|]. cbn [nth_error] in Hj.
    destruct (nth_error_split r k Hj) as (l2 & l3 & -> & _). exists l1, l2, l3. reflexivity.
  Qed.
End Geo2.

(** * B2: the ears of a sanitize-stable run on a Jordan outline are edge-manifold (reals)                        *)
Section Tiling.
  Notation PP := Winding.P2.
  Variables (o e1 e2 : V3 R).
  Notation pr := (plane2 o e1 e2).

  (** the Jordan hypothesis of C01 (upper half): off its edges, the chain winds at most once around every point *)
  Definition jordan_le1 (L2 : list PP) : Prop :=
    forall d q : PP, generic d q L2 -> off_edges L2 q -> (wn d L2 q <= 1)%Z.

  Lemma edge_pos (T : Tri R) (e : Edge) : 0 < orient (pr (ta T)) (pr (tb T)) (pr (tc T)) ->
    0 < orient (pr (fst (edge_pts T e))) (pr (snd (edge_pts T e))) (pr (opp_v T e)).
  Proof. intros H. destruct e; cbn [edge_pts opp_v fst snd]; [exact H | rewrite orient_rot; exact H | rewrite <- orient_rot; exact H]. Qed.
  Lemma edge_inside (T : Tri R) (e : Edge) (q : PP) :
    inside_tri (pr (fst (edge_pts T e))) (pr (snd (edge_pts T e))) (pr (opp_v T e)) q -> inside_tri (pr (ta T)) (pr (tb T)) (pr (tc T)) q.
  Proof.
    destruct e; cbn [edge_pts opp_v fst snd]; intros H; [exact H | exact (proj1 (inside_tri_rot _ _ _ _) H) | exact (proj2 (inside_tri_rot _ _ _ _) H)].
  Qed.

  Section Run.
    Variables (P : Poly R) (M : Mesh R) (L : Loop R).
    Hypothesis Hrun : stable_run P M.
    Hypothesis Hout : outline_of P L.
    Hypothesis Hn : frame_normal e1 e2 P.
    Hypothesis HJ : jordan_le1 (proj_outline o e1 e2 L).

    Lemma run_positive : forall a b c, In (a, b, c) (proj_tris o e1 e2 M) -> 0 < orient a b c.
    Proof. exact (ears_positive o e1 e2 P M (stable_run_ok P M Hrun) Hn). Qed.
    Lemma run_verts (t : TriPiece R) : In t (tris M) -> tri_in (fun x => In x (verts L)) (tp_tri t).
    Proof.
      intros Hin. destruct (stable_run_ears P M L Hrun Hout) as [D _].
      apply (ear_decomp2_In _ _ _ D (ta (tp_tri t)) (tb (tp_tri t)) (tc (tp_tri t))).
      change (ta (tp_tri t), tb (tp_tri t), tc (tp_tri t)) with (tri3 t). apply in_map. exact Hin.
    Qed.
    Lemma run_proj_in (t : TriPiece R) : In t (tris M) ->
      In (pr (ta (tp_tri t)), pr (tb (tp_tri t)), pr (tc (tp_tri t))) (proj_tris o e1 e2 M).
    Proof. intros Hin. apply proj_tris_In. exists t. repeat split. exact Hin. Qed.

    (** two different slots never hold the same directed edge *)
    Lemma tiling_no_shared (i j : nat) (ti tj : TriPiece R) (e e' : Edge) :
      (i < j)%nat -> nth_error (tris M) i = Some ti -> nth_error (tris M) j = Some tj ->
      edge_pts (tp_tri ti) e = edge_pts (tp_tri tj) e' -> False.
    Proof.
      intros Hij Ei Ej Heq. set (Ti := tp_tri ti) in *. set (Tj := tp_tri tj) in *. set (S := proj_outline o e1 e2 L).
      pose proof (nth_error_In _ _ Ei) as Ini. pose proof (nth_error_In _ _ Ej) as Inj.
      pose proof (edge_pos Ti e (run_positive _ _ _ (run_proj_in ti Ini))) as Pi.
      pose proof (edge_pos Tj e' (run_positive _ _ _ (run_proj_in tj Inj))) as Pj. rewrite <- Heq in Pj.
      destruct (edge_pts_in _ Ti e (run_verts ti Ini)) as [Vu Vv].
      set (u := fst (edge_pts Ti e)) in *. set (v := snd (edge_pts Ti e)) in *.
      assert (Su : In (pr u) S) by (apply in_map; exact Vu). assert (Sv : In (pr v) S) by (apply in_map; exact Vv).
      assert (Huv : pr u <> pr v) by (intros Q; rewrite Q, orient_self in Pi; lra).
      destruct (common_point S (pr u) (pr v) (pr (opp_v Ti e)) (pr (opp_v Tj e')) Pi Pj) as (q & I1 & I2 & Hoff).
      (* q is no vertex of the outline *)
      assert (Hq : forall x, In x S -> x <> q).
      { intros x Hx Q. subst q. destruct (pp_eq_dec (pr u) x) as [E|E].
        - subst x. apply (Hoff (pr u) (pr v) Su Sv Huv). unfold orient. ring.
        - apply (Hoff (pr u) x Su Hx E). unfold orient. ring. }
      destruct (generic_dir S q Hq) as [d Hg].
      (* q is on no edge line of a triangle, on no edge of the outline *)
      assert (Hsegs : forall a b c, In (a, b, c) (proj_tris o e1 e2 M) -> off_segs a b c q).
      { intros a b c Hin. pose proof (run_positive a b c Hin) as Hp. apply proj_tris_In in Hin. destruct Hin as (t & Hin & -> & -> & ->).
        destruct (run_verts t Hin) as (Va & Vb & Vc).
        assert (Sa : In (pr (ta (tp_tri t))) S) by (apply in_map; exact Va).
        assert (Sb : In (pr (tb (tp_tri t))) S) by (apply in_map; exact Vb).
        assert (Sc : In (pr (tc (tp_tri t))) S) by (apply in_map; exact Vc).
        repeat split; intros Z; exfalso; revert Z; apply Hoff; try assumption; intros Q; rewrite Q in Hp; unfold orient in Hp; lra. }
      assert (Hedges : off_edges S q).
      { intros a b Hin. destruct (edges_closed_In _ _ _ Hin) as [Sa Sb]. destruct (pp_eq_dec a b) as [E|E].
        - subst b. intros _. pose proof (Hq a Sa) as Hne. unfold dot2d.
          assert (Hd : fst a - fst q <> 0 \/ snd a - snd q <> 0).
          { destruct (Req_dec (fst a - fst q) 0) as [Z1|Z1]; [|left; exact Z1]. destruct (Req_dec (snd a - snd q) 0) as [Z2|Z2]; [|right; exact Z2].
            exfalso. apply Hne. destruct a, q; cbn [fst snd] in *. f_equal; lra. }
          pose proof (Rle_0_sqr (fst a - fst q)) as S1. pose proof (Rle_0_sqr (snd a - snd q)) as S2.
          destruct Hd as [Hd|Hd]; apply Rsqr_pos_lt in Hd; unfold Rsqr in *; lra.
        - intros Z. exfalso. exact (Hoff a b Sa Sb E Z). }
      pose proof (HJ d q Hg Hedges) as Hw.
      assert (Ni : nth_error (proj_tris o e1 e2 M) i = Some (pr (ta Ti), pr (tb Ti), pr (tc Ti))) by (unfold proj_tris; rewrite (map_nth_error _ _ _ Ei); reflexivity).
      assert (Nj : nth_error (proj_tris o e1 e2 M) j = Some (pr (ta Tj), pr (tb Tj), pr (tc Tj))) by (unfold proj_tris; rewrite (map_nth_error _ _ _ Ej); reflexivity).
      destruct (nth_split2 _ i j _ _ Hij Ni Nj) as (l1 & l2 & l3 & E).
      apply (ears_tiling_no_overlap o e1 e2 P M L Hrun Hout run_positive d q Hg Hsegs Hw l1 l2 l3 _ _ _ _ _ _ E).
      - apply (edge_inside Ti e). exact I1.
      - apply (edge_inside Tj e'). rewrite <- Heq. exact I2.
    Qed.

    Theorem EM_of_tiling : EM M.
    Proof.
      intros i j Ti Tj e e' Hij Li Lj Heq.
      destruct (lvT_slot _ _ _ Li) as (ti & Ei & _ & Qi). destruct (lvT_slot _ _ _ Lj) as (tj & Ej & _ & Qj). subst Ti Tj.
      destruct (Nat.lt_ge_cases i j) as [Hlt|Hge].
      - exact (tiling_no_shared i j ti tj e e' Hlt Ei Ej Heq).
      - assert (Hlt : (j < i)%nat) by lia. exact (tiling_no_shared j i tj ti e' e Hlt Ej Ei (eq_sym Heq)).
    Qed.
  End Run.
End Tiling.

(** * Composition: the initial mesh satisfies GEO (and POS, INV); [mesh_polygon] starts from a proved state      *)
Section Compose.
  Notation PP := Winding.P2.
  Variables (o e1 e2 : V3 R).
  Notation pr := (plane2 o e1 e2).

  Section Run.
    Variables (P : Poly R) (M : Mesh R) (L : Loop R).
    Hypothesis Hrun : stable_run P M.
    Hypothesis Hout : outline_of P L.
    Hypothesis Hn : frame_normal e1 e2 P.
    Hypothesis HJ : jordan_le1 (proj_outline o e1 e2 L).
    Hypothesis HV : VSEP (fun x : V3 R => In x (verts L)).

    Lemma initial_verts (x : V3 R) : mesh_vert M x -> In x (verts L).
    Proof.
      intros (j & T & Lj & Hx). destruct (lvT_slot _ _ _ Lj) as (t & Et & _ & <-).
      destruct (run_verts P M L Hrun Hout t (nth_error_In _ _ Et)) as (A & B & C). destruct Hx as [-> | [-> | ->]]; assumption.
    Qed.
    Lemma initial_SEP : SEP M.
    Proof. intros x y Hx Hy. apply HV; apply initial_verts; assumption. Qed.
    Theorem initial_GEO : GEO M.
    Proof.
      apply (from_polygon_GEO_of_EM P M (stable_run_ok P M Hrun) initial_SEP).
      exact (EM_of_tiling o e1 e2 P M L Hrun Hout Hn HJ).
    Qed.
    Theorem initial_AllPos : AllPos o e1 e2 M.
    Proof.
      unfold AllPos, tris2. apply Forall_forall. intros x Hx. apply in_map_iff in Hx. destruct Hx as (T & <- & HT).
      unfold live_tris, live_l in HT. apply in_map_iff in HT. destruct HT as (t & <- & Ht). apply filter_In in Ht. destruct Ht as [Ht _].
      unfold pos3, t2. cbn [fst snd]. exact (run_positive o e1 e2 P M Hrun Hn _ _ _ (run_proj_in o e1 e2 M t Ht)).
    Qed.
    Hypothesis HP : forall v : V3 R, In v (verts L) -> in_plane o e1 e2 v.
    Theorem initial_POS : POS o e1 e2 M.
    Proof. split; [exact initial_GEO | split; [intros x Hx; apply HP; apply initial_verts; exact Hx | exact initial_AllPos]]. Qed.
    Theorem initial_INV : INV o e1 e2 M.
    Proof. destruct (from_polygon_invariants P M (stable_run_ok P M Hrun)) as [W C]. split; [exact W | split; [exact C | exact initial_POS]]. Qed.
  End Run.

  Hypothesis E11 : vdot e1 e1 = 1.
  Hypothesis E22 : vdot e2 e2 = 1.
  Hypothesis E12 : vdot e1 e2 = 0.
  Theorem mesh_polygon_region_from_polygon (fuel : nat) (P : Poly R) (a m : R) (M0 M' : Mesh R) (r : rres) (L : Loop R) :
    stable_run P M0 -> outline_of P L -> frame_normal e1 e2 P -> jordan_le1 (proj_outline o e1 e2 L) ->
    VSEP (fun x : V3 R => In x (verts L)) -> (forall v : V3 R, In v (verts L) -> in_plane o e1 e2 v) ->
    mesh_polygon fuel P a m = Ok (M', r) -> tr_ok (side o e1 e2 (fun _ => True)) M0 (refine_trace fuel a m M0) ->
    INV o e1 e2 M' /\ mesh_area2 o e1 e2 M' = mesh_area2 o e1 e2 M0.
  Proof.
    intros Hrun Hout Hn HJ HV HP H Htr.
    exact (mesh_polygon_region o e1 e2 E11 E22 E12 fuel P a m M0 M' r (stable_run_ok P M0 Hrun) (initial_INV P M0 L Hrun Hout Hn HJ HV HP) H Htr).
  Qed.
End Compose.
