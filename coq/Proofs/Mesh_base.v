(** * Mesh_base: reasoning principles for the state transformers [MR] of Model/Triangulation.v.
    Everything here holds for EVERY number instance of the model. *)
From Coq Require Import ZArith Bool List Arith Lia.
From G3 Require Import Model.Num Model.Base Model.Vec Model.Segment Model.Triangle Model.Loop Model.Polygon Model.Triangulation.
Import ListNotations.

Section MeshBase.
  Context {K : Type} {NK : Num K}.
  Notation V := (V3 K).
  Notation TP := (TriPiece K).
  Notation Mesh := (Mesh K).

  Lemma mbind_ok {A B} (m : MR A) (f : A -> MR B) (M M2 : Mesh) (b : B) :
    mbind m f M = (M2, Ok b) -> exists a M1, m M = (M1, Ok a) /\ f a M1 = (M2, Ok b).
  Proof.
    unfold mbind. destruct (m M) as [M1 [a| |]]; intros H; try discriminate. exists a, M1. split; [reflexivity|exact H].
  Qed.
  Lemma mbind_inv {A B} (m : MR A) (f : A -> MR B) (M M2 : Mesh) (r : res B) :
    mbind m f M = (M2, r) ->
    (exists a M1, m M = (M1, Ok a) /\ f a M1 = (M2, r)) \/
    (exists c, m M = (M2, Err c) /\ r = Err c) \/ (exists s, m M = (M2, Panic s) /\ r = Panic s).
  Proof.
    unfold mbind. destruct (m M) as [M1 [a| c | s]]; intros H.
    - left. exists a, M1. split; [reflexivity|exact H].
    - right; left. exists c. inversion H; subst. split; reflexivity.
    - right; right. exists s. inversion H; subst. split; reflexivity.
  Qed.

  Lemma bind_lift_inv {A B} (x : res A) (f : A -> MR B) (M M' : Mesh) (r : res B) :
    mbind (mlift x) f M = (M', r) ->
    (exists a, x = Ok a /\ f a M = (M', r)) \/ (M' = M /\ ((exists c, r = Err c) \/ (exists s, r = Panic s /\ x = Panic s))).
  Proof.
    unfold mbind, mlift. destruct x as [a|c|s]; intros H.
    - left. exists a. split; [reflexivity | exact H].
    - right. inversion H; subst. split; [reflexivity | left; eexists; reflexivity].
    - right. inversion H; subst. split; [reflexivity | right; eexists; split; reflexivity].
  Qed.
  Lemma bind_get_inv {B} (site : N) (i : nat) (f : TP -> MR B) (M M' : Mesh) (r : res B) :
    mbind (mget site i) f M = (M', r) ->
    (exists t, nth_error (tris M) i = Some t /\ f t M = (M', r)) \/ (M' = M /\ r = Panic site /\ nth_error (tris M) i = None).
  Proof.
    unfold mbind, mget. destruct (nth_error (tris M) i) as [t|]; intros H.
    - left. exists t. split; [reflexivity | exact H].
    - right. inversion H; subst. repeat split; reflexivity.
  Qed.

  Lemma bind_lift_fail {A B} (x : res A) (f : A -> MR B) (M M' : Mesh) (r : res B) :
    mbind (mlift x) f M = (M', r) ->
    (exists a, x = Ok a /\ f a M = (M', r)) \/
    (M' = M /\ (forall a, x <> Ok a) /\ (forall b, r <> Ok b) /\ forall s, r = Panic s -> x = Panic s).
  Proof.
    unfold mbind, mlift. destruct x as [a|c|s]; intros H; [left; exists a; split; [reflexivity | exact H] | right ..];
      inversion H; subst; repeat split; try discriminate. intros s' E; inversion E; reflexivity.
  Qed.
  Lemma bind_lift_Ok {A B} (x : res A) (a : A) (f : A -> MR (K:=K) B) (M : Mesh) : x = Ok a -> mbind (mlift x) f M = f a M.
  Proof. intros ->. reflexivity. Qed.

  Lemma bind_get_Some {B} (site : N) (i : nat) (t : TP) (f : TP -> MR B) (M : Mesh) :
    nth_error (tris M) i = Some t -> mbind (mget site i) f M = f t M.
  Proof. intros E. unfold mbind, mget. rewrite E. reflexivity. Qed.

  Definition Pres {A} (R : Mesh -> Mesh -> Prop) (m : MR A) : Prop :=
    forall M M' r, m M = (M', r) -> R M M'.
  Section PresRules.
    Variable R : Mesh -> Mesh -> Prop.
    Hypothesis Rrefl : forall M, R M M.
    Hypothesis Rtrans : forall M1 M2 M3, R M1 M2 -> R M2 M3 -> R M1 M3.
    Lemma pres_ret {A} (a : A) : Pres R (mret a).
    Proof. intros M M' r H. inversion H; subst. apply Rrefl. Qed.
    Lemma pres_lift {A} (x : res A) : Pres R (mlift x).
    Proof. intros M M' r H. inversion H; subst. apply Rrefl. Qed.
    Lemma pres_get (s : N) (i : nat) : Pres R (mget (K:=K) s i).
    Proof. intros M M' r H. inversion H; subst. apply Rrefl. Qed.
    Lemma pres_bind {A B} (m : MR A) (f : A -> MR B) : Pres R m -> (forall a, Pres R (f a)) -> Pres R (mbind m f).
    Proof.
      intros Hm Hf M M' r H. apply mbind_inv in H. destruct H as [(a & M1 & H1 & H2) | [(c & H1 & _) | (s & H1 & _)]].
      - eapply Rtrans; [eapply Hm; exact H1 | eapply Hf; exact H2].
      - eapply Hm; exact H1.
      - eapply Hm; exact H1.
    Qed.
    Lemma pres_when (b : bool) (m : MR unit) : Pres R m -> Pres R (mwhen b m).
    Proof. intros H. destruct b; [exact H | apply pres_ret]. Qed.
    Lemma pres_read {A} (g : Mesh -> res A) : Pres R (fun M => (M, g M)).
    Proof. intros M M' r H. inversion H; subst. apply Rrefl. Qed.
    Lemma pres_state {A} (f : Mesh -> MR A) : (forall M0, Pres R (f M0)) -> Pres R (fun M => f M M).
    Proof. intros H M M' r E. eapply H. exact E. Qed.
  End PresRules.

End MeshBase.

(* [leaf] disposes of the primitive writes, each relation in its own way *)
Ltac pres_step R Rr Rt leaf :=
  match goal with
  | |- Pres _ (mbind _ _) => apply (pres_bind R Rt); [|intros ?]
  | |- Pres _ (mret _) => apply (pres_ret R Rr)
  | |- Pres _ (mlift _) => apply (pres_lift R Rr)
  | |- Pres _ (mget _ _) => apply (pres_get R Rr)
  | |- Pres _ (mwhen _ _) => apply (pres_when R Rr)
  | |- Pres _ (if ?b then _ else _) => destruct b
  | |- Pres _ (match ?x with _ => _ end) => destruct x
  | |- Pres _ (let '(_, _) := ?x in _) => destruct x
  | _ => leaf
  end.

Section MeshSteps.
  Context {K : Type} {NK : Num K}.
  Notation V := (V3 K).
  Notation TP := (TriPiece K).
  Notation Mesh := (Mesh K).

  (** every operation of the mesh is built from these four primitive writes *)
  Record Stable (R : Mesh -> Mesh -> Prop) : Prop := {
    st_refl : forall M, R M M;
    st_trans : forall M1 M2 M3, R M1 M2 -> R M2 M3 -> R M1 M3;
    st_mark : forall i1 e1 i2, Pres R (mark_as_neighbours i1 e1 i2);
    st_constrain : forall s i e, Pres R (mupd s i (tp_constrain e));
    st_invalidate : forall i, Pres R (mesh_invalidate i);
    st_push : forall a b c la, Pres R (mesh_push a b c la) }.
  Lemma pres_mark_upd (R : Mesh -> Mesh -> Prop) :
    (forall M, R M M) -> (forall M1 M2 M3, R M1 M2 -> R M2 M3 -> R M1 M3) ->
    (forall s i e j, Pres R (mupd s i (tp_set_neighbour e j))) -> forall i1 e1 i2, Pres R (mark_as_neighbours i1 e1 i2).
  Proof. intros Rr Rt Hu i1 e1 i2. unfold mark_as_neighbours. repeat pres_step R Rr Rt ltac:(apply Hu). Qed.
  Section Links.
    Variable R : Mesh -> Mesh -> Prop.
    Hypothesis Rrefl : forall M, R M M.
    Hypothesis Rtrans : forall M1 M2 M3, R M1 M2 -> R M2 M3 -> R M1 M3.
    Hypothesis Hmark : forall i1 e1 i2, Pres R (mark_as_neighbours i1 e1 i2).
    Lemma pres_pair a b : Pres R (mark_edge_pair (K:=K) a b).
    Proof. unfold mark_edge_pair. repeat pres_step R Rrefl Rtrans ltac:(apply Hmark). Qed.
    Lemma pres_inner a : forall cnt b, Pres R (mn_inner (K:=K) a b cnt).
    Proof.
      induction cnt as [|c IH]; intros b; cbn [mn_inner]; [apply (pres_ret R Rrefl)|].
      apply (pres_bind R Rtrans); [apply pres_pair | intros _; apply IH].
    Qed.
    Lemma pres_outer n : forall cnt a, Pres R (mn_outer (K:=K) n a cnt).
    Proof.
      induction cnt as [|c IH]; intros a; cbn [mn_outer]; [apply (pres_ret R Rrefl)|].
      apply (pres_bind R Rtrans); [apply pres_inner | intros _; apply IH].
    Qed.
    Lemma pres_neighbourhouds : Pres R (mark_neighbourhouds (K:=K)).
    Proof. intros M M' r H. unfold mark_neighbourhouds in H. eapply pres_outer. exact H. Qed.
  End Links.

  Section Closure.
    Variable R : Mesh -> Mesh -> Prop.
    Hypothesis HS : Stable R.
    Let Rrefl := st_refl R HS.
    Let Rtrans := st_trans R HS.
    Ltac st_step := pres_step R Rrefl Rtrans
      ltac:(first [apply (st_mark R HS) | apply (st_constrain R HS) | apply (st_invalidate R HS) | apply (st_push R HS)]).
    Ltac pres_tac := repeat st_step.
    Lemma pres_flip i e : Pres R (flip_diagonal (K:=K) i e).
    Proof. unfold flip_diagonal. pres_tac. Qed.
    Lemma pres_hemisphere s p i : Pres R (process_hemisphere (K:=K) s p i).
    Proof. unfold process_hemisphere. pres_tac. Qed.
    Lemma pres_precheck s p i : Pres R (split_precheck (K:=K) s p i).
    Proof. unfold split_precheck. pres_tac. Qed.
    Lemma pres_split_edge i e p : Pres R (split_edge (K:=K) i e p).
    Proof. unfold split_edge. repeat first [apply pres_hemisphere | apply pres_precheck | st_step]. Qed.
    Lemma pres_split_triangle i p : Pres R (split_triangle (K:=K) i p).
    Proof. unfold split_triangle. pres_tac. Qed.
    Lemma pres_rd_pass (m : K) : forall cnt i l any, Pres R (rd_pass m cnt i l any).
    Proof.
      induction cnt as [|cnt IH]; intros i l any; cbn [rd_pass]; [apply (pres_ret R Rrefl)|].
      destruct l as [|t l']; [apply (pres_lift R Rrefl)|].
      destruct (negb (tp_valid t)); [apply IH|]. destruct (nltb (tp_ar t) m); [apply IH|].
      apply (pres_bind R Rtrans); [apply (pres_read R Rrefl)|]. intros b. destruct (fst b); [|apply IH].
      apply (pres_bind R Rtrans); [apply pres_flip|]. intros _ M M' r H. exact (IH _ _ _ M M' r H).
    Qed.
    Lemma pres_rd_loops (m : K) (n : nat) : forall loops, Pres R (rd_loops m n loops).
    Proof.
      induction loops as [|l IH]; cbn [rd_loops]; [apply (pres_ret R Rrefl)|].
      apply (pres_bind R Rtrans); [intros M M' r H; exact (pres_rd_pass m _ _ _ _ M M' r H)|]. intros any. destruct any; [apply IH | apply (pres_ret R Rrefl)].
    Qed.
    Lemma pres_restore (m : K) : Pres R (restore_delaunay m).
    Proof. unfold restore_delaunay. intros M M' r H. exact (pres_rd_loops m _ _ M M' r H). Qed.
    Lemma pres_aptt i p loc : Pres R (add_point_to_triangle (K:=K) i p loc).
    Proof. unfold add_point_to_triangle. repeat first [apply pres_split_edge | apply pres_split_triangle | st_step]. Qed.
    Lemma pres_add_point p : Pres R (add_point (K:=K) p).
    Proof.
      intros M M' r H. unfold add_point in H. destruct (find_container (tris M) 0 p) as [[i loc]|].
      - eapply pres_aptt. exact H.
      - inversion H; subst. apply Rrefl.
    Qed.
    Lemma pres_refine_pass (a m : K) : forall cnt i l any, Pres R (refine_pass a m cnt i l any).
    Proof.
      induction cnt as [|cnt IH]; intros i l any; cbn [refine_pass]; [apply (pres_ret R Rrefl)|].
      destruct l as [|t l']; [apply (pres_lift R Rrefl)|].
      destruct (negb (tp_valid t)); [apply (pres_lift R Rrefl)|]. destruct (nltb (tarea (tp_tri t)) c1em3); [apply IH|].
      assert (Hc : forall b, Pres R (fun M : Mesh => refine_pass a m cnt (S i) (skipn (S i) (tris M)) b M))
        by (intros b M M' r H; exact (IH _ _ _ M M' r H)).
      destruct (nltb m (tp_ar t)).
      { apply (pres_bind R Rtrans); [apply (pres_lift R Rrefl)|]. intros [s_i s]. apply (pres_bind R Rtrans); [apply (pres_lift R Rrefl)|]. intros ed.
        apply (pres_bind R Rtrans); [apply pres_split_edge|]. intros _. apply (pres_bind R Rtrans); [apply pres_restore|]. intros _. apply Hc. }
      destruct (nltb a (tarea (tp_tri t))); [|apply IH].
      intros M M' r H. destruct (add_point (tp_cc t) M) as [M1 [did| c | s]] eqn:Eadd; pose proof (pres_add_point _ _ _ _ Eadd) as G1.
      - eapply Rtrans; [exact G1|]. destruct did; [|eapply Hc; exact H].
        revert H. apply (pres_bind R Rtrans); [apply pres_restore|]. intros _. apply Hc.
      - eapply Rtrans; [exact G1|]. revert H.
        apply (pres_bind R Rtrans); [apply (pres_get R Rrefl)|]. intros t'. apply (pres_bind R Rtrans); [apply pres_aptt|]. intros did. destruct did; [|apply Hc].
        apply (pres_bind R Rtrans); [apply pres_restore|]. intros _. apply Hc.
      - inversion H; subst. exact G1.
    Qed.
    Lemma pres_refine (a m : K) : forall fuel, Pres R (refine fuel a m).
    Proof.
      induction fuel as [|f IH]; cbn [refine]; [apply (pres_ret R Rrefl)|].
      intros M M' r H. revert H. apply (pres_bind R Rtrans); [apply pres_refine_pass|]. intros any. destruct any; [apply IH | apply (pres_ret R Rrefl)].
    Qed.
    Lemma pres_mesh_step (op : mop K) : Pres R (mesh_step op).
    Proof.
      destruct op; cbn [mesh_step];
        repeat first [apply pres_split_edge | apply pres_split_triangle | apply pres_flip | apply pres_restore | apply pres_add_point | apply pres_refine
                     | st_step].
    Qed.
  End Closure.

  Lemma rd_best_some (M : Mesh) (i : nat) (ar : K) : forall js best oe v, rd_best M i ar js best = Ok (oe, v) ->
    oe = fst best \/ exists e ar', oe = Some e /\ get_flipped_aspect_ratio M i e = Ok (Some ar').
  Proof.
    induction js as [|j js IH]; intros best oe v H; cbn [rd_best] in H; [inversion H; left; reflexivity|].
    destruct (edge_from_i j) as [ed| |]; cbn [rbind] in H; try discriminate.
    destruct (get_flipped_aspect_ratio M i ed) as [r| |] eqn:Eg; cbn [rbind] in H; try discriminate.
    destruct r as [ar'|]; [|apply IH in H; exact H].
    destruct (nltb ar' ar && nltb ar' (snd best)); apply IH in H; [|exact H].
    destruct H as [H | H]; [|right; exact H]. right. exists ed, ar'. split; [exact H | exact Eg].
  Qed.
  Section RestoreInd.
    Variable P : Mesh -> Prop.
    Variable S : Mesh -> Mesh -> Prop.
    Hypothesis Srefl : forall M, S M M.
    Hypothesis Strans : forall M1 M2 M3, S M1 M2 -> S M2 M3 -> S M1 M3.
    Hypothesis Hflip : forall i e ar M M', P M -> get_flipped_aspect_ratio M i e = Ok (Some ar) -> flip_diagonal i e M = (M', Ok tt) -> P M' /\ S M M'.
    Lemma rd_pass_ind (m : K) : forall cnt i l any M M' b, P M -> rd_pass m cnt i l any M = (M', Ok b) -> P M' /\ S M M'.
    Proof.
      induction cnt as [|cnt IH]; intros i l any M M' b HP H; cbn [rd_pass] in H.
      - inversion H; subst. split; [exact HP | apply Srefl].
      - destruct l as [|t l']; [discriminate|].
        destruct (negb (tp_valid t)); [eapply IH; eassumption|].
        destruct (nltb (tp_ar t) m); [eapply IH; eassumption|].
        apply mbind_ok in H. destruct H as ([oe v] & M1 & H1 & H). assert (Hb := f_equal snd H1). assert (HM := f_equal fst H1).
        cbn [fst snd] in Hb, HM, H. subst M1. clear H1. destruct oe as [best|]; [|eapply IH; eassumption].
        destruct (rd_best_some _ _ _ _ _ _ _ Hb) as [Q | (ed & ar' & Q & Hg)]; [discriminate Q|]. inversion Q; subst ed.
        apply mbind_ok in H. destruct H as ([] & M1 & H1 & H). destruct (Hflip _ _ _ _ _ HP Hg H1) as [HP1 S1].
        destruct (IH _ _ _ _ _ _ HP1 H) as [HP2 S2]. split; [exact HP2 | eapply Strans; eassumption].
    Qed.
    Lemma rd_loops_ind (m : K) (n : nat) : forall loops M M', P M -> rd_loops m n loops M = (M', Ok tt) -> P M' /\ S M M'.
    Proof.
      induction loops as [|k IH]; intros M M' HP H; cbn [rd_loops] in H.
      - inversion H; subst. split; [exact HP | apply Srefl].
      - apply mbind_ok in H. destruct H as (any & M1 & H1 & H). destruct (rd_pass_ind _ _ _ _ _ _ _ _ HP H1) as [HP1 S1].
        destruct any; [|inversion H; subst; split; assumption].
        destruct (IH _ _ HP1 H) as [HP2 S2]. split; [exact HP2 | eapply Strans; eassumption].
    Qed.
    Theorem restore_ind (m : K) (M M' : Mesh) : P M -> restore_delaunay m M = (M', Ok tt) -> P M' /\ S M M'.
    Proof. intros HP H. unfold restore_delaunay in H. eapply rd_loops_ind; eassumption. Qed.
  End RestoreInd.

  (** [fp_loop] ends in [mark_neighbourhouds] of a mesh reached by pushes and constrains; the invariant may follow the
      remaining fuel and the current loop (sanitize, a skipped corner, a clipped ear). *)
  Section ReachLoop.
    Variable Q : nat -> Loop K -> Mesh -> Prop.
    Hypothesis Hsan : forall f L L' M, loop_sanitize L = Ok L' -> Q f L M -> Q f L' M.
    Hypothesis Hskip : forall f L M, Q (S f) L M -> Q f L M.
    Hypothesis Hear : forall f L L' i0 i1 i2 v0 v1 v2 M M' n,
      loop_index L i0 = Ok v0 -> loop_index L i1 = Ok v1 -> loop_index L i2 = Ok v2 ->
      mesh_push v0 v1 v2 (n_triangles M) M = (M', Ok n) -> loop_remove L i1 = Ok L' -> Q (S f) L M -> Q f L' M'.
    Hypothesis Hcon : forall f L s i e M M' r, mupd s i (tp_constrain e) M = (M', r) -> Q f L M -> Q f L M'.
    Lemma fp_loop_reach_loop (P : Poly K) : forall fuel count anchor (L : Loop K) (t M : Mesh), fp_loop P fuel count anchor L t = Ok M -> Q fuel L t ->
      exists f' L' t', Q f' L' t' /\ llen L' = 2 /\ mark_neighbourhouds t' = (M, Ok tt).
    Proof.
      induction fuel as [|fuel IH]; intros count anchor L t M H C; cbn [fp_loop] in H; [discriminate|].
      destruct (if Nat.eqb _ 0 then loop_sanitize L else Ok L) as [L1| |] eqn:EL; cbn [rbind] in H; try discriminate.
      assert (C1 : Q (S fuel) L1 t) by (destruct (Nat.eqb _ 0); [eapply Hsan; eassumption | inversion EL; subst; exact C]).
      destruct (Nat.eqb_spec (llen L1) 2) as [E2|_].
      { destruct (mark_neighbourhouds t) as [t' r] eqn:Em. destruct r as [u| |]; cbn [rbind] in H; try discriminate. inversion H; subst. destruct u.
        exists (S fuel), L1, t. repeat split; assumption. }
      destruct (Nat.eqb (llen L1) 0); [discriminate|].
      destruct (loop_index L1 _) as [v0| |] eqn:E0; cbn [rbind] in H; try discriminate.
      destruct (loop_index L1 _) as [v1| |] eqn:E1 in H; cbn [rbind] in H; try discriminate.
      destruct (loop_index L1 _) as [v2| |] eqn:E2 in H; cbn [rbind] in H; try discriminate.
      destruct (is_collinear v0 v1 v2) as [is_line| |]; cbn [rbind] in H; try discriminate.
      destruct (loop_is_diagonal L1 _) as [is_diag| |]; cbn [rbind] in H; try discriminate.
      destruct (ear_test P L1 v0 v1 v2 is_line is_diag) as [is_ear| |]; cbn [rbind] in H; try discriminate.
      destruct is_ear; [|eapply IH; [exact H | apply Hskip; exact C1]].
      destruct (mesh_push v0 v1 v2 (n_triangles t) t) as [t1 r] eqn:Ep.
      destruct r as [n| |]; cbn [rbind] in H; try discriminate.
      assert (Hc : forall L' (sg : Seg K) (e : Edge) (m m' : Mesh) (r : res unit),
                 (if poly_contains_segment P sg then mupd 95%N (n_triangles t) (tp_constrain e) m else (m, Ok tt)) = (m', r) -> Q fuel L' m -> Q fuel L' m').
      { intros L' sg e m m' r Hm. destruct (poly_contains_segment P sg); [eapply Hcon; exact Hm | inversion Hm; subst; exact (fun q => q)]. }
      match type of H with context [let '(t2, r) := ?c in _] => destruct c as [t2 r2] eqn:Ec2 end. destruct r2; cbn [rbind] in H; try discriminate.
      match type of H with context [let '(t3, r) := ?c in _] => destruct c as [t3 r3] eqn:Ec3 end. destruct r3; cbn [rbind] in H; try discriminate.
      match type of H with context [let '(t4, r) := ?c in _] => destruct c as [t4 r4] eqn:Ec4 end. destruct r4; cbn [rbind] in H; try discriminate.
      destruct (loop_remove L1 _) as [L2| |] eqn:Er; cbn [rbind] in H; try discriminate.
      (* the loop is removed from after the constrains, but does not depend on the mesh *)
      eapply IH; [exact H|]. eapply Hc; [exact Ec4|]. eapply Hc; [exact Ec3|]. eapply Hc; [exact Ec2|]. exact (Hear _ _ _ _ _ _ _ _ _ _ _ _ E0 E1 E2 Ep Er C1).
    Qed.
  End ReachLoop.

  Section Reach.
    Variable Q : Mesh -> Prop.
    Hypothesis Hpush : forall a b c la M M' n, mesh_push a b c la M = (M', Ok n) -> Q M -> Q M'.
    Hypothesis Hcon : forall s i e M M' r, mupd s i (tp_constrain e) M = (M', r) -> Q M -> Q M'.
    Lemma fp_loop_reach (P : Poly K) fuel count anchor (L : Loop K) (t M : Mesh) : fp_loop P fuel count anchor L t = Ok M -> Q t ->
      exists t', Q t' /\ mark_neighbourhouds t' = (M, Ok tt).
    Proof.
      intros H C. destruct (fp_loop_reach_loop (fun _ _ => Q)) with (P := P) (5 := H) as (_ & _ & t' & Ct & _ & Hm); eauto.
    Qed.
    Lemma from_polygon_reach (P : Poly K) (M : Mesh) : Q mesh_new -> from_polygon P = Ok M -> exists t', Q t' /\ mark_neighbourhouds t' = (M, Ok tt).
    Proof.
      intros Q0. unfold from_polygon. destruct (poly_get_closed_loop P) as [Lm| |]; cbn [rbind]; try discriminate.
      destruct (loop_close Lm) as [L r]. destruct r; cbn [rbind]; try discriminate. destruct (Nat.ltb _ 2); [discriminate|].
      intros H. eapply fp_loop_reach; eassumption.
    Qed.
  End Reach.

  (** a bind panics in its argument, or in the continuation run on the value the argument returned *)
  Lemma rbind_panic {A B} (G : Prop) (x : res A) (f : A -> res B) (s : N) :
    (x = Panic s -> G) -> (forall a, x = Ok a -> f a = Panic s -> G) -> rbind x f = Panic s -> G.
  Proof. destruct x as [a| |s']; cbn [rbind]; intros Hx Hf H; [exact (Hf a eq_refl H) | discriminate | inversion H; subst; exact (Hx eq_refl)]. Qed.

  Definition NP {A} (okb : N -> bool) (m : MR (K:=K) A) : Prop :=
    forall M M' s, m M = (M', Panic s) -> okb s = true.
  Definition np_res {A} (okb : N -> bool) (x : res A) : Prop := forall s, x = Panic s -> okb s = true.
  Section NPRules.
    Variable okb : N -> bool.
    Lemma np_ret {A} (a : A) : NP okb (mret a).
    Proof. intros M M' s H. discriminate. Qed.
    Lemma np_lift {A} (x : res A) : np_res okb x -> NP okb (mlift x).
    Proof. intros Hx M M' s H. inversion H; subst. apply Hx. reflexivity. Qed.
    Lemma np_get (site : N) (i : nat) : okb site = true -> NP okb (mget (K:=K) site i).
    Proof. intros Hs M M' s H. unfold mget in H. destruct (nth_error (tris M) i); inversion H; subst. exact Hs. Qed.
    Lemma np_bind {A B} (m : MR A) (f : A -> MR B) : NP okb m -> (forall a, NP okb (f a)) -> NP okb (mbind m f).
    Proof.
      intros Hm Hf M M' s H. apply mbind_inv in H. destruct H as [(a & M1 & H1 & H2) | [(c & H1 & H3) | (s' & H1 & H3)]].
      - eapply Hf; exact H2.
      - discriminate.
      - inversion H3; subst. eapply Hm; exact H1.
    Qed.
    Lemma np_when (b : bool) (m : MR unit) : NP okb m -> NP okb (mwhen b m).
    Proof. intros H. destruct b; [exact H | apply np_ret]. Qed.
    Lemma np_state {A} (f : Mesh -> MR A) : (forall M0, NP okb (f M0)) -> NP okb (fun M => f M M).
    Proof. intros H M M' s E. eapply H. exact E. Qed.
    Lemma np_res_ok {A} (a : A) : np_res okb (Ok a).
    Proof. intros s H; discriminate. Qed.
    Lemma np_res_err {A} (c : N) : np_res okb (@Err A c).
    Proof. intros s H; discriminate. Qed.
    Lemma np_res_panic {A} (site : N) : okb site = true -> np_res okb (@Panic A site).
    Proof. intros H s E. inversion E; subst. exact H. Qed.
    Lemma np_res_never {A} (x : res A) : (forall s, x <> Panic s) -> np_res okb x.
    Proof. intros H s E. destruct (H s E). Qed.
    Lemma np_res_bind_eq {A B} (x : res A) (f : A -> res B) : np_res okb x -> (forall a, x = Ok a -> np_res okb (f a)) -> np_res okb (rbind x f).
    Proof. intros Hx Hf s. apply rbind_panic; [apply Hx | intros a E; exact (Hf a E s)]. Qed.
    Lemma np_res_bind {A B} (x : res A) (f : A -> res B) : np_res okb x -> (forall a, np_res okb (f a)) -> np_res okb (rbind x f).
    Proof. intros Hx Hf. apply np_res_bind_eq; [exact Hx | intros a _; apply Hf]. Qed.
    (** the same for a step of the mesh monad run in place: [let '(t, r) := c in do _ <- r; k t] *)
    Lemma np_res_let_eq {S A B} (c : S * res A) (k : S -> res B) :
      (forall t s, c = (t, Panic s) -> okb s = true) -> (forall t a, c = (t, Ok a) -> np_res okb (k t)) -> np_res okb (let '(t, r) := c in rbind r (fun _ => k t)).
    Proof. intros Hc Hk s. destruct c as [t [a| |s']]; cbn [rbind]; intros H; [eapply Hk; [reflexivity | exact H] | discriminate | inversion H; subst; eapply Hc; reflexivity]. Qed.
  End NPRules.

  Lemma upd_length (i : nat) (f : TP -> TP) (l : list TP) : length (upd i f l) = length l.
  Proof. revert i; induction l as [|t l IH]; intros [|i]; cbn [upd length]; try reflexivity. rewrite IH. reflexivity. Qed.
  Lemma set_nth_length (i : nat) (x : TP) (l : list TP) : length (set_nth i x l) = length l.
  Proof. revert i; induction l as [|t l IH]; intros [|i]; cbn [set_nth length]; try reflexivity. rewrite IH. reflexivity. Qed.
  Lemma nth_error_upd (i j : nat) (f : TP -> TP) (l : list TP) :
    nth_error (upd i f l) j = if Nat.eqb i j then option_map f (nth_error l j) else nth_error l j.
  Proof.
    revert i j; induction l as [|t l IH]; intros [|i] [|j]; cbn [upd nth_error Nat.eqb option_map]; try reflexivity.
    - destruct (Nat.eqb _ _); reflexivity.
    - apply IH.
  Qed.
  Lemma nth_error_set_nth (i j : nat) (x : TP) (l : list TP) :
    nth_error (set_nth i x l) j = if Nat.eqb i j then (if Nat.ltb j (length l) then Some x else None) else nth_error l j.
  Proof.
    revert i j; induction l as [|t l IH]; intros [|i] [|j]; cbn [set_nth nth_error Nat.eqb length]; try reflexivity.
    - destruct (Nat.eqb _ _); reflexivity.
    - rewrite IH. destruct (Nat.eqb i j); [|reflexivity].
      change (Nat.ltb (S j) (S (length l))) with (Nat.ltb j (length l)). reflexivity.
  Qed.

  Lemma set_neighbour_tri e i (t : TP) : tp_tri (tp_set_neighbour e i t) = tp_tri t. Proof. destruct e; reflexivity. Qed.
  Lemma constrain_tri e (t : TP) : tp_tri (tp_constrain e t) = tp_tri t. Proof. destruct e; reflexivity. Qed.
  Lemma tri_new_verts (a b c : V) (t : Tri K) : tri_new a b c = Ok t -> ta t = a /\ tb t = b /\ tc t = c.
  Proof.
    unfold tri_new. destruct (_ || _); [discriminate|]. destruct (unwrap _ _) as [col| |]; cbn [rbind]; try discriminate.
    destruct col; [discriminate|]. intros H; inversion H; subst. repeat split.
  Qed.

  (** site 61: the usize underflow of the counter *)
  Lemma invalidate_inv (i : nat) (M M' : Mesh) (r : res unit) : mesh_invalidate i M = (M', r) ->
    (length (tris M) <= i /\ M' = M /\ r = Err 101%N) \/
    (i < length (tris M) /\ tris M' = upd i tp_invalidate (tris M) /\
     ((r = Ok tt /\ nvalid M = S (nvalid M')) \/ (r = Panic 61%N /\ nvalid M = 0 /\ nvalid M' = 0))).
  Proof.
    unfold mesh_invalidate. destruct (Nat.ltb_spec i (length (tris M))) as [L|L]; [|intros H; inversion H; subst; left; auto].
    destruct (nvalid M) as [|k]; intros H; inversion H; right; cbn [tris nvalid]; auto 6.
  Qed.

  Lemma invalidate_tris (i : nat) (t : TP) (M M' : Mesh) (r : res unit) :
    nth_error (tris M) i = Some t -> mesh_invalidate i M = (M', r) -> tris M' = upd i tp_invalidate (tris M).
  Proof.
    intros Ht H. destruct (invalidate_inv _ _ _ _ H) as [(L & _) | (_ & E & _)]; [|exact E].
    assert (i < length (tris M)) by (apply nth_error_Some; congruence). lia.
  Qed.

  Lemma first_invalid_from_spec (l : list TP) (i k : nat) :
    first_invalid_from l i = Some k -> i <= k /\ exists t, nth_error l (k - i) = Some t /\ tp_valid t = false.
  Proof.
    revert i; induction l as [|t l IH]; intros i; cbn [first_invalid_from]; [discriminate|].
    destruct (tp_valid t) eqn:Ev; cbn [negb].
    - intros H. apply IH in H. destruct H as (Hle & u & Hu & Hv). split; [lia|]. exists u. split; [|exact Hv].
      replace (k - i) with (S (k - S i)) by lia. exact Hu.
    - intros H. inversion H; subst. split; [lia|]. exists t. rewrite Nat.sub_diag. split; [reflexivity|exact Ev].
  Qed.
  Lemma nth_error_skipn' {A} (n i : nat) (l : list A) : nth_error (skipn n l) i = nth_error l (n + i).
  Proof. revert l; induction n as [|n IH]; intros [|x l]; cbn [skipn nth_error Nat.add]; try reflexivity; [destruct i; reflexivity | apply IH]. Qed.
  Lemma skipn_cons {A} (i : nat) (x : A) (l' : list A) : forall L, skipn i L = x :: l' -> nth_error L i = Some x /\ l' = skipn (S i) L.
  Proof. induction i as [|i IH]; intros [|y L] H; cbn [skipn] in H; try discriminate; [inversion H; split; reflexivity | apply IH; exact H]. Qed.
  Lemma get_first_invalid_spec (M : Mesh) (start k : nat) :
    get_first_invalid M start = Some k -> k < length (tris M) /\ exists t, nth_error (tris M) k = Some t /\ tp_valid t = false.
  Proof.
    unfold get_first_invalid. destruct (Nat.ltb start (length (tris M))) eqn:E; [|discriminate].
    intros H. apply first_invalid_from_spec in H. destruct H as (Hle & t & Ht & Hv).
    rewrite nth_error_skipn' in Ht. replace (start + (k - start)) with k in Ht by lia.
    split; [apply nth_error_Some; congruence|]. exists t. split; assumption.
  Qed.

  Lemma push_inv (a b c : V) (la : nat) (M M' : Mesh) (r : res nat) : mesh_push a b c la M = (M', r) ->
    exists n,
      (M' = M /\ match tp_new a b c n with Ok _ => False | Err e => r = Err e | Panic s => r = Panic s end) \/
      exists t, tp_new a b c n = Ok t /\ r = Ok n /\ nvalid M' = S (nvalid M) /\
        ((exists u, nth_error (tris M) n = Some u /\ tp_valid u = false /\ tris M' = set_nth n t (tris M)) \/
         (n = length (tris M) /\ tris M' = tris M ++ [t])).
  Proof.
    unfold mesh_push. intros H.
    destruct (get_first_invalid M la) as [k|] eqn:Eg; [exists k | exists (length (tris M))];
      (destruct (tp_new a b c _) as [t|e|s]; inversion H; subst; [right; exists t; cbn [tris nvalid]; repeat split | left; split; reflexivity ..]).
    - apply get_first_invalid_spec in Eg. destruct Eg as (_ & u & Hu & Hv). left. exists u. repeat split; assumption.
    - right. split; reflexivity.
  Qed.
  Lemma push_ok_nth (a b c : V) (la : nat) (M M' : Mesh) (n : nat) : mesh_push a b c la M = (M', Ok n) ->
    exists t, tp_new a b c n = Ok t /\ nth_error (tris M') n = Some t /\
      (forall u, nth_error (tris M) n = Some u -> tp_valid u = false) /\
      forall j, j <> n -> nth_error (tris M') j = nth_error (tris M) j.
  Proof.
    intros H. destruct (push_inv _ _ _ _ _ _ _ H) as (n' & [[_ Q] | (t & Et & Q & _ & Hs)]);
      [destruct (tp_new a b c n'); [contradiction | discriminate ..]|].
    inversion Q; subst n'. exists t. split; [exact Et|]. destruct Hs as [(u & Hu & Hv & ->) | (-> & ->)].
    - assert (Hlt : Nat.ltb n (length (tris M)) = true) by (apply Nat.ltb_lt, nth_error_Some; congruence).
      split; [rewrite nth_error_set_nth, Nat.eqb_refl, Hlt; reflexivity|].
      split; [intros u' Hu'; congruence|]. intros j Hj. rewrite nth_error_set_nth.
      destruct (Nat.eqb_spec n j); [exfalso; apply Hj; congruence | reflexivity].
    - split; [rewrite nth_error_app2 by lia; rewrite Nat.sub_diag; reflexivity|].
      split; [intros u Hu; assert (length (tris M) < length (tris M)) by (apply nth_error_Some; congruence); lia|].
      intros j Hj. destruct (Nat.lt_ge_cases j (length (tris M))) as [Hlt|Hge]; [rewrite nth_error_app1 by exact Hlt; reflexivity|].
      assert (E1 : nth_error (tris M) j = None) by (apply nth_error_None; lia). rewrite E1. apply nth_error_None. rewrite app_length. cbn [length]. lia.
  Qed.

  (** ** Edge::from_i is only ever applied to 0, 1, 2 *)
  Lemma edge_from_i_lt (i : N) : (i < 3)%N -> exists e, edge_from_i i = Ok e.
  Proof.
    intros H. destruct i as [|p]; [eexists; reflexivity|].
    destruct p as [p|p|]; try (destruct p; try lia; eexists; reflexivity). eexists; reflexivity.
  Qed.
  Lemma edge_add_ok (e : Edge) (k : N) : exists e', edge_add e k = Ok e'.
  Proof. unfold edge_add. apply edge_from_i_lt. apply N.mod_lt. discriminate. Qed.
  (** [H85]: the cursor of a sweep is exhausted (site 85) only after the mesh got shorter. *)
  Section RestoreAll.
    Variable Q : Mesh -> Prop.
    Variable R : Mesh -> Mesh -> Prop.
    Variable okb : N -> bool.
    Hypothesis Rrefl : forall M, R M M.
    Hypothesis Rtrans : forall M1 M2 M3, R M1 M2 -> R M2 M3 -> R M1 M3.
    Hypothesis Hgfar : forall M i e, Q M -> np_res okb (get_flipped_aspect_ratio M i e).
    Hypothesis Hflip : forall i e M M' r, Q M -> flip_diagonal i e M = (M', r) -> Q M' /\ R M M' /\ np_res okb r.
    Hypothesis H85 : forall M M', R M M' -> length (tris M') < length (tris M) -> okb 85%N = true.
    Lemma rd_best_all (M : Mesh) (i : nat) (ar : K) : Q M -> forall js best, (forall j, In j js -> (j < 3)%N) -> np_res okb (rd_best M i ar js best).
    Proof.
      intros HQ. induction js as [|j js IH]; intros best Hj; cbn [rd_best]; [apply np_res_ok|].
      destruct (edge_from_i_lt j (Hj j (or_introl eq_refl))) as [ed ->]. cbn [rbind].
      apply np_res_bind; [apply Hgfar; exact HQ|]. intros r. apply IH. intros j' Hj'. apply Hj. right. exact Hj'.
    Qed.
    Lemma rd_pass_all (m : K) : forall cnt i l any M M' r, Q M -> skipn i (tris M) = l -> (length l < cnt -> okb 85%N = true) ->
      rd_pass m cnt i l any M = (M', r) -> Q M' /\ R M M' /\ np_res okb r.
    Proof.
      induction cnt as [|cnt IH]; intros i l any M M' r HQ Hl Hc H; cbn [rd_pass] in H.
      { inversion H; subst. split; [exact HQ | split; [apply Rrefl | apply np_res_ok]]. }
      destruct l as [|t l'].
      { inversion H; subst. split; [exact HQ | split; [apply Rrefl|]]. intros s E. inversion E; subst. apply Hc. cbn [length]. lia. }
      destruct (skipn_cons _ _ _ _ Hl) as [_ Hl']. symmetry in Hl'.
      assert (Hc' : length l' < cnt -> okb 85%N = true) by (intros G; apply Hc; cbn [length]; lia).
      destruct (negb (tp_valid t)); [eapply IH; eassumption|].
      destruct (nltb (tp_ar t) m); [eapply IH; eassumption|].
      apply mbind_inv in H. destruct H as [(b & M1 & H1 & H) | [(c & H1 & ->) | (s & H1 & ->)]].
      - inversion H1; subst M1. clear H1. destruct (fst b) as [best|]; [|eapply IH; eassumption].
        apply mbind_inv in H. destruct H as [(u & M1 & H1 & H) | [(c & H1 & ->) | (s & H1 & ->)]];
          destruct (Hflip _ _ _ _ _ HQ H1) as (Q1 & S1 & G1);
          [|split; [exact Q1 | split; [exact S1 | first [apply np_res_err | exact (np_res_panic _ _ (G1 _ eq_refl))]]]..].
        assert (Hc1 : length (skipn (S i) (tris M1)) < cnt -> okb 85%N = true).
        { rewrite skipn_length. intros G. destruct (Nat.lt_ge_cases (length (tris M1)) (length (tris M))) as [Hs|Hs]; [exact (H85 _ _ S1 Hs)|].
          apply Hc'. rewrite <- Hl', skipn_length. lia. }
        destruct (IH _ _ _ _ _ _ Q1 eq_refl Hc1 H) as (Q2 & S2 & G2). split; [exact Q2 | split; [exact (Rtrans _ _ _ S1 S2) | exact G2]].
      - inversion H1; subst. split; [exact HQ | split; [apply Rrefl | apply np_res_err]].
      - assert (Hb := f_equal snd H1). assert (HM := f_equal fst H1). cbn [fst snd] in Hb, HM. subst M'.
        split; [exact HQ | split; [apply Rrefl|]]. apply np_res_panic. revert Hb. apply rd_best_all; [exact HQ|]. intros j [<-|[<-|[<-|[]]]]; lia.
    Qed.
    Lemma rd_loops_all (m : K) (n : nat) : forall loops M0 M M' r, Q M -> R M0 M -> n <= length (tris M0) ->
      rd_loops m n loops M = (M', r) -> Q M' /\ R M M' /\ np_res okb r.
    Proof.
      induction loops as [|k IH]; intros M0 M M' r HQ S0 Hn H; cbn [rd_loops] in H.
      { inversion H; subst. split; [exact HQ | split; [apply Rrefl | apply np_res_ok]]. }
      assert (G : forall M1 r1, rd_pass m n 0 (tris M) false M = (M1, r1) -> Q M1 /\ R M M1 /\ np_res okb r1).
      { intros M1 r1. apply rd_pass_all; [exact HQ | reflexivity|]. intros Hs. apply (H85 _ _ S0). lia. }
      apply mbind_inv in H. destruct H as [(any & M1 & H1 & H) | [(c & H1 & ->) | (s & H1 & ->)]];
        destruct (G _ _ H1) as (Q1 & S1 & G1);
        [|split; [exact Q1 | split; [exact S1 | first [apply np_res_err | exact (np_res_panic _ _ (G1 _ eq_refl))]]]..].
      destruct any; [|inversion H; subst; split; [exact Q1 | split; [exact S1 | apply np_res_ok]]].
      destruct (IH M0 _ _ _ Q1 (Rtrans _ _ _ S0 S1) Hn H) as (Q2 & S2 & G2). split; [exact Q2 | split; [exact (Rtrans _ _ _ S1 S2) | exact G2]].
    Qed.
    Theorem restore_all (m : K) (M M' : Mesh) (r : res unit) : Q M -> restore_delaunay m M = (M', r) -> Q M' /\ R M M' /\ np_res okb r.
    Proof. intros HQ H. exact (rd_loops_all m _ _ M M M' r HQ (Rrefl M) (le_n _) H). Qed.
  End RestoreAll.

  Lemma edge_index_lt (t : Tri K) (s : Seg K) (i : N) : tri_get_edge_index_from_segment t s = Some i -> (i < 3)%N.
  Proof.
    unfold tri_get_edge_index_from_segment. destruct (seg_compare _ _); [intros H; inversion H; lia|].
    destruct (seg_compare _ _); [intros H; inversion H; lia|]. destruct (seg_compare _ _); [intros H; inversion H; lia|discriminate].
  Qed.
  Lemma longest_edge_lt (t : Tri K) (i : N) (s : Seg K) : longest_edge t = Ok (i, s) -> (i < 3)%N.
  Proof.
    unfold longest_edge. cbn [tri_segment rbind].
    destruct (nltb (slength (tri_ab t)) (slength (tri_bc t))); destruct (nltb _ (slength (tri_ca t))); intros H; inversion H; lia.
  Qed.
  (** site 64: the coordinate comparison finds no shared segment *)
  Lemma mark_inv (i1 : nat) (e1 : Edge) (i2 : nat) (M M' : Mesh) (r : res unit) :
    mark_as_neighbours i1 e1 i2 M = (M', r) ->
    (M' = M /\ (forall x, r <> Ok x) /\
     forall t1 t2, i1 <> i2 -> nth_error (tris M) i1 = Some t1 -> tp_valid t1 = true -> nth_error (tris M) i2 = Some t2 -> tp_valid t2 = true ->
       r = Panic 64%N /\ exists sg, tri_segment (tp_tri t1) (edge_as_i e1) = Ok sg /\ tri_get_edge_index_from_segment (tp_tri t2) sg = None) \/
    exists t1 t2 sg k e2, i1 <> i2 /\ nth_error (tris M) i1 = Some t1 /\ tp_valid t1 = true /\ nth_error (tris M) i2 = Some t2 /\ tp_valid t2 = true /\
      tri_segment (tp_tri t1) (edge_as_i e1) = Ok sg /\ tri_get_edge_index_from_segment (tp_tri t2) sg = Some k /\ edge_from_i k = Ok e2 /\
      r = Ok tt /\ tris M' = upd i2 (tp_set_neighbour e2 i1) (upd i1 (tp_set_neighbour e1 i2) (tris M)) /\ nvalid M' = nvalid M.
  Proof.
    intros H. unfold mark_as_neighbours in H.
    destruct (Nat.eqb_spec i1 i2) as [Heq|Hne]; [inversion H; subst; left; repeat split; [discriminate | congruence ..]|].
    apply bind_get_inv in H. destruct H as [(t1 & E1 & H) | (-> & -> & N1)]; [|left; repeat split; [discriminate | congruence ..]].
    destruct (tp_valid t1) eqn:V1; cbn [negb] in H; [|inversion H; subst; left; repeat split; [discriminate | congruence ..]].
    assert (Es : exists sg, tri_segment (tp_tri t1) (edge_as_i e1) = Ok sg) by (destruct e1; eexists; reflexivity). destruct Es as (sg & Es).
    rewrite (bind_lift_Ok _ sg) in H by exact Es.
    apply bind_get_inv in H. destruct H as [(t2 & E2 & H) | (-> & -> & N2)]; [|left; repeat split; [discriminate | congruence ..]].
    destruct (tp_valid t2) eqn:V2; cbn [negb] in H; [|inversion H; subst; left; repeat split; [discriminate | congruence ..]].
    destruct (tri_get_edge_index_from_segment (tp_tri t2) sg) as [k|] eqn:Ek.
    2:{ inversion H; subst. left. repeat split; [discriminate | exists sg; split; congruence]. }
    rewrite (bind_lift_Ok _ k) in H by reflexivity.
    destruct (edge_from_i_lt k (edge_index_lt _ _ _ Ek)) as (e2 & Ee2). rewrite (bind_lift_Ok _ e2) in H by exact Ee2.
    assert (L1 : Nat.ltb i1 (length (tris M)) = true) by (apply Nat.ltb_lt; apply nth_error_Some; congruence).
    assert (L2 : Nat.ltb i2 (length (tris M)) = true) by (apply Nat.ltb_lt; apply nth_error_Some; congruence).
    unfold mbind, mupd in H. rewrite L1 in H. cbn [tris nvalid] in H. rewrite upd_length, L2 in H. inversion H; subst M' r.
    right. exists t1, t2, sg, k, e2. cbn [tris nvalid]. auto 12.
  Qed.
  Lemma mesh_run_inv (hyp : Mesh -> mop K -> Prop) (run : Mesh -> list (mop K) -> Prop) (I : Mesh -> Prop) :
    (forall M op tl, run M (op :: tl) -> hyp M op /\ (exists x, snd (mesh_step op M) = Ok x) /\ run (fst (mesh_step op M)) tl) ->
    (forall M op M' x, I M -> hyp M op -> mesh_step op M = (M', Ok x) -> I M') ->
    forall ops M, I M -> run M ops -> I (fst (mesh_run M ops)).
  Proof.
    intros Hrun Hstep. induction ops as [|op ops IH]; intros M HI H; cbn [mesh_run]; [exact HI|].
    destruct (Hrun _ _ _ H) as (Hs & (x & Hx) & Hr). destruct (mesh_step op M) as [M1 r] eqn:E1. cbn [fst snd] in Hx, Hr. subst r.
    specialize (IH M1 (Hstep _ _ _ _ HI Hs E1) Hr). destruct (mesh_run M1 ops). exact IH.
  Qed.
End MeshSteps.
