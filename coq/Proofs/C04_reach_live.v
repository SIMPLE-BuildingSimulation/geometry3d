(** * C04 proofs: the states that histories of push/close can reach with the LIVE (repaired) code.
    Every number instance.  The repaired [push] stores a vertex only after the corner before it was tested against it,
    and the repaired [close] sets the flag only on a loop of at least three vertices whose two wrap-around corners were
    tested on the final vertex list: so the invariant contains the clauses of the property text. *)
From Coq Require Import ZArith Bool List Arith Lia.
From G3 Require Import Model.Num Model.Base Model.Vec Model.Segment Model.Loop Proofs.C04_loop Proofs.C04_reach.
Import ListNotations.

Section Live.
  Context {K : Type} {NK : Num K}.
  Notation V := (V3 K).
  Local Open Scope num_scope.

  (** the library's own reading of "b is a genuine corner between a and c" *)
  Definition corner_ok (a b c : V) : Prop := is_collinear a b c = Ok false.

  Lemma rwin3_app_r (P : V -> V -> V -> Prop) (x y : list V) : rwin3 P (x ++ y) -> rwin3 P y.
  Proof. induction x as [|u x IH]; [trivial|]. cbn [app]. intros H. apply IH. exact (rwin3_tl _ _ _ H). Qed.
  Lemma corners_firstn (P : V -> V -> V -> Prop) (k : nat) (vs : list V) : corners P vs -> corners P (firstn k vs).
  Proof.
    unfold corners. intros H. rewrite <- (firstn_skipn k vs) in H. rewrite rev_app_distr in H. exact (rwin3_app_r _ _ _ H).
  Qed.
  Lemma tri_normal_firstn_snoc (k : nat) (vs : list V) p : (3 <= k)%nat -> (k <= length vs)%nat ->
    tri_normal (firstn k vs ++ [p]) = tri_normal vs.
  Proof.
    intros H3 Hk. destruct vs as [|x [|y [|z t]]]; cbn [length] in Hk; try lia.
    destruct k as [|[|[|k]]]; try lia. reflexivity.
  Qed.

  Lemma push_keep_spec (vs : list V) (p : V) (fuel : nat) : forall k keep, (k <= S fuel)%nat -> push_keep vs p k fuel = Ok keep ->
    (keep <= k)%nat /\ ((2 <= keep)%nat -> corner_ok (vnth vs (keep - 2)) (vnth vs (keep - 1)) p).
  Proof.
    induction fuel as [|f IH]; intros k keep Hk; cbn [push_keep].
    - intros H. inversion H; subst. split; [lia | intros; lia].
    - destruct (Nat.leb 2 k) eqn:E2; [|intros H; inversion H; subst; apply Nat.leb_gt in E2; split; [lia | intros; lia]].
      destruct (is_collinear _ _ p) as [[|]| |] eqn:Ec; cbn [rbind]; try discriminate.
      + intros H. apply Nat.leb_le in E2. destruct (IH (k - 1)%nat keep ltac:(lia) H) as (A & B). split; [lia | exact B].
      + intros H. inversion H; subst. split; [lia | intros _; exact Ec].
  Qed.

  Inductive push_shape_live (vs : list V) (p : V) (vs' : list V) : Prop :=
  | PL_first : (length vs < 2)%nat -> vs' = vs ++ [p] -> push_shape_live vs p vs'
  | PL_pop (r : list V) (a b : V) : rev vs = b :: a :: r -> vcompare a p = true -> vs' = removelast vs -> push_shape_live vs p vs'
  | PL_keep (keep : nat) : (2 <= length vs)%nat -> (keep <= length vs)%nat ->
      ((2 <= keep)%nat -> corner_ok (vnth vs (keep - 2)) (vnth vs (keep - 1)) p) ->
      vs' = firstn keep vs ++ [p] -> push_shape_live vs p vs'.

  Theorem push_live_effect (L L' : Loop K) (p : V) : loop_push L p = Ok L' ->
    lclosed L = false /\ push_shape_live (verts L) p (verts L') /\
    L' = mkLoop (verts L') (if Nat.eqb (llen L') 3 then tri_normal (verts L') else if Nat.ltb (llen L') 3 then vzero else lnormal L)
                false (larea L) (lperim L).
  Proof.
    rewrite loop_push_eq. intros H. destruct (push_with_ok _ _ _ _ _ H) as (Hc & Hv & HL). split; [exact Hc|]. split; [|exact HL].
    destruct (push_verts_with_cases _ _ _ _ Hv) as [(Hl & E)|(r & Er & [(Hcmp & E)|(Hcmp & E)])].
    - exact (PL_first _ _ _ Hl E).
    - exact (PL_pop _ _ _ _ _ _ Er Hcmp E).
    - unfold tail_live in E. destruct (push_keep _ p _ _) as [keep| |] eqn:Ek; try discriminate. injection E as E.
      destruct (push_keep_spec _ _ _ _ _ (Nat.le_succ_diag_r _) Ek) as (A & B).
      apply (PL_keep _ _ _ keep); [|exact A | exact B | symmetry; exact E].
      apply (f_equal (@length _)) in Er. rewrite rev_length in Er. cbn [length] in Er. lia.
  Qed.

  Lemma pop_redundant_len (fuel : nat) (vs : list V) : (length (fst (pop_redundant vs fuel)) <= length vs)%nat.
  Proof. apply (pop_redundant_ends (fun l => length l <= length vs)%nat); [intros l H; rewrite length_removelast; lia | lia]. Qed.
  Lemma pop_redundant_ok (fuel : nat) : forall vs : list V, (length vs <= fuel + 2)%nat ->
    snd (pop_redundant vs fuel) = Ok tt -> last_is_redundant (fst (pop_redundant vs fuel)) = Ok false.
  Proof.
    induction fuel as [|f IH]; intros vs Hl; cbn [pop_redundant].
    - intros _. unfold last_is_redundant. cbn [fst]. assert (E : Nat.ltb (length vs) 3 = true) by (apply Nat.ltb_lt; lia). rewrite E. reflexivity.
    - destruct (last_is_redundant vs) as [[|]| |s] eqn:El; cbn [fst snd]; try discriminate.
      + apply IH. rewrite length_removelast. lia.
      + intros _. exact El.
  Qed.
  Definition first_corner_ok (vs : list V) : Prop :=
    (3 <= length vs)%nat -> corner_ok (vnth vs (length vs - 1)) (vnth vs 0) (vnth vs 1).
  Lemma drop_first_redundant_ok (fuel : nat) : forall vs : list V, (length vs <= fuel + 2)%nat -> last_is_redundant vs = Ok false ->
    snd (drop_first_redundant vs fuel) = Ok tt ->
    last_is_redundant (fst (drop_first_redundant vs fuel)) = Ok false /\ first_corner_ok (fst (drop_first_redundant vs fuel)).
  Proof.
    induction fuel as [|f IH]; intros vs Hl Hlast; cbn [drop_first_redundant].
    - intros _. split; [exact Hlast | intros H3; cbn [fst] in H3; lia].
    - destruct (Nat.ltb_spec (length vs) 3) as [C|C]; [intros _; split; [exact Hlast | intros H3; cbn [fst] in H3; lia]|].
      destruct (is_collinear _ _ _) as [[|]| |s] eqn:Ec; try discriminate; [|intros _; split; [exact Hlast | intros _; exact Ec]].
      pose proof (pop_redundant_len (length vs) (tl vs)) as B1. rewrite length_tl in B1.
      pose proof (pop_redundant_ok (length vs) (tl vs) ltac:(rewrite length_tl; lia)) as C1.
      destruct (pop_redundant (tl vs) (length vs)) as [vs1 [[]| |]]; try discriminate. cbn [fst snd] in B1, C1.
      apply IH; [lia | exact (C1 eq_refl)].
  Qed.

  Record Live_inv (L : Loop K) : Prop := {
    (** a loop marked closed has at least three vertices, and its two wrap-around corners pass the collinearity test *)
    li_closed : lclosed L = true -> (3 <= llen L)%nat /\ last_is_redundant (verts L) = Ok false /\ first_corner_ok (verts L);
    (** every interior corner of the stored outline passes the collinearity test (open and closed loops alike) *)
    li_corners : corners corner_ok (verts L);
    (** an open loop never had its area / perimeter set *)
    li_open_measures : lclosed L = false -> larea L = - n1 /\ lperim L = - n1
  }.
  Lemma live_inv_new : Live_inv (@loop_new K NK).
  Proof. split; cbn; intros; try discriminate; auto. Qed.

  Lemma live_inv_push (L L' : Loop K) (p : V) : Live_inv L -> loop_push L p = Ok L' -> Live_inv L'.
  Proof.
    intros [I1 I2 I3] H. destruct (push_live_effect _ _ _ H) as (Hc & Hs & HL).
    assert (Hcl : lclosed L' = false) by (rewrite HL; reflexivity).
    assert (Har : larea L' = larea L /\ lperim L' = lperim L) by (rewrite HL; split; reflexivity).
    split.
    - rewrite Hcl. discriminate.
    - destruct Hs as [Hl E| r a b Er _ E| keep H2 Hk Hck E]; rewrite E.
      + apply corners_snoc; [exact I2 | lia].
      + apply corners_removelast, I2.
      + apply corners_snoc; [exact (corners_firstn _ keep _ I2)|]. rewrite firstn_length, Nat.min_l by exact Hk.
        intros G. unfold vnth. rewrite !nth_firstn_lt by lia. exact (Hck G).
    - intros _. destruct Har as (-> & ->). apply I3, Hc.
  Qed.

  Lemma live_inv_close (L : Loop K) : Live_inv L -> Live_inv (fst (loop_close L)).
  Proof.
    intros [I1 I2 I3]. pose proof (close_ends (corners corner_ok) L (corners_removelast _) (corners_tl _) I2) as C.
    destruct (loop_close_cases L) as [(_ & [E|(Ecl & [E|(_ & E)])])|(Ecl & H3 & E1 & E2 & H2 & E)]; rewrite E in *.
    - split; assumption.
    - split; [cbn [set_verts lclosed]; rewrite Ecl; discriminate | exact C | exact I3].
    - split; [cbn [set_verts lclosed]; rewrite Ecl; discriminate | exact C | exact I3].
    - pose proof (drop_first_redundant_ok _ _ (Nat.le_add_r _ 2) (pop_redundant_ok (llen L) _ (Nat.le_add_r _ 2) E1) E2) as W.
      set (L2 := set_verts L _) in *. destruct (close_finish_cases L2) as (Hv & Hf & _).
      split; [intros _; unfold llen at 1; rewrite Hv; exact (conj H2 W) | exact C | rewrite Hf; discriminate].
  Qed.

  Theorem live_inv_run (ops : list (lop K)) : forall L : Loop K, Live_inv L -> Live_inv (fst (loop_run L ops)).
  Proof.
    apply (run_gen_inv loop_step (fun L _ => Live_inv L)). intros L op _ HI.
    exact (step_inv loop_push loop_close Live_inv L op HI (fun p L' _ => live_inv_push L L' p HI) (live_inv_close L HI)).
  Qed.
  Theorem live_reachable_invariant (ops : list (lop K)) : Live_inv (fst (loop_run (@loop_new K NK) ops)).
  Proof. apply live_inv_run, live_inv_new. Qed.

  (** closed states are absorbing, exactly: every operation is refused and the loop is unchanged *)
  Theorem live_closed_absorbing (L : Loop K) (op : lop K) : lclosed L = true ->
    fst (loop_step L op) = L /\ snd (loop_step L op) = Err 30%N.
  Proof.
    intros Hc. destruct op as [p|]; cbn [loop_step].
    - rewrite (push_on_closed_refused L p Hc). split; reflexivity.
    - unfold loop_close. rewrite Hc. split; reflexivity.
  Qed.
  Theorem live_push_normal (L L' : Loop K) (p : V) : loop_push L p = Ok L' ->
    lnormal L' = if Nat.eqb (llen L') 3 then tri_normal (verts L') else if Nat.ltb (llen L') 3 then vzero else lnormal L.
  Proof. intros H. destruct (push_live_effect _ _ _ H) as (_ & _ & HL). apply (f_equal (@lnormal K)) in HL. exact HL. Qed.

  (** THE PROPERTY CLAUSE, in the library's own reading of "collinear", for every reachable closed loop:
      at least three vertices, and no vertex collinear with its two neighbours -- cyclically *)
  Theorem live_closed_no_collinear_vertex (ops : list (lop K)) :
    let L := fst (loop_run (@loop_new K NK) ops) in let n := llen L in
    lclosed L = true ->
    (3 <= n)%nat /\
    (forall i, (S (S i) < n)%nat -> is_collinear (vnth (verts L) i) (vnth (verts L) (S i)) (vnth (verts L) (S (S i))) = Ok false) /\
    is_collinear (vnth (verts L) (n - 2)) (vnth (verts L) (n - 1)) (vnth (verts L) 0) = Ok false /\
    is_collinear (vnth (verts L) (n - 1)) (vnth (verts L) 0) (vnth (verts L) 1) = Ok false.
  Proof.
    cbv zeta. intros Hc. destruct (live_reachable_invariant ops) as [I1 I2 _]. destruct (I1 Hc) as (H3 & W1 & W2).
    split; [exact H3|]. split; [exact (rwin3_nth corner_ok _ I2)|]. split.
    - unfold last_is_redundant in W1. fold (llen (fst (loop_run (@loop_new K NK) ops))) in W1.
      destruct (Nat.ltb_spec (llen (fst (loop_run (@loop_new K NK) ops))) 3) as [C|C]; [lia | exact W1].
    - apply W2. exact H3.
  Qed.
  (** ... and every interior corner of every reachable state, open loops included *)
  Theorem live_interior_corners (ops : list (lop K)) :
    let L := fst (loop_run (@loop_new K NK) ops) in
    forall i, (S (S i) < llen L)%nat -> is_collinear (vnth (verts L) i) (vnth (verts L) (S i)) (vnth (verts L) (S (S i))) = Ok false.
  Proof. cbv zeta. exact (rwin3_nth corner_ok _ (li_corners _ (live_reachable_invariant ops))). Qed.
End Live.
