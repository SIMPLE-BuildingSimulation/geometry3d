(** * C19 proofs, part 2: Segment3D on the real instance.
    The live code (after fix ec384e6: coplanarity = distance between the supporting lines <= 1e-5) is Model/Segment.v;
    the code before the fix is modelled by the [_pinned] functions of Model/PinnedSegment.v; its F5 refutations and
    the characterisation of what it answered are stated below.  [seg_solve] (projection + Cramer) is shared by both. *)
From Coq Require Import ZArith Reals Lra Bool List Psatz.
From G3 Require Import Model.Num Model.Base Model.Vec Model.Segment Model.PinnedSegment Theory.RInst Proofs.C19_vec.
Local Open Scope R_scope.

Notation S := (Seg R).
Definition e6 : R := 1 / 1000000.
Definition e8 : R := 1 / 100000000.
Lemma c1em8_R : @c1em8 R _ = e8. Proof. reflexivity. Qed.
Lemma c1em6_R : @c1em6 R _ = e6. Proof. reflexivity. Qed.

(** the point of a segment at parameter t *)
Definition seg_at (s : S) (t : R) : V := vadd (sstart s) (vscale (seg_as_vec s) t).
(** [delta . (a x b)]: zero exactly when the four end points are coplanar; divided by |a x b| it is the
    distance between the two supporting lines *)
Definition seg_delta (s r : S) : V := vsub (sstart s) (sstart r).
Definition seg_normal (s r : S) : V := vcross (seg_as_vec s) (seg_as_vec r).
Definition triple (s r : S) : R := vdot (seg_delta s r) (seg_normal s r).
Definition coplanar (s r : S) : Prop := triple s r = 0.

(** which coordinates the reported parameters make coincide, and the residual in the third one *)
Definition solved (s r : S) (ta tb : R) : Prop :=
  let n := seg_normal s r in let P := seg_at s ta in let Q := seg_at r tb in
  (e5 < Rabs (vz n) /\ vx P = vx Q /\ vy P = vy Q /\ (vz P - vz Q) * vz n = triple s r) \/
  (Rabs (vz n) <= e5 /\ e5 < Rabs (vx n) /\ vy P = vy Q /\ vz P = vz Q /\ (vx P - vx Q) * vx n = triple s r) \/
  (Rabs (vz n) <= e5 /\ Rabs (vx n) <= e5 /\ e5 < Rabs (vy n) /\ vx P = vx Q /\ vz P = vz Q /\ (vy P - vy Q) * vy n = triple s r).

Definition cramer (a1 a2 b1 b2 d1 d2 : R) : R * R :=
  ((b2 * d1 - b1 * d2) / (a2 * b1 - a1 * b2), (a2 * d1 - a1 * d2) / (a2 * b1 - a1 * b2)).
Lemma cramer2 (p1 p2 a1 a2 q1 q2 b1 b2 ta tb : R) : a2 * b1 - a1 * b2 <> 0 ->
  (ta, tb) = cramer a1 a2 b1 b2 (p1 - q1) (p2 - q2) <-> p1 + a1 * ta = q1 + b1 * tb /\ p2 + a2 * ta = q2 + b2 * tb.
Proof.
  intros D. unfold cramer. split.
  - intros [= -> ->]. split; field; exact D.
  - intros [E1 E2]. replace (p1 - q1) with (b1 * tb - a1 * ta) by lra. replace (p2 - q2) with (b2 * tb - a2 * ta) by lra.
    f_equal; field; exact D.
Qed.
Lemma seg_solve_cases (a b d n : V) (t : R * R) : fst (seg_solve a b d n) = Some t ->
  (e5 < Rabs (vz n) /\ t = cramer (vx a) (vy a) (vx b) (vy b) (vx d) (vy d)) \/
  (Rabs (vz n) <= e5 /\ e5 < Rabs (vx n) /\ t = cramer (vz a) (vy a) (vz b) (vy b) (vz d) (vy d)) \/
  (Rabs (vz n) <= e5 /\ Rabs (vx n) <= e5 /\ e5 < Rabs (vy n) /\ t = cramer (vz a) (vx a) (vz b) (vx b) (vz d) (vx d)).
Proof.
  unfold seg_solve, cramer. rewrite c1em5_e5. rnum.
  rcase e5 (Rabs (vz n)) H1; [|rcase e5 (Rabs (vx n)) H2; [|rcase e5 (Rabs (vy n)) H3; [|discriminate]]];
    intros [= <-]; auto 8.
Qed.
Lemma e5_lt_Rabs (x : R) : e5 < Rabs x -> x <> 0.
Proof. apply Rabs_pos_neq. left. exact e5_pos. Qed.
(** (P - Q) . n = delta . n whatever the parameters: a and b are perpendicular to n *)
Lemma gap_normal (s r : S) (ta tb : R) : vdot (vsub (seg_at s ta) (seg_at r tb)) (seg_normal s r) = triple s r.
Proof. unfold triple, seg_normal, seg_delta, seg_at. vring. Qed.
Lemma seg_solve_solved (s r : S) (ta tb : R) :
  fst (seg_solve (seg_as_vec s) (seg_as_vec r) (seg_delta s r) (seg_normal s r)) = Some (ta, tb) -> solved s r ta tb.
Proof.
  intros H. apply seg_solve_cases in H. unfold solved. cbv zeta. rewrite <- (gap_normal s r ta tb).
  unfold seg_at, seg_delta, seg_normal in *. revert H. vcbn.
  intros [(H1 & E)|[(H1 & H2 & E)|(H1 & H2 & H3 & E)]]; [left|right; left|right; right]; apply cramer2 in E.
  1,3,5: destruct E as [E1 E2]; rewrite E1, E2; repeat split; try assumption; ring.
  - apply e5_lt_Rabs in H1. lra.
  - apply e5_lt_Rabs in H2. lra.
  - apply e5_lt_Rabs in H3. lra.
Qed.
Lemma seg_solve_some_iff (s r : S) :
  (exists t, fst (seg_solve (seg_as_vec s) (seg_as_vec r) (seg_delta s r) (seg_normal s r)) = Some t) <->
  (e5 < Rabs (vz (seg_normal s r)) \/ e5 < Rabs (vx (seg_normal s r)) \/ e5 < Rabs (vy (seg_normal s r))).
Proof.
  unfold seg_solve. rewrite c1em5_e5. rnum.
  rcase e5 (Rabs (vz (seg_normal s r))) H1; [cbn [fst]; split; [auto | eauto]|].
  rcase e5 (Rabs (vx (seg_normal s r))) H2; [cbn [fst]; split; [auto | eauto]|].
  rcase e5 (Rabs (vy (seg_normal s r))) H3; [cbn [fst]; split; [auto | eauto]|].
  cbn [fst]. split; [intros (t & E); discriminate | intros [?|[?|?]]; lra].
Qed.

Lemma seg_solve_complete (s r : S) (ta tb : R) (t : R * R) :
  seg_at s ta = seg_at r tb ->
  fst (seg_solve (seg_as_vec s) (seg_as_vec r) (seg_delta s r) (seg_normal s r)) = Some t -> t = (ta, tb).
Proof.
  intros E H. apply seg_solve_cases in H. unfold seg_at, seg_delta, seg_normal in *. revert E H. vcbn. intros [= Ex Ey Ez].
  intros [(H1 & ->)|[(_ & H2 & ->)|(_ & _ & H3 & ->)]]; symmetry; apply cramer2; auto.
  - apply e5_lt_Rabs in H1. lra.
  - apply e5_lt_Rabs in H2. lra.
  - apply e5_lt_Rabs in H3. lra.
Qed.
Lemma common_point_coplanar (s r : S) (ta tb : R) : seg_at s ta = seg_at r tb -> coplanar s r.
Proof. intros E. unfold coplanar. rewrite <- (gap_normal s r ta tb), E. vring. Qed.
Lemma solved_gap (s r : S) (ta tb : R) : solved s r ta tb ->
  exists nk, e5 < Rabs nk /\ (nk = vx (seg_normal s r) \/ nk = vy (seg_normal s r) \/ nk = vz (seg_normal s r)) /\
             vlen2 (vsub (seg_at s ta) (seg_at r tb)) * (nk * nk) = triple s r * triple s r.
Proof.
  unfold solved. cbv zeta. destruct (seg_at s ta) as [px py pz], (seg_at r tb) as [qx qy qz]. cbn [vx vy vz]. intros [H|[H|H]].
  - destruct H as (Hn & -> & -> & E). exists (vz (seg_normal s r)). split; [exact Hn|]. split; [auto|]. rewrite <- E. vcbn. ring.
  - destruct H as (_ & Hn & -> & -> & E). exists (vx (seg_normal s r)). split; [exact Hn|]. split; [auto|]. rewrite <- E. vcbn. ring.
  - destruct H as (_ & _ & Hn & -> & -> & E). exists (vy (seg_normal s r)). split; [exact Hn|]. split; [auto|]. rewrite <- E. vcbn. ring.
Qed.
Lemma solved_coincide_iff (s r : S) (ta tb : R) : solved s r ta tb -> (seg_at s ta = seg_at r tb <-> coplanar s r).
Proof.
  intros H. split; [apply common_point_coplanar|]. destruct (solved_gap s r ta tb H) as (nk & Hn & _ & E). apply e5_lt_Rabs in Hn.
  unfold coplanar. intros C. rewrite C, Rmult_0_l in E. apply vsub_zero_eq, vlen2_zero.
  destruct (Rmult_integral _ _ E) as [Z|Z]; [exact Z | apply Rmult_integral in Z; tauto].
Qed.
Lemma in01_spec (x : R) : in01 x = true <-> 0 <= x <= 1.
Proof. unfold in01. rnum. rewrite andb_true_iff, !Rleb_true. reflexivity. Qed.
Lemma in01x_spec (x : R) : in01x x = true <-> 0 <= x < 1.
Proof. unfold in01x. rnum. rewrite andb_true_iff, Rleb_true, Rltb_true. reflexivity. Qed.
Definition crossing_window (ta tb : R) : Prop := 0 <= ta < 1 /\ e8 <= tb < 1 - e8.
Definition touching_window (ta tb : R) : Prop := 0 <= ta <= 1 /\ 0 <= tb <= 1.
Lemma crossing_window_b (ta tb : R) : in01x ta && ((@c1em8 R _ <=? tb)%num && (tb <? n1 - c1em8)%num) = true <-> crossing_window ta tb.
Proof. unfold crossing_window. rewrite c1em8_R. rnum. rewrite !andb_true_iff, in01x_spec, Rleb_true, Rltb_true. reflexivity. Qed.
Lemma touching_window_b (ta tb : R) : in01 ta && in01 tb = true <-> touching_window ta tb.
Proof. unfold touching_window. rewrite andb_true_iff, !in01_spec. reflexivity. Qed.

Lemma crossing_in_touching (ta tb : R) : crossing_window ta tb -> touching_window ta tb.
Proof. unfold crossing_window, touching_window, e8. lra. Qed.

(** ** what does not depend on how coplanarity is tested: [gip] stands for either version of [get_intersection_pt],
    [touches] / [intersect] for the functions that filter its parameters through the windows *)
Section ByGip.
  Variables (gip : S -> S -> option (R * R)) (touches intersect : S -> S -> option V).
  Hypothesis gip_solve : forall s r t, gip s r = Some t ->
    fst (seg_solve (seg_as_vec s) (seg_as_vec r) (seg_delta s r) (seg_normal s r)) = Some t.
  Hypothesis touches_def : forall s r, touches s r =
    match gip s r with Some (ta, tb) => if in01 ta && in01 tb then Some (seg_at s ta) else None | None => None end.
  Hypothesis intersect_def : forall s r, intersect s r =
    match gip s r with
    | Some (ta, tb) => if in01x ta && ((@c1em8 R _ <=? tb)%num && (tb <? n1 - c1em8)%num) then Some (seg_at s ta) else None
    | None => None
    end.

  Lemma by_solved (s r : S) (ta tb : R) : gip s r = Some (ta, tb) -> solved s r ta tb.
  Proof. intros H. apply seg_solve_solved, gip_solve, H. Qed.
  Lemma by_coplanar_3d (s r : S) (ta tb : R) : gip s r = Some (ta, tb) -> coplanar s r -> seg_at s ta = seg_at r tb.
  Proof. intros H C. apply (solved_coincide_iff s r ta tb (by_solved s r ta tb H)), C. Qed.
  Lemma by_complete (s r : S) (ta tb : R) (t : R * R) : seg_at s ta = seg_at r tb -> gip s r = Some t -> t = (ta, tb).
  Proof. intros E H. apply (seg_solve_complete s r ta tb t E), gip_solve, H. Qed.

  Lemma touches_by_spec (s r : S) (p : V) :
    touches s r = Some p <-> exists ta tb, gip s r = Some (ta, tb) /\ touching_window ta tb /\ p = seg_at s ta.
  Proof.
    rewrite touches_def. destruct (gip s r) as [[ta tb]|]; [|split; [discriminate | intros (? & ? & ? & _); discriminate]].
    destruct (in01 ta && in01 tb) eqn:E; split; try discriminate.
    - apply touching_window_b in E. intros [= <-]. eauto.
    - intros (ta' & tb' & [= <- <-] & _ & ->). reflexivity.
    - intros (ta' & tb' & [= <- <-] & W & _). apply touching_window_b in W. congruence.
  Qed.
  Lemma intersect_by_spec (s r : S) (p : V) :
    intersect s r = Some p <-> exists ta tb, gip s r = Some (ta, tb) /\ crossing_window ta tb /\ p = seg_at s ta.
  Proof.
    rewrite intersect_def. destruct (gip s r) as [[ta tb]|]; [|split; [discriminate | intros (? & ? & ? & _); discriminate]].
    destruct (in01x ta && _) eqn:E; split; try discriminate.
    - apply crossing_window_b in E. intros [= <-]. eauto.
    - intros (ta' & tb' & [= <- <-] & _ & ->). reflexivity.
    - intros (ta' & tb' & [= <- <-] & W & _). apply crossing_window_b in W. congruence.
  Qed.
  Lemma intersect_touches_by (s r : S) (p : V) : intersect s r = Some p -> touches s r = Some p.
  Proof.
    rewrite intersect_by_spec, touches_by_spec. intros (ta & tb & H & W & E). exists ta, tb. auto using crossing_in_touching.
  Qed.
  Lemma endpoint_contact_by (s r : S) (ta tb : R) : gip s r = Some (ta, tb) -> tb = 0 \/ tb = 1 ->
    intersect s r = None /\ (0 <= ta <= 1 -> touches s r = Some (seg_at s ta)).
  Proof.
    intros H Hb. split.
    - destruct (intersect s r) as [p|] eqn:E; [|reflexivity]. apply intersect_by_spec in E.
      destruct E as (ta' & tb' & H' & W & _). rewrite H in H'. injection H' as <- <-. unfold crossing_window, e8 in W. lra.
    - intros Ha. apply touches_by_spec. exists ta, tb. unfold touching_window. repeat split; try tauto; destruct Hb; lra.
  Qed.
  Lemma touch_coplanar_sound_by (s r : S) (p : V) : coplanar s r -> touches s r = Some p ->
    exists ta tb, 0 <= ta <= 1 /\ 0 <= tb <= 1 /\ p = seg_at s ta /\ p = seg_at r tb.
  Proof.
    intros C H. apply touches_by_spec in H. destruct H as (ta & tb & H & (Wa & Wb) & ->).
    exists ta, tb. repeat split; try tauto. apply by_coplanar_3d; assumption.
  Qed.
End ByGip.

(** the pinned code, unfolded onto [seg_solve] *)
Lemma gipP_unfold (s r : S) :
  seg_get_intersection_pt_pinned s r =
  if vis_same_direction (seg_as_vec s) (seg_as_vec r) then None else
  if vis_zero (vcross (seg_delta s r) (seg_normal s r)) then None else
  fst (seg_solve (seg_as_vec s) (seg_as_vec r) (seg_delta s r) (seg_normal s r)).
Proof.
  unfold seg_get_intersection_pt_pinned, seg_get_intersection_pt_tag_pinned, seg_as_vec, seg_delta, seg_normal, seg_as_vec.
  destruct (vis_same_direction _ _); [reflexivity|]. destruct (vis_zero _); reflexivity.
Qed.

Lemma gipP_solve (s r : S) (t : R * R) : seg_get_intersection_pt_pinned s r = Some t ->
  fst (seg_solve (seg_as_vec s) (seg_as_vec r) (seg_delta s r) (seg_normal s r)) = Some t.
Proof. rewrite gipP_unfold. destruct (vis_same_direction _ _); [discriminate|]. destruct (vis_zero _); [discriminate | auto]. Qed.
Lemma gipP_solved (s r : S) (ta tb : R) : seg_get_intersection_pt_pinned s r = Some (ta, tb) -> solved s r ta tb.
Proof. exact (by_solved _ gipP_solve s r ta tb). Qed.
Lemma gipP_coplanar_3d (s r : S) (ta tb : R) :
  seg_get_intersection_pt_pinned s r = Some (ta, tb) -> coplanar s r -> seg_at s ta = seg_at r tb.
Proof. exact (by_coplanar_3d _ gipP_solve s r ta tb). Qed.
Lemma gipP_complete (s r : S) (ta tb : R) (t : R * R) :
  seg_at s ta = seg_at r tb -> seg_get_intersection_pt_pinned s r = Some t -> t = (ta, tb).
Proof. exact (by_complete _ gipP_solve s r ta tb t). Qed.
Lemma gipP_skew_points_differ (s r : S) (ta tb : R) :
  seg_get_intersection_pt_pinned s r = Some (ta, tb) -> ~ coplanar s r -> seg_at s ta <> seg_at r tb.
Proof. intros H C E. apply C, (solved_coincide_iff s r ta tb (gipP_solved s r ta tb H)), E. Qed.

(** when is a pair of parameters returned at all: the scalar triple product does not enter *)
Lemma gipP_some_iff (s r : S) :
  (exists t, seg_get_intersection_pt_pinned s r = Some t) <->
  vis_same_direction (seg_as_vec s) (seg_as_vec r) = false /\
  ~ tiny (vcross (seg_delta s r) (seg_normal s r)) /\
  (e5 < Rabs (vz (seg_normal s r)) \/ e5 < Rabs (vx (seg_normal s r)) \/ e5 < Rabs (vy (seg_normal s r))).
Proof.
  rewrite gipP_unfold. destruct (vis_same_direction _ _).
  - split; [intros (t & E); discriminate | intros (E & _); discriminate].
  - destruct (vis_zero _) eqn:Ez.
    + apply vis_zero_spec in Ez. split; [intros (t & E); discriminate | tauto].
    + apply vis_zero_false in Ez. rewrite seg_solve_some_iff. tauto.
Qed.

Lemma seg_intersect_pinned_spec (s r : S) (p : V) :
  seg_intersect_pinned s r = Some p <->
  exists ta tb, seg_get_intersection_pt_pinned s r = Some (ta, tb) /\ crossing_window ta tb /\ p = seg_at s ta.
Proof. exact (intersect_by_spec _ seg_intersect_pinned (fun _ _ => eq_refl) s r p). Qed.
Lemma seg_touches_pinned_spec (s r : S) (p : V) :
  seg_touches_pinned s r = Some p <->
  exists ta tb, seg_get_intersection_pt_pinned s r = Some (ta, tb) /\ touching_window ta tb /\ p = seg_at s ta.
Proof. exact (touches_by_spec _ seg_touches_pinned (fun _ _ => eq_refl) s r p). Qed.
Lemma seg_intersect_touches_pinned (s r : S) (p : V) : seg_intersect_pinned s r = Some p -> seg_touches_pinned s r = Some p.
Proof. exact (intersect_touches_by _ _ _ (fun _ _ => eq_refl) (fun _ _ => eq_refl) s r p). Qed.
Lemma seg_endpoint_contact_pinned (s r : S) (ta tb : R) :
  seg_get_intersection_pt_pinned s r = Some (ta, tb) -> tb = 0 \/ tb = 1 ->
  seg_intersect_pinned s r = None /\ (0 <= ta <= 1 -> seg_touches_pinned s r = Some (seg_at s ta)).
Proof. exact (endpoint_contact_by _ _ _ (fun _ _ => eq_refl) (fun _ _ => eq_refl) s r ta tb). Qed.

Lemma seg_touch_coplanar_sound_pinned (s r : S) (p : V) :
  coplanar s r -> seg_touches_pinned s r = Some p ->
  exists ta tb, 0 <= ta <= 1 /\ 0 <= tb <= 1 /\ p = seg_at s ta /\ p = seg_at r tb.
Proof. exact (touch_coplanar_sound_by _ _ gipP_solve (fun _ _ => eq_refl) s r p). Qed.

(** ** finding F5, first half: skew segments are reported as crossing.
    Witness of DESIGN.md: (0,0,0)-(1,0,0) and (1/2,-1,1)-(1/2,1,1), one unit apart. *)
Definition f5_s : S := seg_new (mkV3 0 0 0) (mkV3 1 0 0).
Definition f5_r : S := seg_new (mkV3 (1/2) (-1) 1) (mkV3 (1/2) 1 1).
Lemma Rabs_lt_tiny_false (x : R) : 1 <= x \/ x <= -1 -> ~ Rabs x < tinyR.
Proof. intros H A. pose proof tinyR_small. unfold Rabs in A. destruct (Rcase_abs x); lra. Qed.
Lemma f5_gip_pinned : seg_get_intersection_pt_pinned f5_s f5_r = Some (1/2, 1/2).
Proof.
  rewrite gipP_unfold.
  replace (vis_same_direction (seg_as_vec f5_s) (seg_as_vec f5_r)) with false.
  2:{ symmetry. destruct (vis_same_direction _ _) eqn:E; [|reflexivity]. apply vis_same_direction_spec in E.
      destruct E as (_ & _ & E & _). exfalso. revert E. unfold f5_s, f5_r, seg_as_vec, seg_new, e5. cbn [sstart send]. vcbn. nra. }
  replace (vis_zero (vcross (seg_delta f5_s f5_r) (seg_normal f5_s f5_r))) with false.
  2:{ symmetry. apply vis_zero_false. intros (A & _). revert A. apply Rabs_lt_tiny_false.
      unfold f5_s, f5_r, seg_delta, seg_normal, seg_as_vec, seg_new. cbn [sstart send]. vcbn. left. nra. }
  unfold seg_solve. rewrite c1em5_e5. rnum.
  replace (Rltb e5 (Rabs (vz (seg_normal f5_s f5_r)))) with true.
  2:{ symmetry. apply Rltb_true. unfold f5_s, f5_r, seg_normal, seg_as_vec, seg_new, e5. cbn [sstart send]. vcbn.
      unfold Rabs. destruct (Rcase_abs _); nra. }
  cbn [fst]. unfold f5_s, f5_r, seg_delta, seg_as_vec, seg_new. cbn [sstart send]. vcbn. f_equal. f_equal; field.
Qed.
Lemma f5_refuted :
  seg_get_intersection_pt_pinned f5_s f5_r = Some (1/2, 1/2) /\
  seg_intersect_pinned f5_s f5_r = Some (mkV3 (1/2) 0 0) /\ seg_touches_pinned f5_s f5_r = Some (mkV3 (1/2) 0 0) /\
  seg_at f5_s (1/2) = mkV3 (1/2) 0 0 /\ seg_at f5_r (1/2) = mkV3 (1/2) 0 1 /\
  ~ coplanar f5_s f5_r /\
  (forall ta tb, vlen2 (vsub (seg_at f5_s ta) (seg_at f5_r tb)) >= 1).
Proof.
  pose proof f5_gip_pinned as G.
  assert (P : seg_at f5_s (1/2) = mkV3 (1/2) 0 0).
  { unfold seg_at, f5_s, seg_as_vec, seg_new. cbn [sstart send]. apply v3_eq; vcbn; nra. }
  split; [exact G|]. split; [|split; [|split; [exact P|split; [|split]]]].
  - apply seg_intersect_pinned_spec. exists (1/2), (1/2). split; [exact G|]. split; [unfold crossing_window, e8; lra | symmetry; exact P].
  - apply seg_touches_pinned_spec. exists (1/2), (1/2). split; [exact G|]. split; [unfold touching_window; lra | symmetry; exact P].
  - unfold seg_at, f5_r, seg_as_vec, seg_new. cbn [sstart send]. apply v3_eq; vcbn; nra.
  - unfold coplanar, triple, f5_s, f5_r, seg_delta, seg_normal, seg_as_vec, seg_new. cbn [sstart send]. vcbn. intros E. nra.
  - intros ta tb. unfold seg_at, f5_s, f5_r, seg_as_vec, seg_new. cbn [sstart send]. vcbn.
    match goal with |- ?A * ?A + ?B * ?B + ?C * ?C >= 1 =>
      replace (C * C) with 1 by ring; pose proof (Rle_0_sqr A); pose proof (Rle_0_sqr B); unfold Rsqr in *; lra end.
Qed.

(** finding F5, second half: two segments that start at the same point never "touch" *)
Lemma gipP_common_start_none (s r : S) : sstart s = sstart r -> seg_get_intersection_pt_pinned s r = None.
Proof.
  intros E. rewrite gipP_unfold. destruct (vis_same_direction _ _); [reflexivity|].
  replace (vis_zero _) with true; [reflexivity|]. symmetry. apply vis_zero_spec.
  unfold seg_delta. rewrite E. destruct (sstart r) as [px py pz], (seg_normal s r) as [nx ny nz].
  unfold tiny. vcbn. pose proof tinyR_pos.
  replace ((py - py) * nz - (pz - pz) * ny) with 0 by ring. replace ((pz - pz) * nx - (px - px) * nz) with 0 by ring.
  replace ((px - px) * ny - (py - py) * nx) with 0 by ring. rewrite Rabs_R0. auto.
Qed.
Lemma common_start_refuted :
  exists s r : S, sstart s = sstart r /\ coplanar s r /\ vdot (seg_as_vec s) (seg_as_vec r) = 0 /\
                  seg_at s 0 = seg_at r 0 /\ seg_touches_pinned s r = None.
Proof.
  exists (seg_new (mkV3 0 0 0) (mkV3 1 0 0)), (seg_new (mkV3 0 0 0) (mkV3 0 1 0)).
  split; [reflexivity|]. split; [|split; [|split]].
  - unfold coplanar, triple, seg_delta, seg_normal, seg_as_vec, seg_new. cbn [sstart send]. vcbn. lra.
  - unfold seg_as_vec, seg_new. cbn [sstart send]. vcbn. lra.
  - unfold seg_at, seg_as_vec, seg_new. cbn [sstart send]. apply v3_eq; vcbn; lra.
  - unfold seg_touches_pinned. rewrite gipP_common_start_none; reflexivity.
Qed.

Lemma seg_midpoint_spec (s : S) : seg_midpoint s = seg_at s (1 / 2).
Proof.
  unfold seg_midpoint, seg_at, seg_as_vec. apply v3_eq; vcbn; rnumg; field.
Qed.

(** ** the recorded failing classes as decidable predicates on the input (DESIGN.md 2.6: Known_P) *)
Definition known_skew (s r : S) : bool := negb (Reqb (triple s r) 0).
Definition known_common_start (s r : S) : bool :=
  Reqb (vx (sstart s)) (vx (sstart r)) && Reqb (vy (sstart s)) (vy (sstart r)) && Reqb (vz (sstart s)) (vz (sstart r)).
Lemma known_skew_false (s r : S) : known_skew s r = false <-> coplanar s r.
Proof. unfold known_skew, coplanar. destruct (Reqb (triple s r) 0) eqn:E; cbn [negb]; [apply Reqb_true in E; tauto|].
  split; [discriminate|]. intros H. apply Reqb_true in H. congruence. Qed.
Lemma known_common_start_true (s r : S) : known_common_start s r = true <-> sstart s = sstart r.
Proof.
  unfold known_common_start. rewrite andb3_true, !Reqb_true. split.
  - intros (A & B & C). apply v3_eq; assumption.
  - intros ->. auto.
Qed.
(** outside the skew class every reported touch / crossing is a genuine common point of the two segments *)
Lemma touches_sound_outside_known_pinned (s r : S) (p : V) : known_skew s r = false -> seg_touches_pinned s r = Some p ->
  exists ta tb, 0 <= ta <= 1 /\ 0 <= tb <= 1 /\ p = seg_at s ta /\ p = seg_at r tb.
Proof. intros K. apply seg_touch_coplanar_sound_pinned, known_skew_false, K. Qed.
(** every member of the skew class that gets an answer gets a wrong one; every member of the common-start class gets none *)
Lemma known_skew_wrong (s r : S) (ta tb : R) : known_skew s r = true -> seg_get_intersection_pt_pinned s r = Some (ta, tb) -> seg_at s ta <> seg_at r tb.
Proof.
  intros K H. apply gipP_skew_points_differ; [exact H|]. intros C. apply known_skew_false in C. congruence.
Qed.
Lemma known_common_start_none (s r : S) : known_common_start s r = true -> seg_get_intersection_pt_pinned s r = None.
Proof. intros K. apply gipP_common_start_none, known_common_start_true, K. Qed.
(** a genuine common point of the supporting lines IS reported with its parameters, outside the common-start band *)
Lemma gipP_reports (s r : S) (ta tb : R) :
  seg_at s ta = seg_at r tb -> vis_same_direction (seg_as_vec s) (seg_as_vec r) = false ->
  ~ tiny (vcross (seg_delta s r) (seg_normal s r)) ->
  (e5 < Rabs (vz (seg_normal s r)) \/ e5 < Rabs (vx (seg_normal s r)) \/ e5 < Rabs (vy (seg_normal s r))) ->
  seg_get_intersection_pt_pinned s r = Some (ta, tb).
Proof.
  intros E D T N. destruct (proj2 (gipP_some_iff s r) (conj D (conj T N))) as (t & G). rewrite G. f_equal. eapply gipP_complete; eassumption.
Qed.

(** ** contains_point / contains: the parameter is read along the FIRST axis whose extent exceeds the
    threshold (EPSILON, resp. 1e-6), not along the dominant one *)
Definition first_axis (thr : R) (d : V) : option (V -> R) :=
  if Rltb thr (Rabs (vx d)) then Some vx else if Rltb thr (Rabs (vy d)) then Some vy
  else if Rltb thr (Rabs (vz d)) then Some vz else None.
Lemma seg_contains_point_spec (s : S) (p : V) :
  seg_contains_point s p =
  match is_collinear p (sstart s) (send s) with
  | Ok true => match first_axis epsR (seg_as_vec s) with
               | Some c => Ok (in01 (c (vsub p (sstart s)) / c (seg_as_vec s)))
               | None => Err 3%N end
  | Ok false => Ok false
  | Err e => Err e
  | Panic q => Panic q
  end.
Proof.
  unfold seg_contains_point, first_axis, seg_as_vec. destruct (is_collinear _ _ _) as [[|]|e|q]; cbn [rbind negb]; try reflexivity.
  rnum. change (/ IZR (2 ^ 52)) with epsR.
  destruct (Rltb epsR (Rabs (vx (vsub (send s) (sstart s))))); [reflexivity|].
  destruct (Rltb epsR (Rabs (vy (vsub (send s) (sstart s))))); [reflexivity|].
  destruct (Rltb epsR (Rabs (vz (vsub (send s) (sstart s))))); reflexivity.
Qed.
Lemma first_axis_some (thr : R) (d : V) (c : V -> R) : 0 <= thr -> first_axis thr d = Some c ->
  c d <> 0 /\ forall (p : V) (t : R), c (vsub (vadd p (vscale d t)) p) / c d = t.
Proof.
  intros Ht. unfold first_axis. destruct d as [dx dy dz]. cbn [vx vy vz].
  rcase thr (Rabs dx) H1; [|rcase thr (Rabs dy) H2; [|rcase thr (Rabs dz) H3; [|discriminate]]]; intros E; inversion E; subst; clear E;
    cbn [vx vy vz]; (split; [eapply Rabs_pos_neq; eassumption|]); intros [px py pz] t; vcbn; field; eapply Rabs_pos_neq; eassumption.
Qed.
Lemma first_axis_proj (thr : R) (d : V) (c : V -> R) : first_axis thr d = Some c -> c = vx \/ c = vy \/ c = vz.
Proof.
  unfold first_axis. destruct (Rltb thr (Rabs (vx d))); [intros E; inversion E; auto|].
  destruct (Rltb thr (Rabs (vy d))); [intros E; inversion E; auto|].
  destruct (Rltb thr (Rabs (vz d))); [intros E; inversion E; auto|discriminate].
Qed.
Lemma first_axis_exists (thr : R) (d : V) : thr < Rabs (vx d) \/ thr < Rabs (vy d) \/ thr < Rabs (vz d) -> exists c, first_axis thr d = Some c.
Proof.
  intros H. unfold first_axis. rcase thr (Rabs (vx d)) H1; [eauto|]. rcase thr (Rabs (vy d)) H2; [eauto|].
  rcase thr (Rabs (vz d)) H3; [eauto|]. exfalso. destruct H as [?|[?|?]]; lra.
Qed.
(** a segment with an extent of at least 2e-5 along some axis: no tolerance of the crate confuses its ends *)
Definition long_enough (a b : V) : Prop :=
  2 * e5 <= Rabs (vx b - vx a) \/ 2 * e5 <= Rabs (vy b - vy a) \/ 2 * e5 <= Rabs (vz b - vz a).
Lemma near_both (x a b e : R) : Rabs (x - a) < e -> Rabs (x - b) < e -> Rabs (b - a) < 2 * e.
Proof. intros A B. replace (b - a) with ((x - a) - (x - b)) by ring. pose proof (Rabs_triang (x - a) (- (x - b))) as H. rewrite Rabs_Ropp in H. unfold Rminus at 1. lra. Qed.
Lemma long_not_both (a b p : V) : long_enough a b -> ~ (vcompare p a = true /\ vcompare p b = true).
Proof.
  intros H (A & B). apply vcompare_spec in A. apply vcompare_spec in B. destruct A as (A1 & A2 & A3), B as (B1 & B2 & B3).
  pose proof (near_both _ _ _ _ A1 B1). pose proof (near_both _ _ _ _ A2 B2). pose proof (near_both _ _ _ _ A3 B3).
  destruct H as [H|[H|H]]; lra.
Qed.
Lemma long_not_compare (a b : V) : long_enough a b -> vcompare a b = false.
Proof.
  intros H. destruct (vcompare a b) eqn:E; [|reflexivity]. exfalso. apply (long_not_both a b a H). split; [apply vcompare_refl | exact E].
Qed.
Lemma on_line_collinear (a b : V) (t : R) : long_enough a b -> forall p, p = vadd a (vscale (vsub b a) t) ->
  is_collinear p a b = Ok true /\ is_collinear a b p = Ok true.
Proof.
  intros H p ->. pose proof e5_pos as He.
  assert (Z : forall v : V, v = mkV3 0 0 0 -> vlen v < e5).
  { intros v ->. unfold vlen. replace (vlen2 (mkV3 0 0 0)) with 0 by vring. rnumg. rewrite sqrt_0. exact He. }
  split.
  - apply (proj2 (proj2 (is_collinear_spec _ a b))). split; [apply long_not_both, H|]. split; [intros _|reflexivity].
    right; right; right. apply Z. vring.
  - apply (proj2 (proj2 (is_collinear_spec a b _))). split; [rewrite (long_not_compare a b H); intros (? & _); discriminate|].
    split; [intros _|reflexivity]. right; right; right. apply Z. vring.
Qed.
Lemma long_first_axis (thr : R) (a b : V) : thr < 2 * e5 -> long_enough a b -> exists c, first_axis thr (vsub b a) = Some c.
Proof. intros Ht H. apply first_axis_exists. unfold long_enough in H. vcbn. destruct H as [?|[?|?]]; [left|right;left|right;right]; lra. Qed.
Lemma epsR_small : epsR < e5.
Proof. pose proof neps_small as H. change (@neps R _) with epsR in H. unfold e5. lra. Qed.

(** for points exactly on the supporting line the answer is the exact one: inside iff 0 <= t <= 1 *)
Lemma seg_contains_point_exact (s : S) (t : R) : long_enough (sstart s) (send s) ->
  seg_contains_point s (seg_at s t) = Ok (in01 t) /\ (in01 t = true <-> 0 <= t <= 1).
Proof.
  intros H. split; [|apply in01_spec]. rewrite seg_contains_point_spec.
  destruct (on_line_collinear (sstart s) (send s) t H (seg_at s t) eq_refl) as (C & _). rewrite C.
  pose proof epsR_small. pose proof e5_pos. pose proof epsR_pos.
  destruct (long_first_axis epsR (sstart s) (send s) ltac:(lra) H) as (c & Hc). unfold seg_as_vec. rewrite Hc.
  destruct (first_axis_some epsR _ c ltac:(lra) Hc) as (_ & E). unfold seg_at, seg_as_vec. rewrite E. reflexivity.
Qed.

Lemma pdist_ge_extent (a b : V) : long_enough a b -> 2 * e5 <= pdist a b.
Proof.
  intros H. rewrite pdist_sym, pdist_vsub. destruct (vlen_ge_abs (vsub b a)) as (X & Y & Z). revert X Y Z. vcbn.
  intros. destruct H as [H|[H|H]]; lra.
Qed.

Lemma seg_contains_unfold (s i : S) :
  seg_contains s i =
  if Rltb (slength s) e6 then Err 4%N else
  do c1 <- is_collinear (sstart s) (send s) (sstart i);
  if negb c1 then Ok false else
  do c2 <- is_collinear (sstart s) (send s) (send i);
  if negb c2 then Ok false else
  match first_axis e6 (vsub (send s) (sstart s)) with
  | Some c => Ok (in01 ((c (sstart i) - c (sstart s)) / c (vsub (send s) (sstart s))) &&
                  in01 ((c (send i) - c (sstart s)) / c (vsub (send s) (sstart s))))
  | None => Err 4%N
  end.
Proof.
  unfold seg_contains, first_axis. rewrite c1em6_R. rnum. destruct (Rltb (slength s) e6); [reflexivity|].
  destruct (is_collinear _ _ (sstart i)) as [[|]|e|q]; cbn [rbind negb]; try reflexivity.
  destruct (is_collinear _ _ (send i)) as [[|]|e|q]; cbn [rbind negb]; try reflexivity.
  destruct (Rltb e6 (Rabs (vx (vsub (send s) (sstart s))))); [reflexivity|].
  destruct (Rltb e6 (Rabs (vy (vsub (send s) (sstart s))))); [reflexivity|].
  destruct (Rltb e6 (Rabs (vz (vsub (send s) (sstart s))))); reflexivity.
Qed.
(** a sub-segment given by two parameters on the supporting line is contained iff both lie in [0,1] *)
Lemma seg_contains_exact (a b : V) (al be : R) : long_enough a b ->
  let s := seg_new a b in
  seg_contains s (seg_new (seg_at s al) (seg_at s be)) = Ok (in01 al && in01 be) /\
  (in01 al && in01 be = true <-> 0 <= al <= 1 /\ 0 <= be <= 1).
Proof.
  intros H s. split; [|rewrite andb_true_iff, !in01_spec; reflexivity].
  rewrite seg_contains_unfold. unfold s, seg_new, seg_at, seg_as_vec. cbn [sstart send slength].
  pose proof (pdist_ge_extent a b H) as Hl. pose proof e5_pos as He.
  rewrite Rltb_ge by (unfold e6, e5 in *; lra).
  destruct (on_line_collinear a b al H _ eq_refl) as (_ & C1). destruct (on_line_collinear a b be H _ eq_refl) as (_ & C2).
  rewrite C1, C2. cbn [rbind negb].
  destruct (long_first_axis e6 a b ltac:(unfold e6, e5; lra) H) as (c & Hc). rewrite Hc.
  destruct (first_axis_some e6 _ c ltac:(unfold e6; lra) Hc) as (Hn & E).
  assert (A : forall t, (c (vadd a (vscale (vsub b a) t)) - c a) / c (vsub b a) = t).
  { intros t. clear E C1 C2 Hl. destruct (first_axis_proj _ _ _ Hc) as [ -> | [ -> | -> ] ];
      destruct a as [ax ay az], b as [bx b_y bz]; vcbn; field; exact Hn. }
  rewrite !A. reflexivity.
Qed.

(** ** the live code (Model/Segment.v, after fix ec384e6) *)
Lemma gip_unfold (s r : S) :
  seg_get_intersection_pt s r =
  if vis_same_direction (seg_as_vec s) (seg_as_vec r) then None else
  if Rltb (e5 * vlen (seg_normal s r)) (Rabs (triple s r)) then None else
  fst (seg_solve (seg_as_vec s) (seg_as_vec r) (seg_delta s r) (seg_normal s r)).
Proof.
  unfold seg_get_intersection_pt, seg_get_intersection_pt_tag, triple, seg_as_vec, seg_delta, seg_normal, seg_as_vec.
  rewrite c1em5_e5. rnum. destruct (vis_same_direction _ _); [reflexivity|]. destruct (Rltb _ _); reflexivity.
Qed.
Lemma gip_solve (s r : S) (t : R * R) : seg_get_intersection_pt s r = Some t ->
  fst (seg_solve (seg_as_vec s) (seg_as_vec r) (seg_delta s r) (seg_normal s r)) = Some t.
Proof. rewrite gip_unfold. destruct (vis_same_direction _ _); [discriminate|]. destruct (Rltb _ _); [discriminate | auto]. Qed.
(** the distance between the supporting lines, |delta . n| / |n|, is at most 1e-5 whenever parameters are returned *)
Lemma gip_solved (s r : S) (ta tb : R) : seg_get_intersection_pt s r = Some (ta, tb) ->
  solved s r ta tb /\ Rabs (triple s r) <= e5 * vlen (seg_normal s r).
Proof.
  intros H. split; [exact (by_solved _ gip_solve s r ta tb H)|]. revert H. rewrite gip_unfold.
  destruct (vis_same_direction _ _); [discriminate|]. rcase (e5 * vlen (seg_normal s r)) (Rabs (triple s r)) K; [discriminate | auto].
Qed.
(** skew segments are never reported: lines further apart than 1e-5 give [None] *)
Lemma gip_skew_none (s r : S) : e5 * vlen (seg_normal s r) < Rabs (triple s r) -> seg_get_intersection_pt s r = None.
Proof.
  intros H. rewrite gip_unfold. destruct (vis_same_direction _ _); [reflexivity|].
  rewrite Rltb_lt by exact H. reflexivity.
Qed.
Lemma gip_coplanar_3d (s r : S) (ta tb : R) :
  seg_get_intersection_pt s r = Some (ta, tb) -> coplanar s r -> seg_at s ta = seg_at r tb.
Proof. exact (by_coplanar_3d _ gip_solve s r ta tb). Qed.
Lemma gip_reports (s r : S) (ta tb : R) :
  seg_at s ta = seg_at r tb -> vis_same_direction (seg_as_vec s) (seg_as_vec r) = false ->
  (e5 < Rabs (vz (seg_normal s r)) \/ e5 < Rabs (vx (seg_normal s r)) \/ e5 < Rabs (vy (seg_normal s r))) ->
  seg_get_intersection_pt s r = Some (ta, tb).
Proof.
  intros E D N. rewrite gip_unfold, D. pose proof (common_point_coplanar s r ta tb E) as C. unfold coplanar in C.
  replace (Rltb _ _) with false.
  2:{ symmetry. apply Rltb_false. rewrite C, Rabs_R0. apply Rmult_le_pos; [left; apply e5_pos | apply vlen_nonneg]. }
  apply seg_solve_some_iff in N. destruct N as (t & Ht). rewrite Ht. f_equal. eapply seg_solve_complete; eassumption.
Qed.
Lemma gip_common_start (s r : S) :
  sstart s = sstart r -> vis_same_direction (seg_as_vec s) (seg_as_vec r) = false ->
  (e5 < Rabs (vz (seg_normal s r)) \/ e5 < Rabs (vx (seg_normal s r)) \/ e5 < Rabs (vy (seg_normal s r))) ->
  seg_get_intersection_pt s r = Some (0, 0) /\ seg_touches s r = Some (sstart s) /\ seg_intersect s r = None.
Proof.
  intros E D N.
  assert (P : seg_at s 0 = seg_at r 0).
  { unfold seg_at. rewrite E. vring. }
  pose proof (gip_reports s r 0 0 P D N) as G. split; [exact G|]. unfold seg_touches, seg_intersect. rewrite G.
  replace (in01 0) with true by (symmetry; apply in01_spec; lra). cbn [andb]. split.
  - f_equal. vring.
  - rewrite c1em8_R. rnum. rewrite Rleb_gt by (unfold e8; lra).
    rewrite andb_false_r. reflexivity.
Qed.
(** on coplanar pairs that the code before the fix does not drop, the fix changes nothing *)
Lemma gip_agrees_pinned (s r : S) : coplanar s r -> ~ tiny (vcross (seg_delta s r) (seg_normal s r)) ->
  seg_get_intersection_pt s r = seg_get_intersection_pt_pinned s r.
Proof.
  intros C T. rewrite gip_unfold, gipP_unfold. destruct (vis_same_direction _ _); [reflexivity|].
  replace (vis_zero _) with false by (symmetry; apply vis_zero_false, T).
  unfold coplanar in C. replace (Rltb _ _) with false; [reflexivity|].
  symmetry. apply Rltb_false. rewrite C, Rabs_R0. apply Rmult_le_pos; [left; apply e5_pos | apply vlen_nonneg].
Qed.
Lemma seg_touches_spec (s r : S) (p : V) :
  seg_touches s r = Some p <->
  exists ta tb, seg_get_intersection_pt s r = Some (ta, tb) /\ touching_window ta tb /\ p = seg_at s ta.
Proof. exact (touches_by_spec _ seg_touches (fun _ _ => eq_refl) s r p). Qed.
Lemma seg_intersect_spec (s r : S) (p : V) :
  seg_intersect s r = Some p <->
  exists ta tb, seg_get_intersection_pt s r = Some (ta, tb) /\ crossing_window ta tb /\ p = seg_at s ta.
Proof. exact (intersect_by_spec _ seg_intersect (fun _ _ => eq_refl) s r p). Qed.
(** the F5 witness is rejected by the live code *)
Lemma f5_rejected : seg_get_intersection_pt f5_s f5_r = None /\ seg_intersect f5_s f5_r = None /\ seg_touches f5_s f5_r = None.
Proof.
  assert (G : seg_get_intersection_pt f5_s f5_r = None).
  { apply gip_skew_none.
    assert (En : seg_normal f5_s f5_r = mkV3 0 0 2) by (unfold seg_normal, f5_s, f5_r, seg_as_vec, seg_new; cbn [sstart send]; vring).
    assert (Et : triple f5_s f5_r = - (2)) by (unfold triple, seg_delta; rewrite En; unfold f5_s, f5_r, seg_new; cbn [sstart send]; vring).
    rewrite Et, En. unfold vlen. replace (vlen2 (mkV3 0 0 2)) with (2 * 2) by vring. rnumg.
    rewrite sqrt_square, Rabs_Ropp, Rabs_pos_eq by lra. unfold e5. lra. }
  unfold seg_intersect, seg_touches. rewrite G. auto.
Qed.

(** ** the live code: further consequences *)
Lemma gip_some_iff (s r : S) :
  (exists t, seg_get_intersection_pt s r = Some t) <->
  vis_same_direction (seg_as_vec s) (seg_as_vec r) = false /\
  Rabs (triple s r) <= e5 * vlen (seg_normal s r) /\
  (e5 < Rabs (vz (seg_normal s r)) \/ e5 < Rabs (vx (seg_normal s r)) \/ e5 < Rabs (vy (seg_normal s r))).
Proof.
  rewrite gip_unfold. destruct (vis_same_direction _ _).
  - split; [intros (t & E); discriminate | intros (E & _); discriminate].
  - rcase (e5 * vlen (seg_normal s r)) (Rabs (triple s r)) H.
    + split; [intros (t & E); discriminate | intros (_ & H' & _); lra].
    + rewrite seg_solve_some_iff. tauto.
Qed.
Lemma gip_complete (s r : S) (ta tb : R) (t : R * R) :
  seg_at s ta = seg_at r tb -> seg_get_intersection_pt s r = Some t -> t = (ta, tb).
Proof. exact (by_complete _ gip_solve s r ta tb t). Qed.
Lemma seg_intersect_touches (s r : S) (p : V) : seg_intersect s r = Some p -> seg_touches s r = Some p.
Proof. exact (intersect_touches_by _ _ _ (fun _ _ => eq_refl) (fun _ _ => eq_refl) s r p). Qed.
Lemma seg_endpoint_contact (s r : S) (ta tb : R) :
  seg_get_intersection_pt s r = Some (ta, tb) -> tb = 0 \/ tb = 1 ->
  seg_intersect s r = None /\ (0 <= ta <= 1 -> seg_touches s r = Some (seg_at s ta)).
Proof. exact (endpoint_contact_by _ _ _ (fun _ _ => eq_refl) (fun _ _ => eq_refl) s r ta tb). Qed.
Lemma seg_touch_coplanar_sound (s r : S) (p : V) :
  coplanar s r -> seg_touches s r = Some p ->
  exists ta tb, 0 <= ta <= 1 /\ 0 <= tb <= 1 /\ p = seg_at s ta /\ p = seg_at r tb.
Proof. exact (touch_coplanar_sound_by _ _ gip_solve (fun _ _ => eq_refl) s r p). Qed.
(** in general the two supporting lines are at most 1e-5 apart and the two located points differ along one axis by
    |delta . n| / |n_k| *)
Lemma seg_touch_lines_close (s r : S) (p : V) : seg_touches s r = Some p ->
  Rabs (triple s r) <= e5 * vlen (seg_normal s r) /\
  exists ta tb, 0 <= ta <= 1 /\ 0 <= tb <= 1 /\ p = seg_at s ta /\ solved s r ta tb.
Proof.
  intros H. apply seg_touches_spec in H. destruct H as (ta & tb & H & (Wa & Wb) & ->).
  destruct (gip_solved s r ta tb H) as (So & B). split; [exact B|]. exists ta, tb. auto.
Qed.
