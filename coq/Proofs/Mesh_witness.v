(** * Mesh_witness: concrete inputs (binary64, the executed instance) that violated a property before the crate fix named
    at each (model and crate, the crate through the harness: /verif/notes/mesh_NOTES.md), and what the live model does on
    them.  Each is evaluated by vm_compute. *)
From Coq Require Import ZArith Bool List Arith Floats.
From G3 Require Import Model.Num Model.NumF Model.Base Model.Vec Model.Segment Model.Triangle Model.Loop Model.Polygon Model.Triangulation Model.PinnedMesh.
Import ListNotations.
Local Open Scope float_scope.
Set Warnings "-inexact-float".

(** building a polygon through the model of the public API: push every point, close, Polygon3D::new, cut_hole *)
Section Build.
  Context {K : Type} {NK : Num K}.
  Fixpoint push_pts (L : Loop K) (pts : list (V3 K)) : res (Loop K) :=
    match pts with
    | [] => Ok L
    | p :: tl => do L' <- loop_push L p; push_pts L' tl
    end.
  Definition build_loop (pts : list (V3 K)) : res (Loop K) :=
    do L <- push_pts loop_new pts;
    let '(L', r) := loop_close L in do _ <- r; Ok L'.
  Fixpoint cut_holes (P : Poly K) (hs : list (list (V3 K))) : res (Poly K) :=
    match hs with
    | [] => Ok P
    | h :: tl => do hl <- build_loop h; do P' <- poly_cut_hole P hl; cut_holes P' tl
    end.
  Definition build_poly (outer : list (V3 K)) (holes : list (list (V3 K))) : res (Poly K) :=
    do o <- build_loop outer; do P <- poly_new o; cut_holes P holes.
End Build.

Definition p2 (x y : float) : V3 float := mkV3 x y 0.
Definition unit_square : list (V3 float) := [p2 0 0; p2 1 0; p2 1 1; p2 0 1].
Definition dummy_poly : Poly float := mkPoly loop_new [] 0 (mkV3 0 0 0).
Definition get {A} (d : A) (r : res A) : A := match r with Ok a => a | _ => d end.

(** W1: unit square with a triangular hole.  Before fix 4bb2ed8 (ear test = "interior chord" only) the ear clipped at the
    bridge vertex was REVERSED (it covered the hole).  The live from_polygon clips only convex, empty corners: 7 = |L| - 2
    triangles, none reversed, areas summing to the polygon's net area. *)
Definition w1_poly : Poly float := get dummy_poly (build_poly unit_square [[p2 0.3 0.3; p2 0.45 0.6; p2 0.6 0.3]]).
Definition reversed_wrt (n : V3 float) (t : TriPiece float) : bool := vdot (tnormal (tp_tri t)) n <? 0.
Lemma w1_now_positive :
  exists M, from_polygon w1_poly = Ok M /\ existsb (reversed_wrt (pnormal w1_poly)) (tris M) = false /\ length (tris M) = 7%nat /\
            length (pinner w1_poly) = 1%nat.
Proof. eexists. split; [vm_compute; reflexivity|]. repeat split; vm_compute; reflexivity. Qed.

(** W2: an 8-vertex rectilinear outline.  With the pinned ear test the periodic sanitize met a vertex that had become
    collinear and dropped it, so only 5 = |L| - 3 triangles were produced (a T-junction); with the ear test of fix
    4bb2ed8 the clipping order differs and the run yields the 6 = |L| - 2 triangles.  (That sanitize CAN drop a
    vertex is unchanged: the exact count is a theorem only for sanitize-stable runs, Properties/C01_tiling.v.) *)
Definition w2_poly : Poly float :=
  get dummy_poly (build_poly [p2 2 5; p2 2 3; p2 5 3; p2 5 0; p2 0 0; p2 0 7; p2 1 7; p2 1 5] []).
Lemma w2_triangle_count :
  exists M Lm, from_polygon w2_poly = Ok M /\ poly_get_closed_loop w2_poly = Ok Lm /\ snd (loop_close Lm) = Ok tt /\
    llen (fst (loop_close Lm)) = 8%nat /\ length (tris M) = 6%nat.
Proof. eexists. eexists. split; [vm_compute; reflexivity|]. split; [vm_compute; reflexivity|]. repeat split; vm_compute; reflexivity. Qed.

(** W3: mesh_polygon on a plain triangle.  Before fix 361bbb9 it panicked ("... don't share a segment", site 64):
    refine swallowed the Err of a half-updated add_point and carried on with a corrupted mesh.  The live steps
    refuse before they mutate, and the call succeeds. *)
Definition w3_poly : Poly float := get dummy_poly (build_poly [p2 0 0; p2 1 0; p2 0.3 0.8] []).
(* the refined mesh (126 slots of cached floats) stays out of the proof term: the run is evaluated to a boolean *)
Definition done_all_valid (r : res (Mesh float * rres)) : bool :=
  match r with Ok (M, RDone) => forallb tp_valid (tris M) | _ => false end.
Lemma done_all_valid_sound (r : res (Mesh float * rres)) :
  done_all_valid r = true -> exists M, r = Ok (M, RDone) /\ forallb tp_valid (tris M) = true.
Proof. destruct r as [[M []]| |]; try discriminate. intros H. exists M. split; [reflexivity | exact H]. Qed.
Lemma w3_mesh_polygon_now_ok : exists M, mesh_polygon 4000 w3_poly (0.4 / 50) 3 = Ok (M, RDone) /\ forallb tp_valid (tris M) = true.
Proof. apply done_all_valid_sound. vm_compute. reflexivity. Qed.

(** W4: split_edge AS IT WAS BEFORE FIX 361bbb9 at a point 1e-7 from an end of the edge: Err after the base triangle
    has been invalidated; the live split_edge refuses with the mesh untouched *)
Definition w4_poly : Poly float := get dummy_poly (build_poly unit_square []).
(* the two-triangle mesh as a value: every later fact about this run starts from [w4_from_polygon] instead of running
   [from_polygon] again (coqchk replays each evaluation with the slow machine) *)
Definition w4_lit : Mesh float := Eval vm_compute in get mesh_new (from_polygon w4_poly).
Lemma w4_from_polygon : from_polygon w4_poly = Ok w4_lit.
Proof. vm_compute. reflexivity. Qed.
Lemma w4_split_edge_half_update :
  exists M M', from_polygon w4_poly = Ok M /\ forallb tp_valid (tris M) = true /\
    split_edge_pinned 0 Ab (p2 1e-7 0) M = (M', Err 10%N) /\ forallb tp_valid (tris M') = false /\ nvalid M' = 1%nat /\ length (tris M') = 2%nat.
Proof. exists w4_lit. eexists. split; [exact w4_from_polygon|]. split; [reflexivity|]. split; [vm_compute; reflexivity|]. repeat split; reflexivity. Qed.
Lemma w4_split_edge_now_atomic :
  exists M, from_polygon w4_poly = Ok M /\ split_edge 0 Ab (p2 1e-7 0) M = (M, Err 10%N).
Proof. exists w4_lit. split; [exact w4_from_polygon | vm_compute; reflexivity]. Qed.

(** W5: unit square with a pentagonal hole (well conditioned).  Before fix df28df6 (Loop3D::push duplicated the
    last-but-one vertex when the outline went straight back to it, the normal of (a, b, b) became NaN) from_polygon
    returned Err "non-coplanar" (class 31) here; after that fix alone it returned Ok with 5 triangles instead of
    |L| - 2 = 9 (the first ear (0,0) (1,0) (1,1), clipped at the wrong occurrence of the bridge vertex (1,1), swallowed
    the hole).  With the ear test of fix 4bb2ed8 it returns the 9 triangles. *)
Definition w5_poly : Poly float :=
  get dummy_poly (build_poly unit_square [[p2 0.754 0.584; p2 0.637 0.577; p2 0.607 0.464; p2 0.706 0.4; p2 0.797 0.475]]).
Lemma w5_from_polygon_ok : exists M, from_polygon w5_poly = Ok M /\ length (tris M) = 9%nat /\ length (pinner w5_poly) = 1%nat.
Proof. eexists. split; [vm_compute; reflexivity|]. split; vm_compute; reflexivity. Qed.

(** non-vacuity: the unit square is triangulated, and refined *)
Lemma w_square_ok : exists M, from_polygon w4_poly = Ok M /\ length (tris M) = 2%nat /\ nvalid M = 2%nat.
Proof. exists w4_lit. split; [exact w4_from_polygon|]. split; reflexivity. Qed.
Definition w4_refined_lit : Mesh float :=
  Eval vm_compute in match mesh_polygon 100 w4_poly 0.1 1.5 with Ok (M, _) => M | _ => mesh_new end.
Lemma w4_mesh_polygon : mesh_polygon 100 w4_poly 0.1 1.5 = Ok (w4_refined_lit, RDone).
Proof. vm_compute. reflexivity. Qed.
Lemma w_square_refined : exists M, mesh_polygon 100 w4_poly 0.1 1.5 = Ok (M, RDone) /\ Nat.leb 10 (length (tris M)) = true.
Proof. exists w4_refined_lit. split; [exact w4_mesh_polygon | reflexivity]. Qed.
