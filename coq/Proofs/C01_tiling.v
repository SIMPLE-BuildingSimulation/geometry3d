(** * C01, geometric half: the triangles returned by [from_polygon] are the ears of an EAR DECOMPOSITION of the closed
    merged outline, hence (over the reals) their signed areas sum to the outline's signed area and their signed
    indicator functions sum to the outline's winding number; if moreover every ear has the polygon's orientation, the
    winding number COUNTS the triangles containing a point: nothing outside is covered, no two triangles overlap,
    every interior point is covered, the areas add up -- the triangles tile exactly the polygon's region.

    ** Every number instance [Num K]
    [fp_loop_tr] is [fp_loop] plus a trace: the clipped ears (v0, v1, v2) in clipping order, and for every call of
    [loop_sanitize] the pair (vertex list before, vertex list after).  [fp_loop_erase]: erasing the trace gives back
    [fp_loop] (same outcome, same mesh).  [from_polygon_ears]: when the call succeeds and no recorded sanitize call
    changed the vertex list, the ears form an ear decomposition of the outline DOWN TO TWO VERTICES ([ear_decomp2];
    the code clips the last ear off a 3-vertex loop and stops at 2 vertices), the triangles of the mesh are exactly
    the ears, in push order, and there are |L| - 2 of them.  [ear_decomp2_to_ear_decomp] relates this to the
    [Cyclic.ear_decomp] of the theory library (which stops at a triangle): the two lists of ears agree up to a cyclic
    rotation of the corners of ears (only the LAST ear is actually rotated).
    General form, no hypothesis on [sanitize] ([from_polygon_clip_run]): every successful run is a sequence of ear steps
    and of recorded replacements (loop before, loop after) of the outline ([clip_run]), and the triangles of the mesh are
    exactly the ears.  [from_polygon_normals]: the stored normal of each triangle is the one computed from its corners.

    ** The reals (exact tier)
    For ANY plane frame (o, e1, e2) and the coordinates [plane2 o e1 e2] of Proofs/C05_pointtest.v (no
    orthonormality is needed for the identities; it only matters for reading [area2] as the true area):
    [ears_area_identity], [ears_winding_identity], [ears_winding_index], the reduction [ears_tiling_count] and its
    consequences [ears_tiling_outside], [ears_tiling_no_overlap], [ears_tiling_cover], [ears_area_sum];
    [negative_ear_breaks_count] shows that the reduction needs the orientation of the ears (pure geometry).
    [run_identities_general]: for EVERY successful run the two identities hold with one explicit defect term per recorded
    sanitize call (area, resp. winding number, of the loop before minus after).

    ** The orientation of the ears is PROVED (fix 4bb2ed8 of the crate)
    The ear test of [from_polygon] also requires the corner to be convex for the polygon's normal ([ear_convex])
    and the triangle to contain no other vertex of the loop ([ear_blocked]).  [from_polygon_ears_checked]: in every
    successful run, on every number instance, every clipped ear -- every triangle of the mesh -- is non-collinear, its
    chord was a diagonal of the loop at that moment, [ear_convex] holds and [ear_blocked] is false for the loop at that
    moment ([clip_runP (ear_ok P)]).  Over the reals, when the polygon's normal is a positive multiple of the frame
    normal e1 x e2 ([frame_normal]), [ear_convex] IS 0 < orient of the projected ear ([ear_convex_orient],
    [ears_positive]; no planarity hypothesis); hence [ears_tiling_count_proved], [ears_tile_exactly_proved],
    [ears_area_sum_proved] without any orientation hypothesis.  [ear_blocked_false], [tri_test_point_outside]: what
    [ear_blocked] = false says over the reals.  (On the pinned tree before the fix the implication "is_diagonal =>
    positively oriented ear" was false: a reversed ear was clipped at the bridge vertex of a merged hole;
    [w1_poly] of Proofs/Mesh_witness.v is that polygon: section 5.)

    ** NOT proved (hypotheses of the theorems, see Properties/C01_tiling.v)
    - the Jordan property of the input (winding number of the merged outline in {0, 1} off the outline) is a
      hypothesis on the input polygon;
    - runs in which a periodic [sanitize] drops a vertex are excluded from the tiling statement (the hypothesis on the
      trace); there the number of triangles is smaller ([ex3_sanitize_changes], section 5) and the dropped vertex is only
      collinear up to the code's tolerance (finding C01:area-sum:collinear-tolerance).  For them only the general
      identities with the defect terms are proved; that the defect terms are small / vanish is NOT proved;
    - floating-point evaluation of the geometric predicates (the identities are about the exact tier [K = R]; the ear
      decomposition holds for the floats too, being purely combinatorial). *)
From Coq Require Import ZArith Reals Lra Lia Bool List Arith Psatz Ring.
From Coq Require Nsatz.
From G3 Require Import Model.Num Model.Base Model.Vec Model.Segment Model.Triangle Model.Loop Model.Polygon Model.Triangulation
  Proofs.Mesh_base Proofs.Mesh_fp.
From G3 Require Theory.Cyclic.
Import ListNotations.

(** * 1. Ear decompositions down to two vertices (any vertex type) *)
Section Ears2.
  Variable A : Type.
  Notation T3 := (A * A * A)%type.

  (** as [Cyclic.ear_decomp], but the recursion stops at a 2-vertex chain with no ear left; [last (post ++ pre) v] and
      [hd v (post ++ pre)] are the cyclic neighbours of [v] in [pre ++ v :: post] *)
  Inductive ear_decomp2 : list A -> list T3 -> Prop :=
  | ed2_two : forall a b : A, ear_decomp2 [a; b] []
  | ed2_step : forall (pre post : list A) (v : A) (Ts : list T3),
      ear_decomp2 (pre ++ post) Ts ->
      ear_decomp2 (pre ++ v :: post) ((last (post ++ pre) v, v, hd v (post ++ pre)) :: Ts).

  Lemma ear_decomp2_length (L : list A) (Ts : list T3) : ear_decomp2 L Ts -> length L = length Ts + 2.
  Proof. intros H; induction H; [reflexivity|]. rewrite app_length in *. cbn [length] in *. lia. Qed.

  (** the step by index, neighbours by cyclic indexing *)
  Lemma ear_decomp2_idx (dflt : A) (L : list A) (i : nat) (Ts : list T3) :
    i < length L -> ear_decomp2 (Cyclic.remove_at i L) Ts ->
    ear_decomp2 L ((Cyclic.cprev dflt L i, nth i L dflt, Cyclic.cnext dflt L i) :: Ts).
  Proof.
    intros Hi H. pose proof (Cyclic.split_at dflt L Hi) as HL.
    set (pre := firstn i L) in *. set (post := skipn (S i) L) in *. set (v := nth i L dflt) in *.
    assert (Hlen : length pre = i) by (unfold pre; rewrite firstn_length; lia).
    unfold Cyclic.remove_at in H. fold pre in H. fold post in H.
    rewrite HL. rewrite <- Hlen. rewrite Cyclic.cprev_middle, Cyclic.cnext_middle. apply ed2_step. exact H.
  Qed.

  (** the step as the code takes it: the three consecutive vertices at cyclic positions a, a+1, a+2; the middle one goes *)
  Lemma anchor_split (L : list A) (a : nat) (v0 v1 v2 : A) :
    length L <> 0 ->
    nth_error L (a mod length L) = Some v0 -> nth_error L ((a + 1) mod length L) = Some v1 ->
    nth_error L ((a + 2) mod length L) = Some v2 ->
    exists pre post : list A, L = pre ++ v1 :: post /\ Cyclic.remove_at ((a + 1) mod length L) L = pre ++ post /\
      last (post ++ pre) v1 = v0 /\ hd v1 (post ++ pre) = v2.
  Proof.
    intros Hn E0 E1 E2. set (n := length L) in *.
    assert (Hi : (a + 1) mod n < n) by (apply Nat.mod_upper_bound; exact Hn).
    assert (P0 : Cyclic.cprev v0 L ((a + 1) mod n) = v0).
    { unfold Cyclic.cprev, Cyclic.cnth. fold n.
      replace ((a + 1) mod n + n - 1) with ((a + 1) mod n + (n - 1)) by lia.
      rewrite Nat.add_mod_idemp_l by exact Hn. replace (a + 1 + (n - 1)) with (a + 1 * n) by lia.
      rewrite Nat.mod_add by exact Hn. apply nth_error_nth. exact E0. }
    assert (P2 : Cyclic.cnext v0 L ((a + 1) mod n) = v2).
    { unfold Cyclic.cnext, Cyclic.cnth. fold n. rewrite Nat.add_mod_idemp_l by exact Hn.
      replace (a + 1 + 1) with (a + 2) by lia. apply nth_error_nth. exact E2. }
    pose proof (Cyclic.split_at v0 L Hi) as HL. rewrite (nth_error_nth _ _ v0 E1) in HL.
    set (pre := firstn ((a + 1) mod n) L) in *. set (post := skipn (S ((a + 1) mod n)) L) in *.
    assert (Hlen : length pre = (a + 1) mod n) by (unfold pre; rewrite firstn_length; lia).
    exists pre, post. split; [exact HL|]. split; [reflexivity|]. split.
    - rewrite <- P0. rewrite <- (Cyclic.cprev_middle v0 pre post v1). rewrite <- HL, Hlen. reflexivity.
    - rewrite <- P2. rewrite <- (Cyclic.cnext_middle v0 pre post v1). rewrite <- HL, Hlen. reflexivity.
  Qed.
  Lemma ear_decomp2_anchor (L : list A) (a : nat) (v0 v1 v2 : A) (Ts : list T3) :
    length L <> 0 ->
    nth_error L (a mod length L) = Some v0 -> nth_error L ((a + 1) mod length L) = Some v1 ->
    nth_error L ((a + 2) mod length L) = Some v2 ->
    ear_decomp2 (Cyclic.remove_at ((a + 1) mod length L) L) Ts -> ear_decomp2 L ((v0, v1, v2) :: Ts).
  Proof.
    intros Hn E0 E1 E2 H. destruct (anchor_split L a v0 v1 v2 Hn E0 E1 E2) as (pre & post & HL & HR & <- & <-).
    rewrite HR in H. rewrite HL. apply ed2_step. exact H.
  Qed.

  (** ** the general run: ear steps interleaved with arbitrary replacements of the chain (the periodic [sanitize]),
      each recorded as (chain before, chain after) *)
  Inductive clip_run : list A -> list T3 -> list (list A * list A) -> Prop :=
  | cr_two : forall a b : A, clip_run [a; b] [] []
  | cr_ear : forall (pre post : list A) (v : A) (Ts : list T3) (S : list (list A * list A)),
      clip_run (pre ++ post) Ts S ->
      clip_run (pre ++ v :: post) ((last (post ++ pre) v, v, hd v (post ++ pre)) :: Ts) S
  | cr_san : forall (l l' : list A) (Ts : list T3) (S : list (list A * list A)),
      clip_run l' Ts S -> clip_run l Ts ((l, l') :: S).
  Lemma clip_run_anchor (L : list A) (a : nat) (v0 v1 v2 : A) (Ts : list T3) (S : list (list A * list A)) :
    length L <> 0 ->
    nth_error L (a mod length L) = Some v0 -> nth_error L ((a + 1) mod length L) = Some v1 ->
    nth_error L ((a + 2) mod length L) = Some v2 ->
    clip_run (Cyclic.remove_at ((a + 1) mod length L) L) Ts S -> clip_run L ((v0, v1, v2) :: Ts) S.
  Proof.
    intros Hn E0 E1 E2 H. destruct (anchor_split L a v0 v1 v2 Hn E0 E1 E2) as (pre & post & HL & HR & <- & <-).
    rewrite HR in H. rewrite HL. apply cr_ear. exact H.
  Qed.
  (** the same, every ear step carrying a property [ok chain ear] of the chain at that moment and of the ear *)
  Inductive clip_runP (ok : list A -> T3 -> Prop) : list A -> list T3 -> list (list A * list A) -> Prop :=
  | crp_two : forall a b : A, clip_runP ok [a; b] [] []
  | crp_ear : forall (pre post : list A) (v : A) (Ts : list T3) (S : list (list A * list A)),
      ok (pre ++ v :: post) (last (post ++ pre) v, v, hd v (post ++ pre)) ->
      clip_runP ok (pre ++ post) Ts S ->
      clip_runP ok (pre ++ v :: post) ((last (post ++ pre) v, v, hd v (post ++ pre)) :: Ts) S
  | crp_san : forall (l l' : list A) (Ts : list T3) (S : list (list A * list A)),
      clip_runP ok l' Ts S -> clip_runP ok l Ts ((l, l') :: S).
  Lemma clip_runP_forget (ok : list A -> T3 -> Prop) (L : list A) (Ts : list T3) (S : list (list A * list A)) :
    clip_runP ok L Ts S -> clip_run L Ts S.
  Proof. intros H; induction H; [apply cr_two | apply cr_ear; assumption | apply cr_san; assumption]. Qed.
  Lemma clip_runP_Forall (ok : list A -> T3 -> Prop) (Q : T3 -> Prop) (L : list A) (Ts : list T3) (S : list (list A * list A)) :
    (forall l e, ok l e -> Q e) -> clip_runP ok L Ts S -> Forall Q Ts.
  Proof. intros HQ H; induction H; [constructor | constructor; [eapply HQ; eassumption | assumption] | assumption]. Qed.
  Lemma clip_runP_anchor (ok : list A -> T3 -> Prop) (L : list A) (a : nat) (v0 v1 v2 : A) (Ts : list T3) (S : list (list A * list A)) :
    length L <> 0 ->
    nth_error L (a mod length L) = Some v0 -> nth_error L ((a + 1) mod length L) = Some v1 ->
    nth_error L ((a + 2) mod length L) = Some v2 ->
    ok L (v0, v1, v2) ->
    clip_runP ok (Cyclic.remove_at ((a + 1) mod length L) L) Ts S -> clip_runP ok L ((v0, v1, v2) :: Ts) S.
  Proof.
    intros Hn E0 E1 E2 Hok H. destruct (anchor_split L a v0 v1 v2 Hn E0 E1 E2) as (pre & post & HL & HR & <- & <-).
    rewrite HR in H. rewrite HL in *. apply crp_ear; assumption.
  Qed.
  (** when no replacement changed the chain, the run is an ear decomposition *)
  Lemma clip_run_unchanged (L : list A) (Ts : list T3) (S : list (list A * list A)) :
    clip_run L Ts S -> Forall (fun p => fst p = snd p) S -> ear_decomp2 L Ts.
  Proof.
    intros H; induction H as [a b | pre post v Ts S H IH | l l' Ts S H IH]; intros F.
    - apply ed2_two.
    - apply ed2_step. apply IH. exact F.
    - inversion F; subst. cbn [fst snd] in *. subst l'. apply IH. assumption.
  Qed.
  Lemma ear_decomp2_clip_run (L : list A) (Ts : list T3) : ear_decomp2 L Ts <-> clip_run L Ts [].
  Proof.
    split; [|intros H; apply (clip_run_unchanged _ _ _ H); constructor].
    intros H; induction H; [apply cr_two | apply cr_ear; assumption].
  Qed.

  (** ** relation to [Cyclic.ear_decomp]: the same ears up to a rotation of the corners (of the last ear) *)
  Definition trot (t t' : T3) : Prop :=
    let '(a, b, c) := t in t' = (a, b, c) \/ t' = (b, c, a) \/ t' = (c, a, b).
  Lemma trot_refl (t : T3) : trot t t. Proof. destruct t as [[a b] c]. left. reflexivity. Qed.
  Lemma Forall2_trot_refl (Ts : list T3) : Forall2 trot Ts Ts.
  Proof. induction Ts; constructor; [apply trot_refl | assumption]. Qed.

  Lemma ear_decomp2_to_ear_decomp (L : list A) (Ts : list T3) :
    ear_decomp2 L Ts -> 3 <= length L -> exists Ts', Cyclic.ear_decomp L Ts' /\ Forall2 trot Ts Ts'.
  Proof.
    intros H; induction H as [a b | pre post v Ts H IH]; intros Hlen; [cbn in Hlen; lia|].
    destruct (Nat.le_gt_cases 3 (length (pre ++ post))) as [H3|H3].
    - destruct (IH H3) as (Ts' & E & F). eexists. split; [apply Cyclic.ed_step; exact E|]. constructor; [apply trot_refl | exact F].
    - (* the last ear: pre ++ post has two vertices *)
      pose proof (ear_decomp2_length _ _ H) as HL. rewrite app_length in *. cbn [length] in Hlen.
      assert (HT : Ts = []) by (destruct Ts; [reflexivity | cbn [length] in HL; lia]). subst Ts.
      destruct pre as [|p1 [|p2 [|p3 pre]]]; cbn [length app] in *.
      + destruct post as [|x [|y [|z post]]]; cbn [length] in *; try lia.
        exists [(v, x, y)]. split; [apply Cyclic.ed_tri|]. constructor; [|constructor]. cbn. right; left; reflexivity.
      + destruct post as [|x [|y post]]; cbn [length] in *; try lia.
        exists [(p1, v, x)]. split; [apply Cyclic.ed_tri|]. constructor; [|constructor]. cbn. left; reflexivity.
      + destruct post as [|x post]; cbn [length] in *; try lia.
        exists [(p1, p2, v)]. split; [apply Cyclic.ed_tri|]. constructor; [|constructor]. cbn. right; right; reflexivity.
      + lia.
  Qed.

  (** the corners of all ears are vertices of the chain *)
  Lemma ear_decomp2_In (L : list A) (Ts : list T3) :
    ear_decomp2 L Ts -> forall a b c : A, In (a, b, c) Ts -> In a L /\ In b L /\ In c L.
  Proof.
    intros H; induction H as [x y | pre post v Ts H IH]; intros a' b' c' Hin; [destruct Hin|].
    eapply Cyclic.ear_step_In; [apply IH | exact Hin].
  Qed.
End Ears2.
Arguments ear_decomp2 {A}.
Arguments clip_run {A}.
Arguments clip_runP {A}.
Arguments trot {A}.

(** image under a map of the vertices *)
Definition map3 {A B : Type} (h : A -> B) (t : A * A * A) : B * B * B := (h (fst (fst t)), h (snd (fst t)), h (snd t)).
Lemma last_map {A B : Type} (h : A -> B) (l : list A) (d : A) : last (map h l) (h d) = h (last l d).
Proof. induction l as [|x [|y l] IH]; try reflexivity. exact IH. Qed.
Lemma hd_map {A B : Type} (h : A -> B) (l : list A) (d : A) : hd (h d) (map h l) = h (hd d l).
Proof. destruct l; reflexivity. Qed.
Definition map_pair {A B : Type} (h : A -> B) (p : list A * list A) : list B * list B := (map h (fst p), map h (snd p)).
Lemma clip_run_map {A B : Type} (h : A -> B) (L : list A) (Ts : list (A * A * A)) (S : list (list A * list A)) :
  clip_run L Ts S -> clip_run (map h L) (map (map3 h) Ts) (map (map_pair h) S).
Proof.
  intros H; induction H as [a b | pre post v Ts S H IH | l l' Ts S H IH]; [apply cr_two | | apply cr_san; exact IH].
  rewrite map_app in *. cbn [map]. unfold map3 at 1. cbn [fst snd].
  rewrite <- last_map, <- hd_map, !map_app. apply cr_ear. exact IH.
Qed.
Lemma ear_decomp2_map {A B : Type} (h : A -> B) (L : list A) (Ts : list (A * A * A)) :
  ear_decomp2 L Ts -> ear_decomp2 (map h L) (map (map3 h) Ts).
Proof. rewrite !ear_decomp2_clip_run. apply (clip_run_map h L Ts []). Qed.

(** sums of an antisymmetric edge functional: the chain's sum is the sum over the ears (the 2-vertex chain sums to 0) *)
Section CSum2.
  Variables (A G : Type).
  Variables (rO rI : G) (radd rmul rsub : G -> G -> G) (ropp : G -> G).
  Hypothesis Gth : ring_theory rO rI radd rmul rsub ropp (@eq G).
  Add Ring Gring2 : Gth.
  Variable f : A -> A -> G.
  Hypothesis f_anti : forall a b : A, f a b = ropp (f b a).
  Hypothesis f_self : forall a : A, f a a = rO.
  (** the general run: plus, for every recorded replacement, the difference of the two chains' sums *)
  Definition san_defect (S : list (list A * list A)) : G :=
    fold_right (fun p acc => radd (rsub (Cyclic.csum rO radd f (fst p)) (Cyclic.csum rO radd f (snd p))) acc) rO S.
  Lemma csum_clip_run (L : list A) (Ts : list (A * A * A)) (S : list (list A * list A)) :
    clip_run L Ts S -> Cyclic.csum rO radd f L = radd (Cyclic.tsum rO radd (Cyclic.tri rO radd f) Ts) (san_defect S).
  Proof.
    intros H; induction H as [a b | pre post v Ts S H IH | l l' Ts S H IH].
    - unfold Cyclic.csum, Cyclic.edges_closed, san_defect. cbn [Cyclic.edges_to hd fold_right]. rewrite !Cyclic.esum_cons, Cyclic.esum_nil, Cyclic.tsum_nil.
      rewrite (f_anti b a). ring.
    - rewrite (Cyclic.csum_remove Gth f f_anti f_self), IH, Cyclic.tsum_cons. ring.
    - unfold san_defect in *. cbn [fold_right fst snd]. rewrite IH. ring.
  Qed.
  Lemma csum_ear_decomp2 (L : list A) (Ts : list (A * A * A)) :
    ear_decomp2 L Ts -> Cyclic.csum rO radd f L = Cyclic.tsum rO radd (Cyclic.tri rO radd f) Ts.
  Proof. intros H. apply ear_decomp2_clip_run in H. rewrite (csum_clip_run L Ts [] H). cbn [san_defect fold_right]. ring. Qed.
End CSum2.

(** * 2. The instrumented clipping loop (every number instance) *)
Definition rmap {A B : Type} (g : A -> B) (r : res A) : res B :=
  match r with Ok a => Ok (g a) | Err c => Err c | Panic s => Panic s end.

Section Trace.
  Context {K : Type} {NK : Num K}.
  Notation V := (V3 K).
  Notation TP := (TriPiece K).
  Notation Mesh := (Mesh K).

  (** the trace: clipped ears in order; (vertex list before, after) of every [loop_sanitize] call in order *)
  Definition Trace : Type := (list (V * V * V) * list (list V * list V))%type.
  Definition tr_san (b : bool) (x : list V * list V) (tr : Trace) : Trace := if b then (fst tr, x :: snd tr) else tr.
  Definition tr_ear (e : V * V * V) (tr : Trace) : Trace := (e :: fst tr, snd tr).
  (** "no sanitize call changed the vertex list" *)
  Definition sanitize_unchanged (tr : Trace) : Prop := Forall (fun p => fst p = snd p) (snd tr).

  (** [fp_loop] of Model/Triangulation.v, line by line, returning the trace as well *)
  Fixpoint fp_loop_tr (P : Poly K) (fuel : nat) (count anchor : nat) (the_loop : Loop K) (t : Mesh) : res (Mesh * Trace) :=
    match fuel with
    | O => Err 100%N
    | S fuel' =>
      let count := S count in
      let san := Nat.eqb (Nat.modulo count 10) 0 in
      let before := verts the_loop in
      do the_loop <- (if Nat.eqb (Nat.modulo count 10) 0 then loop_sanitize the_loop else Ok the_loop);
      let rec_san := tr_san san (before, verts the_loop) in
      let n := llen the_loop in
      let last_added := n_triangles t in
      if Nat.eqb n 2 then
        let '(t', r) := mark_neighbourhouds t in
        do _ <- r; Ok (t', rec_san ([], []))
      else
      if Nat.eqb n 0 then Panic 93%N else
      do v0 <- loop_index the_loop (Nat.modulo anchor n);
      do v1 <- loop_index the_loop (Nat.modulo (anchor + 1) n);
      do v2 <- loop_index the_loop (Nat.modulo (anchor + 2) n);
      let potential_diag := seg_new v0 v2 in
      do is_line <- is_collinear v0 v1 v2;
      do is_diagonal <- loop_is_diagonal the_loop potential_diag;
      do is_ear <- ear_test P the_loop v0 v1 v2 is_line is_diagonal;
      if is_ear then
        let '(t1, r) := mesh_push v0 v1 v2 last_added t in
        do _ <- r;
        let c (s : Seg K) (e : Edge) (m : Mesh) : Mesh * res unit :=
          if poly_contains_segment P s then mupd 95%N last_added (tp_constrain e) m else (m, Ok tt) in
        let '(t2, r) := c (seg_new v0 v1) Ab t1 in do _ <- r;
        let '(t3, r) := c (seg_new v1 v2) Bc t2 in do _ <- r;
        let '(t4, r) := c (seg_new v2 v0) Ca t3 in do _ <- r;
        do the_loop' <- loop_remove the_loop (Nat.modulo (anchor + 1) n);
        do R <- fp_loop_tr P fuel' count anchor the_loop' t4;
        Ok (fst R, rec_san (tr_ear (v0, v1, v2) (snd R)))
      else
        do R <- fp_loop_tr P fuel' count (S anchor) the_loop t;
        Ok (fst R, rec_san (snd R))
    end.
  Definition from_polygon_tr (P : Poly K) : res (Mesh * Trace) :=
    do the_loop <- poly_get_closed_loop P;
    let '(the_loop, r) := loop_close the_loop in
    do _ <- r;
    if Nat.ltb (llen the_loop) 2 then Panic 92%N else
    fp_loop_tr P MAX_ITER 0 0 the_loop mesh_new.

  (** ** (i) erasure: forgetting the trace gives the modelled function *)
  Lemma rmap_rbind {A B C} (f : B -> C) (r : res A) (k : A -> res B) : rmap f (rbind r k) = rbind r (fun a => rmap f (k a)).
  Proof. destruct r; reflexivity. Qed.
  Lemma rbind_ext {A B} (r : res A) (k k' : A -> res B) : (forall a, k a = k' a) -> rbind r k = rbind r k'.
  Proof. intros H. destruct r; [apply H | reflexivity..]. Qed.
  (* after [rmap_rbind] the two sides bind the same computation: go under the binder *)
  Ltac under_bind := rewrite rmap_rbind; apply rbind_ext.
  Lemma fp_loop_erase (P : Poly K) : forall (fuel count anchor : nat) (L : Loop K) (t : Mesh),
    fp_loop P fuel count anchor L t = rmap fst (fp_loop_tr P fuel count anchor L t).
  Proof.
    induction fuel as [|fuel IH]; intros count anchor L t; [reflexivity|]. cbn [fp_loop fp_loop_tr].
    under_bind; intros L1.
    destruct (Nat.eqb (llen L1) 2).
    { destruct (mark_neighbourhouds t) as [t' r]. under_bind. reflexivity. }
    destruct (Nat.eqb (llen L1) 0); [reflexivity|].
    under_bind; intros v0. under_bind; intros v1. under_bind; intros v2.
    under_bind; intros is_line. under_bind; intros is_diag. under_bind; intros [|].
    - destruct (mesh_push v0 v1 v2 (n_triangles t) t) as [t1 r]. under_bind; intros _.
      destruct (if poly_contains_segment P (seg_new v0 v1) then _ else _) as [t2 r2]. under_bind; intros _.
      destruct (if poly_contains_segment P (seg_new v1 v2) then _ else _) as [t3 r3]. under_bind; intros _.
      destruct (if poly_contains_segment P (seg_new v2 v0) then _ else _) as [t4 r4]. under_bind; intros _.
      under_bind; intros L2. rewrite IH, rmap_rbind. reflexivity.
    - rewrite IH, rmap_rbind. reflexivity.
  Qed.
  Theorem from_polygon_erase (P : Poly K) : from_polygon P = rmap fst (from_polygon_tr P).
  Proof.
    unfold from_polygon, from_polygon_tr. destruct (poly_get_closed_loop P) as [Lm| |]; cbn [rbind rmap]; try reflexivity.
    destruct (loop_close Lm) as [L [[]| |]]; cbn [rbind rmap]; try reflexivity.
    destruct (Nat.ltb (llen L) 2); [reflexivity|]. apply fp_loop_erase.
  Qed.
  (** every successful call has a trace, every traced success is a success of the modelled function with the same mesh *)
  Corollary from_polygon_has_trace (P : Poly K) (M : Mesh) :
    from_polygon P = Ok M <-> exists tr : Trace, from_polygon_tr P = Ok (M, tr).
  Proof.
    rewrite from_polygon_erase. destruct (from_polygon_tr P) as [[M' tr]| |]; cbn [rmap fst]; split.
    - intros H; inversion H; subst. exists tr. reflexivity.
    - intros [tr' H]. inversion H; subst. reflexivity.
    - discriminate.
    - intros [tr' H]; discriminate.
    - discriminate.
    - intros [tr' H]; discriminate.
  Qed.

  (** ** (ii) the run is an ear decomposition *)
  Definition tri3 (t : TP) : V * V * V := (ta (tp_tri t), tb (tp_tri t), tc (tp_tri t)).
  Lemma remove_nth_remove_at (i : nat) (l : list V) : remove_nth i l = Cyclic.remove_at i l.
  Proof. revert i; induction l as [|x l IH]; intros [|i]; try reflexivity. unfold Cyclic.remove_at in *. cbn [remove_nth firstn skipn app]. rewrite IH. reflexivity. Qed.
  Lemma loop_index_nth (L : Loop K) (i : nat) (v : V) : loop_index L i = Ok v -> nth_error (verts L) i = Some v.
  Proof. unfold loop_index. destruct (nth_error (verts L) i); [|discriminate]. intros H; inversion H; reflexivity. Qed.

  (** what the code has checked of an ear (v0, v1, v2) clipped off the loop with vertex list l (fix 4bb2ed8) *)
  Definition ear_ok (P : Poly K) (l : list V) (e : V * V * V) : Prop :=
    let '(v0, v1, v2) := e in
    is_collinear v0 v1 v2 = Ok false /\
    (exists Lp : Loop K, verts Lp = l /\ loop_is_diagonal Lp (seg_new v0 v2) = Ok true) /\
    ear_convex P v0 v1 v2 = true /\
    (exists ear : Tri K, tri_new v0 v1 v2 = Ok ear /\ ear_blocked ear v0 v1 v2 l = false).
  Lemma ear_test_true (P : Poly K) (L : Loop K) (v0 v1 v2 : V) (is_line is_diag : bool) :
    ear_test P L v0 v1 v2 is_line is_diag = Ok true ->
    is_line = false /\ is_diag = true /\ ear_convex P v0 v1 v2 = true /\
    exists ear : Tri K, tri_new v0 v1 v2 = Ok ear /\ ear_blocked ear v0 v1 v2 (verts L) = false.
  Proof.
    unfold ear_test. destruct is_line, is_diag; cbn [negb andb]; try discriminate.
    destruct (ear_convex P v0 v1 v2); cbn [negb]; [|discriminate].
    destruct (tri_new v0 v1 v2) as [ear| |]; cbn [rbind]; try discriminate.
    destruct (ear_blocked ear v0 v1 v2 (verts L)) eqn:Eb; cbn [negb]; [discriminate|]. intros _.
    repeat split. exists ear. split; [reflexivity | exact Eb].
  Qed.

  (** [ear_blocked] = false: every vertex of the loop is one of the three corners (for Point3D::compare) or is
      classified Outside by the triangle's point test *)
  Lemma ear_blocked_false (ear : Tri K) (v0 v1 v2 : V) (l : list V) :
    ear_blocked ear v0 v1 v2 l = false <->
    forall p, In p l -> (vcompare p v0 || vcompare p v1 || vcompare p v2) = true \/ tri_test_point ear p = Outside.
  Proof.
    induction l as [|x l IH]; cbn [ear_blocked]; [split; [intros _ p [] | reflexivity]|].
    destruct (vcompare x v0 || vcompare x v1 || vcompare x v2) eqn:Ec.
    - rewrite IH. split; [intros H p [<-|Hp]; [left; exact Ec | apply H; exact Hp] | intros H p Hp; apply H; right; exact Hp].
    - destruct (tri_test_point ear x) eqn:Et; try (split; [discriminate | intros H; destruct (H x (or_introl eq_refl)) as [H'|H']; congruence]).
      rewrite IH. split; [intros H p [<-|Hp]; [right; exact Et | apply H; exact Hp] | intros H p Hp; apply H; right; exact Hp].
  Qed.

  Lemma fp_loop_tr_step (P : Poly K) (fuel count anchor : nat) (L : Loop K) (t M : Mesh) (tr : Trace) :
    fp_loop_tr P (S fuel) count anchor L t = Ok (M, tr) ->
    exists (L1 : Loop K) (tr1 : Trace),
      (if Nat.eqb (Nat.modulo (S count) 10) 0 then loop_sanitize L else Ok L) = Ok L1 /\
      tr = tr_san (Nat.eqb (Nat.modulo (S count) 10) 0) (verts L, verts L1) tr1 /\
      ((llen L1 = 2 /\ Rtri t M /\ tr1 = ([], [])) \/
       llen L1 <> 0 /\ exists v0 v1 v2 : V,
         loop_index L1 (Nat.modulo anchor (llen L1)) = Ok v0 /\
         loop_index L1 (Nat.modulo (anchor + 1) (llen L1)) = Ok v1 /\
         loop_index L1 (Nat.modulo (anchor + 2) (llen L1)) = Ok v2 /\
         (fp_loop_tr P fuel (S count) (S anchor) L1 t = Ok (M, tr1) \/
          exists (is_line is_diag : bool) (t1 t4 : Mesh) (n1 : nat) (L2 : Loop K) (tr2 : Trace),
            is_collinear v0 v1 v2 = Ok is_line /\ loop_is_diagonal L1 (seg_new v0 v2) = Ok is_diag /\
            ear_test P L1 v0 v1 v2 is_line is_diag = Ok true /\
            mesh_push v0 v1 v2 (length (tris t)) t = (t1, Ok n1) /\ Rtri t1 t4 /\
            loop_remove L1 (Nat.modulo (anchor + 1) (llen L1)) = Ok L2 /\
            fp_loop_tr P fuel (S count) anchor L2 t4 = Ok (M, tr2) /\ tr1 = tr_ear (v0, v1, v2) tr2)).
  Proof.
    cbn [fp_loop_tr]. intros H.
    destruct (if Nat.eqb (Nat.modulo (S count) 10) 0 then loop_sanitize L else Ok L) as [L1| |]; cbn [rbind] in H; try discriminate.
    exists L1.
    destruct (Nat.eqb (llen L1) 2) eqn:E2.
    { destruct (mark_neighbourhouds t) as [t' r] eqn:Em. destruct r as [[]| |]; cbn [rbind] in H; try discriminate.
      injection H as <- <-. exists ([], []). split; [reflexivity|]. split; [reflexivity|]. left.
      split; [apply Nat.eqb_eq; exact E2|]. split; [exact (rtri_neighbourhouds _ _ _ Em) | reflexivity]. }
    destruct (Nat.eqb (llen L1) 0) eqn:E0; [discriminate|]. apply Nat.eqb_neq in E0.
    destruct (loop_index L1 (Nat.modulo anchor (llen L1))) as [v0| |]; cbn [rbind] in H; try discriminate.
    destruct (loop_index L1 (Nat.modulo (anchor + 1) (llen L1))) as [v1| |]; cbn [rbind] in H; try discriminate.
    destruct (loop_index L1 (Nat.modulo (anchor + 2) (llen L1))) as [v2| |]; cbn [rbind] in H; try discriminate.
    destruct (is_collinear v0 v1 v2) as [is_line| |] eqn:Eline; cbn [rbind] in H; try discriminate.
    destruct (loop_is_diagonal L1 (seg_new v0 v2)) as [is_diag| |] eqn:Ediag; cbn [rbind] in H; try discriminate.
    destruct (ear_test P L1 v0 v1 v2 is_line is_diag) as [is_ear| |] eqn:Etest; cbn [rbind] in H; try discriminate.
    destruct is_ear.
    - destruct (mesh_push v0 v1 v2 (n_triangles t) t) as [t1 r] eqn:Ep. destruct r as [n1| |]; cbn [rbind] in H; try discriminate.
      assert (Hc : forall (sg : Seg K) (e : Edge) (m m' : Mesh) (r : res unit),
                 (if poly_contains_segment P sg then mupd 95%N (n_triangles t) (tp_constrain e) m else (m, Ok tt)) = (m', r) -> Rtri m m').
      { intros sg e m m' r Hm. destruct (poly_contains_segment P sg); [|inversion Hm; subst; reflexivity].
        eapply rtri_mupd; [intros ?; apply constrain_tri | exact Hm]. }
      destruct (if poly_contains_segment P (seg_new v0 v1) then mupd 95%N (n_triangles t) (tp_constrain Ab) t1 else (t1, Ok tt)) as [t2 r2] eqn:Ec2.
      apply Hc in Ec2. destruct r2 as [[]| |]; cbn [rbind] in H; try discriminate.
      destruct (if poly_contains_segment P (seg_new v1 v2) then mupd 95%N (n_triangles t) (tp_constrain Bc) t2 else (t2, Ok tt)) as [t3 r3] eqn:Ec3.
      apply Hc in Ec3. destruct r3 as [[]| |]; cbn [rbind] in H; try discriminate.
      destruct (if poly_contains_segment P (seg_new v2 v0) then mupd 95%N (n_triangles t) (tp_constrain Ca) t3 else (t3, Ok tt)) as [t4 r4] eqn:Ec4.
      apply Hc in Ec4. destruct r4 as [[]| |]; cbn [rbind] in H; try discriminate.
      destruct (loop_remove L1 (Nat.modulo (anchor + 1) (llen L1))) as [L2| |] eqn:Er; cbn [rbind] in H; try discriminate.
      destruct (fp_loop_tr P fuel (S count) anchor L2 t4) as [[M' tr2]| |] eqn:Erec; cbn [rbind fst snd] in H; try discriminate.
      injection H as <- <-. exists (tr_ear (v0, v1, v2) tr2). split; [reflexivity|]. split; [reflexivity|]. right. split; [exact E0|].
      exists v0, v1, v2. do 3 (split; [reflexivity|]). right.
      exists is_line, is_diag, t1, t4, n1, L2, tr2. repeat split; try assumption.
      exact (Rtri_trans _ _ _ (Rtri_trans _ _ _ Ec2 Ec3) Ec4).
    - destruct (fp_loop_tr P fuel (S count) (S anchor) L1 t) as [[M' tr1]| |]; cbn [rbind fst snd] in H; try discriminate.
      injection H as <- <-. exists tr1. split; [reflexivity|]. split; [reflexivity|]. right. split; [exact E0|].
      exists v0, v1, v2. do 3 (split; [reflexivity|]). left. reflexivity.
  Qed.

  (** [push] with [last_added] = the current length appends the triangle that [Triangle3D::new] builds ([get_first_invalid]
      starts beyond the last slot and finds nothing, whatever the validity flags) *)
  Definition built (e : V * V * V) (u : Tri K) : Prop := tri_new (fst (fst e)) (snd (fst e)) (snd e) = Ok u.
  Lemma push_at_end_new (a b c : V) (M M' : Mesh) (n : nat) :
    mesh_push a b c (length (tris M)) M = (M', Ok n) -> exists t, tris M' = tris M ++ [t] /\ built (a, b, c) (tp_tri t).
  Proof.
    unfold mesh_push, get_first_invalid. rewrite Nat.ltb_irrefl.
    destruct (tp_new a b c (length (tris M))) as [t| |] eqn:E; intros H; inversion H; subst.
    exists t. split; [reflexivity|]. unfold tp_new in E. unfold built. cbn [fst snd].
    destruct (tri_new a b c) as [u| |]; cbn [rbind] in E; try discriminate. inversion E; reflexivity.
  Qed.
  Lemma built_tri3 (es : list (V * V * V)) (l : list TP) : Forall2 built es (map tp_tri l) -> map tri3 l = es.
  Proof.
    revert es; induction l as [|t l IH]; intros es F; inversion F as [|[[a b] c] u es' us Hb F']; subst; [reflexivity|].
    apply tri_new_verts in Hb. cbn [fst snd] in Hb. destruct Hb as (Ea & Eb & Ec).
    cbn [map]. unfold tri3 at 1. rewrite (IH _ F'), Ea, Eb, Ec. reflexivity.
  Qed.

  Lemma fp_loop_tr_run (P : Poly K) : forall (fuel count anchor : nat) (L : Loop K) (t M : Mesh) (tr : Trace),
    fp_loop_tr P fuel count anchor L t = Ok (M, tr) ->
    clip_runP (ear_ok P) (verts L) (fst tr) (snd tr) /\
    exists us : list (Tri K), map tp_tri (tris M) = map tp_tri (tris t) ++ us /\ Forall2 built (fst tr) us.
  Proof.
    induction fuel as [|fuel IH]; intros count anchor L t M tr H; [discriminate|].
    destruct (fp_loop_tr_step P _ _ _ _ _ _ _ H) as (L1 & tr1 & EL1 & -> & Hstep).
    assert (Hsan : fst (tr_san (Nat.eqb (Nat.modulo (S count) 10) 0) (verts L, verts L1) tr1) = fst tr1 /\
                   (clip_runP (ear_ok P) (verts L1) (fst tr1) (snd tr1) ->
                    clip_runP (ear_ok P) (verts L) (fst tr1) (snd (tr_san (Nat.eqb (Nat.modulo (S count) 10) 0) (verts L, verts L1) tr1)))).
    { unfold tr_san. destruct (Nat.eqb (Nat.modulo (S count) 10) 0); split; try reflexivity; [apply crp_san|].
      injection EL1 as ->. exact (fun x => x). }
    destruct Hsan as [-> Hsan].
    destruct Hstep as [(E2 & Em & ->) | (E0 & v0 & v1 & v2 & Ev0 & Ev1 & Ev2 & [Erec | Hear])].
    - split.
      + apply Hsan. unfold llen in E2. cbn [fst snd]. destruct (verts L1) as [|a [|b [|c l]]]; try discriminate. apply crp_two.
      + exists []. split; [rewrite app_nil_r; exact Em | constructor].
    - destruct (IH _ _ _ _ _ _ Erec) as (D & EM). split; [apply Hsan; exact D | exact EM].
    - destruct Hear as (is_line & is_diag & t1 & t4 & n1 & L2 & tr2 & Eline & Ediag & Etest & Ep & E14 & Er & Erec & ->).
      destruct (IH _ _ _ _ _ _ Erec) as (D & us & EM & F). apply push_at_end_new in Ep. destruct Ep as (tp & Etp & Enew).
      unfold tr_ear in *. cbn [fst snd] in *. split.
      + apply Hsan. unfold loop_remove in Er. destruct (Nat.ltb _ _); [|discriminate]. injection Er as <-. cbn [verts set_verts] in D.
        rewrite remove_nth_remove_at in D. unfold llen in *.
        apply (clip_runP_anchor V (ear_ok P) (verts L1) anchor); [exact E0 | apply loop_index_nth; exact Ev0 | apply loop_index_nth; exact Ev1 | apply loop_index_nth; exact Ev2 | | exact D].
        apply ear_test_true in Etest. destruct Etest as (-> & -> & Hcv & Hbl).
        split; [exact Eline|]. split; [exists L1; split; [reflexivity | exact Ediag]|]. split; assumption.
      + exists (tp_tri tp :: us). split; [|constructor; [exact Enew | exact F]].
        unfold Rtri in E14. rewrite EM, E14, Etp, map_app, <- app_assoc. reflexivity.
  Qed.

  (** ** the general form (any behaviour of [sanitize]): ear steps and recorded replacements of the loop *)
  Lemma from_polygon_tr_run (P : Poly K) (M : Mesh) (tr : Trace) :
    from_polygon_tr P = Ok (M, tr) ->
    exists Lm : Loop K, poly_get_closed_loop P = Ok Lm /\ snd (loop_close Lm) = Ok tt /\
      clip_runP (ear_ok P) (verts (fst (loop_close Lm))) (fst tr) (snd tr) /\ Forall2 built (fst tr) (map tp_tri (tris M)).
  Proof.
    unfold from_polygon_tr. destruct (poly_get_closed_loop P) as [Lm| |]; cbn [rbind]; try discriminate.
    destruct (loop_close Lm) as [L r] eqn:Ec. destruct r as [[]| |]; cbn [rbind]; try discriminate.
    destruct (Nat.ltb (llen L) 2); [discriminate|]. intros H. exists Lm. split; [reflexivity|]. rewrite Ec. cbn [fst snd]. split; [reflexivity|].
    destruct (fp_loop_tr_run P _ _ _ _ _ _ _ H) as (D & us & EM & F). cbn [mesh_new tris map app] in EM. rewrite EM. split; assumption.
  Qed.
  Theorem from_polygon_clip_runP (P : Poly K) (M : Mesh) (tr : Trace) :
    from_polygon_tr P = Ok (M, tr) ->
    exists Lm : Loop K, poly_get_closed_loop P = Ok Lm /\ snd (loop_close Lm) = Ok tt /\
      clip_runP (ear_ok P) (verts (fst (loop_close Lm))) (fst tr) (snd tr) /\ map tri3 (tris M) = fst tr.
  Proof.
    intros H. destruct (from_polygon_tr_run P M tr H) as (Lm & H1 & H2 & D & F). exists Lm. repeat split; try assumption.
    apply built_tri3. exact F.
  Qed.
  Theorem from_polygon_clip_run (P : Poly K) (M : Mesh) (tr : Trace) :
    from_polygon_tr P = Ok (M, tr) ->
    exists Lm : Loop K, poly_get_closed_loop P = Ok Lm /\ snd (loop_close Lm) = Ok tt /\
      clip_run (verts (fst (loop_close Lm))) (fst tr) (snd tr) /\ map tri3 (tris M) = fst tr.
  Proof.
    intros H. destruct (from_polygon_clip_runP P M tr H) as (Lm & H1 & H2 & D & EM). exists Lm. repeat split; try assumption.
    eapply clip_runP_forget. exact D.
  Qed.
  (** ** every clipped ear passed the ear test (fix 4bb2ed8): in any successful run, every ear of the trace -- every triangle
      of the mesh -- is non-collinear, its chord was a diagonal of the loop at that moment, its corner is convex for the
      polygon's normal, and no other vertex of the loop at that moment lies in it *)
  Theorem from_polygon_ears_checked (P : Poly K) (M : Mesh) (tr : Trace) :
    from_polygon_tr P = Ok (M, tr) -> Forall (fun e => exists l : list V, ear_ok P l e) (fst tr).
  Proof.
    intros H. destruct (from_polygon_clip_runP P M tr H) as (Lm & _ & _ & D & _).
    eapply clip_runP_Forall; [|exact D]. intros l e Hok. exists l. exact Hok.
  Qed.
  Theorem from_polygon_ears_convex (P : Poly K) (M : Mesh) :
    from_polygon P = Ok M ->
    Forall (fun t => ear_convex P (ta (tp_tri t)) (tb (tp_tri t)) (tc (tp_tri t)) = true) (tris M).
  Proof.
    intros H. apply from_polygon_has_trace in H. destruct H as [tr H].
    destruct (from_polygon_clip_runP P M tr H) as (Lm & _ & _ & D & EM).
    assert (F : Forall (fun e : V * V * V => ear_convex P (fst (fst e)) (snd (fst e)) (snd e) = true) (fst tr)).
    { eapply clip_runP_Forall; [|exact D]. intros l [[v0 v1] v2] (_ & _ & Hc & _). exact Hc. }
    rewrite <- EM in F. rewrite Forall_map in F. exact F.
  Qed.

  (** ** a successful, sanitize-stable [from_polygon] is an ear decomposition of the closed merged outline *)
  Theorem from_polygon_ears (P : Poly K) (M : Mesh) (tr : Trace) :
    from_polygon_tr P = Ok (M, tr) -> sanitize_unchanged tr ->
    exists Lm : Loop K, poly_get_closed_loop P = Ok Lm /\ snd (loop_close Lm) = Ok tt /\
      let L := fst (loop_close Lm) in
      ear_decomp2 (verts L) (fst tr) /\
      map tri3 (tris M) = fst tr /\
      length (tris M) + 2 = llen L /\
      (3 <= llen L -> exists Ts', Cyclic.ear_decomp (verts L) Ts' /\ Forall2 trot (fst tr) Ts').
  Proof.
    intros H Hs. destruct (from_polygon_clip_runP P M tr H) as (Lm & H1 & H2 & D & EM). exists Lm. split; [exact H1|]. split; [exact H2|].
    apply clip_runP_forget in D. apply clip_run_unchanged in D; [|exact Hs].
    split; [exact D|]. split; [exact EM|]. split.
    - pose proof (ear_decomp2_length _ _ _ D) as HL. unfold llen. rewrite HL, <- EM, map_length. reflexivity.
    - intros H3. apply ear_decomp2_to_ear_decomp; assumption.
  Qed.
  (** the same, starting from the modelled function *)
  Corollary from_polygon_ok_ears (P : Poly K) (M : Mesh) :
    from_polygon P = Ok M ->
    exists tr : Trace, from_polygon_tr P = Ok (M, tr) /\
      (sanitize_unchanged tr ->
       exists Lm : Loop K, poly_get_closed_loop P = Ok Lm /\ snd (loop_close Lm) = Ok tt /\
         let L := fst (loop_close Lm) in
         ear_decomp2 (verts L) (map tri3 (tris M)) /\ length (tris M) + 2 = llen L).
  Proof.
    intros H. apply from_polygon_has_trace in H. destruct H as [tr H]. exists tr. split; [exact H|]. intros Hs.
    destruct (from_polygon_ears P M tr H Hs) as (Lm & H1 & H2 & D & EM & HL & _). exists Lm. rewrite EM. repeat split; assumption.
  Qed.

  (** ** packaging: the closed merged outline of a polygon; a successful run none of whose sanitize calls changed the loop *)
  Definition outline_of (P : Poly K) (L : Loop K) : Prop :=
    exists Lm : Loop K, poly_get_closed_loop P = Ok Lm /\ snd (loop_close Lm) = Ok tt /\ L = fst (loop_close Lm).
  Definition stable_run (P : Poly K) (M : Mesh) : Prop :=
    exists tr : Trace, from_polygon_tr P = Ok (M, tr) /\ sanitize_unchanged tr.
  Lemma stable_run_ok (P : Poly K) (M : Mesh) : stable_run P M -> from_polygon P = Ok M.
  Proof. intros (tr & H & _). apply from_polygon_has_trace. exists tr. exact H. Qed.
  Lemma stable_run_outline (P : Poly K) (M : Mesh) : stable_run P M -> exists L, outline_of P L.
  Proof. intros (tr & H & Hs). destruct (from_polygon_ears P M tr H Hs) as (Lm & H1 & H2 & _). exists (fst (loop_close Lm)), Lm. repeat split; assumption. Qed.
  Theorem stable_run_ears (P : Poly K) (M : Mesh) (L : Loop K) :
    stable_run P M -> outline_of P L ->
    ear_decomp2 (verts L) (map tri3 (tris M)) /\ length (tris M) + 2 = llen L.
  Proof.
    intros (tr & H & Hs) (Lm & E1 & E2 & EL). destruct (from_polygon_ears P M tr H Hs) as (Lm' & H1 & H2 & D & EM & HL & _).
    rewrite E1 in H1. injection H1 as <-. subst L. rewrite EM. split; assumption.
  Qed.

  (** ** the stored normal of every triangle of a successful [from_polygon] is the one [Triangle3D::new] computes from its corners *)
  Definition normal_ok (u : Tri K) : Prop := tnormal u = tri_normal_of (ta u) (tb u) (tc u).
  Lemma tri_new_normal (a b c : V) (u : Tri K) : tri_new a b c = Ok u -> normal_ok u.
  Proof.
    unfold tri_new. destruct (_ || _); [discriminate|].
    destruct (unwrap _ _) as [col| |]; cbn [rbind]; try discriminate. destruct col; [discriminate|]. intros E; inversion E; reflexivity.
  Qed.
  Theorem from_polygon_normals (P : Poly K) (M : Mesh) :
    from_polygon P = Ok M -> Forall (fun x => normal_ok (tp_tri x)) (tris M).
  Proof.
    intros H. apply from_polygon_has_trace in H. destruct H as [tr H]. destruct (from_polygon_tr_run P M tr H) as (_ & _ & _ & _ & F).
    apply Forall_map. induction F as [|e u es us Hb F IH]; constructor; [exact (tri_new_normal _ _ _ _ Hb) | exact IH].
  Qed.
End Trace.
Arguments csum_ear_decomp2 {A G rO rI radd rmul rsub ropp} Gth f f_anti f_self L Ts _.
Arguments csum_clip_run {A G rO rI radd rmul rsub ropp} Gth f f_anti f_self L Ts S _.
Arguments san_defect {A G} rO radd rsub f S.

(** * 3. The identities over the reals *)
From G3 Require Import Theory.RInst Theory.LoopGeom Proofs.C05_pointtest Proofs.C05_winding.
From G3 Require Theory.Winding Theory.Shoelace.
Local Open Scope R_scope.

Notation PP := Winding.P2.
Notation T2 := (PP * PP * PP)%type.

(** ** pure list facts about [count_inside] and the signed index *)
Lemma tsum_index_count (Ts : list T2) (q : PP) :
  (forall a b c, In (a, b, c) Ts -> 0 < Winding.orient a b c) ->
  Cyclic.tsum 0%Z Z.add (fun a b c => Winding.tri_index a b c q) Ts = Z.of_nat (Winding.count_inside Ts q).
Proof.
  induction Ts as [|[[a b] c] Ts IH]; intros Hpos; [reflexivity|].
  rewrite Cyclic.tsum_cons, Winding.count_inside_cons, Nat2Z.inj_add, IH by (intros; apply Hpos; right; assumption).
  f_equal. unfold Winding.tri_index. rewrite (Winding.rlt_true _ _ (Hpos a b c (or_introl eq_refl))).
  destruct (Winding.inside_trib a b c q); reflexivity.
Qed.
Lemma count_zero_none (Ts : list T2) (q : PP) :
  Winding.count_inside Ts q = 0%nat -> forall a b c, In (a, b, c) Ts -> ~ Winding.inside_tri a b c q.
Proof.
  intros H0 a b c Hin Hins. apply in_split in Hin. destruct Hin as (l1 & l2 & ->).
  rewrite Winding.count_inside_app, Winding.count_inside_cons in H0. apply Winding.inside_trib_spec in Hins. rewrite Hins in H0. lia.
Qed.
Lemma count_le1_no_overlap (q : PP) (l1 l2 l3 : list T2) (a b c a' b' c' : PP) :
  (Winding.count_inside (l1 ++ (a, b, c) :: l2 ++ (a', b', c') :: l3) q <= 1)%nat ->
  Winding.inside_tri a b c q -> Winding.inside_tri a' b' c' q -> False.
Proof.
  intros H H1 H2. rewrite Winding.count_inside_app, Winding.count_inside_cons, Winding.count_inside_app, Winding.count_inside_cons in H.
  apply Winding.inside_trib_spec in H1. apply Winding.inside_trib_spec in H2. rewrite H1, H2 in H. lia.
Qed.
Lemma count_pos_cover (Ts : list T2) (q : PP) :
  (0 < Winding.count_inside Ts q)%nat -> exists a b c, In (a, b, c) Ts /\ Winding.inside_tri a b c q.
Proof.
  induction Ts as [|[[a b] c] Ts IH]; intros H; [cbn in H; lia|].
  rewrite Winding.count_inside_cons in H. destruct (Winding.inside_trib a b c q) eqn:E.
  - exists a, b, c. split; [left; reflexivity | apply Winding.inside_trib_spec; exact E].
  - destruct IH as (a' & b' & c' & Hin & Hins); [cbn in H; lia|]. exists a', b', c'. split; [right; exact Hin | exact Hins].
Qed.
Lemma count_cover_pos (Ts : list T2) (q : PP) (a b c : PP) :
  In (a, b, c) Ts -> Winding.inside_tri a b c q -> (0 < Winding.count_inside Ts q)%nat.
Proof.
  intros Hin Hins. destruct (Nat.eq_dec (Winding.count_inside Ts q) 0) as [E|E]; [|lia].
  exfalso. exact (count_zero_none Ts q E a b c Hin Hins).
Qed.

Definition area_defect (S : list (list PP * list PP)) : R :=
  fold_right (fun p acc => (2 * Shoelace.area2 (fst p) - 2 * Shoelace.area2 (snd p)) + acc) 0 S.
Definition wn_defect (d q : PP) (S : list (list PP * list PP)) : Z :=
  fold_right (fun p acc => ((Winding.wn d (fst p) q - Winding.wn d (snd p) q) + acc)%Z) 0%Z S.
Section CR2.
  Variables (L : list PP) (Ts : list T2) (S : list (list PP * list PP)).
  Hypothesis C : clip_run L Ts S.
  Lemma cr_area2_doubled : 2 * Shoelace.area2 L = Cyclic.tsum 0 Rplus Winding.orient Ts + area_defect S.
  Proof.
    unfold Shoelace.area2 at 1. rewrite (csum_clip_run RTheory _ Shoelace.cross2_anti Shoelace.cross2_self L Ts S C).
    replace (2 * (/ 2 * (Cyclic.tsum 0 Rplus (Cyclic.tri 0 Rplus Shoelace.cross2) Ts + san_defect 0 Rplus Rminus Shoelace.cross2 S)))
      with (Cyclic.tsum 0 Rplus (Cyclic.tri 0 Rplus Shoelace.cross2) Ts + san_defect 0 Rplus Rminus Shoelace.cross2 S) by field.
    f_equal.
    - apply Cyclic.tsum_ext_in. intros a b c _. apply Shoelace.tri_cross2.
    - clear C. unfold san_defect, area_defect, Shoelace.area2. induction S as [|p S' IH]; [reflexivity|]. cbn [fold_right]. rewrite IH. field.
  Qed.
  Lemma cr_wn (d q : PP) :
    Winding.wn d L q = (Cyclic.tsum 0%Z Z.add (fun a b c => Winding.wn d [a; b; c] q) Ts + wn_defect d q S)%Z.
  Proof.
    unfold Winding.wn at 1. exact (csum_clip_run InitialRing.Zth _ (Winding.crdf_anti d q) (Winding.crdf_self d q) L Ts S C).
  Qed.
End CR2.

(** ** an ear decomposition (down to two vertices) of a planar chain *)
Section ED2.
  Variables (L : list PP) (Ts : list T2).
  Hypothesis D : ear_decomp2 L Ts.

  (** signed area: the shoelace sum of the chain is the sum of the ears' doubled signed areas *)
  Lemma ed2_area2_doubled : 2 * Shoelace.area2 L = Cyclic.tsum 0 Rplus Winding.orient Ts.
  Proof. rewrite (cr_area2_doubled L Ts [] (proj1 (ear_decomp2_clip_run _ L Ts) D)). cbn [area_defect fold_right]. ring. Qed.
  Lemma ed2_area2 : Shoelace.area2 L = Cyclic.tsum 0 Rplus (fun a b c => Shoelace.area2 [a; b; c]) Ts.
  Proof.
    unfold Shoelace.area2 at 1. rewrite (csum_ear_decomp2 RTheory _ Shoelace.cross2_anti Shoelace.cross2_self L Ts D).
    rewrite <- (Cyclic.tsum_hom (A := PP) 0 Rplus 0 Rplus (fun x => / 2 * x)); [|ring|intros; ring].
    apply Cyclic.tsum_ext_in. intros a b c _. reflexivity.
  Qed.
  (** if every ear is counter-clockwise (or degenerate), the area is the sum of the ears' absolute areas *)
  Lemma ed2_area2_abs : (forall a b c, In (a, b, c) Ts -> 0 <= Winding.orient a b c) ->
    Shoelace.area2 L = Cyclic.tsum 0 Rplus (fun a b c => Rabs (Shoelace.area2 [a; b; c])) Ts.
  Proof.
    intros Hpos. rewrite ed2_area2. apply Cyclic.tsum_ext_in. intros a b c Hin.
    rewrite Rabs_right; [reflexivity|]. rewrite Shoelace.area2_tri. specialize (Hpos a b c Hin). lra.
  Qed.

  (** winding number: the chain's is the sum of the ears' (every ray, every point) *)
  Lemma ed2_wn (d q : PP) : Winding.wn d L q = Cyclic.tsum 0%Z Z.add (fun a b c => Winding.wn d [a; b; c] q) Ts.
  Proof.
    unfold Winding.wn. exact (csum_ear_decomp2 InitialRing.Zth _ (Winding.crdf_anti d q) (Winding.crdf_self d q) L Ts D).
  Qed.
  Lemma ed2_generic (d q : PP) : Winding.generic d q L -> forall a b c, In (a, b, c) Ts -> Winding.generic d q [a; b; c].
  Proof.
    intros Hg a b c Hin. destruct (ear_decomp2_In _ _ _ D a b c Hin) as (Ha & Hb & Hc).
    intros v [Hv|[Hv|[Hv|[]]]]; subst; apply Hg; assumption.
  Qed.
  (** for a generic ray and a point on the boundary of no non-degenerate ear: the sum of the ears' signed indicator functions *)
  Lemma ed2_wn_index (d q : PP) : Winding.generic d q L ->
    (forall a b c, In (a, b, c) Ts -> Winding.orient a b c <> 0 -> Winding.off_segs a b c q) ->
    Winding.wn d L q = Cyclic.tsum 0%Z Z.add (fun a b c => Winding.tri_index a b c q) Ts.
  Proof.
    intros Hg Hoff. rewrite ed2_wn. apply Cyclic.tsum_ext_in. intros a b c Hin.
    apply Winding.wn_triangle_index_seg; [apply ed2_generic; assumption | apply Hoff; exact Hin].
  Qed.
  (** the reduction: all ears counter-clockwise => the winding number COUNTS the ears that contain the point *)
  Lemma ed2_count (d q : PP) : Winding.generic d q L ->
    (forall a b c, In (a, b, c) Ts -> 0 < Winding.orient a b c /\ Winding.off_segs a b c q) ->
    Winding.wn d L q = Z.of_nat (Winding.count_inside Ts q).
  Proof.
    intros Hg Hpos. rewrite ed2_wn_index; [|exact Hg | intros a b c Hin _; apply Hpos; exact Hin].
    apply tsum_index_count. intros a b c Hin. apply Hpos. exact Hin.
  Qed.
End ED2.

(** the same through the theory's [Cyclic.ear_decomp] and [Winding.tiling_of_positive_ears] (point off the ears' edge LINES):
    the rotation of the last ear's corners is invisible to [count_inside], to [orient] and to [off_lines] *)
Lemma inside_trib_rot (a b c q : PP) : Winding.inside_trib b c a q = Winding.inside_trib a b c q.
Proof.
  destruct (Winding.inside_trib b c a q) eqn:E1, (Winding.inside_trib a b c q) eqn:E2; try reflexivity.
  - apply Winding.inside_trib_spec in E1. apply (proj1 (Winding.inside_tri_rot a b c q)) in E1. apply Winding.inside_trib_spec in E1. congruence.
  - apply Winding.inside_trib_spec in E2. apply (proj2 (Winding.inside_tri_rot a b c q)) in E2. apply Winding.inside_trib_spec in E2. congruence.
Qed.
Lemma count_inside_trot (Ts Ts' : list T2) (q : PP) : Forall2 trot Ts Ts' -> Winding.count_inside Ts' q = Winding.count_inside Ts q.
Proof.
  intros F; induction F as [|[[a b] c] t' Ts Ts' Ht F IH]; [reflexivity|].
  cbn in Ht. destruct Ht as [-> | [-> | ->]]; rewrite !Winding.count_inside_cons, IH; f_equal.
  - rewrite inside_trib_rot. reflexivity.
  - rewrite <- inside_trib_rot, <- inside_trib_rot. reflexivity.
Qed.
Lemma trot_In (Ts Ts' : list T2) (t' : T2) : Forall2 trot Ts Ts' -> In t' Ts' -> exists t, In t Ts /\ trot t t'.
Proof.
  intros F; induction F as [|t u Ts Ts' Ht F IH]; intros Hin; [destruct Hin|].
  destruct Hin as [<-|Hin]; [exists t; split; [left; reflexivity | exact Ht]|].
  destruct (IH Hin) as (x & Hx & Hr). exists x. split; [right; exact Hx | exact Hr].
Qed.
Theorem ed2_count_via_theory (L : list PP) (Ts : list T2) (d q : PP) :
  ear_decomp2 L Ts -> (3 <= length L)%nat -> Winding.generic d q L ->
  (forall a b c, In (a, b, c) Ts -> 0 < Winding.orient a b c /\ Winding.off_lines a b c q) ->
  exists Ts', Cyclic.ear_decomp L Ts' /\ Forall2 trot Ts Ts' /\
    Winding.wn d L q = Z.of_nat (Winding.count_inside Ts' q) /\ Winding.count_inside Ts' q = Winding.count_inside Ts q.
Proof.
  intros D H3 Hg Hpos. destruct (ear_decomp2_to_ear_decomp _ L Ts D H3) as (Ts' & E & F). exists Ts'. split; [exact E|]. split; [exact F|].
  split; [|apply count_inside_trot; exact F].
  apply (Winding.tiling_of_positive_ears d q L Ts' E Hg). intros a b c Hin.
  destruct (trot_In Ts Ts' _ F Hin) as ([[x y] z] & Hx & Hr). destruct (Hpos x y z Hx) as (Ho & O1 & O2 & O3). cbn in Hr.
  destruct Hr as [Hr|[Hr|Hr]]; injection Hr as -> -> ->.
  - repeat split; assumption.
  - rewrite Winding.orient_rot. repeat split; assumption.
  - rewrite <- Winding.orient_rot. repeat split; assumption.
Qed.

(** the reduction needs the orientation of the ears (which the code checks): the dart A B C D with the reflex vertex B, clipped at B first.  The ear
    (A, B, C) is clockwise; the point q lies OUTSIDE the dart (winding number 0) and is covered by BOTH ears. *)
Theorem negative_ear_breaks_count :
  exists (L : list PP) (Ts : list T2) (d q : PP),
    ear_decomp2 L Ts /\ Winding.generic d q L /\ (forall a b c, In (a, b, c) Ts -> Winding.off_lines a b c q) /\
    (exists a b c, In (a, b, c) Ts /\ Winding.orient a b c < 0) /\
    Winding.wn d L q = 0%Z /\ Winding.count_inside Ts q = 2%nat.
Proof.
  set (A := (0, 0) : PP). set (B := (2, 1) : PP). set (C := (4, 0) : PP). set (E := (2, 4) : PP).
  exists [A; B; C; E], [(A, B, C); (E, A, C)], ((1, 0) : PP), ((2, / 2) : PP).
  assert (D : ear_decomp2 [A; B; C; E] [(A, B, C); (E, A, C)]).
  { apply (ed2_step PP [A] [C; E] B). apply (ed2_step PP [] [C; E] A). apply ed2_two. }
  assert (G : Winding.generic (1, 0) (2, / 2) [A; B; C; E]).
  { intros v [<-|[<-|[<-|[<-|[]]]]]; unfold Winding.hgt, A, B, C, E; cbn [fst snd]; lra. }
  assert (O : forall a b c, In (a, b, c) [(A, B, C); (E, A, C)] -> Winding.off_lines a b c (2, / 2)).
  { intros a b c [H|[H|[]]]; injection H as <- <- <-; unfold Winding.off_lines, Winding.orient, A, B, C, E; cbn [fst snd]; repeat split; lra. }
  split; [exact D|]. split; [exact G|]. split; [exact O|]. split.
  - exists A, B, C. split; [left; reflexivity|]. unfold Winding.orient, A, B, C; cbn [fst snd]. lra.
  - split.
    + rewrite (ed2_wn_index _ _ D _ _ G) by (intros a b c Hin _; apply Winding.off_lines_off_segs; apply O; exact Hin).
      unfold Cyclic.tsum, Winding.tri_index, Winding.inside_trib, Winding.insb, Winding.orient, A, B, C, E. cbn [fold_right fst snd]. Winding.rlt_eval. reflexivity.
    + unfold Winding.count_inside, Winding.inside_trib, Winding.insb, Winding.orient, A, B, C, E. cbn [filter fst snd]. Winding.rlt_eval. reflexivity.
Qed.

(** * 4. The model's outline and triangles (real instance) in plane coordinates *)
Section Frame.
  (** ANY frame: o a point, e1 and e2 two vectors; coordinates p |-> (e1 . (p - o), e2 . (p - o)).  With e1, e2
      orthonormal and spanning the polygon's plane these are isometric coordinates of the plane, e1 x e2 is the unit
      normal, [area2] of the projection is the signed area and [orient] twice the signed area of a triangle. *)
  Variables (o e1 e2 : V).
  Notation pr := (plane2 o e1 e2).
  Notation nrm := (vcross e1 e2).

  Definition proj_outline (L : Loop R) : list PP := map pr (verts L).
  Definition proj_tris (M : Mesh R) : list T2 := map (fun t => map3 pr (tri3 t)) (tris M).

  Lemma proj_tris_In (M : Mesh R) (a b c : PP) :
    In (a, b, c) (proj_tris M) <-> exists t, In t (tris M) /\ a = pr (ta (tp_tri t)) /\ b = pr (tb (tp_tri t)) /\ c = pr (tc (tp_tri t)).
  Proof.
    unfold proj_tris. rewrite in_map_iff. split.
    - intros (t & E & Hin). unfold map3, tri3 in E. cbn [fst snd] in E. injection E as <- <- <-. exists t. repeat split. exact Hin.
    - intros (t & Hin & -> & -> & ->). exists t. split; [reflexivity | exact Hin].
  Qed.

  (** the doubled signed area of a projected triangle is the normal component of its cross product (Binet-Cauchy) *)
  Lemma orient_plane2 (a b c : V) : Winding.orient (pr a) (pr b) (pr c) = vdot nrm (vcross (vsub b a) (vsub c a)).
  Proof. rewrite <- orient2_is_orient. unfold orient2. rewrite binet_cauchy, !(planev_sub o). reflexivity. Qed.
  (** ... and has the sign of the normal component of the triangle's stored (normalized) normal *)
  Lemma vnormalize_side (n w : V) : 0 < vdot n (vnormalize w) -> 0 < vdot n w.
  Proof.
    assert (E : vdot n (vnormalize w) = vdot n w * (1 / vlen w)) by (unfold vnormalize, vdot; cbn [vx vy vz]; rnum; ring).
    rewrite E. intros H. assert (Hl : 0 <= vlen w) by (unfold vlen; rnum; apply sqrt_pos).
    destruct (Req_dec (vlen w) 0) as [Z|NZ].
    - rewrite Z in H. unfold Rdiv in H. rewrite Rinv_0 in H. lra.
    - assert (Hi : 0 < 1 / vlen w) by (apply Rdiv_lt_0_compat; lra). nra.
  Qed.
  Lemma normal_side_orient (u : Tri R) :
    normal_ok u -> 0 < vdot nrm (tnormal u) -> 0 < Winding.orient (pr (ta u)) (pr (tb u)) (pr (tc u)).
  Proof.
    unfold normal_ok, tri_normal_of. intros -> H. apply vnormalize_side in H. rewrite orient_plane2.
    replace (vcross (vsub (tb u) (ta u)) (vsub (tc u) (ta u))) with (vcross (vsub (tb u) (ta u)) (vsub (tc u) (tb u))); [exact H|].
    apply v3_eq; vunf; rnum; ring.
  Qed.

  (** the shoelace area of the projected outline is the normal component of the model's Newell vector
      ([sum_cross], what [set_area] computes: LoopGeom.sum_cross_newell) *)
  Lemma vdot_chain (n : V) (l : list V) : vdot n (chain vadd vzero vcross l) = chain Rplus 0 (fun a b => vdot n (vcross a b)) l.
  Proof.
    induction l as [|a l IH]; [apply vdot_zero_r|]. destruct l as [|b l]; [apply vdot_zero_r|].
    rewrite !chain_cons2, vdot_add_r, IH. reflexivity.
  Qed.
  Lemma newell_dot_csum (n : V) (vs : list V) : vdot n (newell vs) = Cyclic.csum 0 Rplus (fun a b => vdot n (vcross a b)) vs.
  Proof.
    rewrite <- cyc_csum. unfold newell, cyc. destruct vs as [|v l]; [apply vdot_zero_r|]. apply vdot_chain.
  Qed.
  Theorem area2_plane2_newell (vs : list V) : 2 * Shoelace.area2 (map pr vs) = vdot nrm (newell vs).
  Proof.
    rewrite newell_dot_csum.
    assert (Et : map pr vs = map (fun p : PP => (fst (plane2 o e1 e2 vzero) + fst p, snd (plane2 o e1 e2 vzero) + snd p)) (map (planev e1 e2) vs)).
    { rewrite map_map. apply map_ext. intros p. unfold plane2, planev, vdot, vsub, vzero. cbn [vx vy vz fst snd]. rnum. f_equal; ring. }
    rewrite Et, Shoelace.area2_translate. unfold Shoelace.area2. rewrite Cyclic.csum_map.
    replace (2 * (/ 2 * Cyclic.csum 0 Rplus (fun a b : V => Shoelace.cross2 (planev e1 e2 a) (planev e1 e2 b)) vs))
      with (Cyclic.csum 0 Rplus (fun a b : V => Shoelace.cross2 (planev e1 e2 a) (planev e1 e2 b)) vs) by field.
    apply Cyclic.csum_ext. intros a b. rewrite binet_cauchy. unfold det2, Shoelace.cross2. ring.
  Qed.

  (** ** a sanitize-stable successful run, projected *)
  Lemma stable_run_proj (P : Poly R) (M : Mesh R) (L : Loop R) :
    stable_run P M -> outline_of P L -> ear_decomp2 (proj_outline L) (proj_tris M).
  Proof.
    intros Hr Ho. destruct (stable_run_ears P M L Hr Ho) as [D _]. unfold proj_outline, proj_tris.
    rewrite <- (map_map tri3 (map3 pr)). apply ear_decomp2_map. exact D.
  Qed.

  (** ** every successful run (whatever [sanitize] does): the identities with one defect term per recorded sanitize call *)
  Theorem run_identities_general (P : Poly R) (M : Mesh R) (tr : Trace) :
    from_polygon_tr P = Ok (M, tr) ->
    exists L : Loop R, outline_of P L /\
      (let S2 := map (map_pair pr) (snd tr) in
       (2 * Shoelace.area2 (proj_outline L) = Cyclic.tsum 0 Rplus Winding.orient (proj_tris M) + area_defect S2) /\
       (forall d q : PP,
          Winding.wn d (proj_outline L) q =
          (Cyclic.tsum 0%Z Z.add (fun a b c => Winding.wn d [a; b; c] q) (proj_tris M) + wn_defect d q S2)%Z)).
  Proof.
    intros H. destruct (from_polygon_clip_run P M tr H) as (Lm & H1 & H2 & C & EM). exists (fst (loop_close Lm)).
    split; [exists Lm; repeat split; assumption|]. cbn zeta.
    apply (clip_run_map pr) in C. rewrite <- EM in C. rewrite (map_map tri3 (map3 pr)) in C. fold (proj_tris M) in C. fold (proj_outline (fst (loop_close Lm))) in C.
    split; [exact (cr_area2_doubled _ _ _ C) | intros d q; exact (cr_wn _ _ _ C d q)].
  Qed.

  Section Run.
    Variables (P : Poly R) (M : Mesh R) (L : Loop R).
    Hypothesis Hrun : stable_run P M.
    Hypothesis Hout : outline_of P L.
    Notation L2 := (proj_outline L).
    Notation Ts := (proj_tris M).

    (** signed area: Newell / shoelace of the outline = sum over the returned triangles *)
    Theorem ears_area_identity : 2 * Shoelace.area2 L2 = Cyclic.tsum 0 Rplus Winding.orient Ts.
    Proof. apply ed2_area2_doubled. exact (stable_run_proj P M L Hrun Hout). Qed.
    Theorem ears_area_identity_3d :
      vdot nrm (newell (verts L)) =
      fold_right (fun t acc => vdot nrm (vcross (vsub (tb (tp_tri t)) (ta (tp_tri t))) (vsub (tc (tp_tri t)) (ta (tp_tri t)))) + acc) 0 (tris M).
    Proof.
      rewrite <- area2_plane2_newell. fold (proj_outline L). rewrite ears_area_identity. unfold proj_tris, Cyclic.tsum.
      induction (tris M) as [|t l IH]; [reflexivity|]. cbn [map fold_right]. rewrite IH. f_equal.
      unfold map3, tri3. cbn [fst snd]. apply orient_plane2.
    Qed.
    (** winding number, every ray and every point *)
    Theorem ears_winding_identity (d q : PP) :
      Winding.wn d L2 q = Cyclic.tsum 0%Z Z.add (fun a b c => Winding.wn d [a; b; c] q) Ts.
    Proof. apply ed2_wn. exact (stable_run_proj P M L Hrun Hout). Qed.
    (** generic ray, point on the boundary of no non-degenerate triangle: sum of sign(T) * [q strictly inside T] *)
    Theorem ears_winding_index (d q : PP) : Winding.generic d q L2 ->
      (forall a b c, In (a, b, c) Ts -> Winding.orient a b c <> 0 -> Winding.off_segs a b c q) ->
      Winding.wn d L2 q = Cyclic.tsum 0%Z Z.add (fun a b c => Winding.tri_index a b c q) Ts.
    Proof. apply ed2_wn_index. exact (stable_run_proj P M L Hrun Hout). Qed.

    Hypothesis Hpos : forall a b c, In (a, b, c) Ts -> 0 < Winding.orient a b c.

    Theorem ears_tiling_count (d q : PP) : Winding.generic d q L2 ->
      (forall a b c, In (a, b, c) Ts -> Winding.off_segs a b c q) ->
      Winding.wn d L2 q = Z.of_nat (Winding.count_inside Ts q).
    Proof.
      intros Hg Hoff. apply ed2_count; [exact (stable_run_proj P M L Hrun Hout) | exact Hg|].
      intros a b c Hin. split; [apply Hpos | apply Hoff]; exact Hin.
    Qed.
    (** where the outline does not wind (outside the polygon, or in a hole) no triangle covers the point *)
    Theorem ears_tiling_outside (d q : PP) : Winding.generic d q L2 ->
      (forall a b c, In (a, b, c) Ts -> Winding.off_segs a b c q) ->
      Winding.wn d L2 q = 0%Z -> forall a b c, In (a, b, c) Ts -> ~ Winding.inside_tri a b c q.
    Proof. intros Hg Hoff Hw. apply count_zero_none. rewrite (ears_tiling_count d q Hg Hoff) in Hw. lia. Qed.
    (** where the outline winds at most once no two triangles (two different positions of the list) overlap *)
    Theorem ears_tiling_no_overlap (d q : PP) : Winding.generic d q L2 ->
      (forall a b c, In (a, b, c) Ts -> Winding.off_segs a b c q) ->
      (Winding.wn d L2 q <= 1)%Z ->
      forall (l1 l2 l3 : list T2) (a b c a' b' c' : PP), Ts = l1 ++ (a, b, c) :: l2 ++ (a', b', c') :: l3 ->
        Winding.inside_tri a b c q -> Winding.inside_tri a' b' c' q -> False.
    Proof.
      intros Hg Hoff Hw l1 l2 l3 a b c a' b' c' E. rewrite (ears_tiling_count d q Hg Hoff) in Hw. apply (count_le1_no_overlap q l1 l2 l3).
      rewrite <- E. lia.
    Qed.
    (** where the outline winds (inside the polygon) some triangle covers the point *)
    Theorem ears_tiling_cover (d q : PP) : Winding.generic d q L2 ->
      (forall a b c, In (a, b, c) Ts -> Winding.off_segs a b c q) ->
      (0 < Winding.wn d L2 q)%Z -> exists a b c, In (a, b, c) Ts /\ Winding.inside_tri a b c q.
    Proof. intros Hg Hoff Hw. apply count_pos_cover. rewrite (ears_tiling_count d q Hg Hoff) in Hw. lia. Qed.
    (** together, for a valid (Jordan) input, 0 <= wn <= 1: a point is covered iff it is inside, and then exactly once *)
    Theorem ears_tile_exactly (d q : PP) : Winding.generic d q L2 ->
      (forall a b c, In (a, b, c) Ts -> Winding.off_segs a b c q) ->
      (0 <= Winding.wn d L2 q <= 1)%Z ->
      (Winding.wn d L2 q = 1%Z <-> exists a b c, In (a, b, c) Ts /\ Winding.inside_tri a b c q) /\
      Winding.count_inside Ts q = (if Z.eqb (Winding.wn d L2 q) 1 then 1 else 0)%nat /\
      (forall (l1 l2 l3 : list T2) (a b c a' b' c' : PP), Ts = l1 ++ (a, b, c) :: l2 ++ (a', b', c') :: l3 ->
         Winding.inside_tri a b c q -> Winding.inside_tri a' b' c' q -> False).
    Proof.
      intros Hg Hoff Hw. pose proof (ears_tiling_count d q Hg Hoff) as Ec. split; [split|split].
      - intros H1. apply (ears_tiling_cover d q Hg Hoff). lia.
      - intros (a & b & c & Hin & Hins). pose proof (count_cover_pos _ q a b c Hin Hins). lia.
      - destruct (Z.eqb_spec (Winding.wn d L2 q) 1); lia.
      - apply (ears_tiling_no_overlap d q Hg Hoff). lia.
    Qed.
    (** the triangle areas sum to the polygon's area *)
    Theorem ears_area_sum : Shoelace.area2 L2 = Cyclic.tsum 0 Rplus (fun a b c => Rabs (Shoelace.area2 [a; b; c])) Ts.
    Proof. apply ed2_area2_abs; [exact (stable_run_proj P M L Hrun Hout)|]. intros a b c Hin. apply Rlt_le, Hpos, Hin. Qed.
    Theorem ears_area_positive : (1 <= length (tris M))%nat -> 0 < Shoelace.area2 L2.
    Proof.
      intros Hn. assert (H2 : 0 < 2 * Shoelace.area2 L2); [|lra]. rewrite ears_area_identity. clear Hrun Hout. revert Hpos Hn. unfold proj_tris.
      destruct (tris M) as [|t l]; [cbn; lia|]. intros Hp _. cbn [map] in *. remember (map3 pr (tri3 t)) as x eqn:Ex. destruct x as [[a b] c].
      rewrite Cyclic.tsum_cons. pose proof (Hp a b c (or_introl eq_refl)) as H1.
      match goal with |- 0 < _ + ?s => assert (H0 : 0 <= s) end.
      { apply Shoelace.tsum_nonneg. intros a' b' c' Hin. apply Rlt_le, Hp. right. exact Hin. }
      lra.
    Qed.
  End Run.

  (** the orientation hypothesis in the model's own terms: the stored normal of every triangle on the side of e1 x e2 *)
  Lemma positive_normals_positive_ears (P : Poly R) (M : Mesh R) :
    from_polygon P = Ok M -> (forall t, In t (tris M) -> 0 < vdot nrm (tnormal (tp_tri t))) ->
    forall a b c, In (a, b, c) (proj_tris M) -> 0 < Winding.orient a b c.
  Proof.
    intros Hok Hn a b c Hin. apply proj_tris_In in Hin. destruct Hin as (t & Hin & -> & -> & ->).
    apply normal_side_orient; [|apply Hn; exact Hin]. pose proof (from_polygon_normals P M Hok) as F. rewrite Forall_forall in F. apply F. exact Hin.
  Qed.
  (** ** the orientation hypothesis is PROVED (fix 4bb2ed8): every clipped ear passed [ear_convex], i.e.
      ((v1 - v0) x (v2 - v1)) . pnormal P > 0; when the polygon's normal is a positive multiple of the frame normal
      e1 x e2 this is 0 < orient of the projected ear ([orient_plane2]).  No planarity of the outline is needed. *)
  Definition frame_normal (P : Poly R) : Prop := exists k : R, 0 < k /\ pnormal P = vscale nrm k.
  Lemma frame_normal_eq (P : Poly R) : pnormal P = nrm -> frame_normal P.
  Proof. intros E. exists 1. split; [lra|]. rewrite E. apply v3_eq; vunf; rnum; ring. Qed.
  Lemma ear_convex_orient (P : Poly R) (a b c : V) :
    frame_normal P -> ear_convex P a b c = true -> 0 < Winding.orient (pr a) (pr b) (pr c).
  Proof.
    intros (k & Hk & En) H. unfold ear_convex in H. rnum. apply Rltb_true in H. rewrite En in H. rewrite orient_plane2.
    assert (E : vdot (vcross (vsub b a) (vsub c b)) (vscale nrm k) = k * vdot nrm (vcross (vsub b a) (vsub c a))) by (vunf; rnum; ring).
    rewrite E in H. nra.
  Qed.
  Theorem ears_positive (P : Poly R) (M : Mesh R) :
    from_polygon P = Ok M -> frame_normal P -> forall a b c, In (a, b, c) (proj_tris M) -> 0 < Winding.orient a b c.
  Proof.
    intros Hok Hn a b c Hin. apply proj_tris_In in Hin. destruct Hin as (t & Hin & -> & -> & ->).
    apply (ear_convex_orient P); [exact Hn|]. pose proof (from_polygon_ears_convex P M Hok) as F. rewrite Forall_forall in F. apply F. exact Hin.
  Qed.

  Section RunProved.
    Variables (P : Poly R) (M : Mesh R) (L : Loop R).
    Hypothesis Hrun : stable_run P M.
    Hypothesis Hout : outline_of P L.
    Hypothesis Hn : frame_normal P.
    Notation L2 := (proj_outline L).
    Notation Ts := (proj_tris M).
    Lemma run_pos : forall a b c, In (a, b, c) Ts -> 0 < Winding.orient a b c.
    Proof. exact (ears_positive P M (stable_run_ok P M Hrun) Hn). Qed.
    Theorem ears_tiling_count_proved (d q : PP) : Winding.generic d q L2 ->
      (forall a b c, In (a, b, c) Ts -> Winding.off_segs a b c q) ->
      Winding.wn d L2 q = Z.of_nat (Winding.count_inside Ts q).
    Proof. exact (ears_tiling_count P M L Hrun Hout run_pos d q). Qed.
    Theorem ears_tile_exactly_proved (d q : PP) : Winding.generic d q L2 ->
      (forall a b c, In (a, b, c) Ts -> Winding.off_segs a b c q) ->
      (0 <= Winding.wn d L2 q <= 1)%Z ->
      (Winding.wn d L2 q = 1%Z <-> exists a b c, In (a, b, c) Ts /\ Winding.inside_tri a b c q) /\
      Winding.count_inside Ts q = (if Z.eqb (Winding.wn d L2 q) 1 then 1 else 0)%nat /\
      (forall (l1 l2 l3 : list T2) (a b c a' b' c' : PP), Ts = l1 ++ (a, b, c) :: l2 ++ (a', b', c') :: l3 ->
         Winding.inside_tri a b c q -> Winding.inside_tri a' b' c' q -> False).
    Proof. exact (ears_tile_exactly P M L Hrun Hout run_pos d q). Qed.
    Theorem ears_area_sum_proved : Shoelace.area2 L2 = Cyclic.tsum 0 Rplus (fun a b c => Rabs (Shoelace.area2 [a; b; c])) Ts.
    Proof. exact (ears_area_sum P M L Hrun Hout run_pos). Qed.
    Theorem ears_area_positive_proved : (1 <= length (tris M))%nat -> 0 < Shoelace.area2 L2.
    Proof. exact (ears_area_positive P M L Hrun Hout run_pos). Qed.
  End RunProved.

  (** every triangle lies in the plane of the outline *)
  Lemma ears_in_plane (P : Poly R) (M : Mesh R) (L : Loop R) (n : V) :
    stable_run P M -> outline_of P L -> (forall v, In v (verts L) -> vdot n (vsub v o) = 0) ->
    forall t, In t (tris M) -> vdot n (vsub (ta (tp_tri t)) o) = 0 /\ vdot n (vsub (tb (tp_tri t)) o) = 0 /\ vdot n (vsub (tc (tp_tri t)) o) = 0.
  Proof.
    intros Hr Ho Hpl t Hin. destruct (stable_run_ears P M L Hr Ho) as [D _].
    destruct (ear_decomp2_In _ _ _ D (ta (tp_tri t)) (tb (tp_tri t)) (tc (tp_tri t))) as (Ha & Hb & Hc).
    { change (ta (tp_tri t), tb (tp_tri t), tc (tp_tri t)) with (tri3 t). apply in_map. exact Hin. }
    repeat split; apply Hpl; assumption.
  Qed.
End Frame.

(** the triangle's point test over the reals: [Outside] iff one of the three barycentric coordinates the code computes
    is below -ctiny (ctiny = 100 * EPSILON of the instance); so [ear_blocked = false] says that every other vertex of
    the loop has a barycentric coordinate < -ctiny w.r.t. the ear (in particular lies outside the closed triangle) *)
Definition tri_bary (t : Tri R) (p : V) : R * R * R :=
  let e1 := vsub (tb t) (ta t) in
  let e2 := vsub (tc t) (ta t) in
  let pa := vsub p (ta t) in
  let det := vdot e1 e1 * vdot e2 e2 - vdot e2 e1 * vdot e2 e1 in
  let alpha := (vdot e2 e2 * vdot e1 pa - vdot e2 e1 * vdot e2 pa) / det in
  let beta := (- vdot e2 e1 * vdot e1 pa + vdot e1 e1 * vdot e2 pa) / det in
  (alpha, beta, 1 - alpha - beta).
Lemma tri_test_point_outside (t : Tri R) (p : V) :
  tri_test_point t p = Outside <->
  (fst (fst (tri_bary t p)) < - ctiny \/ snd (fst (tri_bary t p)) < - ctiny \/ snd (tri_bary t p) < - ctiny).
Proof.
  unfold tri_test_point, tri_bary. cbn zeta. cbn [fst snd]. rnum.
  match goal with |- context [if ?c then _ else Outside] => destruct c eqn:Ec end.
  - apply andb_prop in Ec. destruct Ec as [Ec E3]. apply andb_prop in Ec. destruct Ec as [E1 E2].
    apply Rleb_true in E1. apply Rleb_true in E2. apply Rleb_true in E3. split.
    + intros H. repeat match type of H with context [if ?b then _ else _] => destruct b end; discriminate.
    + intros [H|[H|H]]; exfalso; lra.
  - split; [intros _|reflexivity]. apply andb_false_iff in Ec. destruct Ec as [Ec|E3].
    + apply andb_false_iff in Ec. destruct Ec as [E1|E2]; [apply Rleb_false in E1; left; lra | apply Rleb_false in E2; right; left; lra].
    + apply Rleb_false in E3. right; right; lra.
Qed.

(** reading the coordinates: for an ORTHONORMAL frame e1 x e2 is a unit vector and [plane2 o e1 e2] is a bijection from the
    plane through o spanned by e1, e2 onto R^2 (with inverse (x, y) |-> o + x e1 + y e2); so [area2] of the projection is
    the true signed area and "strictly inside the projected triangle" is "strictly inside the triangle" *)
Lemma frame_unit_normal (e1 e2 : V) : vdot e1 e1 = 1 -> vdot e2 e2 = 1 -> vdot e1 e2 = 0 -> vdot (vcross e1 e2) (vcross e1 e2) = 1.
Proof.
  destruct e1 as [a1 a2 a3], e2 as [b1 b2 b3]. unfold vdot, vcross. cbn [vx vy vz]. rnum. intros H1 H2 H3.
  replace ((a2 * b3 - a3 * b2) * (a2 * b3 - a3 * b2) + (a3 * b1 - a1 * b3) * (a3 * b1 - a1 * b3) + (a1 * b2 - a2 * b1) * (a1 * b2 - a2 * b1))
    with ((a1 * a1 + a2 * a2 + a3 * a3) * (b1 * b1 + b2 * b2 + b3 * b3) - (a1 * b1 + a2 * b2 + a3 * b3) * (a1 * b1 + a2 * b2 + a3 * b3)) by ring.
  rewrite H1, H2, H3. ring.
Qed.
Lemma frame_reconstruct (o e1 e2 p : V) :
  vdot e1 e1 = 1 -> vdot e2 e2 = 1 -> vdot e1 e2 = 0 -> vdot (vcross e1 e2) (vsub p o) = 0 ->
  p = vadd o (vadd (vscale e1 (fst (plane2 o e1 e2 p))) (vscale e2 (snd (plane2 o e1 e2 p)))).
Proof.
  destruct o as [o1 o2 o3], e1 as [a1 a2 a3], e2 as [b1 b2 b3], p as [p1 p2 p3].
  unfold plane2, vdot, vcross, vsub, vadd, vscale. cbn [vx vy vz fst snd]. rnum. intros H1 H2 H3 H4.
  apply v3_eq; cbn [vx vy vz]; NsatzTactic.nsatz_default.
Qed.

(** * 5. Non-vacuity: a cross-shaped dodecagon (12 vertices, 4 reflex corners, integer coordinates) *)
(** On the executed binary64 instance [from_polygon] succeeds with 10 = 12 - 2 triangles; the 10th pass calls
    [sanitize] on the 6 remaining vertices and returns the same list.  [from_polygon_ears] then gives the ear decomposition
    of the float outline; mapped to the reals (the coordinates are small integers, exactly representable) it is an
    ear decomposition of the real cross whose ears are all counter-clockwise, and the reduction applies at
    q = (5/4, 8/5) with the ray (1, 0): the winding number 1 counts the single ear that contains q.
    (A run of the REAL instance cannot be exhibited by computation -- the reals do not evaluate -- so the
    hypothesis [stable_run] of the theorems of section 4 is witnessed on the float instance only.) *)
From Coq Require Import Floats.
From G3 Require Import Model.NumF Proofs.Mesh_witness.
Definition ex_coords : list (Z * Z) := [(1,0);(2,0);(2,1);(3,1);(3,2);(2,2);(2,3);(1,3);(1,2);(0,2);(0,1);(1,1)]%Z.
Definition ex_ears : list ((Z * Z) * (Z * Z) * (Z * Z)) :=
  [((1,0),(2,0),(2,1)); ((2,1),(3,1),(3,2)); ((2,1),(3,2),(2,2)); ((2,2),(2,3),(1,3)); ((2,2),(1,3),(1,2));
   ((1,2),(0,2),(0,1)); ((1,2),(0,1),(1,1)); ((1,1),(1,0),(2,1)); ((2,1),(2,2),(1,2)); ((1,2),(1,1),(2,1))]%Z.
Definition zp (p : Z * Z) : V3 float := mkV3 (of_uint63 (Uint63.of_Z (fst p))) (of_uint63 (Uint63.of_Z (snd p))) (of_uint63 (Uint63.of_Z 0)).
Definition zr (p : Z * Z) : PP := (IZR (fst p), IZR (snd p)).
(** the integer value of a (small, integral) float *)
Definition fz (f : float) : Z :=
  match Prim2SF f with
  | S754_finite s m e => (if s then -1 else 1) * Z.shiftl (Zpos m) e
  | _ => 0
  end%Z.
Definition fzp (v : V3 float) : Z * Z := (fz (vx v), fz (vy v)).
Definition ex_poly : Poly float := get dummy_poly (build_poly (map zp ex_coords) []).
Definition ex_q : PP := (5 / 4, 8 / 5).
Definition ex_d : PP := (1, 0).

Lemma ex_run :
  exists (M : Mesh float) (tr : Trace) (Lm : Loop float),
    from_polygon_tr ex_poly = Ok (M, tr) /\ sanitize_unchanged tr /\ length (snd tr) = 1%nat /\
    poly_get_closed_loop ex_poly = Ok Lm /\ snd (loop_close Lm) = Ok tt /\
    verts (fst (loop_close Lm)) = map zp ex_coords /\ fst tr = map (map3 zp) ex_ears /\ length (tris M) = 10%nat.
Proof.
  eexists. eexists. eexists. split; [vm_compute; reflexivity|]. split; [vm_compute; repeat constructor|]. split; [vm_compute; reflexivity|].
  split; [vm_compute; reflexivity|]. repeat split; vm_compute; reflexivity.
Qed.
Lemma ex_stable_run : exists M : Mesh float, stable_run ex_poly M /\ from_polygon ex_poly = Ok M /\ length (tris M) = 10%nat.
Proof.
  destruct ex_run as (M & tr & Lm & H1 & Hs & _ & _ & _ & _ & _ & H10). exists M. split; [exists tr; split; assumption|]. split; [|exact H10].
  apply stable_run_ok. exists tr. split; assumption.
Qed.
Lemma ex_ear_decomp2 : ear_decomp2 (map zr ex_coords) (map (map3 zr) ex_ears).
Proof.
  destruct ex_run as (M & tr & Lm & H1 & Hs & _ & H2 & _ & HV & HE & _).
  destruct (from_polygon_ears ex_poly M tr H1 Hs) as (Lm' & G1 & _ & D & _). rewrite H2 in G1. injection G1 as <-.
  rewrite HV, HE in D. apply (ear_decomp2_map fzp) in D.
  assert (E1 : map fzp (map zp ex_coords) = ex_coords) by (vm_compute; reflexivity).
  assert (E2 : map (map3 fzp) (map (map3 zp) ex_ears) = ex_ears) by (vm_compute; reflexivity).
  rewrite E1, E2 in D. apply (ear_decomp2_map zr) in D. exact D.
Qed.
Ltac ins_eval :=
  match goal with
  | |- context [Winding.inside_trib ?a ?b ?c ?q] =>
    first [ replace (Winding.inside_trib a b c q) with true
              by (symmetry; apply Winding.inside_trib_spec; unfold Winding.inside_tri, Winding.orient; cbn [fst snd]; left; repeat split; lra)
          | replace (Winding.inside_trib a b c q) with false
              by (symmetry; apply Winding.inside_trib_false; unfold Winding.inside_tri, Winding.orient; cbn [fst snd];
                  intros [(H1 & H2 & H3)|(H1 & H2 & H3)]; lra) ]
  end.
Lemma ex_hypotheses :
  let L2 := map zr ex_coords in let Ts := map (map3 zr) ex_ears in
  ear_decomp2 L2 Ts /\ Winding.generic ex_d ex_q L2 /\
  (forall a b c, In (a, b, c) Ts -> 0 < Winding.orient a b c /\ Winding.off_segs a b c ex_q) /\
  Winding.wn ex_d L2 ex_q = 1%Z /\ Winding.count_inside Ts ex_q = 1%nat /\ Shoelace.area2 L2 = 5.
Proof.
  cbn zeta. pose proof ex_ear_decomp2 as D.
  assert (G : Winding.generic ex_d ex_q (map zr ex_coords)).
  { intros v Hv. unfold ex_coords in Hv. cbn [map] in Hv. unfold zr in Hv. cbn [fst snd] in Hv.
    repeat (destruct Hv as [<-|Hv]; [unfold Winding.hgt, ex_d, ex_q; cbn [fst snd]; lra|]). destruct Hv. }
  assert (Hp : forall a b c, In (a, b, c) (map (map3 zr) ex_ears) -> 0 < Winding.orient a b c /\ Winding.off_lines a b c ex_q).
  { intros a b c Hin. unfold ex_ears in Hin. cbn [map] in Hin. unfold map3, zr in Hin. cbn [fst snd] in Hin.
    repeat (destruct Hin as [Hin|Hin]; [injection Hin as <- <- <-; unfold Winding.off_lines, Winding.orient, ex_q; cbn [fst snd]; repeat split; lra|]).
    destruct Hin. }
  assert (Hp' : forall a b c, In (a, b, c) (map (map3 zr) ex_ears) -> 0 < Winding.orient a b c /\ Winding.off_segs a b c ex_q).
  { intros a b c Hin. destruct (Hp a b c Hin) as [H1 H2]. split; [exact H1 | apply Winding.off_lines_off_segs; exact H2]. }
  assert (C1 : Winding.count_inside (map (map3 zr) ex_ears) ex_q = 1%nat).
  { unfold ex_ears, map3, zr, ex_q. cbn [map fst snd]. rewrite !Winding.count_inside_cons. repeat ins_eval. reflexivity. }
  split; [exact D|]. split; [exact G|]. split; [exact Hp'|]. split; [|split; [exact C1|]].
  - rewrite (ed2_count _ _ D _ _ G Hp'), C1. reflexivity.
  - assert (H2 : 2 * Shoelace.area2 (map zr ex_coords) = 10); [|lra]. rewrite (ed2_area2_doubled _ _ D).
    unfold Cyclic.tsum, Winding.orient, ex_ears, map3, zr. cbn [map fold_right fst snd]. lra.
Qed.

(** ** second example, with a HOLE: the unit square with the triangular hole (0.3,0.3) (0.45,0.6) (0.6,0.3) ([w1_poly] of
    Proofs/Mesh_witness.v; before fix 4bb2ed8 a reversed ear covered the hole).  The merged outline has 9 vertices (the
    bridge (0,0)-(0.3,0.3) is walked twice); the run gives 7 = 9 - 2 triangles, one [sanitize] call (4 vertices, unchanged),
    every ear passes [ear_convex].  Over the reals, in units of 1/20 (any map of the vertices carries an ear decomposition
    along: here the float coordinates are read as the nearest multiple of 1/20): all 7 ears are counter-clockwise; a point
    of the region is covered once, a point IN THE HOLE has winding number 0 and is covered by no triangle; area 400 - 18. *)
Definition ex2_coords : list (Z * Z) := [(0,0);(6,6);(9,12);(12,6);(6,6);(0,0);(20,0);(20,20);(0,20)]%Z.
Definition ex2_ears : list ((Z * Z) * (Z * Z) * (Z * Z)) :=
  [((0,0),(6,6),(9,12)); ((12,6),(6,6),(0,0)); ((12,6),(0,0),(20,0)); ((12,6),(20,0),(20,20));
   ((0,20),(0,0),(9,12)); ((9,12),(12,6),(20,20)); ((20,20),(0,20),(9,12))]%Z.
Definition fz20 (f : float) : Z := fz (PrimFloat.add (PrimFloat.mul f (of_uint63 (Uint63.of_Z 20))) (PrimFloat.div (of_uint63 (Uint63.of_Z 1)) (of_uint63 (Uint63.of_Z 2)))).
Definition fzp20 (v : V3 float) : Z * Z := (fz20 (vx v), fz20 (vy v)).
Definition ex2_q : PP := (163 / 10, 41 / 10).
Definition ex2_qhole : PP := (91 / 10, 83 / 10).

Lemma ex2_run :
  exists (M : Mesh float) (tr : Trace) (Lm : Loop float),
    from_polygon_tr w1_poly = Ok (M, tr) /\ sanitize_unchanged tr /\ length (snd tr) = 1%nat /\ length (pinner w1_poly) = 1%nat /\
    poly_get_closed_loop w1_poly = Ok Lm /\ snd (loop_close Lm) = Ok tt /\
    map fzp20 (verts (fst (loop_close Lm))) = ex2_coords /\ map (map3 fzp20) (fst tr) = ex2_ears /\ length (tris M) = 7%nat /\
    forallb (fun e => ear_convex w1_poly (fst (fst e)) (snd (fst e)) (snd e)) (fst tr) = true.
Proof.
  eexists. eexists. eexists. split; [vm_compute; reflexivity|]. split; [vm_compute; repeat constructor|]. split; [vm_compute; reflexivity|].
  split; [vm_compute; reflexivity|]. split; [vm_compute; reflexivity|]. repeat split; vm_compute; reflexivity.
Qed.
Lemma ex2_ear_decomp2 : ear_decomp2 (map zr ex2_coords) (map (map3 zr) ex2_ears).
Proof.
  destruct ex2_run as (M & tr & Lm & H1 & Hs & _ & _ & H2 & _ & HV & HE & _).
  destruct (from_polygon_ears w1_poly M tr H1 Hs) as (Lm' & G1 & _ & D & _). rewrite H2 in G1. injection G1 as <-.
  apply (ear_decomp2_map fzp20) in D. rewrite HV, HE in D. apply (ear_decomp2_map zr) in D. exact D.
Qed.
Lemma ex2_hypotheses :
  let L2 := map zr ex2_coords in let Ts := map (map3 zr) ex2_ears in
  ear_decomp2 L2 Ts /\ (forall a b c, In (a, b, c) Ts -> 0 < Winding.orient a b c) /\
  Winding.generic ex_d ex2_q L2 /\ (forall a b c, In (a, b, c) Ts -> Winding.off_segs a b c ex2_q) /\
  Winding.wn ex_d L2 ex2_q = 1%Z /\ Winding.count_inside Ts ex2_q = 1%nat /\
  Winding.generic ex_d ex2_qhole L2 /\ (forall a b c, In (a, b, c) Ts -> Winding.off_segs a b c ex2_qhole) /\
  Winding.wn ex_d L2 ex2_qhole = 0%Z /\ (forall a b c, In (a, b, c) Ts -> ~ Winding.inside_tri a b c ex2_qhole) /\
  Shoelace.area2 L2 = 382.
Proof.
  cbn zeta. pose proof ex2_ear_decomp2 as D.
  assert (G : forall q : PP, snd q = 41 / 10 \/ snd q = 83 / 10 -> Winding.generic ex_d q (map zr ex2_coords)).
  { intros q Hq v Hv. unfold ex2_coords in Hv. cbn [map] in Hv. unfold zr in Hv. cbn [fst snd] in Hv.
    repeat (destruct Hv as [<-|Hv]; [unfold Winding.hgt, ex_d; cbn [fst snd]; destruct Hq as [-> | ->]; lra|]). destruct Hv. }
  assert (Hp : forall a b c, In (a, b, c) (map (map3 zr) ex2_ears) ->
               0 < Winding.orient a b c /\ Winding.off_lines a b c ex2_q /\ Winding.off_lines a b c ex2_qhole).
  { intros a b c Hin. unfold ex2_ears in Hin. cbn [map] in Hin. unfold map3, zr in Hin. cbn [fst snd] in Hin.
    repeat (destruct Hin as [Hin|Hin]; [injection Hin as <- <- <-; unfold Winding.off_lines, Winding.orient, ex2_q, ex2_qhole; cbn [fst snd]; repeat split; lra|]).
    destruct Hin. }
  assert (Hpos : forall a b c, In (a, b, c) (map (map3 zr) ex2_ears) -> 0 < Winding.orient a b c) by (intros a b c Hin; apply (Hp a b c Hin)).
  assert (Hq : forall a b c, In (a, b, c) (map (map3 zr) ex2_ears) -> 0 < Winding.orient a b c /\ Winding.off_segs a b c ex2_q).
  { intros a b c Hin. destruct (Hp a b c Hin) as (H1 & H2 & _). split; [exact H1 | apply Winding.off_lines_off_segs; exact H2]. }
  assert (Hqh : forall a b c, In (a, b, c) (map (map3 zr) ex2_ears) -> 0 < Winding.orient a b c /\ Winding.off_segs a b c ex2_qhole).
  { intros a b c Hin. destruct (Hp a b c Hin) as (H1 & _ & H2). split; [exact H1 | apply Winding.off_lines_off_segs; exact H2]. }
  assert (C1 : Winding.count_inside (map (map3 zr) ex2_ears) ex2_q = 1%nat).
  { unfold ex2_ears, map3, zr, ex2_q. cbn [map fst snd]. rewrite !Winding.count_inside_cons. repeat ins_eval. reflexivity. }
  assert (C0 : Winding.count_inside (map (map3 zr) ex2_ears) ex2_qhole = 0%nat).
  { unfold ex2_ears, map3, zr, ex2_qhole. cbn [map fst snd]. rewrite !Winding.count_inside_cons. repeat ins_eval. reflexivity. }
  assert (G1 := G ex2_q (or_introl eq_refl)). assert (G0 := G ex2_qhole (or_intror eq_refl)).
  split; [exact D|]. split; [exact Hpos|]. split; [exact G1|]. split; [intros a b c Hin; apply (Hq a b c Hin)|].
  split; [rewrite (ed2_count _ _ D _ _ G1 Hq), C1; reflexivity|]. split; [exact C1|].
  split; [exact G0|]. split; [intros a b c Hin; apply (Hqh a b c Hin)|].
  split; [rewrite (ed2_count _ _ D _ _ G0 Hqh), C0; reflexivity|]. split; [apply count_zero_none; exact C0|].
  assert (H2 : 2 * Shoelace.area2 (map zr ex2_coords) = 764); [|lra]. rewrite (ed2_area2_doubled _ _ D).
  unfold Cyclic.tsum, Winding.orient, ex2_ears, map3, zr. cbn [map fold_right fst snd]. lra.
Qed.

(** ** the hypothesis [sanitize_unchanged] is not redundant: a 16-vertex comb (rectilinear, three slots) on which the 10th
    pass's [sanitize] DROPS a vertex that has become collinear; the run succeeds with 13 = |L| - 3 triangles. *)
Definition ex3_coords : list (Z * Z) := [(0,0);(7,0);(7,5);(6,5);(6,1);(5,1);(5,5);(4,5);(4,1);(3,1);(3,5);(2,5);(2,1);(1,1);(1,5);(0,5)]%Z.
Definition ex3_poly : Poly float := get dummy_poly (build_poly (map zp ex3_coords) []).
Lemma sanitize_changed_length {K : Type} (tr : Trace (K := K)) :
  existsb (fun p => negb (Nat.eqb (length (fst p)) (length (snd p)))) (snd tr) = true -> ~ sanitize_unchanged tr.
Proof.
  unfold sanitize_unchanged. intros E F. apply existsb_exists in E. destruct E as (p & Hin & Hp). rewrite Forall_forall in F.
  rewrite (F p Hin) in Hp. rewrite Nat.eqb_refl in Hp. discriminate.
Qed.
Lemma ex3_sanitize_changes :
  exists (M : Mesh float) (tr : Trace) (Lm : Loop float),
    from_polygon_tr ex3_poly = Ok (M, tr) /\ ~ sanitize_unchanged tr /\
    poly_get_closed_loop ex3_poly = Ok Lm /\ snd (loop_close Lm) = Ok tt /\
    llen (fst (loop_close Lm)) = 16%nat /\ length (tris M) = 13%nat.
Proof.
  eexists. eexists. eexists. split; [vm_compute; reflexivity|]. split; [apply sanitize_changed_length; vm_compute; reflexivity|].
  split; [vm_compute; reflexivity|]. repeat split; vm_compute; reflexivity.
Qed.
