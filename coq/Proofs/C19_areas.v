(** * C19 proofs, part 4: the closed-form areas (definitional: the substance is the correspondence run). *)
From Coq Require Import ZArith Reals Lra Bool List Psatz.
From G3 Require Import Model.Num Model.Base Model.Vec Model.BBox Model.Transform Model.Areas Theory.RInst Proofs.C19_vec.
Local Open Scope R_scope.

Definition rad (deg : R) : R := deg * (PI / 180).
Lemma to_radians_R (d : R) : @to_radians R _ d = rad d. Proof. reflexivity. Qed.
Lemma rad_360 : rad 360 = 2 * PI. Proof. unfold rad. field. Qed.

Lemma fclamp_in (site : N) (x lo hi : R) : lo <= x <= hi -> fclamp site x lo hi = Ok x.
Proof.
  intros H. unfold fclamp. rnum. rewrite Rleb_le by lra. cbn [negb].
  rewrite (Rltb_ge x lo) by lra. cbv iota. rewrite Rltb_ge by lra. reflexivity.
Qed.
Lemma fclamp_spec (site : N) (x lo hi : R) : lo <= hi -> fclamp site x lo hi = Ok (Rmin hi (Rmax lo x)).
Proof.
  intros H. unfold fclamp. rnum. rewrite Rleb_le by lra. cbn [negb]. f_equal.
  unfold Rmin, Rmax. rcase x lo H1.
  - destruct (Rle_dec lo x); [lra|]. rcase hi lo H2; destruct (Rle_dec hi lo); try reflexivity; lra.
  - destruct (Rle_dec lo x); [|lra]. rcase hi x H2; destruct (Rle_dec hi x); try reflexivity; lra.
Qed.
Lemma phi_ok (phi : R) : 0 <= phi <= 360 -> phi_in_range phi = true.
Proof.
  intros H. unfold phi_in_range, c360. rnum. pose proof epsR_pos as He. unfold epsR in He.
  apply andb_true_iff. split; apply Rleb_true; lra.
Qed.

(** ** sphere: phi_max * r * (zmax - zmin), the area of a spherical zone (Archimedes), over the longitude range *)
Lemma sphere_partial_area (r zmin zmax phi : R) : 0 <= r -> zmin <= zmax -> 0 <= phi <= 360 ->
  exists z, sphere_new_partial r zmin zmax phi = Ok z /\
            sphere_area z = rad phi * r * (Rmin r (Rmax (- r) zmax) - Rmin r (Rmax (- r) zmin)).
Proof.
  intros Hr Hz Hp. unfold sphere_new_partial. rnum. rewrite (Rltb_ge zmax) by lra.
  rewrite !fclamp_spec by lra. cbn [rbind]. rewrite (phi_ok phi Hp). cbn [negb]. unfold c360, n0. rnum.
  rewrite fclamp_in by lra. cbn [rbind]. eexists. split; [reflexivity|]. unfold sphere_area. cbn [zradius zzmin zzmax zphi_max].
  rewrite to_radians_R. reflexivity.
Qed.
Lemma sphere_zone_area (r zmin zmax phi : R) : 0 <= r -> - r <= zmin -> zmin <= zmax -> zmax <= r -> 0 <= phi <= 360 ->
  exists z, sphere_new_partial r zmin zmax phi = Ok z /\ sphere_area z = rad phi * r * (zmax - zmin).
Proof.
  intros Hr H1 H2 H3 Hp. destruct (sphere_partial_area r zmin zmax phi Hr H2 Hp) as (z & E & A). exists z. split; [exact E|].
  rewrite A. rewrite (Rmax_right (- r) zmax), (Rmax_right (- r) zmin), !Rmin_right by lra. reflexivity.
Qed.
Lemma sphere_full_area (r : R) : 0 <= r -> exists z, sphere_new r = Ok z /\ sphere_area z = 4 * PI * (r * r).
Proof.
  intros Hr. unfold sphere_new. rnum. destruct (sphere_partial_area r (- (2) * r) (2 * r) 360 Hr ltac:(lra) ltac:(lra)) as (z & E & A).
  exists z. split; [exact E|]. rewrite A, rad_360.
  rewrite (Rmax_right (- r) (2 * r)), (Rmax_left (- r) (- (2) * r)), Rmin_left, Rmin_right by lra. ring.
Qed.
Lemma sphere_area_additive (r z0 z1 z2 p q : R) :
  rad (p + q) * r * (z2 - z0) = rad p * r * (z1 - z0) + rad p * r * (z2 - z1) + rad q * r * (z2 - z0).
Proof. unfold rad. ring. Qed.

(** ** cylinder: (zmax - zmin) * r * phi_max *)
Lemma cylinder_partial_area (dbg : bool) (r zmin zmax phi : R) : zmin < zmax -> 0 <= phi <= 360 ->
  exists z, cylinder_new_transformed r zmin zmax phi = Ok z /\ cylinder_area dbg z = Ok ((zmax - zmin) * r * rad phi).
Proof.
  intros Hz Hp. unfold cylinder_new_transformed. rnum. rewrite (Rltb_ge zmax) by lra.
  rewrite (phi_ok phi Hp). cbn [negb]. unfold c360, n0. rnum. rewrite fclamp_in by lra. cbn [rbind]. eexists. split; [reflexivity|].
  unfold cylinder_area. cbn [zradius zzmin zzmax zphi_max]. rnum.
  rewrite Rltb_lt by lra. rewrite andb_false_r. rewrite to_radians_R. reflexivity.
Qed.
Lemma cylinder_full_area (dbg : bool) (p0 p1 : V) (r : R) : p0 <> p1 ->
  exists z, cylinder_new_partial p0 p1 r 360 = Ok z /\ cylinder_area dbg z = Ok (2 * PI * r * pdist p1 p0).
Proof.
  intros H. unfold cylinder_new_partial. rewrite <- pdist_vsub.
  assert (Hl : 0 < pdist p1 p0).
  { destruct (Rle_lt_or_eq_dec 0 (pdist p1 p0)) as [L|L]; [unfold pdist; rnum; apply sqrt_pos | exact L |].
    symmetry in L. apply pdist_zero in L. congruence. }
  unfold n0. rnum. destruct (cylinder_partial_area dbg r 0 (pdist p1 p0) 360 Hl ltac:(lra)) as (z & E & A). exists z. split; [exact E|].
  rewrite A, rad_360. f_equal. ring.
Qed.

(** ** disk / annulus / sector: phi_max / 2 * (r^2 - r_in^2) *)
Lemma disk_detailed_area (dbg : bool) (n pz : V) (r ri phi : R) (d : Disk R) : 0 <= phi <= 360 ->
  disk_new_detailed dbg n r ri pz phi = Ok d ->
  0 <= ri < r /\ dradius d = r /\ dinner d = ri /\ disk_area d = rad phi / 2 * (r * r - ri * ri).
Proof.
  intros Hp. unfold disk_new_detailed. destruct (vis_parallel _ _); [discriminate|]. destruct (dbg && _); [discriminate|]. rnum.
  rcase r ri H1'. { replace (Rleb r ri) with true by (symmetry; apply Rleb_true; lra). discriminate. }
  destruct (Rleb r ri) eqn:H1; [discriminate|]. apply Rleb_false in H1.
  rcase r 0 H2; [discriminate|]. rcase ri 0 H3; [discriminate|]. unfold c360, n0. rnum. rewrite fclamp_in by lra. cbn [rbind].
  intros E. inversion E. cbn [dradius dinner]. unfold disk_area. cbn [dradius dinner dphi_max]. unfold to_radians, rad. rnum.
  repeat split; try lra; try field.
Qed.
Lemma disk_full_area (dbg : bool) (n : V) (r : R) (d : Disk R) : disk_new dbg n r = Ok d -> 0 < r /\ disk_area d = PI * (r * r).
Proof.
  unfold disk_new. destruct (vget_perpendicular n) as [pz|e|q]; cbn [unwrap rbind]; try discriminate. unfold c360, n0. rnum.
  intros E. destruct (disk_detailed_area dbg n pz r 0 360 d ltac:(lra) E) as (H & _ & _ & A). split; [lra|]. rewrite A, rad_360. field.
Qed.
Lemma disk_annulus_area (dbg : bool) (n pz : V) (r ri : R) (d : Disk R) :
  disk_new_detailed dbg n r ri pz 360 = Ok d -> disk_area d = PI * (r * r) - PI * (ri * ri).
Proof. intros E. destruct (disk_detailed_area dbg n pz r ri 360 d ltac:(lra) E) as (_ & _ & _ & A). rewrite A, rad_360. field. Qed.

(** ** box: 2 (ab + bc + ca) for the absolute extents, whatever the order of the two corners *)
Lemma box_area_spec (a b : V) :
  box_area a b = 2 * (Rabs (vx b - vx a) * Rabs (vy b - vy a) + Rabs (vx b - vx a) * Rabs (vz b - vz a) + Rabs (vy b - vy a) * Rabs (vz b - vz a)).
Proof.
  destruct a as [ax ay az], b as [bx b_y bz]. unfold box_area, bbox_surface_area, bbox_new, mm, get_mins_maxs. cbn [vx vy vz]. rnum.
  rcase bx ax H1; rcase b_y ay H2; rcase bz az H3; cbn [bmin bmax]; vcbn; unfold Rabs; repeat destruct (Rcase_abs _); nra.
Qed.
Lemma cube_area (a : V) (e : R) : box_area a (vadd a (mkV3 e e e)) = 6 * (e * e).
Proof.
  rewrite box_area_spec. destruct a as [ax ay az]. vcbn. replace (ax + e - ax) with e by ring. replace (ay + e - ay) with e by ring.
  replace (az + e - az) with e by ring. pose proof (Rabs_pos e). assert (Rabs e * Rabs e = e * e) by (unfold Rabs; destruct (Rcase_abs e); ring). nra.
Qed.
