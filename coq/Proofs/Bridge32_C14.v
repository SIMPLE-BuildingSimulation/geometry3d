(** * Bridge32_C14: the float-tier theorems of C14 at binary32, transferred to the EXECUTED f32 instance.
    [bbox_intersect] on [NumF32] (= [NumF32fast], what the f32 runners execute: primitive binary64 floats holding
    binary32 values, every operation rounded to binary32) returns what [bbox_intersect] on the Flocq instance
    [NumB32 = NumB 24 128] returns ([Bridge32_model.f32_bbox_intersect], from [F32Bridge.of_b32_hom]: the double rounding is
    innocuous).  Through that equality Thm 2 / Thm 3 of Properties/C14.v at (24,128) speak of the executed run on
    binary32-valued primitive floats ([is32B b], [is32R r]); [tB tR tV] = [to_b32] mapped over box, ray, vector. *)
From Coq Require Import ZArith Reals Bool Floats Lia Lra.
From Flocq Require Import Core BinarySingleNaN.
From G3 Require Import Model.Num Model.NumF Model.NumF32 Model.Base Model.Vec Model.BBox Run.FastNum32 Run.FastNum32Proof.
From G3 Require Import Theory.PrimBridge Theory.F32Bridge Proofs.Bridge_model Proofs.Bridge32_model.
From G3 Require Import Proofs.C14_real Proofs.C14_special Proofs.C14_float Proofs.C14_margin Proofs.Bridge_C14.
Local Open Scope R_scope.

Notation inv32 := (inv_dirB 24 128 Hprec24 Hmax128).
Lemma inv_dirN_B32 (d : V3 b32) : inv_dirN d = inv32 d. Proof. reflexivity. Qed.
Lemma known_x_slab_nanN_B32 (b : BBox b32) (r : Ray b32) :
  known_x_slab_nanN b r = known_x_slab_nan 24 128 Hprec24 Hmax128 b r.
Proof. reflexivity. Qed.

Theorem f32_inv_dir (d : V3 b32) : @inv_dirN _ NumF32 (oV d) = oV (inv32 d).
Proof. rewrite <- inv_dirN_B32. apply (hom_inv_dirN of_b32). Qed.
Lemma is32V_inv_dir (d : V3 prim) : is32V (@inv_dirN _ NumF32 d).
Proof. repeat split; apply is32_ndiv. Qed.
Theorem f32_inv_dir_is32 (d : V3 prim) : is32V d -> tV (@inv_dirN _ NumF32 d) = inv32 (tV d).
Proof. intros Hd. rewrite <- (oV_tV d Hd) at 1. rewrite f32_inv_dir. apply tV_oV. Qed.
Theorem f32_known_x_slab_nanN (b : BBox b32) (r : Ray b32) :
  @known_x_slab_nanN _ NumF32 (oB b) (oR r) = known_x_slab_nan 24 128 Hprec24 Hmax128 b r.
Proof. rewrite <- known_x_slab_nanN_B32. apply (hom_known_x_slab_nanN of_b32). Qed.

Lemma f32_known_x_slab_nanN_is32 (b : BBox prim) (r : Ray prim) : is32B b -> is32R r ->
  @known_x_slab_nanN _ NumF32 b r = known_x_slab_nan 24 128 Hprec24 Hmax128 (tB b) (tR r).
Proof. intros Hb Hr. rewrite <- f32_known_x_slab_nanN, (oB_tB b Hb), (oR_tR r Hr). reflexivity. Qed.

(** the run with the caller's reciprocal, on binary32-valued floats, and the same on the instance with the fast rounding
    (what is executed, literally).  Thm 2 and Thm 3 of C14 at (24,128) conclude with the value of the Flocq run:
    composed with these equalities (Properties/C14_prim32.v) they are about the executed run. *)
Lemma f32_run_recip (b : BBox prim) (r : Ray prim) : is32B b -> is32R r ->
  @bbox_intersect _ NumF32 b r (@inv_dirN _ NumF32 (rdir r)) = @bbox_intersect _ NumB32 (tB b) (tR r) (inv32 (rdir (tR r))).
Proof.
  intros Hb Hr. rewrite (f32_bbox_intersect_is32 b r _ Hb Hr (is32V_inv_dir _)).
  rewrite (f32_inv_dir_is32 _ (proj2 Hr)). reflexivity.
Qed.
Lemma f32fast_run_recip (b : BBox prim) (r : Ray prim) :
  @bbox_intersect _ NumF32fast b r (@inv_dirN _ NumF32fast (rdir r)) = @bbox_intersect _ NumF32 b r (@inv_dirN _ NumF32 (rdir r)).
Proof. rewrite NumF32fast_eq. reflexivity. Qed.

(** ** non-vacuity on the f32 instance: unit cube, origin (-1, 1/4, 1/2), direction (3, 1/2, -1/4), as primitive floats
    (all seven numbers are binary32 numbers) *)
Local Open Scope float_scope.
Definition m32_box : BBox prim := mkBBox (pP 0 0 0) (pP 1 1 1).
Definition m32_ray : Ray prim := mkRay (pP (-1) 0.25 0.5) (pP 3 0.5 (-0.25)).
Local Close Scope float_scope.

Definition q32 (m : Z) (e : Z) : b32 := binary_normalize 24 128 Hprec24 Hmax128 mode_NE m e false.
Definition m32_boxB : BBox b32 := mkBBox (mkV3 (q32 0 0) (q32 0 0) (q32 0 0)) (mkV3 (q32 1 0) (q32 1 0) (q32 1 0)).
Definition m32_rayB : Ray b32 := mkRay (mkV3 (q32 (-1) 0) (q32 1 (-2)) (q32 1 (-1))) (mkV3 (q32 3 0) (q32 1 (-1)) (q32 (-1) (-2))).

Lemma to_b32_const (c : prim) (b : b32) : Prim2SF c = Prim2SF (of_b32 b) -> to_b32 c = b.
Proof. intros E. rewrite (of_b32_const c b E). apply to_b32_of_b32. Qed.
Lemma is32_const (c : prim) (b : b32) : Prim2SF c = Prim2SF (of_b32 b) -> is32 c.
Proof. intros E. rewrite (of_b32_const c b E). apply is32_of_b32. Qed.

Lemma m32_box_eq : tB m32_box = m32_boxB.
Proof.
  unfold m32_box, m32_boxB, mapBBox, mapV3, pP. cbn [bmin bmax vx vy vz].
  rewrite (to_b32_const 0%float (q32 0 0)), (to_b32_const 1%float (q32 1 0)) by (vm_compute; reflexivity). reflexivity.
Qed.
Lemma m32_ray_eq : tR m32_ray = m32_rayB.
Proof.
  unfold m32_ray, m32_rayB, mapRay, mapV3, pP. cbn [rorigin rdir vx vy vz].
  rewrite (to_b32_const (-1)%float (q32 (-1) 0)), (to_b32_const 0.25%float (q32 1 (-2))), (to_b32_const 0.5%float (q32 1 (-1))),
    (to_b32_const 3%float (q32 3 0)), (to_b32_const (-0.25)%float (q32 (-1) (-2))) by (vm_compute; reflexivity).
  reflexivity.
Qed.
Lemma m32_is32 : is32B m32_box /\ is32R m32_ray.
Proof.
  assert (H0 : is32 0%float) by (apply (is32_const _ (q32 0 0)); vm_compute; reflexivity).
  assert (H1 : is32 1%float) by (apply (is32_const _ (q32 1 0)); vm_compute; reflexivity).
  assert (Hm1 : is32 (-1)%float) by (apply (is32_const _ (q32 (-1) 0)); vm_compute; reflexivity).
  assert (Hq : is32 0.25%float) by (apply (is32_const _ (q32 1 (-2))); vm_compute; reflexivity).
  assert (Hh : is32 0.5%float) by (apply (is32_const _ (q32 1 (-1))); vm_compute; reflexivity).
  assert (H3 : is32 3%float) by (apply (is32_const _ (q32 3 0)); vm_compute; reflexivity).
  assert (Hmq : is32 (-0.25)%float) by (apply (is32_const _ (q32 (-1) (-2))); vm_compute; reflexivity).
  repeat split; assumption.
Qed.

Lemma B2R_SF32 (x : b32) s : B2SF x = s -> B2R x = SF2R radix2 s.
Proof. intros <-. symmetry. apply SF2R_B2SF. Qed.
Ltac b2r_const32 c s := rewrite (B2R_SF32 c s) by (vm_compute; reflexivity).

Lemma m32_values : B2R (q32 0 0) = 0 /\ B2R (q32 1 0) = 1 /\ B2R (q32 (-1) 0) = -1 /\ B2R (q32 1 (-1)) = / 2 /\
  B2R (q32 1 (-2)) = / 4 /\ B2R (q32 3 0) = 3 /\ B2R (q32 (-1) (-2)) = - / 4.
Proof.
  b2r_const32 (q32 0 0) (S754_zero false).
  b2r_const32 (q32 1 0) (S754_finite false 8388608 (-23)).
  b2r_const32 (q32 (-1) 0) (S754_finite true 8388608 (-23)).
  b2r_const32 (q32 1 (-1)) (S754_finite false 8388608 (-24)).
  b2r_const32 (q32 1 (-2)) (S754_finite false 8388608 (-25)).
  b2r_const32 (q32 3 0) (S754_finite false 12582912 (-22)).
  b2r_const32 (q32 (-1) (-2)) (S754_finite true 8388608 (-25)).
  unfold SF2R, F2R. simpl.
  repeat match goal with |- context [Z.pow_pos 2 ?e] =>
    let v := eval vm_compute in (Z.pow_pos 2 e) in change (Z.pow_pos 2 e) with v end.
  repeat split. all: lra.
Qed.

(** the clearance of the witness is a fact about seven real numbers and the unit roundoff: per axis the plane
    parameters are x: [1/3, 2/3], y: [-1/2, 3/2], z: [-2, 2], so only x enters ahead of the origin *)
Definition cubeR : BBox R := mkBBox (mkV3 0 0 0) (mkV3 1 1 1).
Definition rayW : Ray R := mkRay (mkV3 (-1) (/ 4) (/ 2)) (mkV3 3 (/ 2) (- / 4)).
Lemma witness_lo (a : axis) : t_lo cubeR rayW a = match a with AX => / 3 | AY => - / 2 | AZ => 2 end.
Proof. destruct a; unfold t_lo; cbn [crd cubeR rayW bmin rorigin rdir vx vy vz]; field. Qed.
Lemma witness_hi (a : axis) : t_hi cubeR rayW a = match a with AX => 2 / 3 | AY => 3 / 2 | AZ => - 2 end.
Proof. destruct a; unfold t_hi; cbn [crd cubeR rayW bmax rorigin rdir vx vy vz]; field. Qed.
Lemma witness_clear (p : Z) : uR p <= / 32 -> clear_by p 2 cubeR rayW.
Proof.
  intros U1. pose proof (uR_pos p) as U0. unfold clear_by, t_near, t_far.
  split; intros a; [|intros a' _]; rewrite !witness_lo, !witness_hi.
  - destruct a; unfold Rmax; destruct (Rle_dec _ _); lra.
  - destruct a; [destruct a'|..]; unfold Rmin, Rmax; repeat destruct (Rle_dec _ _); lra.
Qed.
Lemma m32_reals : boxR 24 128 m32_boxB = cubeR /\ rayR 24 128 m32_rayB = rayW.
Proof.
  destruct m32_values as (V0 & V1 & Vm1 & Vh & Vq & V3 & Vmq).
  unfold boxR, rayR, B2V, m32_boxB, m32_rayB. cbn [bmin bmax rorigin rdir vx vy vz].
  rewrite V0, V1, Vm1, Vh, Vq, V3, Vmq. split; reflexivity.
Qed.

Lemma f32_margin_nonvacuous :
  (is32B m32_box /\ is32R m32_ray) /\
  margin_okb 24 128 Hprec24 Hmax128 (tB m32_box) (tR m32_ray) = true /\
  clear_by 24 2 (boxR 24 128 (tB m32_box)) (rayR 24 128 (tR m32_ray)) /\
  @bbox_intersect _ NumF32 m32_box m32_ray (@inv_dirN _ NumF32 (rdir m32_ray)) = true /\
  @bbox_intersect _ NumF32fast m32_box m32_ray (@inv_dirN _ NumF32fast (rdir m32_ray)) = true.
Proof.
  split; [exact m32_is32|]. rewrite m32_box_eq, m32_ray_eq.
  split; [vm_compute; reflexivity|]. split; [|split; vm_compute; reflexivity].
  destruct m32_reals as [-> ->]. apply witness_clear, uR_small. lia.
Qed.
