(** * C16 (float tier): the error bounds returned by the [*_with_error] / [*_propagate_error]
    functions of transform.rs, over every Flocq binary format with at least 8 bits of precision.
    Statements are in Properties/C16.v.
    Points report gamma(4) * [mul4x4_abs] (four roundings, the translation entry is added by the
    evaluation), vectors gamma(3) * [mul3x3_abs] (three roundings, no translation entry), the
    incoming error of the [*_propagate_error] functions goes through [mul3x3_abs] * (1 + gamma(3)).
    The code before fixes 34af114 and 5455df2 is modelled in Model/Pinned.v and refuted at the end of this file. *)
From Coq Require Import ZArith Reals Bool Lra Lia Psatz.
From Flocq Require Import Core BinarySingleNaN Relative Plus_error.
From G3 Require Import Model.Num Model.Base Model.Vec Model.Transform Model.Pinned Proofs.C07_interval.
Local Open Scope R_scope.

Lemma poly3 u : 0 <= u -> (3 + 3*u + u*u) * ((1+u)*(1+u)) * (1 - 3*u) <= 3.
Proof. intros. nra. Qed.
(** points, with gamma(4) = 4u/(1-4u): four roundings per row *)
Lemma poly4_gamma4 u : 0 <= u <= /256 -> (4 + 6*u + 4*u*u + u*u*u) * ((1+u)*(1+u)) * (1 - 4*u) <= 4.
Proof. intros. nra. Qed.
(** [(1+u)^n - 1] is the relative error after [n] roundings.
    For n = 2 the inequality fails: it is not a consequence of [(1+u)^n <= 1/(1-nu)]. *)
Lemma pow3_gamma u : 0 <= u -> ((1+u)^3 - 1) * ((1+u)*(1+u)*(1 - 3*u)) <= 3*u.
Proof.
  intros H. pose proof (poly3 u H).
  replace (((1+u)^3 - 1) * ((1+u)*(1+u)*(1 - 3*u))) with (u * ((3 + 3*u + u*u) * ((1+u)*(1+u)) * (1 - 3*u))) by ring. nra.
Qed.
Lemma pow4_gamma u : 0 <= u <= /256 -> ((1+u)^4 - 1) * ((1+u)*(1+u)*(1 - 4*u)) <= 4*u.
Proof.
  intros H. pose proof (poly4_gamma4 u H).
  replace (((1+u)^4 - 1) * ((1+u)*(1+u)*(1 - 4*u))) with (u * ((4 + 6*u + 4*u*u + u*u*u) * ((1+u)*(1+u)) * (1 - 4*u))) by ring. nra.
Qed.

Lemma core_tail (u N g S E Q : R) :
  0 < u -> N*u < 1 -> 0 <= S ->
  S * g <= (1+u) * E -> N*u <= g*((1+u)*(1-N*u)) ->
  Q * ((1+u)*(1+u)*(1-N*u)) <= N*u ->
  Q * S <= E.
Proof.
  intros Hu HN HS H4 H5 HP.
  assert (Hk : 0 < (1+u)*(1-N*u)) by (apply Rmult_lt_0_compat; lra).
  apply Rmult_le_reg_r with ((1+u)*((1+u)*(1-N*u))). apply Rmult_lt_0_compat; lra.
  apply Rle_trans with (S * (N*u)).
  - replace (Q*S*((1+u)*((1+u)*(1-N*u)))) with (S * (Q*((1+u)*(1+u)*(1-N*u)))) by ring.
    apply Rmult_le_compat_l; assumption.
  - apply Rle_trans with (S * (g*((1+u)*(1-N*u)))). apply Rmult_le_compat_l; assumption.
    replace (S * (g*((1+u)*(1-N*u)))) with ((S*g)*((1+u)*(1-N*u))) by ring.
    replace (E*((1+u)*((1+u)*(1-N*u)))) with (((1+u)*E)*((1+u)*(1-N*u))) by ring.
    apply Rmult_le_compat_r; lra.
Qed.

Lemma poly7 u : 0 <= u <= /256 -> (1+u)^7 <= (1+4*u)*(1+4*u).
Proof. intros. nra. Qed.

Lemma core_box (u D act E err1 err d : R) :
  0 < u <= /256 -> 0 <= err1 -> 0 <= E -> Rabs d <= D -> act <= E ->
  D * (1+4*u) <= (1+u)^6 * err1 -> err1 + E <= (1+u)*err ->
  Rabs d + act <= (1+4*u) * err.
Proof.
  intros Hu H1 HE HD Ha d1 e1.
  pose proof (poly7 u ltac:(lra)) as P.
  assert (Hk : 0 < (1+u)*(1+4*u)) by nra.
  apply Rmult_le_reg_r with (1 := Hk).
  apply Rle_trans with ((1+4*u)*((1+4*u)*(err1+E))).
  - assert (A1 : D*(1+4*u)*(1+u) <= (1+4*u)*(1+4*u)*err1).
    { apply Rle_trans with ((1+u)^6*err1*(1+u)). apply Rmult_le_compat_r; lra.
      replace ((1+u)^6*err1*(1+u)) with ((1+u)^7*err1) by ring. apply Rmult_le_compat_r; lra. }
    assert (A2 : act*((1+u)*(1+4*u)) <= (1+4*u)*(1+4*u)*E).
    { apply Rle_trans with (E*((1+u)*(1+4*u))). apply Rmult_le_compat_r; lra.
      replace ((1+4*u)*(1+4*u)*E) with (E*((1+4*u)*(1+4*u))) by ring. apply Rmult_le_compat_l. lra.
      apply Rmult_le_compat_r; lra. }
    assert (A3 : Rabs d*((1+u)*(1+4*u)) <= D*((1+u)*(1+4*u))) by (apply Rmult_le_compat_r; lra).
    lra.
  - replace ((1+4*u)*err*((1+u)*(1+4*u))) with ((1+4*u)*((1+4*u)*((1+u)*err))) by ring.
    apply Rmult_le_compat_l. lra. apply Rmult_le_compat_l; lra.
Qed.

(** [gm] is gamma(3) or gamma(4) <= 1.35 gamma(3) *)
Lemma core_M (u g3 gm PP QQ err1 E err : R) :
  0 < u <= /256 -> 0 < g3 <= /64 -> 0 <= gm <= 135/100 * g3 -> 0 <= PP -> 0 <= QQ ->
  err1 <= (1+u)^6 * ((1+g3) * PP) -> E <= (1+u)^6 * (gm * QQ) -> err <= (1+u)*(err1 + E) ->
  err <= 2 * (g3 * QQ + 1 * PP).
Proof.
  intros Hu Hg Hgm HP HQ e1 e2 e3.
  assert (P7 : (1+u)^7 <= (1 + /256)^7) by (apply pow_incr; lra).
  assert (C1 : (1+u)^7 * (1+g3) <= 2).
  { apply Rle_trans with ((1 + /256)^7 * (1 + /64)). apply Rmult_le_compat; try lra. apply pow_le; lra. lra. }
  assert (C2 : (1+u)^7 * gm <= 2 * g3).
  { apply Rle_trans with ((1 + /256)^7 * (135/100 * g3)). apply Rmult_le_compat; try lra. apply pow_le; lra. lra. }
  assert (B1 : (1+u)*err1 <= (1+u)^7*(1+g3)*PP).
  { replace ((1+u)^7*(1+g3)*PP) with ((1+u)*((1+u)^6*((1+g3)*PP))) by ring. apply Rmult_le_compat_l; lra. }
  assert (B2 : (1+u)*E <= (1+u)^7*gm*QQ).
  { replace ((1+u)^7*gm*QQ) with ((1+u)*((1+u)^6*(gm*QQ))) by ring. apply Rmult_le_compat_l; lra. }
  assert (B3 : (1+u)^7*(1+g3)*PP <= 2*PP) by (apply Rmult_le_compat_r; lra).
  assert (B4 : (1+u)^7*gm*QQ <= 2*g3*QQ) by (apply Rmult_le_compat_r; lra).
  lra.
Qed.

Lemma abs3_nonneg a b c : 0 <= Rabs a + Rabs b + Rabs c.
Proof. pose proof (Rabs_pos a). pose proof (Rabs_pos b). pose proof (Rabs_pos c). lra. Qed.

Definition img_vec (m : M4 R) (p : V3 R) : V3 R :=
  mkV3 (m00 m * vx p + m01 m * vy p + m02 m * vz p) (m10 m * vx p + m11 m * vy p + m12 m * vz p) (m20 m * vx p + m21 m * vy p + m22 m * vz p).
Definition img_pt (m : M4 R) (p : V3 R) : V3 R :=
  mkV3 (m00 m * vx p + m01 m * vy p + m02 m * vz p + m03 m) (m10 m * vx p + m11 m * vy p + m12 m * vz p + m13 m)
       (m20 m * vx p + m21 m * vy p + m22 m * vz p + m23 m).
Definition abs_img (m : M4 R) (p : V3 R) : V3 R :=
  mkV3 (Rabs (m00 m * vx p) + Rabs (m01 m * vy p) + Rabs (m02 m * vz p)) (Rabs (m10 m * vx p) + Rabs (m11 m * vy p) + Rabs (m12 m * vz p))
       (Rabs (m20 m * vx p) + Rabs (m21 m * vy p) + Rabs (m22 m * vz p)).
Definition abs_trans (m : M4 R) : V3 R := mkV3 (Rabs (m03 m)) (Rabs (m13 m)) (Rabs (m23 m)).
Definition within (K : R) (ret img err : V3 R) : Prop :=
  Rabs (vx ret - vx img) <= K * vx err /\ Rabs (vy ret - vy img) <= K * vy err /\ Rabs (vz ret - vz img) <= K * vz err.
Definition inbox (c e x : V3 R) : Prop :=
  Rabs (vx x - vx c) <= vx e /\ Rabs (vy x - vy c) <= vy e /\ Rabs (vz x - vz c) <= vz e.
Definition vle (a b : V3 R) : Prop := vx a <= vx b /\ vy a <= vy b /\ vz a <= vz b.
Definition lin2 (k1 : R) (a : V3 R) (k2 : R) (b : V3 R) : V3 R :=
  mkV3 (k1 * vx a + k2 * vx b) (k1 * vy a + k2 * vy b) (k1 * vz a + k2 * vz b).
Definition vaddR (a b : V3 R) : V3 R := mkV3 (vx a + vx b) (vy a + vy b) (vz a + vz b).
Definition vscaleR (k : R) (a : V3 R) : V3 R := mkV3 (k * vx a) (k * vy a) (k * vz a).
Definition V0 : V3 R := mkV3 0 0 0.
(** the first-order worst case of the property: rounding of the evaluation (gamma3 times the sum of the absolute
    terms of the row) plus the input error carried through the LINEAR part *)
Definition first_order (g : R) (m : M4 R) (x e : V3 R) : V3 R := lin2 g (vaddR (abs_img m x) (abs_trans m)) 1 (abs_img m e).
(** the same for a VECTOR: its image m00 x + m01 y + m02 z does not involve the translation column, hence neither
    does its first-order worst case: three products, two additions *)
Definition first_order_vec (g : R) (m : M4 R) (x e : V3 R) : V3 R := lin2 g (abs_img m x) 1 (abs_img m e).

Section C16_float.
  Variable prec emax : Z.
  Context (Hprec : FLX.Prec_gt_0 prec) (Hmax : Prec_lt_emax prec emax).
  Hypothesis Hp8 : (8 <= prec)%Z.
  Notation bf := (binary_float prec emax).
  Notation emin := (3 - emax - prec)%Z.
  Notation fexp := (FLT_exp emin prec).
  Notation RN := (RN prec emax).
  Notation format := (generic_format radix2 fexp).
  Local Instance NB16 : Num bf := NumB prec emax Hprec Hmax.

  Definition uro : R := bpow radix2 (- prec).
  (** products this small (and not zero) may underflow: excluded by the theorems, see [safe] *)
  Definition tiny : R := bpow radix2 (emin + 2 * prec).
  Definition safe (x : R) : Prop := x = 0 \/ tiny <= Rabs x.

  Lemma emax_big : (8 < emax)%Z.
  Proof. unfold Prec_lt_emax in Hmax. lia. Qed.
  Lemma uro_eq : u_ro radix2 prec = uro.
  Proof. unfold u_ro, uro. rewrite bpow_plus. simpl (bpow radix2 1). lra. Qed.
  Lemma uro_pos : 0 < uro.
  Proof. apply bpow_gt_0. Qed.
  Lemma uro_small : uro <= /256.
  Proof.
    unfold uro. apply Rle_trans with (bpow radix2 (-8)). apply bpow_le. lia.
    simpl. lra.
  Qed.
  Lemma uro_range : 0 < uro <= /256.
  Proof. split. apply uro_pos. apply uro_small. Qed.

  Lemma RN_abs : forall x, RN (Rabs x) = Rabs (RN x).
  Proof. intros x. apply round_NE_abs. apply fexp_correct. exact Hprec. Qed.
  Lemma format_RN : forall x, format (RN x).
  Proof. apply RN_format. exact Hprec. Qed.
  Lemma format_abs : forall x, format x -> format (Rabs x).
  Proof. intros x Fx. apply generic_format_abs. exact Fx. Qed.

  (** sums of two floats: the relative error bound holds even in the subnormal range *)
  Lemma sum_err : forall x y, format x -> format y ->
    Rabs (RN (x + y) - (x + y)) <= uro * Rabs (RN (x + y)).
  Proof.
    intros x y Fx Fy.
    destruct (FLT_plus_error_N_round_ex radix2 emin prec (fun z => negb (Z.even z)) x y Fx Fy) as (eps & He & Hs).
    rewrite uro_eq in He.
    assert (Hs' : x + y = RN (x + y) * (1 + eps)) by exact Hs. clear Hs.
    set (r := RN (x + y)) in *.
    replace (r - (x + y)) with (- (r * eps)) by (rewrite Hs'; ring).
    rewrite Rabs_Ropp, Rabs_mult, Rmult_comm. apply Rmult_le_compat_r. apply Rabs_pos. exact He.
  Qed.
  Lemma tiny_normal : bpow radix2 (emin + prec - 1) <= tiny.
  Proof. unfold tiny. apply bpow_le. lia. Qed.
  Definition normal (x : R) : Prop := x = 0 \/ bpow radix2 (emin + prec - 1) <= Rabs x.
  Lemma safe_normal : forall x, safe x -> normal x.
  Proof. intros x [H|H]; [left; exact H | right; apply Rle_trans with (2 := H); apply tiny_normal]. Qed.
  Lemma prod_err : forall x, normal x -> Rabs (RN x - x) <= uro * Rabs (RN x).
  Proof.
    intros x [->|Hx].
    - rewrite (RN_0 prec emax), Rminus_0_r, Rabs_R0. lra.
    - rewrite <- uro_eq. apply relative_error_N_FLT_round. exact Hprec. exact Hx.
  Qed.
  Lemma prod_err' : forall x, normal x -> Rabs (RN x - x) <= uro * Rabs x.
  Proof.
    intros x [->|Hx].
    - rewrite (RN_0 prec emax), Rminus_0_r, Rabs_R0. lra.
    - rewrite <- uro_eq. apply relative_error_N_FLT. exact Hprec. exact Hx.
  Qed.
  Lemma sum_err' : forall x y, format x -> format y ->
    Rabs (RN (x + y) - (x + y)) <= uro * Rabs (x + y).
  Proof.
    intros x y Fx Fy.
    destruct (FLT_plus_error_N_ex radix2 emin prec (fun z => negb (Z.even z)) x y Fx Fy) as (eps & He & Hs).
    assert (Hs' : RN (x + y) = (x + y) * (1 + eps)) by exact Hs. clear Hs. rewrite Hs'.
    replace ((x + y) * (1 + eps) - (x + y)) with ((x + y) * eps) by ring.
    rewrite Rabs_mult, Rmult_comm. apply Rmult_le_compat_r. apply Rabs_pos.
    apply Rle_trans with (1 := He). rewrite uro_eq.
    pose proof uro_pos. apply Rmult_le_reg_r with (1 + uro). lra.
    unfold Rdiv. rewrite Rmult_assoc, Rinv_l by lra. nra.
  Qed.

  Lemma sum_pos_facts : forall x y, format x -> format y -> 0 <= x -> 0 <= y ->
    let s := RN (x + y) in
    0 <= s /\ x <= s /\ y <= s /\ x + y <= (1 + uro) * s /\ s <= (1 + uro) * (x + y).
  Proof.
    intros x y Fx Fy Hx Hy s.
    assert (Hs : 0 <= s) by (apply RN_nonneg; lra).
    pose proof (sum_err x y Fx Fy) as H1. pose proof (sum_err' x y Fx Fy) as H2. fold s in H1, H2.
    rewrite (Rabs_pos_eq s) in H1 by exact Hs. rewrite (Rabs_pos_eq (x + y)) in H2 by lra.
    assert (Hxs : x <= s). { unfold s. rewrite <- (RN_id x Fx) at 1. apply RN_le. exact Hprec. lra. }
    assert (Hys : y <= s). { unfold s. rewrite <- (RN_id y Fy) at 1. apply RN_le. exact Hprec. lra. }
    repeat split; try assumption.
    - apply Rabs_le_inv in H1. lra.
    - apply Rabs_le_inv in H2. lra.
  Qed.
  Lemma prod_facts : forall x, normal x ->
    let p := Rabs (RN x) in
    0 <= p /\ Rabs x <= (1 + uro) * p /\ p <= (1 + uro) * Rabs x /\ Rabs (RN x - x) <= uro * p.
  Proof.
    intros x Hx p. pose proof (prod_err x Hx) as H1. pose proof (prod_err' x Hx) as H2. fold p in H1.
    split. apply Rabs_pos. split; [|split; [|exact H1]].
    - replace x with (RN x - (RN x - x)) at 1 by ring.
      apply Rle_trans with (1 := Rabs_triang _ _). rewrite Rabs_Ropp. fold p. lra.
    - unfold p. replace (RN x) with (x + (RN x - x)) by ring.
      apply Rle_trans with (1 := Rabs_triang _ _). lra.
  Qed.
  Lemma safe_RN_big : forall x, tiny <= Rabs x -> tiny <= Rabs (RN x).
  Proof.
    intros x Hx. rewrite <- RN_abs. rewrite <- (@RN_id prec emax tiny).
    apply RN_le. exact Hprec. exact Hx.
    apply generic_format_bpow. unfold FLT_exp. lia.
  Qed.

  Definition rrow3 (a b c : R) : R := RN (RN (RN a + RN b) + RN c).
  Definition rrow4 (a b c t : R) : R := RN (rrow3 a b c + t).
  Definition rabs3 (a b c : R) : R := RN (RN (Rabs (RN a) + Rabs (RN b)) + Rabs (RN c)).
  Definition rabs4 (a b c t : R) : R := RN (rabs3 a b c + Rabs t).


  Section Chain.
    Variables a b c t : R.
    Let A := Rabs (RN a).
    Let B := Rabs (RN b).
    Let C := Rabs (RN c).
    Let T := Rabs t.
    Let S1 := RN (A + B).
    Let S2 := RN (S1 + C).
    Let S3 := RN (S2 + T).
    Lemma chain_S3_eq : S3 = rabs4 a b c t.
    Proof. reflexivity. Qed.
    Lemma chain_S2_eq : S2 = rabs3 a b c.
    Proof. reflexivity. Qed.
  End Chain.

  (** ** One invariant for every rounded sum of this file.
      [x] is an expression evaluated with roundings and [e] its exact value; [X] is the same expression over absolute
      values (what the code reports before it multiplies by gamma) and [S] the exact value of that; [P] is [(1+u)^k]
      after [k] levels of rounding.  The three inequalities give (S), (M) and the lower bound on the propagated part. *)
  Definition Acc (P x X e S : R) : Prop :=
    1 <= P /\ format x /\ format X /\ Rabs x <= X /\ Rabs (x - e) <= (P - 1) * X /\ X <= P * S /\ S <= P * X.

  Lemma acc_prod : forall a, normal a -> Acc ((1 + uro) ^ 1) (RN a) (Rabs (RN a)) a (Rabs a).
  Proof.
    intros a Na. destruct (prod_facts a Na) as (_ & p1 & p2 & p3). pose proof uro_pos.
    unfold Acc. rewrite pow_1. replace (1 + uro - 1) with uro by ring.
    repeat split; try assumption. lra. apply format_RN. apply format_abs, format_RN. apply Rle_refl.
  Qed.
  Lemma acc_float : forall t, format t -> Acc ((1 + uro) ^ 0) t (Rabs t) t (Rabs t).
  Proof.
    intros t Ft. unfold Acc. change ((1 + uro) ^ 0) with 1. rewrite (Rminus_diag_eq t t), Rabs_R0 by reflexivity.
    repeat split; try lra. exact Ft. apply format_abs, Ft.
  Qed.
  Lemma abs_RN_sum_le : forall x y X Y, Rabs x <= X -> Rabs y <= Y -> Rabs (RN (x + y)) <= RN (X + Y).
  Proof.
    intros x y X Y Hx Hy. rewrite <- RN_abs. apply RN_le. exact Hprec.
    apply Rle_trans with (1 := Rabs_triang _ _). lra.
  Qed.
  Lemma acc_add : forall P Q x X e S y Y f S', Acc P x X e S -> Acc Q y Y f S' -> Q <= P ->
    Acc ((1 + uro) * P) (RN (x + y)) (RN (X + Y)) (e + f) (S + S').
  Proof.
    intros P Q x X e S y Y f S' (HP & Fx & FX & xX & xe & up & lo) (HQ & Fy & FY & yY & yf & up' & lo') QP.
    pose proof uro_pos as Hu.
    assert (X0 : 0 <= X) by (pose proof (Rabs_pos x); lra). assert (Y0 : 0 <= Y) by (pose proof (Rabs_pos y); lra).
    assert (S0 : 0 <= S') by nra.
    destruct (sum_pos_facts X Y FX FY X0 Y0) as (T0 & _ & _ & s3 & s4).
    pose proof (abs_RN_sum_le x y X Y xX yY) as sT. pose proof (sum_err x y Fx Fy) as E.
    set (s := RN (x + y)) in *. set (T := RN (X + Y)) in *.
    assert (K1 : (Q - 1) * Y <= (P - 1) * Y) by (apply Rmult_le_compat_r; lra).
    assert (K2 : (P - 1) * (X + Y) <= (P - 1) * ((1 + uro) * T)) by (apply Rmult_le_compat_l; lra).
    assert (K3 : Q * S' <= P * S') by (apply Rmult_le_compat_r; lra).
    assert (K4 : Q * Y <= P * Y) by (apply Rmult_le_compat_r; lra).
    assert (K5 : P * (X + Y) <= P * ((1 + uro) * T)) by (apply Rmult_le_compat_l; lra).
    assert (K6 : (1 + uro) * (X + Y) <= (1 + uro) * (P * (S + S'))) by (apply Rmult_le_compat_l; lra).
    assert (K7 : uro * Rabs s <= uro * T) by (apply Rmult_le_compat_l; lra).
    repeat split.
    - nra.
    - apply format_RN.
    - apply format_RN.
    - exact sT.
    - replace (s - (e + f)) with ((s - (x + y)) + (x - e) + (y - f)) by ring.
      apply Rle_trans with (1 := Rabs_triang _ _). pose proof (Rabs_triang (s - (x + y)) (x - e)). lra.
    - lra.
    - lra.
  Qed.

  (** N = 3 for vectors, 4 for points *)
  Definition gammaN (N : R) : R := N * uro / (1 - N * uro).
  Definition gamma3 : R := 3 * uro / (1 - 3 * uro).
  Definition gokN (N g : R) : Prop :=
    format g /\ N * uro <= g * ((1 + uro) * (1 - N * uro)) /\ g <= (1 + uro) * gammaN N.
  Lemma Nu_small : forall N, 0 < N <= 4 -> 0 < N * uro <= /64.
  Proof. intros N HN. pose proof uro_range. split; nra. Qed.
  Lemma gammaN_eq : forall N, 0 < N <= 4 -> gammaN N * (1 - N * uro) = N * uro.
  Proof. intros N HN. pose proof (Nu_small N HN). unfold gammaN. field. lra. Qed.
  Lemma gammaN_range : forall N, 0 < N <= 4 -> N * uro <= gammaN N <= N / 192.
  Proof. intros N HN. pose proof (Nu_small N HN). pose proof (gammaN_eq N HN). pose proof uro_range. split; nra. Qed.
  Lemma gokN_low : forall N g, 3 <= N <= 4 -> gokN N g -> 2 * uro <= g /\ 1 + 4 * uro <= (1 + g) * (1 + uro).
  Proof.
    intros N g HN (_ & H & _). pose proof uro_range as Hu. pose proof (Nu_small N ltac:(lra)) as HNu.
    assert (Hk : 0 < (1 + uro) * (1 - N * uro)) by nra.
    assert (Hg : 0 <= g) by (apply Rmult_le_reg_r with (1 := Hk); lra).
    assert (H1 : N * uro <= g * (1 + uro)).
    { apply Rle_trans with (1 := H). rewrite <- Rmult_assoc. rewrite <- (Rmult_1_r (g * (1 + uro))) at 2.
      apply Rmult_le_compat_l. apply Rmult_le_pos; lra. lra. }
    split; nra.
  Qed.
  (** gamma(4) against the property's yardstick gamma(3) *)
  Lemma gamma4_le : gammaN 4 <= 135 / 100 * gamma3.
  Proof.
    pose proof uro_range as Hu. unfold gammaN, gamma3.
    apply Rmult_le_reg_r with ((1 - 4 * uro) * (1 - 3 * uro)). nra.
    replace (4 * uro / (1 - 4 * uro) * ((1 - 4 * uro) * (1 - 3 * uro))) with (4 * uro * (1 - 3 * uro)) by (field; lra).
    replace (135 / 100 * (3 * uro / (1 - 3 * uro)) * ((1 - 4 * uro) * (1 - 3 * uro))) with (135 / 100 * (3 * uro) * (1 - 4 * uro)) by (field; lra).
    nra.
  Qed.

  Lemma tiny_pos : 0 < tiny.
  Proof. apply bpow_gt_0. Qed.
  Lemma tiny_2u : bpow radix2 (emin + prec - 1) <= tiny * (2 * uro).
  Proof.
    unfold tiny, uro. replace 2 with (bpow radix2 1) by reflexivity.
    rewrite <- !bpow_plus. apply bpow_le. lia.
  Qed.
  (** the final multiplication [S * g] (or [S * G], [G >= 1]) does not underflow when [S] is zero or not tiny *)
  Lemma scale_facts : forall S k, 0 <= S -> safe S -> 2 * uro <= k ->
    let E := RN (S * k) in 0 <= E /\ S * k <= (1 + uro) * E /\ E <= (1 + uro) * (S * k).
  Proof.
    intros S k HS Hc Hk E. pose proof uro_range as Hu.
    assert (Hn : normal (S * k)).
    { destruct Hc as [->|Hc]. left; ring. right. rewrite Rabs_pos_eq in Hc by exact HS.
      rewrite Rabs_pos_eq by (apply Rmult_le_pos; lra).
      apply Rle_trans with (1 := tiny_2u). pose proof tiny_pos.
      apply Rmult_le_compat; lra. }
    assert (Hp : 0 <= S * k) by (apply Rmult_le_pos; lra).
    destruct (prod_facts (S * k) Hn) as (_ & f1 & f2 & _).
    assert (HE : 0 <= E) by (apply RN_nonneg; exact Hp).
    fold E in f1, f2. rewrite (Rabs_pos_eq E) in f1, f2 by exact HE.
    rewrite (Rabs_pos_eq (S * k)) in f1, f2 by exact Hp. tauto.
  Qed.

  Lemma safe_abs_RN : forall a, safe a -> safe (Rabs (RN a)).
  Proof.
    intros a [->|H]. left. rewrite (RN_0 prec emax). apply Rabs_R0.
    right. rewrite Rabs_Rabsolu. apply safe_RN_big, H.
  Qed.
  Lemma safe_abs : forall t, safe t -> safe (Rabs t).
  Proof. intros t [->|H]. left. apply Rabs_R0. right. rewrite Rabs_Rabsolu. exact H. Qed.
  Lemma big_sum : forall X Y, format X -> format Y -> 0 <= X -> 0 <= Y -> tiny <= X \/ tiny <= Y -> tiny <= RN (X + Y).
  Proof. intros X Y FX FY X0 Y0 H. destruct (sum_pos_facts X Y FX FY X0 Y0) as (_ & l & r & _). lra. Qed.
  Lemma safe_sum : forall X Y, format X -> format Y -> 0 <= X -> 0 <= Y -> safe X -> safe Y -> safe (RN (X + Y)).
  Proof.
    intros X Y FX FY X0 Y0 SX SY. pose proof (big_sum X Y FX FY X0 Y0) as B.
    destruct (sum_pos_facts X Y FX FY X0 Y0) as (s0 & _). unfold safe in *.
    rewrite Rabs_pos_eq in * by assumption.
    destruct SX as [->|SX]; [destruct SY as [->|SY]|]; try (right; tauto).
    left. rewrite Rplus_0_l. apply (RN_0 prec emax).
  Qed.

  Lemma pow_up : forall j k, (j <= k)%nat -> (1 + uro) ^ j <= (1 + uro) ^ k.
  Proof. intros j k H. pose proof uro_pos. apply Rle_pow. lra. exact H. Qed.
  Lemma acc_row3 : forall a b c, normal a -> normal b -> normal c ->
    Acc ((1 + uro) ^ 3) (rrow3 a b c) (rabs3 a b c) (a + b + c) (Rabs a + Rabs b + Rabs c).
  Proof.
    intros a b c Na Nb Nc.
    apply (acc_add ((1 + uro) ^ 2) ((1 + uro) ^ 1)); [apply (acc_add ((1 + uro) ^ 1) ((1 + uro) ^ 1))| |];
      try (apply acc_prod; assumption); apply pow_up; lia.
  Qed.
  Lemma acc_row4 : forall a b c t, normal a -> normal b -> normal c -> format t ->
    Acc ((1 + uro) ^ 4) (rrow4 a b c t) (rabs4 a b c t) (a + b + c + t) (Rabs a + Rabs b + Rabs c + Rabs t).
  Proof.
    intros a b c t Na Nb Nc Ft.
    apply (acc_add ((1 + uro) ^ 3) ((1 + uro) ^ 0)). apply acc_row3; assumption. apply acc_float, Ft. apply pow_up; lia.
  Qed.
  Lemma rabs3_safe : forall a b c, safe a -> safe b -> safe c -> safe (rabs3 a b c).
  Proof.
    intros a b c Sa Sb Sc. pose proof (Rabs_pos (RN a)). pose proof (Rabs_pos (RN b)).
    apply safe_sum; try apply safe_sum; try apply safe_abs_RN; try apply format_RN; try apply format_abs, format_RN;
      try apply Rabs_pos; try assumption. apply RN_nonneg. lra.
  Qed.
  Lemma rabs3_pos : forall a b c, 0 <= rabs3 a b c.
  Proof.
    intros. apply RN_nonneg. pose proof (Rabs_pos (RN c)).
    assert (0 <= RN (Rabs (RN a) + Rabs (RN b))). { apply RN_nonneg. pose proof (Rabs_pos (RN a)). pose proof (Rabs_pos (RN b)). lra. }
    lra.
  Qed.
  Lemma rabs4_safe : forall a b c t, safe a -> safe b -> safe c -> safe t -> format t -> safe (rabs4 a b c t).
  Proof.
    intros a b c t Sa Sb Sc St Ft.
    apply safe_sum. apply format_RN. apply format_abs, Ft. apply rabs3_pos. apply Rabs_pos.
    apply rabs3_safe; assumption. apply safe_abs, St.
  Qed.

  (** (S), with no extra factor: the relative error [P - 1] of the accumulation fits under gamma(N) *)
  Lemma acc_sound : forall N P x X e S g, Acc P x X e S -> safe X -> 3 <= N <= 4 -> gokN N g ->
    (P - 1) * ((1 + uro) * (1 + uro) * (1 - N * uro)) <= N * uro ->
    Rabs (x - e) <= RN (X * g).
  Proof.
    intros N P x X e S g (_ & _ & _ & xX & xe & _) SX HN Hg HP. pose proof uro_range as Hu.
    destruct (gokN_low N g HN Hg) as (g2 & _). pose proof (Nu_small N ltac:(lra)).
    assert (X0 : 0 <= X) by (pose proof (Rabs_pos x); lra).
    destruct (scale_facts X g X0 SX g2) as (_ & e1 & _).
    apply Rle_trans with (1 := xe). apply core_tail with (u := uro) (N := N) (g := g); try tauto; try lra. apply Hg.
  Qed.
  (** if [X] is zero nothing has been rounded, whatever the size of [t] *)
  Lemma acc_sound_float : forall N P x X e S t g, Acc P x X e S -> safe X -> format t -> 3 <= N <= 4 -> gokN N g ->
    ((1 + uro) * P - 1) * ((1 + uro) * (1 + uro) * (1 - N * uro)) <= N * uro ->
    Rabs (RN (x + t) - (e + t)) <= RN (RN (X + Rabs t) * g).
  Proof.
    intros N P x X e S t g A SX Ft HN Hg HP. pose proof A as (P1 & _ & FX & xX & xe & _).
    assert (X0 : 0 <= X) by (pose proof (Rabs_pos x); lra).
    destruct SX as [Z|B].
    - rewrite Z in xX, xe. rewrite Rmult_0_r in xe. apply Rabs_le_inv in xX, xe.
      replace x with 0 by lra. replace e with 0 by lra.
      rewrite !Rplus_0_l, (RN_id t Ft), Rminus_diag_eq, Rabs_R0 by reflexivity.
      apply RN_nonneg, Rmult_le_pos. apply RN_nonneg. pose proof (Rabs_pos t). lra.
      destruct (gokN_low N g HN Hg). pose proof uro_pos. lra.
    - apply (acc_sound N _ _ _ _ _ g (acc_add _ _ _ _ _ _ _ _ _ _ A (acc_float t Ft) P1)); try assumption.
      right. rewrite Rabs_pos_eq in B by exact X0. rewrite Rabs_pos_eq.
      apply big_sum; try assumption. apply format_abs, Ft. apply Rabs_pos. tauto.
      apply RN_nonneg. pose proof (Rabs_pos t). lra.
  Qed.
  Lemma vec_real : forall a b c g, safe a -> safe b -> safe c -> gokN 3 g ->
    Rabs (rrow3 a b c - (a + b + c)) <= RN (rabs3 a b c * g).
  Proof.
    intros a b c g Sa Sb Sc Hg. pose proof uro_range.
    apply (acc_sound 3 _ _ _ _ _ g (acc_row3 a b c (safe_normal a Sa) (safe_normal b Sb) (safe_normal c Sc))).
    apply rabs3_safe; assumption. lra. exact Hg. apply pow3_gamma. lra.
  Qed.
  Lemma pt_real : forall a b c t g, safe a -> safe b -> safe c -> format t -> gokN 4 g ->
    Rabs (rrow4 a b c t - (a + b + c + t)) <= RN (rabs4 a b c t * g).
  Proof.
    intros a b c t g Sa Sb Sc Ft Hg. pose proof uro_range.
    apply (acc_sound_float 4 _ _ _ _ _ t g (acc_row3 a b c (safe_normal a Sa) (safe_normal b Sb) (safe_normal c Sc))).
    apply rabs3_safe; assumption. exact Ft. lra. exact Hg. apply pow4_gamma. lra.
  Qed.

  (** (M) *)
  Lemma acc_upper : forall N P x X e S g, Acc P x X e S -> P <= (1 + uro) ^ 4 -> safe X -> 3 <= N <= 4 -> gokN N g ->
    0 <= RN (X * g) <= (1 + uro) ^ 6 * (gammaN N * S).
  Proof.
    intros N P x X e S g (P1 & _ & _ & xX & _ & up & _) HP SX HN Hg. pose proof uro_range as Hu.
    destruct (gokN_low N g HN Hg) as (g2 & _). pose proof Hg as (_ & _ & gu). pose proof (gammaN_range N ltac:(lra)).
    assert (X0 : 0 <= X) by (pose proof (Rabs_pos x); lra).
    destruct (scale_facts X g X0 SX g2) as (E0 & _ & e2). split. exact E0.
    apply Rle_trans with (1 := e2).
    assert (S0 : 0 <= S) by nra.
    replace ((1 + uro) ^ 6 * (gammaN N * S)) with ((1 + uro) * (((1 + uro) ^ 4 * S) * ((1 + uro) * gammaN N))) by ring.
    apply Rmult_le_compat_l. lra. apply Rmult_le_compat; try lra.
    apply Rle_trans with (1 := up). apply Rmult_le_compat_r; lra.
  Qed.

  Lemma format_1 : format 1.
  Proof. replace 1 with (bpow radix2 0) by reflexivity. apply generic_format_bpow. pose proof emax_big. unfold FLT_exp. lia. Qed.
  Definition rG (g : R) : R := RN (1 + g).
  Lemma G_facts : forall g, gokN 3 g ->
    format (rG g) /\ 1 <= rG g /\ 1 + g <= (1 + uro) * rG g /\ rG g <= (1 + uro) * (1 + g) /\ 0 <= g.
  Proof.
    intros g Hg. destruct (gokN_low 3 g ltac:(lra) Hg) as (Hg2 & _). destruct Hg as (Fg & _). pose proof uro_pos.
    assert (Hg0 : 0 <= g) by lra.
    destruct (sum_pos_facts 1 g format_1 Fg ltac:(lra) Hg0) as (_ & s1 & _ & s3 & s4).
    split. apply format_RN. unfold rG. tauto.
  Qed.
  Lemma prop_facts : forall P x X e S g, Acc P x X e S -> P <= (1 + uro) ^ 3 -> safe X -> gokN 3 g ->
    let err1 := RN (X * rG g) in
    0 <= err1 /\ S * (1 + 4 * uro) <= (1 + uro) ^ 6 * err1 /\ err1 <= (1 + uro) ^ 6 * ((1 + gamma3) * S).
  Proof.
    intros P x X e S g (P1 & _ & _ & xX & _ & up & lo) HP SX Hg err1. pose proof uro_range as Hu.
    destruct (G_facts g Hg) as (_ & G1 & G2 & G3 & g0). destruct (gokN_low 3 g ltac:(lra) Hg) as (_ & g4).
    pose proof Hg as (_ & _ & gu). change (gammaN 3) with gamma3 in gu. pose proof (gammaN_range 3 ltac:(lra)) as gr.
    change (gammaN 3) with gamma3 in gr.
    assert (X0 : 0 <= X) by (pose proof (Rabs_pos x); lra). assert (S0 : 0 <= S) by nra.
    destruct (scale_facts X (rG g) X0 SX ltac:(lra)) as (E0 & e1 & e2). fold err1 in E0, e1, e2.
    assert (L : S <= (1 + uro) ^ 3 * X). { apply Rle_trans with (1 := lo). apply Rmult_le_compat_r; lra. }
    assert (U : X <= (1 + uro) ^ 3 * S). { apply Rle_trans with (1 := up). apply Rmult_le_compat_r; lra. }
    assert (P3 : 0 <= (1 + uro) ^ 3) by (apply pow_le; lra).
    split. exact E0. split.
    - apply Rle_trans with (((1 + uro) ^ 3 * X) * ((1 + uro) * ((1 + uro) * rG g))).
      apply Rmult_le_compat; try lra. apply Rle_trans with (1 := g4). rewrite Rmult_comm. apply Rmult_le_compat_l; lra.
      replace ((1 + uro) ^ 3 * X * ((1 + uro) * ((1 + uro) * rG g))) with ((1 + uro) ^ 5 * (X * rG g)) by ring.
      replace ((1 + uro) ^ 6 * err1) with ((1 + uro) ^ 5 * ((1 + uro) * err1)) by ring.
      apply Rmult_le_compat_l. apply pow_le; lra. exact e1.
    - apply Rle_trans with (1 := e2).
      replace ((1 + uro) ^ 6 * ((1 + gamma3) * S)) with ((1 + uro) * (((1 + uro) ^ 3 * S) * ((1 + uro) * ((1 + uro) * (1 + gamma3))))) by ring.
      apply Rmult_le_compat_l. lra. apply Rmult_le_compat; try lra.
      apply Rle_trans with (1 := G3). apply Rmult_le_compat_l. lra. nra.
  Qed.

  Notation fin v := (is_finite v = true).
  Local Open Scope num_scope.

  Lemma add_inv : forall a b : bf, fin (a + b) -> fin a /\ fin b /\ B2R (a + b) = RN (B2R a + B2R b)%R.
  Proof. exact Bplus_fin. Qed.
  Lemma mul_inv : forall a b : bf, fin (a * b) -> fin a /\ fin b /\ B2R (a * b) = RN (B2R a * B2R b)%R.
  Proof. exact Bmult_fin. Qed.
  Lemma abs_inv : forall a : bf, fin (nabs a) -> fin a /\ B2R (nabs a) = Rabs (B2R a).
  Proof.
    intros a H. change (nabs a) with (Babs a) in *. rewrite is_finite_Babs in H. split. exact H. apply B2R_Babs.
  Qed.
  Lemma add_fwd : forall a b : bf, fin a -> fin b -> (Rabs (RN (B2R a + B2R b)) < bpow radix2 emax)%R ->
    fin (a + b) /\ B2R (a + b) = RN (B2R a + B2R b)%R.
  Proof. intros a b Fa Fb. exact (rnd_fwd _ _ (is_rnd_plus prec emax Hprec Hmax a b Fa Fb)). Qed.
  Lemma sub_fwd : forall a b : bf, fin a -> fin b -> (Rabs (RN (B2R a - B2R b)) < bpow radix2 emax)%R ->
    fin (a - b) /\ B2R (a - b) = RN (B2R a - B2R b)%R.
  Proof. intros a b Fa Fb. exact (rnd_fwd _ _ (is_rnd_minus prec emax Hprec Hmax a b Fa Fb)). Qed.
  Lemma mul_fwd : forall a b : bf, fin a -> fin b -> (Rabs (RN (B2R a * B2R b)) < bpow radix2 emax)%R ->
    fin (a * b) /\ B2R (a * b) = RN (B2R a * B2R b)%R.
  Proof. intros a b Fa Fb. exact (rnd_fwd _ _ (is_rnd_mult prec emax Hprec Hmax a b Fa Fb)). Qed.
  Lemma div_fwd : forall a b : bf, fin a -> fin b -> B2R b <> 0%R -> (Rabs (RN (B2R a / B2R b)) < bpow radix2 emax)%R ->
    fin (a / b) /\ B2R (a / b) = RN (B2R a / B2R b)%R.
  Proof. intros a b Fa Fb Hb. exact (rnd_fwd _ _ (is_rnd_div prec emax Hprec Hmax a b Fa Fb Hb)). Qed.
  Lemma div_one : forall a w : bf, fin a -> fin w -> B2R w = 1%R -> fin (a / w) /\ B2R (a / w) = B2R a.
  Proof.
    intros a w Fa Fw Hw.
    assert (E : (B2R a / B2R w)%R = B2R a) by (rewrite Hw; field).
    destruct (div_fwd a w Fa Fw) as (F & V). rewrite Hw; lra.
    rewrite E, (RN_B2R prec emax). apply abs_B2R_lt_emax.
    split. exact F. rewrite V, E. apply (RN_B2R prec emax).
  Qed.

  (** [Xf] evaluates the expression of [xf] over absolute values: if [Xf] is finite so is [xf], since
      the value path stays below the absolute-value path *)
  Definition tracks (xf Xf : bf) (x X : R) : Prop :=
    fin Xf -> B2R Xf = X /\ fin xf /\ B2R xf = x /\ (Rabs x <= X)%R.
  Lemma tracks_mul : forall m v : bf, tracks (m * v) (nabs (m * v)) (RN (B2R m * B2R v)) (Rabs (RN (B2R m * B2R v))).
  Proof.
    intros m v H. destruct (abs_inv _ H) as (F & V). destruct (mul_inv _ _ F) as (_ & _ & W).
    rewrite V. exact (conj (f_equal Rabs W) (conj F (conj W (Rle_refl _)))).
  Qed.
  Lemma tracks_float : forall m : bf, tracks m (nabs m) (B2R m) (Rabs (B2R m)).
  Proof. intros m H. destruct (abs_inv _ H) as (F & V). rewrite V. repeat split. exact F. apply Rle_refl. Qed.
  Lemma tracks_add : forall xf Xf yf Yf x X y Y, tracks xf Xf x X -> tracks yf Yf y Y ->
    tracks (xf + yf) (Xf + Yf) (RN (x + y)) (RN (X + Y)).
  Proof.
    intros xf Xf yf Yf x X y Y Tx Ty H. destruct (add_inv _ _ H) as (FX & FY & V).
    destruct (Tx FX) as (EX & Fx & Ex & LX). destruct (Ty FY) as (EY & Fy & Ey & LY). rewrite EX, EY in V.
    pose proof (abs_RN_sum_le x y X Y LX LY) as L.
    destruct (add_fwd xf yf Fx Fy) as (F & W).
    { rewrite Ex, Ey. apply Rle_lt_trans with (1 := L). rewrite <- V.
      apply Rle_lt_trans with (1 := RRle_abs _). apply abs_B2R_lt_emax. }
    rewrite Ex, Ey in W. exact (conj V (conj F (conj W L))).
  Qed.

  (** dividing by a float that reads 1 changes neither value nor finiteness *)
  Lemma tracks_div_one : forall (xf Xf w : bf) x X, fin w -> B2R w = 1%R -> tracks xf Xf x X -> tracks (xf / w) Xf x X.
  Proof.
    intros xf Xf w x X Fw Vw T H. destruct (T H) as (EX & F & E & L). destruct (div_one xf w F Fw Vw) as (F' & E'). rewrite E'.
    exact (conj EX (conj F' (conj E L))).
  Qed.
  Lemma tracks_row3 : forall m0 m1 m2 x y z : bf,
    tracks (m0 * x + m1 * y + m2 * z) (nabs (m0 * x) + nabs (m1 * y) + nabs (m2 * z))
    (rrow3 (B2R m0 * B2R x) (B2R m1 * B2R y) (B2R m2 * B2R z)) (rabs3 (B2R m0 * B2R x) (B2R m1 * B2R y) (B2R m2 * B2R z)).
  Proof. intros. repeat apply tracks_add; apply tracks_mul. Qed.
  Lemma tracks_row4 : forall m0 m1 m2 m3 x y z : bf,
    tracks (m0 * x + m1 * y + m2 * z + m3) (nabs (m0 * x) + nabs (m1 * y) + nabs (m2 * z) + nabs m3)
    (rrow4 (B2R m0 * B2R x) (B2R m1 * B2R y) (B2R m2 * B2R z) (B2R m3))
    (rabs4 (B2R m0 * B2R x) (B2R m1 * B2R y) (B2R m2 * B2R z) (B2R m3)).
  Proof. intros. apply tracks_add. apply tracks_row3. apply tracks_float. Qed.
  Lemma fin_inputs : forall m0 m1 m2 x y z : bf, fin (nabs (m0 * x) + nabs (m1 * y) + nabs (m2 * z)) -> fin x /\ fin y /\ fin z.
  Proof.
    intros m0 m1 m2 x y z H. destruct (add_inv _ _ H) as (H2 & Fc & _). destruct (add_inv _ _ H2) as (Fa & Fb & _).
    apply abs_inv in Fa, Fb, Fc. apply proj1, mul_inv in Fa, Fb, Fc. tauto.
  Qed.
  Lemma format_int : forall (z e : Z), (Z.abs z < 2 ^ prec)%Z -> (emin <= e)%Z -> format (F2R (Float radix2 z e)).
  Proof.
    intros z e Hz He. apply generic_format_FLT. apply FLT_spec with (Float radix2 z e). reflexivity.
    exact Hz. exact He.
  Qed.
  Lemma pow_prec_big : (256 <= 2 ^ prec)%Z.
  Proof. change 256%Z with (2 ^ 8)%Z. apply Z.pow_le_mono_r; lia. Qed.
  Lemma emax_pow : (512 <= bpow radix2 emax)%R.
  Proof.
    apply Rle_trans with (bpow radix2 9). simpl. lra. apply bpow_le. pose proof emax_big. lia.
  Qed.
  Lemma Bofz_small : forall z, (0 <= z <= 4)%Z ->
    fin (Bofz prec emax Hprec Hmax z) /\ B2R (Bofz prec emax Hprec Hmax z) = IZR z.
  Proof.
    intros z Hz. unfold Bofz.
    assert (E : F2R (Float radix2 z 0) = IZR z) by (unfold F2R; simpl; ring).
    destruct (Bnorm_exact prec emax Hprec Hmax z 0) as (F & V).
    - apply format_int. pose proof pow_prec_big. lia. pose proof emax_big. lia.
    - rewrite E. pose proof emax_pow. rewrite Rabs_pos_eq by (apply IZR_le; lia).
      apply Rle_lt_trans with 4%R. apply IZR_le. lia. lra.
    - split. exact F. rewrite V. exact E.
  Qed.
  Lemma Beps_spec : fin (Beps prec emax Hprec Hmax) /\ B2R (Beps prec emax Hprec Hmax) = (2 * uro)%R.
  Proof.
    unfold Beps.
    assert (E : F2R (Float radix2 1 (1 - prec)) = (2 * uro)%R).
    { rewrite F2R_bpow. unfold uro. replace (1 - prec)%Z with (1 + - prec)%Z by ring. rewrite bpow_plus. reflexivity. }
    destruct (Bnorm_exact prec emax Hprec Hmax 1 (1 - prec)) as (F & V).
    - apply format_int. pose proof pow_prec_big. simpl. lia. pose proof emax_big. lia.
    - rewrite E. pose proof uro_range. pose proof emax_pow. rewrite Rabs_pos_eq; lra.
    - split. exact F. rewrite V. exact E.
  Qed.
  Lemma format_uro : format uro.
  Proof. unfold uro. apply generic_format_bpow. pose proof emax_big. unfold FLT_exp. lia. Qed.
  Lemma format_Nuro : forall z, (0 <= z <= 4)%Z -> format (IZR z * uro)%R.
  Proof.
    intros z Hz. replace (IZR z * uro)%R with (F2R (Float radix2 z (- prec))) by reflexivity.
    apply format_int. pose proof pow_prec_big. lia. pose proof emax_big. lia.
  Qed.
  Lemma format_1mNuro : forall z, (1 <= z <= 4)%Z -> format (1 - IZR z * uro)%R.
  Proof.
    intros z Hz. replace (1 - IZR z * uro)%R with (F2R (Float radix2 (2 ^ prec - z) (- prec))).
    - apply format_int. pose proof pow_prec_big. lia. pose proof emax_big. lia.
    - unfold F2R, uro. simpl. rewrite minus_IZR, (IZR_Zpower radix2) by lia.
      rewrite Rmult_minus_distr_r, <- bpow_plus. replace (prec + - prec)%Z with 0%Z by ring. simpl. ring.
  Qed.
  Lemma gokN_RN : forall N, (3 <= N <= 4)%R -> gokN N (RN (gammaN N)).
  Proof.
    intros N HN. pose proof uro_range as Hu. pose proof (gammaN_range N ltac:(lra)) as Hg.
    pose proof (gammaN_eq N ltac:(lra)) as He. pose proof (Nu_small N ltac:(lra)) as HNu.
    assert (Nn : normal (gammaN N)).
    { right. rewrite Rabs_pos_eq by lra. apply Rle_trans with (2 * uro)%R; [|nra].
      unfold uro. replace 2%R with (bpow radix2 1) by reflexivity. rewrite <- bpow_plus. apply bpow_le.
      unfold Prec_lt_emax in Hmax. lia. }
    destruct (prod_facts (gammaN N) Nn) as (_ & f1 & f2 & _).
    assert (Hr : (0 <= RN (gammaN N))%R) by (apply RN_nonneg; lra).
    rewrite (Rabs_pos_eq (RN (gammaN N))) in f1, f2 by exact Hr. rewrite (Rabs_pos_eq (gammaN N)) in f1, f2 by lra.
    split. apply format_RN. split; [|exact f2].
    apply Rle_trans with (gammaN N * (1 - N * uro))%R. lra.
    replace (RN (gammaN N) * ((1 + uro) * (1 - N * uro)))%R with (((1 + uro) * RN (gammaN N)) * (1 - N * uro))%R by ring.
    apply Rmult_le_compat_r; lra.
  Qed.

  (** the [gamma!(n)] macro, n = 3 and 4: [n * (EPSILON / 2)] and [1 - n * (EPSILON / 2)] are exact, one division rounds *)
  Lemma ngamma_spec : forall z, (3 <= z <= 4)%Z -> fin (ngamma z) /\ B2R (ngamma z) = RN (gammaN (IZR z)).
  Proof.
    intros z Hz. pose proof uro_range as Hu. pose proof emax_pow as Hemax.
    assert (HN : (3 <= IZR z <= 4)%R) by (split; apply IZR_le; lia). pose proof (Nu_small (IZR z) ltac:(lra)) as HNu.
    destruct Beps_spec as (Fe & Ve).
    destruct (Bofz_small 2 ltac:(lia)) as (F2 & V2). destruct (Bofz_small z ltac:(lia)) as (F3 & V3).
    destruct (Bofz_small 1 ltac:(lia)) as (F1 & V1).
    unfold ngamma. cbv zeta.
    change (@neps bf NB16) with (Beps prec emax Hprec Hmax). change (@n2 bf NB16) with (Bofz prec emax Hprec Hmax 2).
    change (@nofZ bf NB16 z) with (Bofz prec emax Hprec Hmax z). change (@n1 bf NB16) with (Bofz prec emax Hprec Hmax 1).
    set (e := Beps prec emax Hprec Hmax) in *. set (b1 := Bofz prec emax Hprec Hmax 1) in *.
    set (b2 := Bofz prec emax Hprec Hmax 2) in *. set (b3 := Bofz prec emax Hprec Hmax z) in *.
    assert (Q1 : (B2R e / B2R b2)%R = uro) by (rewrite Ve, V2; field).
    destruct (div_fwd e b2 Fe F2) as (Fh & Vh). rewrite V2; lra.
    { rewrite Q1, (RN_id _ format_uro), Rabs_pos_eq; lra. }
    rewrite Q1, (RN_id _ format_uro) in Vh.
    pose proof (format_Nuro z ltac:(lia)) as FN. pose proof (format_1mNuro z ltac:(lia)) as F1N.
    destruct (mul_fwd (e / b2) b3 Fh F3) as (Fn & Vn).
    { rewrite Vh, V3, Rmult_comm, (RN_id _ FN), Rabs_pos_eq; lra. }
    rewrite Vh, V3, Rmult_comm, (RN_id _ FN) in Vn.
    destruct (sub_fwd b1 (e / b2 * b3) F1 Fn) as (Fd & Vd).
    { rewrite V1, Vn, (RN_id _ F1N), Rabs_pos_eq; lra. }
    rewrite V1, Vn, (RN_id _ F1N) in Vd.
    destruct (div_fwd (e / b2 * b3) (b1 - e / b2 * b3) Fn Fd) as (Fg & Vg). rewrite Vd; lra.
    { rewrite Vn, Vd. fold (gammaN (IZR z)). destruct (gokN_RN (IZR z) HN) as (_ & _ & Hup).
      pose proof (gammaN_range (IZR z) ltac:(lra)). rewrite Rabs_pos_eq by (apply RN_nonneg; lra). nra. }
    rewrite Vn, Vd in Vg. split; assumption.
  Qed.
  Lemma ngamma_gok : forall z, (3 <= z <= 4)%Z -> gokN (IZR z) (B2R (ngamma z)).
  Proof. intros z Hz. destruct (ngamma_spec z Hz) as (_ & ->). apply gokN_RN. split; apply IZR_le; lia. Qed.
  Lemma gok3 : gokN 3 (B2R (ngamma 3)).
  Proof. apply (ngamma_gok 3). lia. Qed.
  Lemma gok4 : gokN 4 (B2R (ngamma 4)).
  Proof. apply (ngamma_gok 4). lia. Qed.
  Lemma one_plus_gamma_spec : fin (n1 + ngamma 3) /\ B2R (n1 + ngamma 3) = rG (B2R (ngamma 3)).
  Proof.
    destruct (ngamma_spec 3 ltac:(lia)) as (Fg & Vg). destruct (Bofz_small 1 ltac:(lia)) as (F1 & V1).
    change (@n1 bf NB16) with (Bofz prec emax Hprec Hmax 1).
    destruct (add_fwd (Bofz prec emax Hprec Hmax 1) (ngamma 3) F1 Fg) as (F & V).
    - rewrite V1. fold (rG (B2R (ngamma 3))). pose proof gok3 as Hg.
      destruct (G_facts _ Hg) as (_ & G1 & _ & G3 & _). destruct Hg as (_ & _ & Hup).
      pose proof (gammaN_range 3 ltac:(lra)). pose proof uro_range. pose proof emax_pow.
      rewrite Rabs_pos_eq by lra. nra.
    - split. exact F. rewrite V, V1. reflexivity.
  Qed.
  Definition B2V (v : V3 bf) : V3 R := mkV3 (B2R (vx v)) (B2R (vy v)) (B2R (vz v)).
  Definition B2M (m : M4 bf) : M4 R :=
    mkM4 (B2R (m00 m)) (B2R (m01 m)) (B2R (m02 m)) (B2R (m03 m)) (B2R (m10 m)) (B2R (m11 m)) (B2R (m12 m)) (B2R (m13 m))
         (B2R (m20 m)) (B2R (m21 m)) (B2R (m22 m)) (B2R (m23 m)) (B2R (m30 m)) (B2R (m31 m)) (B2R (m32 m)) (B2R (m33 m)).
  Definition fin3 (v : V3 bf) : Prop := fin (vx v) /\ fin (vy v) /\ fin (vz v).
  Lemma fin3_bool : forall v : V3 bf, is_finite (vx v) && is_finite (vy v) && is_finite (vz v) = true -> fin3 v.
  Proof. intros v H. apply andb_true_iff in H. destruct H as (H & Hz). apply andb_true_iff in H. exact (conj (proj1 H) (conj (proj2 H) Hz)). Qed.
  (** last row exactly (0,0,0,1): the invariant of every constructed / composed transform (C06) *)
  Definition affine_last (m : M4 bf) : Prop :=
    fin (m30 m) /\ fin (m31 m) /\ fin (m32 m) /\ fin (m33 m) /\
    B2R (m30 m) = 0%R /\ B2R (m31 m) = 0%R /\ B2R (m32 m) = 0%R /\ B2R (m33 m) = 1%R.
  (** no product of a matrix entry with a coordinate is non-zero and below 2^(emin+2prec) (binary64: 2^-968) *)
  Definition safe_prods (m : M4 R) (p : V3 R) : Prop :=
    (safe (m00 m * vx p) /\ safe (m01 m * vy p) /\ safe (m02 m * vz p)) /\
    (safe (m10 m * vx p) /\ safe (m11 m * vy p) /\ safe (m12 m * vz p)) /\
    (safe (m20 m * vx p) /\ safe (m21 m * vy p) /\ safe (m22 m * vz p)).
  Definition safe_trans (m : M4 R) : Prop := safe (m03 m) /\ safe (m13 m) /\ safe (m23 m).


  Lemma g3_range : (0 < gamma3 <= / 64)%R.
  Proof. pose proof (gammaN_range 3 ltac:(lra)) as H. pose proof uro_pos. change (gammaN 3) with gamma3 in H. lra. Qed.

  (** [Xf]: the absolute-value row that the code multiplies by [gamma!(z)] *)
  Section Row.
    Variables (xf Xf : bf) (x X e S : R) (z : Z).
    Hypothesis T : tracks xf Xf x X.
    Let g := B2R (@ngamma bf NB16 z).
    Let E : bf := Xf * ngamma z.
    Hypothesis Snd : (Rabs (x - e) <= RN (X * g))%R.
    Variable gm : R.
    Hypothesis Hgm : (0 <= gm <= 135 / 100 * gamma3)%R.
    Hypothesis S0 : (0 <= S)%R.
    Hypothesis Up : (0 <= RN (X * g) <= (1 + uro) ^ 6 * (gm * S))%R.

    Lemma row_err : fin E -> fin xf /\ B2R xf = x /\ B2R E = RN (X * g)%R.
    Proof.
      intros H. destruct (mul_inv _ _ H) as (F & _ & V). destruct (T F) as (EX & Fx & Ex & _). rewrite EX in V.
      exact (conj Fx (conj Ex V)).
    Qed.
    Lemma row_S : fin E -> fin xf /\ (Rabs (B2R xf - e) <= 1 * B2R E)%R.
    Proof. intros H. destruct (row_err H) as (F & -> & ->). rewrite Rmult_1_l. exact (conj F Snd). Qed.
    Lemma row_M : fin E -> (B2R E <= 2 * (gamma3 * S))%R.
    Proof.
      intros H. destruct (row_err H) as (_ & _ & ->). pose proof uro_range as Hu.
      pose proof (core_M uro gamma3 gm 0 S 0 (RN (X * g)) (RN (X * g)) Hu g3_range Hgm (Rle_refl 0) S0) as K.
      rewrite !Rmult_0_r, Rplus_0_l, Rplus_0_r in K. apply K. apply Rle_refl. apply Up. destruct Up. nra.
    Qed.

    (** with an incoming error: [Yf] is the [mul3x3_abs] row of the input error vector *)
    Variables (Yf : bf) (Y PP : R).
    Hypothesis TY : fin Yf -> B2R Yf = Y.
    Let g3 := B2R (@ngamma bf NB16 3).
    Let PE : bf := Yf * (n1 + ngamma 3) + E.
    Hypothesis PP0 : (0 <= PP)%R.
    Hypothesis PF : (0 <= RN (Y * rG g3) /\ PP * (1 + 4 * uro) <= (1 + uro) ^ 6 * RN (Y * rG g3) /\
                     RN (Y * rG g3) <= (1 + uro) ^ 6 * ((1 + gamma3) * PP))%R.
    Lemma row_perr : fin PE -> fin E /\ B2R PE = RN (RN (Y * rG g3) + B2R E)%R.
    Proof.
      intros H. destruct (add_inv _ _ H) as (F1 & F2 & V). destruct (mul_inv _ _ F1) as (FY & _ & V1).
      rewrite (TY FY), (proj2 one_plus_gamma_spec) in V1. rewrite V1 in V. exact (conj F2 V).
    Qed.
    Lemma row_S_box : fin PE -> forall d : R, (Rabs d <= PP)%R ->
      fin xf /\ (Rabs (B2R xf - (e + d)) <= (1 + 4 * uro) * B2R PE)%R.
    Proof.
      intros H d Hd. destruct (row_perr H) as (FE & V). destruct (row_err FE) as (Fx & Ex & EE). split. exact Fx.
      rewrite V, EE, Ex. destruct PF as (P0 & P1 & _).
      assert (E0 : (0 <= RN (X * g))%R) by (apply Rle_trans with (2 := Snd), Rabs_pos).
      destruct (sum_pos_facts _ _ (format_RN (Y * rG g3)) (format_RN (X * g)) P0 E0) as (_ & _ & _ & s3 & _).
      replace (x - (e + d))%R with (- d + (x - e))%R by ring.
      apply Rle_trans with (1 := Rabs_triang _ _). rewrite Rabs_Ropp.
      apply core_box with (D := PP) (E := RN (X * g)) (err1 := RN (Y * rG g3)); try assumption. apply uro_range.
    Qed.
    Lemma row_M_prop : fin PE -> (B2R PE <= 2 * (gamma3 * S + 1 * PP))%R.
    Proof.
      intros H. destruct (row_perr H) as (FE & V). destruct (row_err FE) as (_ & _ & EE). rewrite V, EE.
      destruct PF as (P0 & _ & P2).
      destruct (sum_pos_facts _ _ (format_RN (Y * rG g3)) (format_RN (X * g)) P0 (proj1 Up)) as (_ & _ & _ & _ & s4).
      apply core_M with (u := uro) (gm := gm) (err1 := RN (Y * rG g3)) (E := RN (X * g)); try assumption.
      apply uro_range. apply g3_range. apply Up.
    Qed.
  End Row.

  Section Rows.
    Variables m0 m1 m2 m3 x y z : bf.
    Let a := (B2R m0 * B2R x)%R.
    Let b := (B2R m1 * B2R y)%R.
    Let c := (B2R m2 * B2R z)%R.
    Let t := B2R m3.
    Hypothesis Sa : safe a.
    Hypothesis Sb : safe b.
    Hypothesis Sc : safe c.
    Let acc3 := acc_row3 a b c (safe_normal a Sa) (safe_normal b Sb) (safe_normal c Sc).
    (** the vector functions leave the translation entry [m3] out ([mul3x3_abs]), the point functions add it
        ([mul4x4_abs]) *)
    Let val3 : bf := m0 * x + m1 * y + m2 * z.
    Let abs3 : bf := nabs (m0 * x) + nabs (m1 * y) + nabs (m2 * z).
    Let abs4 : bf := abs3 + nabs m3.
    Let errv : bf := abs3 * ngamma 3.
    Let errp : bf := abs4 * ngamma 4.
    Let Tv := tracks_row3 m0 m1 m2 x y z.
    Let Tp := tracks_row4 m0 m1 m2 m3 x y z.
    (** the value of a point row is divided by [w] before it is returned; [w] reads 1 on an affine matrix ([w_one]) *)
    Variable w : bf.
    Hypothesis Fw : fin w.
    Hypothesis Vw : B2R w = 1%R.
    Let val4 : bf := (val3 + m3) / w.
    Let Tw := tracks_div_one _ _ w _ _ Fw Vw Tp.

    Lemma vec_S : fin errv -> fin val3 /\ (Rabs (B2R val3 - (a + b + c)) <= 1 * B2R errv)%R.
    Proof. exact (row_S _ _ _ _ _ 3 Tv (vec_real a b c _ Sa Sb Sc gok3)). Qed.
    Lemma pt_S : fin errp -> fin val4 /\ (Rabs (B2R val4 - (a + b + c + t)) <= 1 * B2R errp)%R.
    Proof. exact (row_S _ _ _ _ _ 4 Tw (pt_real a b c t _ Sa Sb Sc (generic_format_B2R prec emax m3) gok4)). Qed.

    (** (M) for a vector row: no translation term on the right-hand side, no hypothesis on [m3] *)
    Lemma vec_up : (0 <= RN (rabs3 a b c * B2R (ngamma 3)) <= (1 + uro) ^ 6 * (gamma3 * (Rabs a + Rabs b + Rabs c)))%R.
    Proof. apply (acc_upper 3 _ _ _ _ _ _ acc3). apply pow_up; lia. apply rabs3_safe; assumption. lra. exact gok3. Qed.
    Lemma g3_self : (0 <= gamma3 <= 135 / 100 * gamma3)%R.
    Proof. pose proof g3_range. lra. Qed.
    Lemma vec_M : fin errv -> (B2R errv <= 2 * (gamma3 * (Rabs a + Rabs b + Rabs c)))%R.
    Proof. exact (row_M _ _ _ _ _ 3 Tv gamma3 g3_self (abs3_nonneg a b c) vec_up). Qed.
    (** gamma(4) is 4/3 of the yardstick gamma(3): still within the factor 2 *)
    Lemma g4_range : (0 <= gammaN 4 <= 135 / 100 * gamma3)%R.
    Proof. pose proof (gammaN_range 4 ltac:(lra)). pose proof uro_pos. split. lra. apply gamma4_le. Qed.
    Lemma abs4_nonneg : (0 <= Rabs a + Rabs b + Rabs c + Rabs t)%R.
    Proof. pose proof (abs3_nonneg a b c). pose proof (Rabs_pos t). lra. Qed.
    Lemma pt_up : safe t ->
      (0 <= RN (rabs4 a b c t * B2R (ngamma 4)) <= (1 + uro) ^ 6 * (gammaN 4 * (Rabs a + Rabs b + Rabs c + Rabs t)))%R.
    Proof.
      intros St. apply (acc_upper 4 _ _ _ _ _ _ (acc_row4 a b c t (safe_normal a Sa) (safe_normal b Sb) (safe_normal c Sc) (generic_format_B2R prec emax m3))).
      apply Rle_refl. apply rabs4_safe; try assumption. apply generic_format_B2R. lra. exact gok4.
    Qed.
    Lemma pt_M : safe t -> fin errp -> (B2R errp <= 2 * (gamma3 * (Rabs a + Rabs b + Rabs c + Rabs t)))%R.
    Proof. intros St. exact (row_M _ _ _ _ _ 4 Tp _ g4_range abs4_nonneg (pt_up St)). Qed.

    (** the propagated part, for an input error vector (ex, ey, ez): linear part only *)
    Variables ex ey ez : bf.
    Let pa := (B2R m0 * B2R ex)%R.
    Let pb := (B2R m1 * B2R ey)%R.
    Let pc := (B2R m2 * B2R ez)%R.
    Hypothesis Spa : safe pa.
    Hypothesis Spb : safe pb.
    Hypothesis Spc : safe pc.
    Let lin : bf := (nabs (m0 * ex) + nabs (m1 * ey) + nabs (m2 * ez)) * (n1 + ngamma 3).
    Let TY := fun F => proj1 (tracks_row3 m0 m1 m2 ex ey ez F).
    Let PF := prop_facts _ _ _ _ _ _ (acc_row3 pa pb pc (safe_normal _ Spa) (safe_normal _ Spb) (safe_normal _ Spc))
                (Rle_refl _) (rabs3_safe pa pb pc Spa Spb Spc) gok3.
    Lemma lin_dev : forall x1 x2 x3 : R,
      (Rabs (x1 - B2R x) <= B2R ex -> Rabs (x2 - B2R y) <= B2R ey -> Rabs (x3 - B2R z) <= B2R ez ->
       Rabs (B2R m0 * x1 + B2R m1 * x2 + B2R m2 * x3 - (a + b + c)) <= Rabs pa + Rabs pb + Rabs pc)%R.
    Proof.
      intros x1 x2 x3 H1 H2 H3.
      assert (A : forall m d e : R, (Rabs d <= e -> Rabs (m * d) <= Rabs (m * e))%R).
      { intros m d e H. rewrite !Rabs_mult. apply Rmult_le_compat_l. apply Rabs_pos.
        apply Rle_trans with (1 := H). apply RRle_abs. }
      pose proof (A (B2R m0) _ _ H1). pose proof (A (B2R m1) _ _ H2). pose proof (A (B2R m2) _ _ H3).
      replace (B2R m0 * x1 + B2R m1 * x2 + B2R m2 * x3 - (a + b + c))%R
        with (B2R m0 * (x1 - B2R x) + B2R m1 * (x2 - B2R y) + B2R m2 * (x3 - B2R z))%R by (unfold a, b, c; ring).
      pose proof (Rabs_triang (B2R m0 * (x1 - B2R x) + B2R m1 * (x2 - B2R y)) (B2R m2 * (x3 - B2R z))).
      pose proof (Rabs_triang (B2R m0 * (x1 - B2R x)) (B2R m1 * (x2 - B2R y))). unfold pa, pb, pc. lra.
    Qed.
    Lemma vec_S_box : fin (lin + errv) -> fin val3 /\ forall x' : V3 R,
      (Rabs (vx x' - B2R x) <= B2R ex /\ Rabs (vy x' - B2R y) <= B2R ey /\ Rabs (vz x' - B2R z) <= B2R ez ->
       Rabs (B2R val3 - (B2R m0 * vx x' + B2R m1 * vy x' + B2R m2 * vz x')) <= (1 + 4 * uro) * B2R (lin + errv)%num)%R.
    Proof.
      intros H. pose proof (row_S_box _ _ _ _ _ 3 Tv (vec_real a b c _ Sa Sb Sc gok3) _ _ _ TY PF H) as K.
      split. apply (K 0%R). rewrite Rabs_R0. apply abs3_nonneg.
      intros x' (H1 & H2 & H3). destruct (K _ (lin_dev _ _ _ H1 H2 H3)) as (_ & L).
      replace (B2R m0 * vx x' + B2R m1 * vy x' + B2R m2 * vz x')%R
        with (a + b + c + (B2R m0 * vx x' + B2R m1 * vy x' + B2R m2 * vz x' - (a + b + c)))%R by ring. exact L.
    Qed.
    Lemma pt_S_box : fin (lin + errp) -> fin val4 /\ forall x' : V3 R,
      (Rabs (vx x' - B2R x) <= B2R ex /\ Rabs (vy x' - B2R y) <= B2R ey /\ Rabs (vz x' - B2R z) <= B2R ez ->
       Rabs (B2R val4 - (B2R m0 * vx x' + B2R m1 * vy x' + B2R m2 * vz x' + t)) <= (1 + 4 * uro) * B2R (lin + errp)%num)%R.
    Proof.
      intros H. pose proof (row_S_box _ _ _ _ _ 4 Tw (pt_real a b c t _ Sa Sb Sc (generic_format_B2R prec emax m3) gok4) _ _ _ TY PF H) as K.
      split. apply (K 0%R). rewrite Rabs_R0. apply abs3_nonneg.
      intros x' (H1 & H2 & H3). destruct (K _ (lin_dev _ _ _ H1 H2 H3)) as (_ & L).
      replace (B2R m0 * vx x' + B2R m1 * vy x' + B2R m2 * vz x' + t)%R
        with (a + b + c + t + (B2R m0 * vx x' + B2R m1 * vy x' + B2R m2 * vz x' - (a + b + c)))%R by ring. exact L.
    Qed.
    (** (M), vectors: the translation entry appears neither in the code nor in the yardstick *)
    Lemma vec_M_prop : fin (lin + errv) ->
      (B2R (lin + errv)%num <= 2 * (gamma3 * (Rabs a + Rabs b + Rabs c) + 1 * (Rabs pa + Rabs pb + Rabs pc)))%R.
    Proof. exact (row_M_prop _ _ _ _ _ 3 Tv gamma3 g3_self (abs3_nonneg a b c) vec_up _ _ _ TY (abs3_nonneg pa pb pc) PF). Qed.
    Lemma pt_M_prop : safe t -> fin (lin + errp) ->
      (B2R (lin + errp)%num <= 2 * (gamma3 * (Rabs a + Rabs b + Rabs c + Rabs t) + 1 * (Rabs pa + Rabs pb + Rabs pc)))%R.
    Proof. intros St. exact (row_M_prop _ _ _ _ _ 4 Tp _ g4_range abs4_nonneg (pt_up St) _ _ _ TY (abs3_nonneg pa pb pc) PF). Qed.
  End Rows.

  (** the bottom row of an affine matrix evaluates to exactly 1, so the division by [w] is exact: three products with a
      zero factor, two sums of zeros, and the float [m33 = 1] added to zero *)
  Lemma w_one : forall (m : M4 bf) (p : V3 bf), affine_last m -> fin3 p ->
    let w := m30 m * vx p + m31 m * vy p + m32 m * vz p + m33 m in fin w /\ B2R w = 1%R.
  Proof.
    intros m p (F0 & F1 & F2 & F3 & V0 & V1 & V2 & V3) (Fx & Fy & Fz) w.
    assert (Z : forall (v : bf) r, is_rnd prec emax v r -> r = 0%R -> fin v /\ B2R v = 0%R).
    { intros v r Rv ->. destruct (rnd_fwd _ _ Rv) as (F & V). rewrite (RN_0 prec emax), Rabs_R0. apply bpow_gt_0.
      rewrite (RN_0 prec emax) in V. exact (conj F V). }
    destruct (Z _ _ (is_rnd_mult prec emax Hprec Hmax _ _ F0 Fx)) as (Fa & Va). { rewrite V0. apply Rmult_0_l. }
    destruct (Z _ _ (is_rnd_mult prec emax Hprec Hmax _ _ F1 Fy)) as (Fb & Vb). { rewrite V1. apply Rmult_0_l. }
    destruct (Z _ _ (is_rnd_mult prec emax Hprec Hmax _ _ F2 Fz)) as (Fc & Vc). { rewrite V2. apply Rmult_0_l. }
    destruct (Z _ _ (is_rnd_plus prec emax Hprec Hmax _ _ Fa Fb)) as (G1 & W1). { rewrite Va, Vb. apply Rplus_0_l. }
    destruct (Z _ _ (is_rnd_plus prec emax Hprec Hmax _ _ G1 Fc)) as (G2 & W2). { rewrite W1, Vc. apply Rplus_0_l. }
    destruct (rnd_fwd _ _ (is_rnd_plus prec emax Hprec Hmax _ _ G2 F3)) as (F & V).
    - rewrite W2, Rplus_0_l, (RN_B2R prec emax). apply abs_B2R_lt_emax.
    - rewrite W2, Rplus_0_l, (RN_B2R prec emax), V3 in V. exact (conj F V).
  Qed.
  Lemma fin_inputs4 : forall m0 m1 m2 m3 x y z k : bf, fin ((nabs (m0 * x) + nabs (m1 * y) + nabs (m2 * z) + nabs m3) * k) -> fin x /\ fin y /\ fin z.
  Proof.
    intros m0 m1 m2 m3 x y z k H. apply mul_inv, proj1, add_inv, proj1 in H. exact (fin_inputs _ _ _ _ _ _ H).
  Qed.

  (** a row lemma gives finiteness and bound of one coordinate; the statements list the three finiteness facts first *)
  Lemma rows3 : forall F1 F2 F3 W1 W2 W3 : Prop, F1 /\ W1 -> F2 /\ W2 -> F3 /\ W3 -> (F1 /\ F2 /\ F3) /\ W1 /\ W2 /\ W3.
  Proof. tauto. Qed.
  Lemma rows3_box : forall (F1 F2 F3 : Prop) (I W1 W2 W3 : V3 R -> Prop),
    F1 /\ (forall x, I x -> W1 x) -> F2 /\ (forall x, I x -> W2 x) -> F3 /\ (forall x, I x -> W3 x) ->
    (F1 /\ F2 /\ F3) /\ forall x, I x -> W1 x /\ W2 x /\ W3 x.
  Proof. intros F1 F2 F3 I W1 W2 W3 (f1 & w1) (f2 & w2) (f3 & w3). split. tauto. intros x H. auto. Qed.

  (** [expose] brings statement and model functions to the text of the row lemmas by unfolding alone, one layer at a
      time: the vocabulary of the statements, the reading of floats as reals, the model functions.  The kernel
      re-checks each step by its own conversion test, which is quick across one layer and slow across all three at
      once (it may start on the float operations instead); the same goes for leaving the whole to [exact]. *)
  Ltac expose :=
    cbv beta iota zeta delta [fin3 safe_prods safe_trans within inbox vle lin2 vaddR vscaleR V0 first_order first_order_vec
      img_vec img_pt abs_img abs_trans]; cbn [vx vy vz];
    cbv beta iota delta [B2V B2M]; cbn [vx vy vz m00 m01 m02 m03 m10 m11 m12 m13 m20 m21 m22 m23];
    cbv beta iota zeta delta [vec_with_error pt_with_error vec_propagate_error pt_propagate_error
      mul4x4vec mul4x4point mul4x4_abs mul3x3_abs vscale vadd vdivs];
    cbn [fst snd vx vy vz m00 m01 m02 m03 m10 m11 m12 m13 m20 m21 m22 m23 m30 m31 m32 m33].

  (** *** (S) vectors *)
  Theorem S_vec : forall (m : M4 bf) (v : V3 bf),
    let re := vec_with_error m v in
    fin3 (snd re) -> safe_prods (B2M m) (B2V v) ->
    fin3 (fst re) /\ within 1 (B2V (fst re)) (img_vec (B2M m) (B2V v)) (B2V (snd re)).
  Proof.
    intros m v. expose. intros (Hx & Hy & Hz) ((a1 & a2 & a3) & (b1 & b2 & b3) & (c1 & c2 & c3)).
    apply rows3; apply vec_S; assumption.
  Qed.

  (** *** (S) vectors with an input box: PARTIAL, factor (1+4u) (see Properties/C16.v for what is missing) *)
  Theorem S_vec_box : forall (m : M4 bf) (v e : V3 bf),
    let re := vec_propagate_error m v e in
    fin3 (snd re) -> safe_prods (B2M m) (B2V v) -> safe_prods (B2M m) (B2V e) ->
    fin3 (fst re) /\
    forall x' : V3 R, inbox (B2V v) (B2V e) x' -> within (1 + 4 * uro) (B2V (fst re)) (img_vec (B2M m) x') (B2V (snd re)).
  Proof.
    intros m v e. expose. intros (Hx & Hy & Hz) ((a1 & a2 & a3) & (b1 & b2 & b3) & (c1 & c2 & c3)) ((p1 & p2 & p3) & (q1 & q2 & q3) & (r1 & r2 & r3)).
    apply rows3_box; apply vec_S_box; assumption.
  Qed.

  (** *** (S) points: TRUE at factor 1 since the bound uses gamma(4) *)
  Theorem S_pt : forall (m : M4 bf) (p : V3 bf),
    let re := pt_with_error m p in
    affine_last m -> fin3 (snd re) -> safe_prods (B2M m) (B2V p) ->
    fin3 (fst re) /\ within 1 (B2V (fst re)) (img_pt (B2M m) (B2V p)) (B2V (snd re)).
  Proof.
    intros m p. expose. intros Haff (Hx & Hy & Hz) ((a1 & a2 & a3) & (b1 & b2 & b3) & (c1 & c2 & c3)).
    destruct (w_one m p Haff (fin_inputs4 _ _ _ _ _ _ _ _ Hx)) as (Fw & Vw).
    apply rows3; apply pt_S; assumption.
  Qed.

  (** *** (S) points with an input box: PARTIAL, factor (1+4u) *)
  Theorem S_pt_box : forall (m : M4 bf) (p e : V3 bf),
    let re := pt_propagate_error m p e in
    affine_last m -> fin3 (snd re) -> safe_prods (B2M m) (B2V p) -> safe_prods (B2M m) (B2V e) ->
    fin3 (fst re) /\
    forall x' : V3 R, inbox (B2V p) (B2V e) x' -> within (1 + 4 * uro) (B2V (fst re)) (img_pt (B2M m) x') (B2V (snd re)).
  Proof.
    intros m p e. expose. intros Haff (Hx & Hy & Hz) ((a1 & a2 & a3) & (b1 & b2 & b3) & (c1 & c2 & c3)) ((p1 & p2 & p3) & (q1 & q2 & q3) & (r1 & r2 & r3)).
    destruct (w_one m p Haff (fin_inputs4 _ _ _ _ _ _ _ _ (proj1 (proj2 (add_inv _ _ Hx))))) as (Fw & Vw).
    apply rows3_box; apply pt_S_box; assumption.
  Qed.

  (** *** (M), the two point [*_with_error] functions: within a factor 2 of gamma3 (sum |m_ij x_j| + |m_i3|) --
      a point's image does add the translation entry, so its rounding is part of the first-order worst case *)
  Theorem M_with_error : forall (m : M4 bf) (p : V3 bf), safe_prods (B2M m) (B2V p) -> safe_trans (B2M m) ->
    fin3 (snd (pt_with_error m p)) -> vle (B2V (snd (pt_with_error m p))) (vscaleR 2 (first_order gamma3 (B2M m) (B2V p) V0)).
  Proof.
    intros m p. expose. intros ((a1 & a2 & a3) & (b1 & b2 & b3) & (c1 & c2 & c3)) (t1 & t2 & t3) (Hx & Hy & Hz).
    (* [first_order] with no input error: its second part is a sum of [|m * 0|] *)
    assert (Z : forall r s m0 m1 m2 : R, (r <= 2 * (gamma3 * s) -> r <= 2 * (gamma3 * s + 1 * (Rabs (m0 * 0) + Rabs (m1 * 0) + Rabs (m2 * 0))))%R).
    { intros r s m0 m1 m2 H. rewrite !Rmult_0_r, Rabs_R0. lra. }
    repeat split; apply Z, pt_M; assumption.
  Qed.

  (** *** (M), the two vector [*_with_error] functions: within a factor 2 of gamma3 sum |m_ij v_j| -- NO translation
      term on the right, NO hypothesis on the translation entries: whatever the size of the translation *)
  Theorem M_vec_with_error : forall (m : M4 bf) (v : V3 bf), safe_prods (B2M m) (B2V v) ->
    fin3 (snd (vec_with_error m v)) ->
    vle (B2V (snd (vec_with_error m v))) (vscaleR 2 (vscaleR gamma3 (abs_img (B2M m) (B2V v)))).
  Proof.
    intros m v. expose. intros ((a1 & a2 & a3) & (b1 & b2 & b3) & (c1 & c2 & c3)) (Hx & Hy & Hz).
    repeat split; apply vec_M; assumption.
  Qed.

  (** *** (M), the two point [*_propagate_error] functions: within a factor 2 of the first-order worst case,
      whatever the SIZE of the translation (the incoming error does not meet the translation column; the entries of
      the column only stay out of the underflow range, [safe_trans]) *)
  Theorem M_propagate : forall (m : M4 bf) (p e : V3 bf),
    safe_prods (B2M m) (B2V p) -> safe_prods (B2M m) (B2V e) -> safe_trans (B2M m) ->
    fin3 (snd (pt_propagate_error m p e)) ->
    vle (B2V (snd (pt_propagate_error m p e))) (vscaleR 2 (first_order gamma3 (B2M m) (B2V p) (B2V e))).
  Proof.
    intros m p e. expose.
    intros ((a1 & a2 & a3) & (b1 & b2 & b3) & (c1 & c2 & c3)) ((p1 & p2 & p3) & (q1 & q2 & q3) & (r1 & r2 & r3)) (t1 & t2 & t3) (Hx & Hy & Hz).
    repeat split; apply pt_M_prop; assumption.
  Qed.

  (** *** (M), the two vector [*_propagate_error] functions: within a factor 2 of
      gamma3 sum |m_ij v_j| + sum |m_ij e_j| -- no translation term, no hypothesis on the translation entries *)
  Theorem M_vec_propagate : forall (m : M4 bf) (v e : V3 bf),
    safe_prods (B2M m) (B2V v) -> safe_prods (B2M m) (B2V e) ->
    fin3 (snd (vec_propagate_error m v e)) ->
    vle (B2V (snd (vec_propagate_error m v e))) (vscaleR 2 (first_order_vec gamma3 (B2M m) (B2V v) (B2V e))).
  Proof.
    intros m v e. expose.
    intros ((a1 & a2 & a3) & (b1 & b2 & b3) & (c1 & c2 & c3)) ((p1 & p2 & p3) & (q1 & q2 & q3) & (r1 & r2 & r3)) (Hx & Hy & Hz).
    repeat split; apply vec_M_prop; assumption.
  Qed.
End C16_float.

(** ** binary64: witnesses.  Every matrix below is the one the REAL crate stores for the quoted constructor chain
    (read through [verif_elements] by the harness; the chain and the operands are the first cases of the C16 stream). *)
Local Open Scope R_scope.
Notation fS s m e := (B64ofSF (S754_finite s m e)).
Notation fZ := (B64ofSF (S754_zero false)).

Ltac b2r_hyp H :=
  repeat match type of H with context [B2R ?v] =>
    let s := eval vm_compute in (B2SF v) in rewrite (B2R_of_SF v s) in H by (vm_compute; reflexivity) end.
Ltac b2r_goal :=
  repeat match goal with |- context [B2R ?v] =>
    let s := eval vm_compute in (B2SF v) in rewrite (B2R_of_SF v s) by (vm_compute; reflexivity) end.
Lemma SF2R_zero : forall s, SF2R radix2 (S754_zero s) = 0.
Proof. reflexivity. Qed.
Lemma SF2R_fin_pos0 : forall s m, SF2R radix2 (S754_finite s m 0) = IZR (cond_Zopp s (Zpos m)).
Proof. intros. unfold SF2R, F2R. simpl. ring. Qed.
Ltac sf_lit := rewrite ?SF2R_zero, ?SF2R_fin_neg, ?SF2R_fin_pos0 in *; cbn [cond_Zopp Z.opp] in *; norm_pow.

Lemma uro53 : uro 53 = / 9007199254740992.
Proof. reflexivity. Qed.

(** the guards of the witnesses are closed facts about binary64 data, settled by evaluation.
    [safe]: a float that is zero, or finite with an exponent far above the underflow range, is [roomy]; a product of
    two of them is zero or no smaller than 2^-800, where [tiny] is 2^-968 *)
Definition roomy (v : b64) : bool :=
  match v with B754_zero _ => true | B754_finite _ _ e _ => (-400 <=? e)%Z | _ => false end.
Lemma roomy_abs : forall a : b64, roomy a = true -> B2R a = 0 \/ bpow radix2 (-400) <= Rabs (B2R a).
Proof.
  intros [s|s| |s m e H] R; try discriminate. left. reflexivity.
  right. apply Z.leb_le in R. cbn [B2R]. rewrite <- F2R_Zabs, abs_cond_Zopp.
  apply Rle_trans with (bpow radix2 e). apply bpow_le, R. apply bpow_le_F2R. reflexivity.
Qed.
Lemma roomy_safe1 : forall a : b64, roomy a = true -> safe 53 1024 (B2R a).
Proof.
  intros a Ha. destruct (roomy_abs a Ha) as [->|A]. left. reflexivity.
  right. apply Rle_trans with (2 := A). apply bpow_le. discriminate.
Qed.
Lemma roomy_safe : forall a b : b64, roomy a = true -> roomy b = true -> safe 53 1024 (B2R a * B2R b).
Proof.
  intros a b Ha Hb. destruct (roomy_abs a Ha) as [->|A]. left. ring. destruct (roomy_abs b Hb) as [->|B]. left. ring.
  right. rewrite Rabs_mult. apply Rle_trans with (bpow radix2 (-400) * bpow radix2 (-400)).
  rewrite <- bpow_plus. apply bpow_le. discriminate.
  pose proof (bpow_gt_0 radix2 (-400)). apply Rmult_le_compat; lra.
Qed.
Lemma affine_last_lit : forall a b c d e f g h i j k l : b64,
  affine_last 53 1024 (mkM4 a b c d e f g h i j k l fZ fZ fZ (fS false 4503599627370496 (-52))).
Proof.
  intros. unfold affine_last. cbn [m30 m31 m32 m33]. repeat split; try reflexivity. b2r_goal. sf_lit. lra.
Qed.

(** [translate(0.1,0,0) . rotate_z(20) . rotate_x(35)], as stored by the crate *)
Definition wS_m : M4 b64 := mkM4
  (fS false 8463998673628444 (-53)) (fS true 5047030972679166 (-54)) (fS false 7067938265295672 (-55)) (fS false 7205759403792794 (-56))
  (fS false 6161287160138741 (-54)) (fS false 6933301816362055 (-53)) (fS true 4854750196499783 (-53)) fZ
  fZ (fS false 5166317250038136 (-53)) (fS false 7378265682839367 (-53)) fZ
  fZ fZ fZ (fS false 4503599627370496 (-52)).
(** the point (0.5320888862385273, -1.7846530571159382, 5.659924931209981e-16): all six roundings of row 0 err upwards *)
Definition wS_p : V3 b64 := mkV3 (fS false 4792630619583628 (-53)) (fS true 8037362843012956 (-52)) (fS false 5739845789036042 (-103)).
(** an input error box of 1e-9 *)
Definition wS_e : V3 b64 := mkV3 (fS false 4835703278458517 (-82)) (fS false 4835703278458517 (-82)) (fS false 4835703278458517 (-82)).

(** non-vacuity: the hypotheses of the theorems hold on the witness of the finding (and on a 1e-9 input box) *)
Lemma C16_nonvacuous_proof :
  affine_last 53 1024 wS_m /\ fin3 53 1024 (snd (@pt_with_error _ NumB64 wS_m wS_p)) /\
  fin3 53 1024 (snd (@vec_with_error _ NumB64 wS_m wS_p)) /\
  fin3 53 1024 (snd (@pt_propagate_error _ NumB64 wS_m wS_p wS_e)) /\
  fin3 53 1024 (snd (@vec_propagate_error _ NumB64 wS_m wS_p wS_e)) /\
  safe_prods 53 1024 (B2M 53 1024 wS_m) (B2V 53 1024 wS_p) /\ safe_prods 53 1024 (B2M 53 1024 wS_m) (B2V 53 1024 wS_e) /\
  safe_trans 53 1024 (B2M 53 1024 wS_m) /\ inbox (B2V 53 1024 wS_p) (B2V 53 1024 wS_e) (B2V 53 1024 wS_p).
Proof.
  split. apply affine_last_lit.
  split. apply fin3_bool. vm_compute. reflexivity. split. apply fin3_bool. vm_compute. reflexivity.
  split. apply fin3_bool. vm_compute. reflexivity. split. apply fin3_bool. vm_compute. reflexivity.
  split. repeat split; apply roomy_safe; reflexivity. split. repeat split; apply roomy_safe; reflexivity.
  split. repeat split; apply roomy_safe1; reflexivity.
  unfold inbox. rewrite !Rminus_diag_eq by reflexivity. rewrite Rabs_R0.
  unfold B2V, wS_e. cbn [vx vy vz]. b2r_goal. sf_lit. repeat split; lra.
Qed.

(** (S) was FALSE for points with gamma(3) (code before fix: 34af114): the exact image of [wS_p] under the stored
    matrix [wS_m] is further from the returned point than the returned error (x component; ratio 1.136), all guards holding. *)
Lemma S_point_pinned_refuted : exists (m : M4 b64) (p : V3 b64),
  let re := @pt_with_error_pinned _ NumB64 m p in
  affine_last 53 1024 m /\ fin3 53 1024 (snd re) /\ safe_prods 53 1024 (B2M 53 1024 m) (B2V 53 1024 p) /\
  ~ within 1 (B2V 53 1024 (fst re)) (img_pt (B2M 53 1024 m) (B2V 53 1024 p)) (B2V 53 1024 (snd re)).
Proof.
  exists wS_m, wS_p. cbv zeta. destruct C16_nonvacuous_proof as (A & _ & _ & _ & _ & S & _).
  split. exact A. split. apply fin3_bool. vm_compute. reflexivity. split. exact S.
  unfold within, img_pt. cbn [vx]. unfold B2V, B2M. cbn [vx vy vz m00 m01 m02 m03]. intros (Hx & _).
  unfold wS_m in Hx at 2 3 4 5. unfold wS_p in Hx at 2 3 4. cbn [vx vy vz m00 m01 m02 m03] in Hx.
  b2r_hyp Hx. sf_lit. apply Rabs_le_inv in Hx. lra.
Qed.

(** [translate(1000,0,0)] *)
Definition wM_m : M4 b64 := mkM4
  (fS false 4503599627370496 (-52)) fZ fZ (fS false 8796093022208000 (-43))
  fZ (fS false 4503599627370496 (-52)) fZ fZ
  fZ fZ (fS false 4503599627370496 (-52)) fZ
  fZ fZ fZ (fS false 4503599627370496 (-52)).
Definition wM_p : V3 b64 := mkV3 (fS false 4503599627370496 (-52)) (fS false 4503599627370496 (-51)) (fS false 6755399441055744 (-51)).
Lemma gamma3_53 : gamma3 53 = 3 / 9007199254740989.
Proof. unfold gamma3. rewrite uro53. field. Qed.

(** the vector (1e-9, 0, 0) *)
Definition wV_v : V3 b64 := mkV3 (fS false 4835703278458517 (-82)) fZ fZ.
Lemma wM_guards : affine_last 53 1024 wM_m /\ safe_trans 53 1024 (B2M 53 1024 wM_m) /\
  safe_prods 53 1024 (B2M 53 1024 wM_m) (B2V 53 1024 wM_p) /\ safe_prods 53 1024 (B2M 53 1024 wM_m) (B2V 53 1024 wS_e) /\
  safe_prods 53 1024 (B2M 53 1024 wM_m) (B2V 53 1024 wV_v).
Proof.
  split. apply affine_last_lit. split. repeat split; apply roomy_safe1; reflexivity. repeat split; apply roomy_safe; reflexivity.
Qed.

(** (M) was FALSE for the [*_propagate_error] functions (code before fix: 5455df2): [translate(1000,0,0)], point
    (1,2,3), input error 1e-9: the reported x error is 1000.000000001 where the first-order worst case is 1.0000003e-9 *)
Lemma M_pinned_refuted : exists (m : M4 b64) (p e : V3 b64),
  let err := snd (@pt_propagate_error_pinned _ NumB64 m p e) in
  affine_last 53 1024 m /\ fin3 53 1024 err /\ safe_prods 53 1024 (B2M 53 1024 m) (B2V 53 1024 p) /\
  safe_prods 53 1024 (B2M 53 1024 m) (B2V 53 1024 e) /\ safe_trans 53 1024 (B2M 53 1024 m) /\
  snd (@vec_propagate_error_pinned _ NumB64 m p e) = err /\
  ~ vle (B2V 53 1024 err) (vscaleR 2 (first_order (gamma3 53) (B2M 53 1024 m) (B2V 53 1024 p) (B2V 53 1024 e))) /\
  100000000000 * vx (first_order (gamma3 53) (B2M 53 1024 m) (B2V 53 1024 p) (B2V 53 1024 e)) < vx (B2V 53 1024 err).
Proof.
  exists wM_m, wM_p, wS_e. cbv zeta. destruct wM_guards as (A & St & Sp & Se & _).
  split. exact A. split. apply fin3_bool. vm_compute. reflexivity. split. exact Sp. split. exact Se. split. exact St.
  split. reflexivity.
  assert (K : 100000000000 * vx (first_order (gamma3 53) (B2M 53 1024 wM_m) (B2V 53 1024 wM_p) (B2V 53 1024 wS_e))
              < vx (B2V 53 1024 (snd (@pt_propagate_error_pinned _ NumB64 wM_m wM_p wS_e)))).
  { unfold first_order, lin2, vaddR, abs_img, abs_trans. cbn [vx]. unfold B2V, B2M. cbn [vx vy vz m00 m01 m02 m03].
    unfold wM_m at 1 2 3 4 5 6 7. unfold wM_p at 1 2 3. unfold wS_e at 1 2 3. cbn [vx vy vz m00 m01 m02 m03].
    rewrite gamma3_53. b2r_goal. sf_lit.
    repeat match goal with |- context [Rabs ?x] => first [ rewrite (Rabs_pos_eq x) by lra ] end. lra. }
  split; [|exact K].
  intros (Hx & _). revert K Hx.
  generalize (vx (B2V 53 1024 (snd (@pt_propagate_error_pinned _ NumB64 wM_m wM_p wS_e)))).
  unfold vscaleR. cbn [vx].
  assert (P : 0 <= vx (first_order (gamma3 53) (B2M 53 1024 wM_m) (B2V 53 1024 wM_p) (B2V 53 1024 wS_e))).
  { unfold first_order, lin2, vaddR, abs_img, abs_trans. cbn [vx]. pose proof (g3_range 53 ltac:(lia)).
    repeat apply Rplus_le_le_0_compat; try apply Rmult_le_pos; try lra; repeat apply Rplus_le_le_0_compat; apply Rabs_pos. }
  intros r K Hx. lra.
Qed.

(** the guard [safe_prods] cannot be dropped: [scale(0.5,1,1)] applied to the smallest subnormal vector (2^-1074,0,0)
    returns (0,0,0) with error (0,0,0) although the exact image is (2^-1075,0,0): the bound has no absolute (underflow) term *)
Definition wU_m : M4 b64 := mkM4
  (fS false 4503599627370496 (-53)) fZ fZ fZ  fZ (fS false 4503599627370496 (-52)) fZ fZ
  fZ fZ (fS false 4503599627370496 (-52)) fZ  fZ fZ fZ (fS false 4503599627370496 (-52)).
Definition wU_v : V3 b64 := mkV3 (fS false 1 (-1074)) fZ fZ.
Lemma S_underflow_refuted : exists (m : M4 b64) (v : V3 b64),
  let re := @vec_with_error _ NumB64 m v in
  affine_last 53 1024 m /\ fin3 53 1024 (snd re) /\
  ~ within 1 (B2V 53 1024 (fst re)) (img_vec (B2M 53 1024 m) (B2V 53 1024 v)) (B2V 53 1024 (snd re)).
Proof.
  exists wU_m, wU_v. cbv zeta. split; [|split].
  - apply affine_last_lit.
  - apply fin3_bool. vm_compute. reflexivity.
  - unfold within, img_vec. cbn [vx]. unfold B2V, B2M. cbn [vx vy vz m00 m01 m02 m03]. intros (Hx & _).
    unfold wU_m in Hx at 2 3 4. unfold wU_v in Hx at 2 3 4. cbn [vx vy vz m00 m01 m02 m03] in Hx.
    b2r_hyp Hx. sf_lit. apply Rabs_le_inv in Hx.
    assert (0 < / IZR (Z.pow_pos 2 1074)) by (apply Rinv_0_lt_compat, IZR_lt; reflexivity).
    revert H Hx. norm_pow. intros. lra.
Qed.

(** the repaired code is sound on the witness of the former finding (instance of [S_pt]) *)
Lemma S_point_witness_now_sound :
  let re := @pt_with_error _ NumB64 wS_m wS_p in
  within 1 (B2V 53 1024 (fst re)) (img_pt (B2M 53 1024 wS_m) (B2V 53 1024 wS_p)) (B2V 53 1024 (snd re)).
Proof.
  destruct C16_nonvacuous_proof as (A & F & _ & _ & _ & S & _).
  exact (proj2 (S_pt 53 1024 Hprec53 Hmax1024 ltac:(lia) wS_m wS_p A F S)).
Qed.
(** and the translation does not enter the propagated error (instance of [M_propagate]) *)
Lemma M_witness_now_meaningful :
  vle (B2V 53 1024 (snd (@pt_propagate_error _ NumB64 wM_m wM_p wS_e)))
      (vscaleR 2 (first_order (gamma3 53) (B2M 53 1024 wM_m) (B2V 53 1024 wM_p) (B2V 53 1024 wS_e))).
Proof.
  destruct wM_guards as (_ & St & Sp & Se & _).
  apply (M_propagate 53 1024 Hprec53 Hmax1024 ltac:(lia) wM_m wM_p wS_e Sp Se St).
  apply fin3_bool. vm_compute. reflexivity.
Qed.

(** ** the error of a transformed VECTOR before the fix of the vector functions ([vec_with_error_pinned]:
    [mul4x4_abs], which adds |m_i3|) *)
(** (M) was FALSE for the vector functions: [translate(1000,0,0)] applied to the vector (1e-9,0,0) -- whose image is
    the vector itself, computed without a single rounding error -- reported the x error 3.33e-13 = gamma3 * 1000
    where the first-order worst case gamma3 * |1 * 1e-9| is 3.33e-25: more than 10^11 times (so not within twice),
    and proportional to the translation, whatever the length of the vector.  All guards hold. *)
Lemma M_vec_pinned_refuted : exists (m : M4 b64) (v : V3 b64),
  let err := snd (@vec_with_error_pinned _ NumB64 m v) in
  let fo := vscaleR (gamma3 53) (abs_img (B2M 53 1024 m) (B2V 53 1024 v)) in
  affine_last 53 1024 m /\ fin3 53 1024 err /\ safe_prods 53 1024 (B2M 53 1024 m) (B2V 53 1024 v) /\
  safe_trans 53 1024 (B2M 53 1024 m) /\
  ~ vle (B2V 53 1024 err) (vscaleR 2 fo) /\
  100000000000 * vx fo < vx (B2V 53 1024 err).
Proof.
  exists wM_m, wV_v. cbv zeta.
  destruct wM_guards as (A & St & _ & _ & Sv).
  split. exact A. split. apply fin3_bool. vm_compute. reflexivity. split. exact Sv. split. exact St.
  assert (K : 100000000000 * vx (vscaleR (gamma3 53) (abs_img (B2M 53 1024 wM_m) (B2V 53 1024 wV_v)))
              < vx (B2V 53 1024 (snd (@vec_with_error_pinned _ NumB64 wM_m wV_v)))).
  { unfold vscaleR, abs_img. cbn [vx]. unfold B2V, B2M. cbn [vx vy vz m00 m01 m02 m03].
    unfold wM_m at 1 2 3. unfold wV_v at 1 2 3. cbn [vx vy vz m00 m01 m02 m03].
    rewrite gamma3_53. b2r_goal. sf_lit.
    repeat match goal with |- context [Rabs ?x] => first [ rewrite (Rabs_pos_eq x) by lra ] end. lra. }
  split; [|exact K].
  intros (Hx & _). revert K Hx.
  generalize (vx (B2V 53 1024 (snd (@vec_with_error_pinned _ NumB64 wM_m wV_v)))).
  unfold vscaleR. cbn [vx].
  assert (P : 0 <= gamma3 53 * vx (abs_img (B2M 53 1024 wM_m) (B2V 53 1024 wV_v))).
  { unfold abs_img. cbn [vx]. pose proof (g3_range 53 ltac:(lia)).
    apply Rmult_le_pos. lra. repeat apply Rplus_le_le_0_compat; apply Rabs_pos. }
  intros r K Hx. lra.
Qed.
(** the repaired code on the same input (instance of [M_vec_with_error]) *)
Lemma M_vec_witness_now_meaningful :
  vle (B2V 53 1024 (snd (@vec_with_error _ NumB64 wM_m wV_v)))
      (vscaleR 2 (vscaleR (gamma3 53) (abs_img (B2M 53 1024 wM_m) (B2V 53 1024 wV_v)))).
Proof.
  apply (M_vec_with_error 53 1024 Hprec53 Hmax1024 ltac:(lia) wM_m wV_v). apply wM_guards. apply fin3_bool. vm_compute. reflexivity.
Qed.
