(** * Mesh_links_ex: non-vacuity of the link-geometry invariant (binary64 by vm_compute; reals for the history hypotheses). *)
From Coq Require Import ZArith Reals Lra Lia List Bool Arith Permutation Floats.
Set Warnings "-inexact-float".
From G3 Require Import Model.Num Model.NumF Model.Base Model.Vec Model.Segment Model.Triangle Model.Loop Model.Polygon Model.Triangulation
  Theory.RInst Theory.Cyclic Theory.Winding
  Proofs.Mesh_base Proofs.Mesh_wf Proofs.Mesh_conf Proofs.Mesh_region Proofs.Mesh_atomic Proofs.Mesh_region_ex
  Proofs.Mesh_links Proofs.Mesh_links_steps Proofs.Mesh_links_region.
Import ListNotations.

(** ** binary64: the hand-built unit-square mesh satisfies LNKG, DIST, SEP; a two-step history keeps them *)
Ltac lv_cases H j := unfold lvM, lvT in H; destruct j as [|[|[|[|[|j]]]]]; vm_compute in H; try discriminate H.
Definition sq_pts : list (V3 float) := [q2 0 0; q2 1 0; q2 1 1; q2 0 1].
Lemma sq_pts_sep : VSEP (fun x => In x (q2 0.6 0.2 :: sq_pts)).
Proof. apply sepb_sound. vm_compute. reflexivity. Qed.
Lemma sqM_verts (x : V3 float) : mesh_vert sqM x -> In x sq_pts.
Proof.
  intros (j & T & L & Hx). lv_cases L j; inversion L; subst T; cbn [ta tb tc] in Hx; destruct Hx as [-> | [-> | ->]]; vm_compute; auto.
Qed.
Lemma sqM_GEO : GEO sqM /\ SEPp sqM (q2 0.6 0.2).
Proof.
  assert (S : SEPp sqM (q2 0.6 0.2)).
  { refine (VSEP_sub _ _ _ sq_pts_sep). intros x [Q | ->]; [right; apply sqM_verts; exact Q | left; reflexivity]. }
  split; [|exact S]. split; [|split; [|eapply SEPp_SEP; exact S]].
  - intros j T L e k E. lv_cases L j; inversion L; subst T; destruct e; vm_compute in E; try discriminate E; inversion E; subst k.
    + split; [discriminate|]. eexists; eexists; exists Ab. split; [vm_compute; reflexivity|]. split; [vm_compute; reflexivity|]. split; vm_compute; reflexivity.
    + split; [discriminate|]. eexists; eexists; exists Ca. split; [vm_compute; reflexivity|]. split; [vm_compute; reflexivity|]. split; vm_compute; reflexivity.
  - intros j T L. lv_cases L j; inversion L; subst T; cbn [tri_distinct ta tb tc]; repeat split; intros E;
      first [ apply (f_equal (fun v => vcompare v (q2 0 0))) in E; vm_compute in E; discriminate E
            | apply (f_equal (fun v => vcompare v (q2 1 1))) in E; vm_compute in E; discriminate E
            | apply (f_equal (fun v => vcompare v (q2 1 0))) in E; vm_compute in E; discriminate E
            | apply (f_equal (fun v => vcompare v (q2 0 1))) in E; vm_compute in E; discriminate E ].
Qed.
(** flip the diagonal, then split the new triangle of slot 0 at an interior point: both steps return Ok, and the invariant
    holds of the final mesh by [flip_GEO] and [split_triangle_GEO] *)
Lemma links_two_steps :
  exists M1 M2 : Mesh float, GEO sqM /\ flip_diagonal 0 Ca sqM = (M1, Ok tt) /\ GEO M1 /\ SEPp M1 (q2 0.6 0.2) /\
    split_triangle 0 (q2 0.6 0.2) M1 = (M2, Ok tt) /\ GEO M2 /\ length (live_tris M2) = 4%nat.
Proof.
  destruct sqM_GEO as [G0 S0].
  destruct (flip_diagonal 0 Ca sqM) as [M1 r1] eqn:E1. assert (R1 : r1 = Ok tt) by (replace r1 with (snd (flip_diagonal 0 Ca sqM)) by (rewrite E1; reflexivity); vm_compute; reflexivity). subst r1.
  pose proof (flip_GEO _ _ _ _ G0 E1) as G1.
  assert (S1 : SEPp M1 (q2 0.6 0.2)).
  { destruct G0 as (HL & HD & HS). destruct (flip_LNKG _ _ _ _ HL HS HD E1) as (_ & _ & Hv).
    refine (VSEP_sub _ _ _ sq_pts_sep). intros x [Q | ->]; [right; apply sqM_verts; apply Hv; exact Q | left; reflexivity]. }
  destruct (split_triangle 0 (q2 0.6 0.2) M1) as [M2 r2] eqn:E2.
  assert (R2 : r2 = Ok tt /\ length (live_tris M2) = 4%nat).
  { replace r2 with (snd (split_triangle 0 (q2 0.6 0.2) M1)) by (rewrite E2; reflexivity). replace M2 with (fst (split_triangle 0 (q2 0.6 0.2) M1)) by (rewrite E2; reflexivity).
    replace M1 with (fst (flip_diagonal 0 Ca sqM)) by (rewrite E1; reflexivity). split; vm_compute; reflexivity. }
  destruct R2 as [-> R2]. exists M1, M2. pose proof G1 as (A & B & C).
  split; [exact G0 | split; [first [exact E1 | reflexivity] | split; [exact G1 | split; [exact S1 | split; [first [exact E2 | reflexivity] | split; [exact (split_triangle_GEO _ _ _ _ A B S1 E2) | exact R2]]]]]].
Qed.

(** ** reals: the hypotheses of the history theorems are satisfiable (one triangle, split at an interior point) *)
Local Open Scope R_scope.
Lemma xM_verts (x : V3 R) : mesh_vert xM x -> x = wA \/ x = wB \/ x = wC.
Proof.
  intros (j & T & L & Hx). unfold lvM, lvT in L. destruct j as [|[|j]]; cbn in L; try discriminate L. inversion L; subst T. exact Hx.
Qed.
Lemma x_pts_sep : VSEP (fun x => In x [wA; wB; wC; xp]).
Proof.
  apply sepb_sound. cbn [sepb forallb]. rewrite !vcompare_refl_R.
  repeat match goal with |- context [vcompare ?a ?b] => replace (vcompare a b) with false by (symmetry; vcdec) end.
  reflexivity.
Qed.
Lemma xM_GEO : GEO xM /\ SEPp xM xp.
Proof.
  assert (S : SEPp xM xp).
  { intros x y Hx Hy. apply x_pts_sep; [destruct Hx as [Q | ->] | destruct Hy as [Q | ->]]; cbn [In]; try (destruct (xM_verts _ Q) as [-> | [-> | ->]]); auto. }
  split; [|exact S]. split; [|split; [|eapply SEPp_SEP; exact S]].
  - intros j T L e k E. unfold lvM, lvT in L. destruct j as [|[|j]]; cbn in L; try discriminate L. destruct e; cbn in E; discriminate E.
  - intros j T L. unfold lvM, lvT in L. destruct j as [|[|j]]; cbn in L; try discriminate L. inversion L; subst T.
    unfold tri_distinct, xT0, wA, wB, wC. cbn [ta tb tc]. repeat split; intros E; inversion E; lra.
Qed.
Lemma history_hyp_nonvacuous :
  exists (M : Mesh R) (ops : list (mop R)) (o e1 e2 : V3 R) (d q : P2),
    GEO M /\ ops <> [] /\ run_hyp between (fun p => hgt d q (C05_pointtest.plane2 o e1 e2 p) <> 0) M ops.
Proof.
  destruct xM_GEO as [G0 S0]. destruct x_split_ok as (M' & H).
  exists xM, [OSplitTriangle 0 xp], wA, wB, wC, (1, 0), (/ 2, / 3). split; [exact G0|]. split; [discriminate|].
  cbn [run_hyp step_hyp]. split; [exact S0|]. split; [|exact I].
  exists None. cbn [mesh_step]. unfold mbind. rewrite H. reflexivity.
Qed.
