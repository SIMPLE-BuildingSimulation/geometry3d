(** * Mesh_links_steps (C08): the steps returning Ok re-establish the link geometry [LNKG] (and [DIST]) under separation.
    Each proof follows the invalidations and pushes with [Pre], hands the linking tail as a list of links to [Links_G]
    (both Mesh_links), and is left with the geometry of the step: which edge of which new triangle lies on which old edge, and
    that the directed edges of the new triangles are pairwise different. *)
From Coq Require Import ZArith Bool List Arith Lia Permutation.
From G3 Require Import Model.Num Model.Base Model.Vec Model.Segment Model.Triangle Model.Loop Model.Polygon Model.Triangulation
  Proofs.Mesh_base Proofs.Mesh_wf Proofs.Mesh_sites Proofs.Mesh_conf Proofs.Mesh_region Proofs.Mesh_atomic Proofs.Mesh_links.
Import ListNotations.

Section Steps.
  Context {K : Type} {NK : Num K}.
  Notation V := (V3 K).
  Notation TP := (TriPiece K).
  Notation Mesh := (Mesh K).

  (** an outer neighbour is neither of the two triangles: a second link between them would need o = c *)
  Lemma flip_geom (M : Mesh) (i : nat) (e : Edge) (t nb : TP) (ni : nat) (a b c o : V) (e1 e2 e3 e4 : Edge) (T1 T2 : Tri K) :
    LNKG M -> SEP M -> DIST M -> flip_pre M i e t nb ni a b c o e1 e2 e3 e4 T1 T2 ->
    exists k, lk M ni k = Some i /\ ni <> i /\ edge_pts (tp_tri t) e = (a, b) /\ opp_v (tp_tri t) e = c /\
      edge_pts (tp_tri nb) k = (b, a) /\ o = opp_v (tp_tri nb) k /\
      (e1 = next_e (next_e e) /\ e2 = next_e e /\ e3 = next_e (next_e k) /\ e4 = next_e k) /\
      (a <> b /\ a <> c /\ b <> c /\ a <> o /\ o <> c /\ o <> b) /\
      (mesh_vert M a /\ mesh_vert M b /\ mesh_vert M c /\ mesh_vert M o) /\
      (forall x n, x <> e -> lk M i x = Some n -> n <> i /\ n <> ni /\
         exists U kn, lvM M n U /\ tri_in (mesh_vert M) U /\ tri_distinct U /\ lk M n kn = Some i /\ edge_pts U kn = rev2 (edge_pts (tp_tri t) x)) /\
      (forall x n, x <> k -> lk M ni x = Some n -> n <> i /\ n <> ni /\
         exists U kn, lvM M n U /\ tri_in (mesh_vert M) U /\ tri_distinct U /\ lk M n kn = Some ni /\ edge_pts U kn = rev2 (edge_pts (tp_tri nb) x)).
  Proof.
    intros HL HS HD [Et Ev En Enb Evn Ea Eb Ec Eo Ee1 Ee2 Ee3 Ee4 ET1 ET2].
    set (T := tp_tri t) in *. set (Tn := tp_tri nb) in *.
    assert (Lt : lvM M i T) by (apply slot_lvT; assumption).
    assert (Ln : lvM M ni Tn) by (apply slot_lvT; assumption).
    assert (Elk : lk M i e = Some ni) by (unfold lk; rewrite Et; exact En).
    destruct (good_inv M i T e ni HL Lt Elk) as (Hne & U & k & LU & Ek & Gk). rewrite (lvM_fun _ _ _ _ LU Ln) in *. clear LU U.
    set (P := mesh_vert M). assert (HP : VSEP P) by exact HS.
    assert (IT : tri_in P T) by (eapply mesh_vert_tri; exact Lt). assert (IN : tri_in P Tn) by (eapply mesh_vert_tri; exact Ln).
    pose proof (HD _ _ Lt) as DT. pose proof (HD _ _ Ln) as DN.
    destruct (flip_abc T e a b c Ea Eb Ec) as [Pab Pc].
    assert (Pa : P a /\ P b) by (pose proof (edge_pts_in P T e IT) as Q; rewrite Pab in Q; exact Q). destruct Pa as [Pa Pb].
    assert (Pcc : P c) by (rewrite <- Pc; apply opp_v_in; exact IT).
    assert (Po' : o = opp_v Tn k).
    { apply (opposite_exact P Tn (seg_new a b) k o HP IN DN Pa Pb); [|exact Eo]. right. cbn [pair_of seg_new sstart send]. rewrite Gk, Pab, rev2_invol. reflexivity. }
    assert (Po : P o) by (rewrite Po'; apply opp_v_in; exact IN).
    destruct (edge_pts_next T e) as [Pn1 Pn2]. rewrite Pab, Pc in Pn1, Pn2. cbn [fst snd] in Pn1, Pn2.
    destruct (edge_pts_next Tn k) as [Qn1 Qn2]. rewrite Gk, Pab, <- Po' in Qn1, Qn2. cbn [rev2 fst snd] in Qn1, Qn2.
    assert (Qk : edge_pts Tn k = (b, a)) by (rewrite Gk, Pab; reflexivity).
    assert (X1 : e1 = next_e (next_e e)) by (apply (edge_of_points_exact P 75 T a c _ e1 HP IT DT Pa Pcc); [right; rewrite Pn2; reflexivity | exact Ee1]).
    assert (X2 : e2 = next_e e) by (apply (edge_of_points_exact P 76 T c b _ e2 HP IT DT Pcc Pb); [right; rewrite Pn1; reflexivity | exact Ee2]).
    assert (X3 : e3 = next_e (next_e k)) by (apply (edge_of_points_exact P 77 Tn b o _ e3 HP IN DN Pb Po); [right; rewrite Qn2; reflexivity | exact Ee3]).
    assert (X4 : e4 = next_e k) by (apply (edge_of_points_exact P 78 Tn a o _ e4 HP IN DN Pa Po); [left; rewrite Qn1; reflexivity | exact Ee4]).
    destruct (tri_new_table P HP _ _ _ _ Pa Po Pcc ET1) as (_ & _ & (Nao & _ & Noc) & _).
    destruct (tri_new_table P HP _ _ _ _ Pcc Po Pb ET2) as (_ & _ & (_ & _ & Nob) & _).
    destruct (tri_distinct_edge T e DT) as (Nab & Nac & Nbc). rewrite Pab in Nab, Nac, Nbc. rewrite Pc in Nac, Nbc. cbn [fst snd] in Nab, Nac, Nbc.
    exists k. split; [exact Ek|]. split; [exact Hne|]. split; [exact Pab|]. split; [exact Pc|]. split; [exact Qk|]. split; [exact Po'|].
    split; [repeat split; assumption|]. split; [repeat split; assumption|]. split; [repeat split; assumption|]. split.
    - intros x n Hx E. destruct (good_inv M i T x n HL Lt E) as (A1 & U & kn & A2 & A3 & A4). split; [exact A1|].
      assert (A5 : n <> ni).
      { intros ->. rewrite (lvM_fun _ _ _ _ A2 Ln) in A4. destruct (edges_all e x) as [-> |[-> | ->]]; [contradiction | rewrite Pn1 in A4 | rewrite Pn2 in A4];
          destruct (edges_all k kn) as [-> |[-> | ->]]; rewrite ?Qk, ?Qn1, ?Qn2 in A4; cbn [rev2 fst snd] in A4; inversion A4; congruence. }
      split; [exact A5|]. exists U, kn. split; [exact A2|]. split; [eapply mesh_vert_tri; exact A2|]. split; [eapply HD; exact A2|]. split; assumption.
    - intros x n Hx E. destruct (good_inv M ni Tn x n HL Ln E) as (A1 & U & kn & A2 & A3 & A4). split; [|split; [exact A1|]].
      { intros ->. rewrite (lvM_fun _ _ _ _ A2 Lt) in A4. destruct (edges_all k x) as [-> |[-> | ->]]; [contradiction | rewrite Qn1 in A4 | rewrite Qn2 in A4];
          destruct (edges_all e kn) as [-> |[-> | ->]]; rewrite ?Pab, ?Pn1, ?Pn2 in A4; cbn [rev2 fst snd] in A4; inversion A4; congruence. }
      exists U, kn. split; [exact A2|]. split; [eapply mesh_vert_tri; exact A2|]. split; [eapply HD; exact A2|]. split; assumption.
  Qed.

  Theorem flip_LNKG (i : nat) (e : Edge) (M M' : Mesh) :
    LNKG M -> SEP M -> DIST M -> flip_diagonal i e M = (M', Ok tt) ->
    LNKG M' /\ DIST M' /\ (forall x, mesh_vert M' x -> mesh_vert M x).
  Proof.
    intros HL HS HD H.
    destruct (flip_inv _ _ _ _ _ H) as [[_ Q] | (t & nb & ni & a & b & c & o & e1 & e2 & e3 & e4 & T1 & T2 & Hp & H')]; [destruct (Q tt eq_refl)|].
    clear H. rename H' into H. unfold flip_suffix in H.
    destruct (flip_geom _ _ _ _ _ _ _ _ _ _ _ _ _ _ _ _ HL HS HD Hp)
      as (k & Ek & Hne & Pab & Pc & Qk & Po' & (-> & -> & -> & ->) & (Nab & Nac & Nbc & Nao & Noc & Nob) & (Pa & Pb & Pcc & Po) & HnbT & HnbN).
    destruct Hp as [Et Ev En Enb Evn _ _ _ _ _ _ _ _ ET1 ET2].
    set (T := tp_tri t) in *. set (Tn := tp_tri nb) in *. set (P := mesh_vert M) in *. assert (HP : VSEP P) by exact HS.
    assert (Lt : lvM M i T) by (apply slot_lvT; assumption).
    assert (Ln : lvM M ni Tn) by (apply slot_lvT; assumption).
    assert (Elk : lk M i e = Some ni) by (unfold lk; rewrite Et; exact En).
    destruct (edge_pts_next T e) as [Pn1 Pn2]. rewrite Pab, Pc in Pn1, Pn2. cbn [fst snd] in Pn1, Pn2.
    destruct (edge_pts_next Tn k) as [Qn1 Qn2]. rewrite Qk, <- Po' in Qn1, Qn2. cbn [fst snd] in Qn1, Qn2.
    (* the two invalidations and the two pushes (which re-use the two slots) *)
    apply mbind_ok in H. destruct H as ([] & M1 & H1 & H). pose proof (Pre_invalidate (Pre_init (LNKG_G _ HL)) Et H1) as R.
    destruct (invalidate_dead _ _ _ _ Et H1) as ((u1 & Eu1 & Vu1) & Ko1).
    assert (Enb1 : nth_error (tris M1) ni = Some nb) by (rewrite Ko1 by exact Hne; exact Enb).
    apply mbind_ok in H. destruct H as ([] & M2 & H2 & H). apply (fun R => Pre_invalidate R Enb1 H2) in R.
    destruct (invalidate_dead _ _ _ _ Enb1 H2) as ((u2 & Eu2 & Vu2) & Ko2).
    assert (Eu1' : nth_error (tris M2) i = Some u1) by (rewrite Ko2 by (intros Q; apply Hne; congruence); exact Eu1).
    apply mbind_ok in H. destruct H as (aoc & M3 & H3 & H).
    pose proof (push_hint _ _ _ _ _ _ _ _ Eu1' Vu1 H3) as Q. subst aoc. apply (fun R => Pre_push R ET1 H3) in R.
    assert (Eu2' : nth_error (tris M3) ni = Some u2) by (rewrite (push_nth _ _ _ _ _ _ _ H3) by exact Hne; exact Eu2).
    apply mbind_ok in H. destruct H as (cob & M4 & H4 & H).
    pose proof (push_hint _ _ _ _ _ _ _ _ Eu2' Vu2 H4) as Q. subst cob. apply (fun R => Pre_push R ET2 H4) in R.
    clear Ko1 Ko2 Eu1 Eu2 Eu1' Eu2' Enb1 H1 H2 H3 H4.
    set (news := [(ni, T2); (i, T1)]) in R. set (New := fun j : nat => In j (map fst news)).
    set (B := fun (j : nat) (x : Edge) => ~ New j /\ exists i0, In i0 [ni; i] /\ lk M j x = Some i0).
    pose proof (Pre_new R) as NewT. destruct (Pre_tail R) as (HB & G4'); [intros ? ? []|]. pose proof R as (_ & Hn & Hd & Ho & _).
    assert (Hi4 : lvM M4 i T1) by (apply Hn; cbn; auto). assert (L4 : lvM M4 ni T2) by (apply Hn; cbn; auto).
    assert (Nw : New i /\ New ni) by (cbn; auto). destruct Nw as [Ni Nn].
    destruct (tri_new_table P HP _ _ _ _ Pa Po Pcc ET1) as (I1 & D1 & _ & E1a & E1b & E1c).
    destruct (tri_new_table P HP _ _ _ _ Pcc Po Pb ET2) as (I2 & D2 & _ & E2a & E2b & E2c).
    assert (Nek1 : next_e k <> k) by (destruct k; discriminate). assert (Nek2 : next_e (next_e k) <> k) by (destruct k; discriminate).
    assert (Nee1 : next_e e <> e) by (destruct e; discriminate). assert (Nee2 : next_e (next_e e) <> e) by (destruct e; discriminate).
    assert (Hini : i <> ni) by congruence.
    assert (Rt : forall x, tp_neighbour t x = lk M i x) by (intros x; unfold lk; rewrite Et; reflexivity).
    assert (Rn : forall x, tp_neighbour nb x = lk M ni x) by (intros x; unfold lk; rewrite Enb; reflexivity).
    apply flip_links_Links in H. rewrite !Rt, !Rn in H.
    set (ops := [Lold i Ab (lk M ni (next_e k)); Lnew i Bc ni Ab; Lold i Ca (lk M i (next_e (next_e e)));
                 Lold ni Bc (lk M ni (next_e (next_e k))); Lold ni Ca (lk M i (next_e e))]) in H.
    assert (Hf : fresh [] ops).
    { clear - Hini. unfold ops. cbn [fresh lop_wr app]. repeat split; intros x Hx Hw; cbn [In] in Hx, Hw; intuition congruence. }
    assert (Tab : forall y U e'' y' U' e', New y -> lvM M4 y U -> New y' -> lvM M4 y' U' -> edge_pts U e'' = edge_pts U' e' -> y = y' /\ e'' = e').
    { clear - NewT E1a E1b E1c E2a E2b E2c Nab Nac Nbc Nao Noc Nob.
      intros y U e'' y' U' e' Ny Ly Ny' Ly' Q. destruct (NewT y U Ny Ly) as [Q1 | [Q1 | []]], (NewT y' U' Ny' Ly') as [Q2 | [Q2 | []]];
        injection Q1 as <- <-; injection Q2 as <- <-; destruct e'', e'; rewrite ?E1a, ?E1b, ?E1c, ?E2a, ?E2b, ?E2c in Q; inversion Q; try congruence; split; reflexivity. }
    assert (Hold : forall (j : nat) (Tj : Tri K) (ej : Edge) (src : nat) (Ts : Tri K) (es x : Edge) (c1 c2 : V),
              New j -> lvM M4 j Tj -> tri_in P Tj -> edge_pts Tj ej = (c1, c2) -> New src ->
              (forall x n, x <> es -> lk M src x = Some n -> n <> i /\ n <> ni /\
                 exists U kn, lvM M n U /\ tri_in P U /\ tri_distinct U /\ lk M n kn = Some src /\ edge_pts U kn = rev2 (edge_pts Ts x)) ->
              x <> es -> edge_pts Ts x = (c1, c2) -> lop_ok P New B M4 (Lold j ej (lk M src x))).
    { intros j Tj ej src Ts es x c1 c2 Nj Lj Ij Ej Ns Hnb Hx Ex. split; [exact Nj|]. exists Tj. split; [exact Lj|]. split; [exact Ij|].
      intros n E. destruct (Hnb x n Hx E) as (A1 & A2 & U & kn & A3 & A4 & A5 & A6 & A7).
      assert (On : ~ New n) by (intros [Q | [Q | []]]; [exact (A2 (eq_sym Q)) | exact (A1 (eq_sym Q))]). split; [exact On|].
      split; [intros y U' e'' Ny Ly Q; exact (Tab y U' e'' j Tj ej Ny Ly Nj Lj Q)|].
      exists U, kn. split; [|split; [exact On | exists src; split; [exact Ns | exact A6]]].
      split; [apply (proj2 (Ho n On)); split; [exact A3 | exact On]|]. split; [exact A4|]. split; [exact A5|]. split; [intros ->; apply On; exact Nj | rewrite A7, Ex, Ej; reflexivity]. }
    destruct (Links_G P New B M4 HP HB ops M') as (S' & G' & _); [intros j x Nj; apply (Hd j Nj) | exact G4' | | exact Hf | exact H |].
    { unfold ops. repeat apply Forall_cons; [.. | apply Forall_nil].
      - apply (Hold i T1 Ab ni Tn k (next_e k) a o); auto.
      - split; [exact Ni|]. split; [exact Nn|]. exists T1, T2. split; [exact Hi4|]. split; [exact I1|].
        split; [exact L4|]. split; [exact I2|]. split; [exact D2|]. split; [exact Hini | rewrite E2a, E1b; reflexivity].
      - apply (Hold i T1 Ca i T e (next_e (next_e e)) c a); auto.
      - apply (Hold ni T2 Bc ni Tn k (next_e (next_e k)) o b); auto.
      - apply (Hold ni T2 Ca i T e (next_e e) b c); auto. }
    pose proof (lvM_skel _ _ S') as Hlv9.
    split; [|apply (Pre_tris P M' R S'); [intros j U [Q | [Q | []]]; injection Q as _ <-; auto | exact HD | auto]].
    (* an entry that named i or ni is the mate of the link made across the outer edge it was reached by *)
    apply (G_LNKG _ _ G'). intros j Tj x k' Lj Ex ((Oj & i0 & Hi0 & Hb) & Hm). apply Hm. apply Hlv9 in Lj.
    destruct (proj1 (proj2 (Ho j Oj) Tj) Lj) as [Lj' _]. destruct Hi0 as [<- | [<- | []]].
    - destruct (good_inv M j Tj x ni HL Lj' Hb) as (_ & U & e' & LU & E' & Ge). rewrite (lvM_fun _ _ _ _ LU Ln) in Ge. clear LU U.
      destruct (edges_all k e') as [-> | [-> | ->]]; [rewrite Ek in E'; inversion E'; congruence | exists i, Ab, T1, Tj | exists ni, Bc, T2, Tj];
        (split; [rewrite <- E'; unfold ops; cbn [In]; auto 10|]); (split; [assumption|]); (split; [exact Lj|]).
      + rewrite E1a, <- Qn1, Ge, rev2_invol. reflexivity.
      + rewrite E2b, <- Qn2, Ge, rev2_invol. reflexivity.
    - destruct (good_inv M j Tj x i HL Lj' Hb) as (_ & U & e' & LU & E' & Ge). rewrite (lvM_fun _ _ _ _ LU Lt) in Ge. clear LU U.
      destruct (edges_all e e') as [-> | [-> | ->]]; [rewrite Elk in E'; inversion E'; congruence | exists ni, Ca, T2, Tj | exists i, Ca, T1, Tj];
        (split; [rewrite <- E'; unfold ops; cbn [In]; auto 10|]); (split; [assumption|]); (split; [exact Lj|]).
      + rewrite E2c, <- Pn1, Ge, rev2_invol. reflexivity.
      + rewrite E1c, <- Pn2, Ge, rev2_invol. reflexivity.
  Qed.

  (** ** split_triangle: the separation hypothesis is on the vertices of M together with the inserted point *)
  Definition vert_or (M : Mesh) (p : V) (x : V) : Prop := mesh_vert M x \/ x = p.
  Theorem split_triangle_LNKG (i : nat) (p : V) (M M' : Mesh) :
    LNKG M -> DIST M -> VSEP (vert_or M p) -> split_triangle i p M = (M', Ok tt) ->
    LNKG M' /\ DIST M' /\ (forall x, mesh_vert M' x -> vert_or M p x).
  Proof.
    intros HL HD HP H. set (P := vert_or M p) in *.
    destruct (split_triangle_inv _ _ _ _ _ H) as [(_ & Q & _) | (t & ea & eb & ec & T1 & T2 & T3 & [Et Ev Eea Eeb Eec ET1 ET2 ET3] & H')]; [destruct (Q tt eq_refl)|].
    clear H. rename H' into H. unfold st_suffix in H.
    set (T := tp_tri t) in *. set (a := ta T) in *. set (b := tb T) in *. set (c := tc T) in *.
    assert (Lt : lvM M i T) by (apply slot_lvT; assumption).
    assert (IT : tri_in P T) by (destruct (mesh_vert_tri _ _ _ Lt) as (Q1 & Q2 & Q3); repeat split; left; assumption).
    pose proof (HD _ _ Lt) as DT. destruct IT as (Pa & Pb & Pc). assert (IT : tri_in P T) by (repeat split; assumption). fold a in Pa. fold b in Pb. fold c in Pc.
    assert (Pp : P p) by (right; reflexivity).
    assert (ea = Ab) by (apply (edge_of_points_err_exact P T a b Ab ea HP IT DT Pa Pb); [left; reflexivity | exact Eea]).
    assert (eb = Bc) by (apply (edge_of_points_err_exact P T b c Bc eb HP IT DT Pb Pc); [left; reflexivity | exact Eeb]).
    assert (ec = Ca) by (apply (edge_of_points_err_exact P T c a Ca ec HP IT DT Pc Pa); [left; reflexivity | exact Eec]).
    subst ea eb ec. clear Eea Eeb Eec.
    destruct (tri_new_table P HP _ _ _ _ Pc Pa Pp ET1) as (I1 & D1 & (_ & Ncp & Nap) & E1a & E1b & E1c).
    destruct (tri_new_table P HP _ _ _ _ Pa Pb Pp ET2) as (I2 & D2 & (_ & _ & Nbp) & E2a & E2b & E2c).
    destruct (tri_new_table P HP _ _ _ _ Pb Pc Pp ET3) as (I3 & D3 & _ & E3a & E3b & E3c).
    destruct DT as (Nab & Nac & Nbc). fold a b c in Nab, Nac, Nbc. assert (DT : tri_distinct T) by (repeat split; assumption).
    assert (ET : edge_pts T Ab = (a, b) /\ edge_pts T Bc = (b, c) /\ edge_pts T Ca = (c, a)) by (repeat split; reflexivity). destruct ET as (ETa & ETb & ETc).
    apply mbind_ok in H. destruct H as ([] & M1 & H1 & H). pose proof (Pre_invalidate (Pre_init (LNKG_G _ HL)) Et H1) as R.
    apply mbind_ok in H. destruct H as (cap & M2 & H2 & H). apply (fun R => Pre_push R ET1 H2) in R.
    apply mbind_ok in H. destruct H as (abp & M3 & H3 & H). apply (fun R => Pre_push R ET2 H3) in R.
    apply mbind_ok in H. destruct H as (bcp & M4 & H4 & H). apply (fun R => Pre_push R ET3 H4) in R.
    clear H1 H2 H3 H4.
    set (news := [(bcp, T3); (abp, T2); (cap, T1)]) in R. set (New := fun j : nat => In j (map fst news)).
    set (B := fun (j : nat) (x : Edge) => ~ New j /\ exists i0, In i0 [i] /\ lk M j x = Some i0).
    pose proof (Pre_new R) as NewT. destruct (Pre_tail R) as (HB & G4'); [intros ? ? []|]. pose proof R as (Nd & Hn & Hd & Ho & _).
    assert (Nd3 : abp <> cap /\ bcp <> cap /\ bcp <> abp) by (clear - Nd; inversion Nd as [|? ? Q1 Nd']; inversion Nd' as [|? ? Q2 _]; cbn in Q1, Q2; intuition congruence).
    destruct Nd3 as (Nca & Ncb & Nab').
    assert (Lc : lvM M4 cap T1) by (apply Hn; cbn; auto). assert (La : lvM M4 abp T2) by (apply Hn; cbn; auto). assert (L4 : lvM M4 bcp T3) by (apply Hn; cbn; auto).
    apply st_links_Links in H.
    assert (Rt : forall x, tp_neighbour t x = lk M i x) by (intros x; unfold lk; rewrite Et; reflexivity). rewrite !Rt in H.
    assert (HnbT : forall x n, lk M i x = Some n -> n <> i /\ ~ New n /\
              exists U kn, lvM M n U /\ tri_in P U /\ tri_distinct U /\ lk M n kn = Some i /\ edge_pts U kn = rev2 (edge_pts T x)).
    { intros x n E. destruct (good_inv M i T x n HL Lt E) as (A1 & U & kn & A2 & A3 & A4). split; [exact A1|].
      split; [intros Nn; destruct (proj2 (Hd n Nn) U A2) as [Q|[]]; exact (A1 (eq_sym Q))|].
      exists U, kn. split; [exact A2|]. split; [destruct (mesh_vert_tri _ _ _ A2) as (Q1 & Q2 & Q3); repeat split; left; assumption|]. split; [eapply HD; exact A2|]. split; assumption. }
    set (ops := [Lnew cap Bc abp Ca; Lnew abp Bc bcp Ca; Lnew bcp Bc cap Ca; Lold cap Ab (lk M i Ca); Lold abp Ab (lk M i Ab); Lold bcp Ab (lk M i Bc)]) in H.
    assert (Hf : fresh [] ops).
    { clear - Nca Ncb Nab'. unfold ops. cbn [fresh lop_wr app]. repeat split; intros x Hx Hw; cbn [In] in Hx, Hw; intuition congruence. }
    assert (Tab : forall y U e'' y' U', New y -> lvM M4 y U -> New y' -> lvM M4 y' U' -> edge_pts U e'' = edge_pts U' Ab -> y = y' /\ e'' = Ab).
    { clear - NewT E1a E1b E1c E2a E2b E2c E3a E3b E3c Nab Nac Nbc Ncp Nap Nbp.
      intros y U e'' y' U' Ny Ly Ny' Ly' Q. destruct (NewT y U Ny Ly) as [Q1 | [Q1 | [Q1 | []]]], (NewT y' U' Ny' Ly') as [Q2 | [Q2 | [Q2 | []]]];
        injection Q1 as <- <-; injection Q2 as <- <-; destruct e''; rewrite ?E1a, ?E1b, ?E1c, ?E2a, ?E2b, ?E2c, ?E3a, ?E3b, ?E3c in Q; inversion Q; try congruence; split; reflexivity. }
    assert (Hold : forall (j : nat) (Tj : Tri K) (x : Edge) (c1 c2 : V), New j -> lvM M4 j Tj -> tri_in P Tj -> edge_pts Tj Ab = (c1, c2) -> edge_pts T x = (c1, c2) ->
              lop_ok P New B M4 (Lold j Ab (lk M i x))).
    { intros j Tj x c1 c2 Nj Lj Ij Ej Ex. split; [exact Nj|]. exists Tj. split; [exact Lj|]. split; [exact Ij|].
      intros n E. destruct (HnbT _ n E) as (A1 & On & U & kn & A3 & A4 & A5 & A6 & A7). split; [exact On|].
      split; [intros y U' e'' Ny Ly Q; exact (Tab y U' e'' j Tj Ny Ly Nj Lj Q)|].
      exists U, kn. split; [|split; [exact On | exists i; split; [left; reflexivity | exact A6]]].
      split; [apply (proj2 (Ho n On)); split; [exact A3 | intros [Q | []]; exact (A1 (eq_sym Q))]|]. split; [exact A4|]. split; [exact A5|]. split; [intros ->; apply On; exact Nj | rewrite A7, Ex, Ej; reflexivity]. }
    destruct (Links_G P New B M4 HP HB ops M') as (S' & G' & _); [intros j x Nj; apply (Hd j Nj) | exact G4' | | exact Hf | exact H |].
    { assert (Nc : New cap /\ New abp /\ New bcp) by (cbn; auto 6). destruct Nc as (Nc & Na & Nb).
      unfold ops. repeat apply Forall_cons; [.. | apply Forall_nil].
      - split; [exact Nc|]. split; [exact Na|]. exists T1, T2. split; [exact Lc|]. split; [exact I1|].
        split; [exact La|]. split; [exact I2|]. split; [exact D2|]. split; [congruence | rewrite E2c, E1b; reflexivity].
      - split; [exact Na|]. split; [exact Nb|]. exists T2, T3. split; [exact La|]. split; [exact I2|].
        split; [exact L4|]. split; [exact I3|]. split; [exact D3|]. split; [congruence | rewrite E3c, E2b; reflexivity].
      - split; [exact Nb|]. split; [exact Nc|]. exists T3, T1. split; [exact L4|]. split; [exact I3|].
        split; [exact Lc|]. split; [exact I1|]. split; [exact D1|]. split; [congruence | rewrite E1c, E3b; reflexivity].
      - apply (Hold cap T1 Ca c a); auto.
      - apply (Hold abp T2 Ab a b); auto.
      - apply (Hold bcp T3 Bc b c); auto. }
    pose proof (lvM_skel _ _ S') as Hlv10.
    split; [|apply (Pre_tris P M' R S'); [intros j U [Q | [Q | [Q | []]]]; injection Q as _ <-; auto | exact HD | intros x Q; left; exact Q]].
    (* an entry that named i is the mate of the link made across the edge of t it was reached by *)
    apply (G_LNKG _ _ G'). intros j Tj x k' Lj Ex ((Oj & i0 & [<- | []] & Hb) & Hm). apply Hm. apply Hlv10 in Lj.
    destruct (proj1 (proj2 (Ho j Oj) Tj) Lj) as [Lj' _].
    destruct (good_inv M j Tj x i HL Lj' Hb) as (_ & U & e' & LU & E' & Ge). rewrite (lvM_fun _ _ _ _ LU Lt) in Ge. clear LU U.
    destruct e'; [exists abp, Ab, T2, Tj | exists bcp, Ab, T3, Tj | exists cap, Ab, T1, Tj];
      (split; [rewrite <- E'; unfold ops; cbn [In]; auto 10|]); (split; [assumption|]); (split; [exact Lj|]).
    - rewrite E2a, <- ETa, Ge, rev2_invol. reflexivity.
    - rewrite E3a, <- ETb, Ge, rev2_invol. reflexivity.
    - rewrite E1a, <- ETc, Ge, rev2_invol. reflexivity.
  Qed.

  Lemma hemisphere_G (P : V -> Prop) (B : nat -> Edge -> Prop) (s : Seg K) (p : V) (idx : nat) (T : Tri K) (M M' : Mesh) (r : nat * nat) :
    VSEP P -> (forall x, mesh_vert M x -> P x) -> P p -> P (sstart s) -> P (send s) -> DIST M ->
    G B M -> (forall j x, B j x -> j = idx /\ same_seg (pair_of s) (edge_pts T x)) ->
    lvM M idx T -> process_hemisphere s p idx M = (M', Ok r) ->
    exists es a b c TA TB pbc,
      r = (idx, pbc) /\ same_seg (pair_of s) (edge_pts T es) /\ edge_pts T es = (a, b) /\ opp_v T es = c /\
      tri_new a p c = Ok TA /\ tri_new p b c = Ok TB /\ lvM M' idx TA /\ lvM M' pbc TB /\ (forall U, ~ lvM M pbc U) /\
      (forall j U, j <> idx -> j <> pbc -> (lvM M' j U <-> lvM M j U)) /\
      lk M' idx Ab = None /\ lk M' pbc Ab = None /\
      (forall j x, j <> idx -> j <> pbc -> lk M' j x = lk M j x \/ (lk M j x = Some idx /\ (lk M' j x = Some idx \/ lk M' j x = Some pbc))) /\
      G (fun j x => lk M idx es = Some j /\ exists U, lvM M j U /\ edge_pts U x = rev2 (edge_pts T es)) M' /\
      DIST M' /\ (forall x, mesh_vert M' x -> P x).
  Proof.
    intros HP HPM Pp Ps1 Ps2 HD HG HB Lt H.
    destruct (lvT_slot _ _ _ Lt) as (t & Et & Ev & Qt).
    assert (IT : tri_in P T) by (destruct (mesh_vert_tri _ _ _ Lt) as (Q1 & Q2 & Q3); repeat split; apply HPM; assumption).
    pose proof (HD _ _ Lt) as DT.
    unfold process_hemisphere in H.
    apply bind_get_ok in H. destruct H as (t' & Et' & H). rewrite Et in Et'. inversion Et'; subst t'. clear Et'. rewrite Qt in H.
    apply bind_lift_ok in H. destruct H as (abi & Eabi & H).
    destruct (tri_get_edge_index_from_segment T s) as [abi'|] eqn:Eabi'; inversion Eabi; subst abi'. clear Eabi.
    destruct (edge_index_sound P HP T s abi IT Ps1 Ps2 Eabi') as (es & -> & Hes).
    apply bind_lift_ok in H. destruct H as (ab & Eab & H).
    destruct (tri_segment_pts T es) as (ab' & Eab' & Pab'). rewrite Eab in Eab'. inversion Eab'; subst ab'. clear Eab'.
    destruct (edge_pts T es) as [a b] eqn:Pab. unfold pair_of in Pab'. inversion Pab' as [[Qa Qb]]. rewrite Qa, Qb in H.
    assert (Hes' : same_seg (pair_of s) (edge_pts T es)) by (rewrite Pab; exact Hes).
    assert (Pa : P a /\ P b) by (pose proof (edge_pts_in P T es IT) as Q; rewrite Pab in Q; exact Q). destruct Pa as [Pa Pb].
    apply bind_lift_ok in H. destruct H as (ei & Eei & H).
    destruct (tri_get_edge_index_from_segment T ab) as [ei'|] eqn:Eei'; inversion Eei; subst ei'. clear Eei.
    assert (ei = edge_as_i es).
    { apply (edge_index_exact P HP T ab es ei IT DT); [rewrite Qa; exact Pa | rewrite Qb; exact Pb | left; unfold pair_of; rewrite Qa, Qb, Pab; reflexivity | exact Eei']. }
    subst ei. rewrite edge_from_as in H. rewrite (bind_lift_Ok _ es) in H by reflexivity.
    apply bind_lift_ok in H. destruct H as (c & Ec & H).
    assert (Pc : c = opp_v T es).
    { apply (opposite_exact P T ab es c HP IT DT); [rewrite Qa; exact Pa | rewrite Qb; exact Pb | left; unfold pair_of; rewrite Qa, Qb, Pab; reflexivity | exact Ec]. }
    assert (Pcc : P c) by (rewrite Pc; apply opp_v_in; exact IT).
    destruct (edge_pts_next T es) as [Pn1 Pn2]. rewrite Pab, <- Pc in Pn1, Pn2. cbn [fst snd] in Pn1, Pn2.
    apply mbind_ok in H. destruct H as ([] & M1 & H1 & H).
    pose proof (Pre_invalidate (Pre_init HG) Et H1) as R. pose proof (lk_invalidate _ _ _ _ H1) as Hlk1.
    destruct (invalidate_dead _ _ _ _ Et H1) as ((u1 & Eu1 & Vu1) & _).
    apply bind_get_ok in H. destruct H as (t1 & Et1 & H).
    assert (Rt1 : forall x, tp_neighbour t1 x = lk M idx x) by (intros x; rewrite <- Hlk1; unfold lk; rewrite Et1; reflexivity).
    destruct (edge_add_next es) as [Ea1 Ea2].
    rewrite (bind_lift_Ok _ (next_e es)) in H by exact Ea1. rewrite (bind_lift_Ok _ (next_e (next_e es))) in H by exact Ea2.
    rewrite (bind_lift_Ok _ (next_e es)) in H by exact Ea1. rewrite (bind_lift_Ok _ (next_e (next_e es))) in H by exact Ea2.
    apply mbind_ok in H. destruct H as (apc & M2 & H2 & H).
    pose proof (push_hint _ _ _ _ _ _ _ _ Eu1 Vu1 H2) as Q. subst apc.
    destruct (push_lk_lv _ _ _ _ _ _ _ H2) as (TA & ETA & _). apply (fun R => Pre_push R ETA H2) in R.
    apply mbind_ok in H. destruct H as (pbc & M3 & H3 & H).
    destruct (push_lk_lv _ _ _ _ _ _ _ H3) as (TB & ETB & _). apply (fun R => Pre_push R ETB H3) in R.
    clear Hlk1 H1 H2 H3 Eu1 Vu1.
    set (news := [(pbc, TB); (idx, TA)]) in R. set (New := fun j : nat => In j (map fst news)).
    set (Bx := fun (j : nat) (x : Edge) => ~ New j /\ exists i0, In i0 [idx] /\ lk M j x = Some i0).
    pose proof (Pre_new R) as NewT. destruct (Pre_tail R) as (HBx & G3x); [intros j x Q; destruct (HB _ _ Q) as [-> _]; cbn; auto|]. pose proof R as (Nd & Hn & Hd & Ho & _).
    assert (Npi : pbc <> idx) by (inversion Nd as [|? ? Q _]; intros E; apply Q; left; symmetry; exact E).
    assert (La3 : lvM M3 idx TA) by (apply Hn; cbn; auto). assert (L3 : lvM M3 pbc TB) by (apply Hn; cbn; auto).
    assert (Nw : New idx /\ New pbc) by (cbn; auto). destruct Nw as [Ni Np].
    assert (Onew : forall j, j <> idx -> j <> pbc -> ~ New j) by (intros j A1 A2 [Q | [Q | []]]; [exact (A2 (eq_sym Q)) | exact (A1 (eq_sym Q))]).
    assert (Hold_lv : forall j U, j <> idx -> j <> pbc -> (lvM M3 j U <-> lvM M j U)).
    { intros j U A1 A2. destruct (proj2 (Ho j (Onew j A1 A2)) U) as [F1 F2].
      split; [intros A; exact (proj1 (F1 A)) | intros A; apply F2; split; [exact A | intros [Q | []]; exact (A1 (eq_sym Q))]]. }
    assert (Dead : forall U, ~ lvM M pbc U) by (intros U A; destruct (proj2 (Hd pbc Np) U A) as [Q | []]; exact (Npi (eq_sym Q))).
    destruct (tri_new_table P HP _ _ _ _ Pa Pp Pcc ETA) as (IA & DA & (Nap & _ & Npc) & EAa & EAb & EAc).
    destruct (tri_new_table P HP _ _ _ _ Pp Pb Pcc ETB) as (IB & DB & (Npb & _ & _) & EBa & EBb & EBc).
    destruct (tri_distinct_edge T es DT) as (Nab & Nac & Nbc). rewrite ?Pab, <- ?Pc in Nab, Nac, Nbc. cbn [fst snd] in Nab, Nac, Nbc.
    assert (Nes1 : next_e es <> es) by (destruct es; discriminate). assert (Nes2 : next_e (next_e es) <> es) by (destruct es; discriminate).
    assert (Hnb : forall xe n, xe <> es -> lk M idx xe = Some n -> n <> idx /\ n <> pbc /\
              exists U kn, lvM M n U /\ tri_in P U /\ tri_distinct U /\ lk M n kn = Some idx /\ edge_pts U kn = rev2 (edge_pts T xe)).
    { intros xe n Hx E. destruct (HG idx T Lt xe n E) as [A | (A1 & T' & U & e' & A2 & A3 & A4 & A5)].
      - exfalso. apply Hx. destruct (HB _ _ A) as [_ A']. apply (edge_unique T (pair_of s) xe es DT); assumption.
      - split; [exact A1|]. split; [intros ->; exact (Dead U A3)|]. rewrite (lvM_fun _ _ _ _ A2 Lt) in A5. exists U, e'.
        split; [exact A3|]. split; [destruct (mesh_vert_tri _ _ _ A3) as (Q1 & Q2 & Q3); repeat split; apply HPM; assumption|]. split; [eapply HD; exact A3|]. split; assumption. }
    change (hemi_links idx pbc t1 es (next_e es) (next_e (next_e es)) M3 = (M', Ok r)) in H.
    apply hemi_links_Links in H. destruct H as [-> H]. rewrite !Rt1 in H.
    set (ops := [Lnew idx Bc pbc Ca; Lold idx Ca (lk M idx (next_e (next_e es))); Lold pbc Bc (lk M idx (next_e es))]) in H.
    assert (Hf : fresh [] ops).
    { clear - Npi. unfold ops. cbn [fresh lop_wr app]. repeat split; intros x Hx Hw; cbn [In] in Hx, Hw; intuition congruence. }
    assert (Tab : forall y U e'' y' U' e', New y -> lvM M3 y U -> New y' -> lvM M3 y' U' -> edge_pts U e'' = edge_pts U' e' -> y = y' /\ e'' = e').
    { clear - NewT EAa EAb EAc EBa EBb EBc Nab Nac Nbc Nap Npc Npb Pc.
      intros y U e'' y' U' e' Ny Ly Ny' Ly' Q. destruct (NewT y U Ny Ly) as [Q1 | [Q1 | []]], (NewT y' U' Ny' Ly') as [Q2 | [Q2 | []]];
        injection Q1 as <- <-; injection Q2 as <- <-; destruct e'', e'; rewrite ?EAa, ?EAb, ?EAc, ?EBa, ?EBb, ?EBc in Q; inversion Q; try congruence; split; reflexivity. }
    assert (Hold : forall (j : nat) (Tj : Tri K) (ej x : Edge) (c1 c2 : V), New j -> lvM M3 j Tj -> tri_in P Tj -> edge_pts Tj ej = (c1, c2) ->
              x <> es -> edge_pts T x = (c1, c2) -> lop_ok P New Bx M3 (Lold j ej (lk M idx x))).
    { intros j Tj ej x c1 c2 Nj Lj Ij Ej Hx Ex. split; [exact Nj|]. exists Tj. split; [exact Lj|]. split; [exact Ij|].
      intros n E. destruct (Hnb x n Hx E) as (A1 & A2 & U & kn & A3 & A4 & A5 & A6 & A7).
      pose proof (Onew n A1 A2) as On. split; [exact On|].
      split; [intros y U' e'' Ny Ly Q; exact (Tab y U' e'' j Tj ej Ny Ly Nj Lj Q)|].
      exists U, kn. split; [|split; [exact On | exists idx; split; [left; reflexivity | exact A6]]].
      split; [apply Hold_lv; assumption|]. split; [exact A4|]. split; [exact A5|]. split; [intros ->; apply On; exact Nj | rewrite A7, Ex, Ej; reflexivity]. }
    destruct (Links_G P New Bx M3 HP HBx ops M') as (S' & G' & N' & O'); [intros j x Nj; apply (Hd j Nj) | exact G3x | | exact Hf | exact H |].
    { unfold ops. repeat apply Forall_cons; [.. | apply Forall_nil].
      - split; [exact Ni|]. split; [exact Np|]. exists TA, TB. split; [exact La3|]. split; [exact IA|].
        split; [exact L3|]. split; [exact IB|]. split; [exact DB|]. split; [congruence | rewrite EBc, EAb; reflexivity].
      - apply (Hold idx TA Ca (next_e (next_e es)) c a); auto.
      - apply (Hold pbc TB Bc (next_e es) b c); auto. }
    pose proof (lvM_skel _ _ S') as Hlv6.
    exists es, a, b, c, TA, TB, pbc.
    split; [reflexivity|]. split; [exact Hes'|]. split; [exact Pab|]. split; [symmetry; exact Pc|]. split; [exact ETA|]. split; [exact ETB|].
    split; [apply Hlv6; exact La3|]. split; [apply Hlv6; exact L3|]. split; [exact Dead|].
    split; [intros j U A1 A2; exact (iff_trans (Hlv6 j U) (Hold_lv j U A1 A2))|].
    split; [apply N'; [exact Ni | intros [Q | [Q | [Q | [Q | []]]]]; discriminate Q]|].
    split; [apply N'; [exact Np | intros [Q | [Q | [Q | [Q | []]]]]; discriminate Q]|].
    split; [|split; [|apply (Pre_tris P M' R S'); [intros j U [Q | [Q | []]]; injection Q as _ <-; auto | exact HD | exact HPM]]].
    - intros j x A1 A2. pose proof (Onew j A1 A2) as Oj.
      destruct (O' j x Oj) as [Q | ((i1 & e1 & T1 & Tj & Hin & L1 & Lj & Ge) & n & Nn & Q)]; [left; rewrite Q; apply (Ho j Oj)|].
      right. split; [|destruct Nn as [<- | [<- | []]]; auto]. apply Hold_lv in Lj; try assumption.
      (* the entry of j that the link overwrote is the one that named idx: it lies on the same edge of j *)
      assert (Hk : forall xe, xe <> es -> lk M idx xe = Some j -> edge_pts Tj x = rev2 (edge_pts T xe) -> lk M j x = Some idx).
      { intros xe Hx E Gx. destruct (Hnb xe j Hx E) as (_ & _ & U & kn & A3 & _ & A5 & A6 & A7). rewrite (lvM_fun _ _ _ _ A3 Lj) in A5, A7.
        rewrite (edge_unique Tj (edge_pts Tj x) x kn A5 (or_introl eq_refl)); [exact A6 | left; rewrite A7; exact Gx]. }
      destruct Hin as [Q1 | [Q1 | [Q1 | []]]]; [discriminate Q1 | injection Q1 as <- <- Q4 | injection Q1 as <- <- Q4].
      + apply (Hk _ Nes2 Q4). rewrite Ge, (lvM_fun _ _ _ _ L1 La3), EAc, Pn2. reflexivity.
      + apply (Hk _ Nes1 Q4). rewrite Ge, (lvM_fun _ _ _ _ L1 L3), EBb, Pn1. reflexivity.
    - revert G'. apply G_weaken_live. intros j Tj x k' Lj Ex ((Oj & i0 & [<- | []] & Hb) & Hm).
      apply Hlv6 in Lj. destruct (proj1 (proj2 (Ho j Oj) Tj) Lj) as [Lj' _].
      destruct (HG j Tj Lj' x idx Hb) as [Q | (_ & T' & U & e' & Q2 & Q3 & Q4 & Q5)]; [destruct (HB _ _ Q) as [-> _]; destruct (Oj Ni)|].
      rewrite (lvM_fun _ _ _ _ Q3 Lt) in Q5. rewrite (lvM_fun _ _ _ _ Q2 Lj') in Q5. clear Q2 Q3 T' U.
      destruct (edges_all es e') as [-> | [-> | ->]].
      + split; [exact Q4|]. exists Tj. split; [exact Lj'|]. first [rewrite Q5, rev2_invol; reflexivity | rewrite <- Pab, Q5, rev2_invol; reflexivity].
      + exfalso. apply Hm. exists pbc, Bc, TB, Tj. split; [rewrite <- Q4; unfold ops; cbn [In]; auto|]. split; [exact L3|]. split; [exact Lj|].
        rewrite EBb, <- Pn1, Q5, rev2_invol. reflexivity.
      + exfalso. apply Hm. exists idx, Ca, TA, Tj. split; [rewrite <- Q4; unfold ops; cbn [In]; auto|]. split; [exact La3|]. split; [exact Lj|].
        rewrite EAc, <- Pn2, Q5, rev2_invol. reflexivity.
  Qed.

  Theorem split_edge_LNKG (i : nat) (e : Edge) (p : V) (M M' : Mesh) :
    LNKG M -> DIST M -> VSEP (vert_or M p) -> split_edge i e p M = (M', Ok tt) ->
    LNKG M' /\ DIST M' /\ (forall x, mesh_vert M' x -> vert_or M p x).
  Proof.
    intros HL HD HP H. set (P := vert_or M p) in *.
    destruct (split_edge_inv _ _ _ _ _ _ H) as [[_ Q] | (t & sg & _ & _ & _ & _ & _ & Et & Ev & Esg & _ & _ & _ & _ & H')]; [destruct (Q tt eq_refl)|].
    clear H. rename H' into H. unfold split_edge_suffix in H.
    set (T := tp_tri t) in *. assert (Lt : lvM M i T) by (apply slot_lvT; assumption).
    assert (HPM : forall x, mesh_vert M x -> P x) by (intros x Q; left; exact Q). assert (Pp : P p) by (right; reflexivity).
    assert (IT : tri_in P T) by (destruct (mesh_vert_tri _ _ _ Lt) as (Q1 & Q2 & Q3); repeat split; apply HPM; assumption).
    pose proof (HD _ _ Lt) as DT.
    destruct (tri_segment_pts T e) as (sg' & Esg' & Psg). rewrite Esg in Esg'. inversion Esg'; subst sg'. clear Esg'.
    assert (Ps : P (sstart sg) /\ P (send sg)) by (pose proof (edge_pts_in P T e IT) as Q; rewrite <- Psg in Q; exact Q). destruct Ps as [Ps1 Ps2].
    apply mbind_ok in H. destruct H as ([tl tr] & M1 & H1 & H).
    destruct (hemisphere_G P (fun _ _ => False) sg p i T M M1 _ HP HPM Pp Ps1 Ps2 HD (LNKG_G _ HL) (fun j x Q => False_ind _ Q) Lt H1)
      as (es & a & b & c & TA & TB & pbc1 & Er & Hes & Pab & Pc & ETA & ETB & LA1 & LB1 & Dead1 & Hlv1 & NA1 & NB1 & Fr1 & G1 & D1 & V1).
    inversion Er; subst tl tr. clear Er.
    assert (es = e) by (apply (edge_unique T (pair_of sg) es e DT); [exact Hes | left; exact Psg]). subst es.
    assert (Rt : tp_neighbour t e = lk M i e) by (unfold lk; rewrite Et; reflexivity). rewrite Rt in H.
    destruct (lk M i e) as [nei|] eqn:Enei.
    2:{ inversion H; subst M'. split; [|split; assumption].
        apply (G_LNKG _ _ G1). intros j Tj x k' _ _ (A1 & _). discriminate A1. }
    destruct (good_inv M i T e nei HL Lt Enei) as (Hne & Tn & k & Ln & Ek & Gk).
    assert (Ln1 : lvM M1 nei Tn) by (apply Hlv1; [exact Hne | intros ->; exact (Dead1 Tn Ln) | exact Ln]).
    apply mbind_ok in H. destruct H as ([br bl] & M2 & H2 & H).
    assert (HB1 : forall j x, (Some nei = Some j /\ exists U, lvM M j U /\ edge_pts U x = rev2 (edge_pts T e)) -> j = nei /\ same_seg (pair_of sg) (edge_pts Tn x)).
    { intros j x (A1 & U & A4 & A5). injection A1 as <-. split; [reflexivity|]. rewrite (lvM_fun _ _ _ _ Ln A4). right. rewrite Psg, A5, rev2_invol. reflexivity. }
    destruct (hemisphere_G P _ sg p nei Tn M1 M2 _ HP V1 Pp Ps1 Ps2 D1 G1 HB1 Ln1 H2)
      as (es2 & a' & b' & c' & TA' & TB' & pbc2 & Er & Hes2 & Pab2 & Pc2 & ETA' & ETB' & LA2 & LB2 & Dead2 & Hlv2 & NA2 & NB2 & Fr2 & G2 & D2 & V2).
    inversion Er; subst br bl. clear Er.
    pose proof (HD _ _ Ln) as DN.
    assert (es2 = k) by (apply (edge_unique Tn (pair_of sg) es2 k DN); [exact Hes2 | right; rewrite Psg, Gk, rev2_invol; reflexivity]). subst es2.
    rewrite Gk, Pab in Pab2. cbn [rev2 fst snd] in Pab2. inversion Pab2; subst a' b'. clear Pab2.
    assert (IP : P a /\ P b /\ P c /\ P c').
    { pose proof (edge_pts_in P T e IT) as Q. rewrite Pab in Q. destruct Q as [Q1 Q2]. split; [exact Q1|]. split; [exact Q2|]. split; [rewrite <- Pc; apply opp_v_in; exact IT|].
      rewrite <- Pc2. apply opp_v_in. destruct (mesh_vert_tri _ _ _ Ln) as (R1 & R2 & R3). repeat split; apply HPM; assumption. }
    destruct IP as (Pa & Pb & Pcc & Pc').
    destruct (tri_new_table P HP _ _ _ _ Pa Pp Pcc ETA) as (IA & DA & (Nap & _ & Npc) & EAa & EAb & EAc).
    destruct (tri_new_table P HP _ _ _ _ Pp Pb Pcc ETB) as (IB & DB & (Npb & _ & _) & EBa & EBb & EBc).
    destruct (tri_new_table P HP _ _ _ _ Pb Pp Pc' ETA') as (IA' & DA' & _ & EA' & _).
    destruct (tri_new_table P HP _ _ _ _ Pp Pa Pc' ETB') as (IB' & DB' & _ & EB' & _).
    destruct (tri_distinct_edge T e DT) as (Nab & Nac & Nbc). rewrite ?Pab, ?Pc in Nab, Nac, Nbc. cbn [fst snd] in Nab, Nac, Nbc.
    assert (Qk : edge_pts Tn k = (b, a)) by (rewrite Gk, Pab; reflexivity).
    assert (Nn1 : nei <> pbc1) by (intros ->; exact (Dead1 Tn Ln)).
    assert (HL2 : LNKG M2).
    { apply (G_LNKG _ _ G2). intros j Tj x k' _ _ (A1 & U & A4 & A5).
      assert (Hj : j = i \/ j = pbc1).
      { destruct (Fr1 nei k Hne Nn1) as [Q | (_ & [Q | Q])]; rewrite Q in A1; [rewrite Ek in A1|..]; inversion A1; auto. }
      rewrite Qk in A5. cbn [rev2 fst snd] in A5.
      destruct Hj as [-> | ->]; [rewrite (lvM_fun _ _ _ _ A4 LA1) in A5 | rewrite (lvM_fun _ _ _ _ A4 LB1) in A5];
        destruct x; rewrite ?EAa, ?EAb, ?EAc, ?EBa, ?EBb, ?EBc in A5; inversion A5; congruence. }
    assert (Ni2 : i <> pbc2) by (intros ->; exact (Dead2 TA LA1)). assert (Np12 : pbc1 <> pbc2) by (intros ->; exact (Dead2 TB LB1)).
    assert (LA1' : lvM M2 i TA) by (apply Hlv2; [congruence | exact Ni2 | exact LA1]).
    assert (LB1' : lvM M2 pbc1 TB) by (apply Hlv2; [congruence | exact Np12 | exact LB1]).
    assert (NI : lk M2 i Ab = None).
    { destruct (Fr2 i Ab (fun Q => Hne (eq_sym Q)) Ni2) as [Q | (Q & _)]; [rewrite Q; exact NA1 | rewrite NA1 in Q; discriminate Q]. }
    assert (NP1 : lk M2 pbc1 Ab = None).
    { destruct (Fr2 pbc1 Ab (fun Q => Nn1 (eq_sym Q)) Np12) as [Q | (Q & _)]; [rewrite Q; exact NB1 | rewrite NB1 in Q; discriminate Q]. }
    apply mbind_ok in H. destruct H as ([] & M3 & H3 & H).
    destruct (G_mark_sep P _ i Ab pbc2 TA TB' Ab M2 M3 HP IA IB' DB' (LNKG_G _ HL2) LA1' LB2 Ni2) as (G3 & S3 & _ & _ & F3);
      [rewrite EB', EAa; reflexivity | exact NI | intros x U' e'' Q1; rewrite NB2 in Q1; discriminate | exact H3 |].
    pose proof (lvM_skel _ _ S3) as Hlv3.
    destruct (G_mark_sep P _ pbc1 Ab nei TB TA' Ab M3 M' HP IB IA' DA' G3) as (G4 & S4 & _ & _ & F4);
      [apply Hlv3; exact LB1' | apply Hlv3; exact LA2 | congruence | rewrite EA', EBa; reflexivity
      | rewrite F3 by (intros [? ?]; congruence); exact NP1
      | intros x U' e'' Q1; rewrite F3 in Q1 by (intros [? ?]; congruence); rewrite NA2 in Q1; discriminate | exact H |].
    assert (Hlv4 : forall j U, lvM M' j U <-> lvM M2 j U) by (intros j U; rewrite (lvM_skel _ _ S4); apply Hlv3).
    split; [|split].
    - apply (G_LNKG _ _ G4). intros j Tj x k' _ _ ((Q & _) & _). exact Q.
    - intros j U Lj. apply Hlv4 in Lj. eapply D2; exact Lj.
    - intros x (j & U & Lj & Hx). apply Hlv4 in Lj. apply V2. exists j, U. split; assumption.
  Qed.

  Definition GEO (M : Mesh) : Prop := LNKG M /\ DIST M /\ SEP M.
  Theorem flip_GEO (i : nat) (e : Edge) (M M' : Mesh) : GEO M -> flip_diagonal i e M = (M', Ok tt) -> GEO M'.
  Proof.
    intros (HL & HD & HS) H. destruct (flip_LNKG i e M M' HL HS HD H) as (A & B & C). split; [exact A | split; [exact B|]]. exact (VSEP_sub _ _ C HS).
  Qed.
  (** the inserted point is separated from the vertices of the mesh (and compares equal to itself) *)
  Definition SEPp (M : Mesh) (p : V) : Prop := VSEP (vert_or M p).
  Lemma SEPp_SEP M p : SEPp M p -> SEP M.
  Proof. apply VSEP_sub. intros x Q. left. exact Q. Qed.
  Theorem split_triangle_GEO (i : nat) (p : V) (M M' : Mesh) : LNKG M -> DIST M -> SEPp M p -> split_triangle i p M = (M', Ok tt) -> GEO M'.
  Proof.
    intros HL HD HS H. destruct (split_triangle_LNKG i p M M' HL HD HS H) as (A & B & C). split; [exact A | split; [exact B|]]. exact (VSEP_sub _ _ C HS).
  Qed.
  Theorem split_edge_GEO (i : nat) (e : Edge) (p : V) (M M' : Mesh) : LNKG M -> DIST M -> SEPp M p -> split_edge i e p M = (M', Ok tt) -> GEO M'.
  Proof.
    intros HL HD HS H. destruct (split_edge_LNKG i e p M M' HL HD HS H) as (A & B & C). split; [exact A | split; [exact B|]]. exact (VSEP_sub _ _ C HS).
  Qed.
  Theorem restore_GEO (m : K) (M M' : Mesh) : GEO M -> restore_delaunay m M = (M', Ok tt) -> GEO M'.
  Proof.
    intros HG H. refine (proj1 (restore_ind GEO (fun _ _ => True) (fun _ => I) (fun _ _ _ _ _ => I) _ m M M' HG H)).
    intros i e ar M0 M1 H0 _ H1. split; [exact (flip_GEO _ _ _ _ H0 H1) | exact I].
  Qed.
  Theorem add_point_GEO (p : V) (M M' : Mesh) (b : bool) : LNKG M -> DIST M -> SEPp M p -> add_point p M = (M', Ok b) -> GEO M'.
  Proof.
    intros HL HD HS H. unfold add_point in H. destruct (find_container (tris M) 0 p) as [[i loc]|]; [|discriminate].
    unfold add_point_to_triangle in H. apply bind_get_ok in H. destruct H as (t & _ & H).
    destruct (negb (tp_valid t)); [discriminate|].
    assert (G0 : GEO M) by (split; [exact HL | split; [exact HD | eapply SEPp_SEP; exact HS]]).
    destruct (pit_is_vertex loc); [inversion H; subst; exact G0|].
    destruct (pit_is_edge loc).
    - apply bind_lift_ok in H. destruct H as (ed & _ & H). apply mbind_ok in H. destruct H as ([] & M1 & H1 & H). inversion H; subst.
      eapply split_edge_GEO; eassumption.
    - destruct loc; try discriminate. apply mbind_ok in H. destruct H as ([] & M1 & H1 & H). inversion H; subst. eapply split_triangle_GEO; eassumption.
  Qed.

  (** ** flip_diagonal on a sound mesh with the link geometry: Err 102 cannot occur *)
  Theorem flip_struct_geo (i : nat) (e : Edge) (M M' : Mesh) (r : res unit) :
    WF M -> CNT M -> GEO M -> flip_diagonal i e M = (M', r) ->
    (r = Ok tt /\ WF M' /\ CNT M' /\ LNK M') \/ M' = M \/ r = Panic 64%N.
  Proof.
    intros W C (HL & HD & HS) H.
    destruct (flip_struct_102 _ _ _ _ _ W C (LNKG_LNK _ HL) H)
      as [A | [A | [A | (_ & t & nb & ni & a & b & c & o & e1 & e2 & e3 & e4 & T1 & T2 & Hp & Q)]]]; [left; exact A | right; left; exact A | right; right; exact A | exfalso].
    destruct (flip_geom _ _ _ _ _ _ _ _ _ _ _ _ _ _ _ _ HL HS HD Hp) as (k & _ & _ & _ & _ & _ & _ & (_ & -> & _ & ->) & _ & _ & HnbT & HnbN).
    destruct Hp as [Et _ _ Enb _ _ _ _ _ _ _ _ _ _ _]. destruct Q as [Q|Q].
    - assert (E : lk M ni (next_e k) = Some i) by (unfold lk; rewrite Enb; exact Q).
      assert (N : next_e k <> k) by (destruct k; discriminate). exact (proj1 (HnbN _ _ N E) eq_refl).
    - assert (E : lk M i (next_e e) = Some ni) by (unfold lk; rewrite Et; exact Q).
      assert (N : next_e e <> e) by (destruct e; discriminate). exact (proj1 (proj2 (HnbT _ _ N E)) eq_refl).
  Qed.
End Steps.
