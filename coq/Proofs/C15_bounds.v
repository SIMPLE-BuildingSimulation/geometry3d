(** * C15 proofs, real instance: box constructors and predicates, the image of a box under an
    affine map (device D5: all eight corners), the box round trip, and the local / world bounds of
    triangles, spheres and cylinders. *)
From Coq Require Import ZArith Reals Lra Bool List Psatz.
From G3 Require Import Model.Num Model.Base Model.Vec Model.BBox Model.Transform Model.Bounds Theory.RInst.
From G3 Require Import Proofs.C06_transform Proofs.C15_order.
From G3 Require Proofs.C14_real.
Import ListNotations.
Local Open Scope R_scope.

Notation B := (BBox R).

Definition Vle (a b : V) : Prop := vx a <= vx b /\ vy a <= vy b /\ vz a <= vz b.
Definition Vlt (a b : V) : Prop := vx a < vx b /\ vy a < vy b /\ vz a < vz b.
Definition Rin (b : B) (p : V) : Prop := Vle (bmin b) p /\ Vle p (bmax b).
Definition Rwf (b : B) : Prop := Vle (bmin b) (bmax b).
Definition Rcontains (outer inner : B) : Prop := Vle (bmin outer) (bmin inner) /\ Vle (bmax inner) (bmax outer).

Ltac bx := unfold Rin, Rwf, Rcontains, Vle, Vlt in *; cbn [bmin bmax vx vy vz fst snd] in *.

Lemma inb_R (b : B) (p : V) : inb b p <-> Rin b p.
Proof. unfold inb, vle, le, Rin, Vle. rnum. split; intros ((?&?&?)&(?&?&?)); repeat split; apply Rleb_true; assumption. Qed.

(** ** [get_mins_maxs] on the reals is (min, max) component-wise *)
Lemma mm_R (a b : V) :
  mm a b = (mkV3 (Rmin (vx a) (vx b)) (Rmin (vy a) (vy b)) (Rmin (vz a) (vz b)),
            mkV3 (Rmax (vx a) (vx b)) (Rmax (vy a) (vy b)) (Rmax (vz a) (vz b))).
Proof. rewrite mm_sort2. change (@sort2 R _) with (@C14_real.slab_sort R _). rewrite !C14_real.slab_sort_R. reflexivity. Qed.

Ltac mmR := rewrite ?new_mm; unfold bbox_from_union, bbox_from_union_point, bbox_from_intersection, bbox_from_point in *;
            rewrite ?mm_R in *; cbn [fst snd bmin bmax vx vy vz] in *.
Lemma new_normalises (a b : V) :
  Rwf (bbox_new a b) /\ Rin (bbox_new a b) a /\ Rin (bbox_new a b) b /\
  (forall c : B, Rin c a -> Rin c b -> Rcontains c (bbox_new a b)).
Proof.
  mmR. bx. repeat split; intros;
    repeat match goal with H : _ /\ _ |- _ => destruct H end;
    try apply Rmin_l; try apply Rmin_r; try apply Rmax_l; try apply Rmax_r;
    try (apply Rle_trans with (2 := Rmax_l _ _); apply Rmin_l);
    try (apply Rmin_glb; assumption); try (apply Rmax_lub; assumption).
Qed.

Lemma new_corner_order_irrelevant (a b : V) : bbox_new a b = bbox_new b a.
Proof.
  mmR. f_equal; f_equal; first [apply Rmin_comm | apply Rmax_comm].
Qed.

Lemma from_point_R (p : V) : Rin (bbox_from_point p) p /\ Rwf (bbox_from_point p).
Proof. unfold bbox_from_point. bx. lra. Qed.

Lemma union_contains_both (b1 b2 : B) :
  Rcontains (bbox_from_union b1 b2) b1 /\ Rcontains (bbox_from_union b1 b2) b2 /\
  (forall c : B, Rcontains c b1 -> Rcontains c b2 -> Rcontains c (bbox_from_union b1 b2)).
Proof.
  mmR. bx. repeat split; intros;
    repeat match goal with H : _ /\ _ |- _ => destruct H end;
    try apply Rmin_l; try apply Rmin_r; try apply Rmax_l; try apply Rmax_r;
    try (apply Rmin_glb; assumption); try (apply Rmax_lub; assumption).
Qed.

Lemma union_point_contains (b : B) (p : V) :
  Rcontains (bbox_from_union_point b p) b /\ Rin (bbox_from_union_point b p) p /\
  (forall q, Rin b q -> Rin (bbox_from_union_point b p) q).
Proof.
  mmR. bx. repeat split; intros;
    repeat match goal with H : _ /\ _ |- _ => destruct H end;
    try apply Rmin_l; try apply Rmin_r; try apply Rmax_l; try apply Rmax_r;
    try (eapply Rle_trans; [apply Rmin_l | assumption]); try (eapply Rle_trans; [eassumption | apply Rmax_l]).
Qed.

Lemma intersection_contained (b1 b2 : B) :
  Rcontains b1 (bbox_from_intersection b1 b2) /\ Rcontains b2 (bbox_from_intersection b1 b2) /\
  (forall p, Rin (bbox_from_intersection b1 b2) p <-> Rin b1 p /\ Rin b2 p).
Proof.
  mmR. bx. repeat split; intros;
    repeat match goal with H : _ /\ _ |- _ => destruct H end;
    try apply Rmin_l; try apply Rmin_r; try apply Rmax_l; try apply Rmax_r;
    try (apply Rmin_glb; assumption); try (apply Rmax_lub; assumption);
    try (eapply Rle_trans; [apply Rmax_l | eassumption]); try (eapply Rle_trans; [apply Rmax_r | eassumption]);
    try (eapply Rle_trans; [eassumption | apply Rmin_l]); try (eapply Rle_trans; [eassumption | apply Rmin_r]).
Qed.

Lemma overlaps_sym (a b : B) : bbox_overlaps a b = bbox_overlaps b a.
Proof. apply g_overlaps_sym. Qed.

Lemma overlaps_spec (a b : B) :
  bbox_overlaps a b = true <->
  (vx (bmin b) <= vx (bmax a) /\ vx (bmin a) <= vx (bmax b)) /\
  (vy (bmin b) <= vy (bmax a) /\ vy (bmin a) <= vy (bmax b)) /\
  (vz (bmin b) <= vz (bmax a) /\ vz (bmin a) <= vz (bmax b)).
Proof. unfold bbox_overlaps. rnum. rewrite !andb_true_iff, !Rleb_true. tauto. Qed.

Lemma overlaps_iff_common_point (a b : B) : Rwf a -> Rwf b ->
  (bbox_overlaps a b = true <-> exists p, Rin a p /\ Rin b p).
Proof.
  intros Wa Wb. rewrite overlaps_spec. split.
  - intros ((X1 & X2) & (Y1 & Y2) & (Z1 & Z2)).
    exists (mkV3 (Rmax (vx (bmin a)) (vx (bmin b))) (Rmax (vy (bmin a)) (vy (bmin b))) (Rmax (vz (bmin a)) (vz (bmin b)))).
    bx. repeat split; try apply Rmax_l; try apply Rmax_r; apply Rmax_lub; lra.
  - intros (p & Ha & Hb). bx. lra.
Qed.

Lemma overlaps_iff_intersection_wf (a b : B) : Rwf a -> Rwf b ->
  (bbox_overlaps a b = true <-> Rwf (bbox_from_intersection a b)).
Proof.
  intros Wa Wb. rewrite overlaps_spec. mmR. bx. split.
  - intros ((X1 & X2) & (Y1 & Y2) & (Z1 & Z2)). repeat split; apply Rmax_lub; apply Rmin_glb; lra.
  - intros (X & Y & Z).
    pose proof (Rmax_l (vx (bmin a)) (vx (bmin b))). pose proof (Rmax_r (vx (bmin a)) (vx (bmin b))).
    pose proof (Rmin_l (vx (bmax a)) (vx (bmax b))). pose proof (Rmin_r (vx (bmax a)) (vx (bmax b))).
    pose proof (Rmax_l (vy (bmin a)) (vy (bmin b))). pose proof (Rmax_r (vy (bmin a)) (vy (bmin b))).
    pose proof (Rmin_l (vy (bmax a)) (vy (bmax b))). pose proof (Rmin_r (vy (bmax a)) (vy (bmax b))).
    pose proof (Rmax_l (vz (bmin a)) (vz (bmin b))). pose proof (Rmax_r (vz (bmin a)) (vz (bmin b))).
    pose proof (Rmin_l (vz (bmax a)) (vz (bmax b))). pose proof (Rmin_r (vz (bmax a)) (vz (bmax b))).
    lra.
Qed.

Lemma point_inside_spec (b : B) (p : V) : bbox_point_inside b p = true <-> Rin b p.
Proof. rewrite <- inb_R. apply g_point_inside_spec. Qed.
Lemma point_inside_exclusive_spec (b : B) (p : V) :
  bbox_point_inside_exclusive b p = true <-> Vle (bmin b) p /\ Vlt p (bmax b).
Proof. unfold bbox_point_inside_exclusive. rnum. rewrite !andb_true_iff, !Rleb_true, !Rltb_true. bx. tauto. Qed.

(** ** device D5: an affine function on a box is bounded by its values at the eight corners *)
Definition arow (a b c d : R) (q : V) : R := a * vx q + b * vy q + c * vz q + d.
(** coordinates of the image of a point under an affine matrix *)
Lemma pt_affine_coords (m : M) (p : V) : affine m ->
  vx (mul4x4point m p) = arow (m00 m) (m01 m) (m02 m) (m03 m) p /\
  vy (mul4x4point m p) = arow (m10 m) (m11 m) (m12 m) (m13 m) p /\
  vz (mul4x4point m p) = arow (m20 m) (m21 m) (m22 m) (m23 m) p.
Proof.
  destruct m, p as [px py pz]. unfold arow. unf. intros (?&?&?&?); subst. repeat split; field; lra.
Qed.

(** the eight corners, in the order in which [transform_bbox] visits them *)
Definition corners (b : B) : list V :=
  let mn := bmin b in let mx := bmax b in
  [mkV3 (vx mn) (vy mn) (vz mn); mkV3 (vx mx) (vy mn) (vz mn); mkV3 (vx mn) (vy mx) (vz mn); mkV3 (vx mn) (vy mn) (vz mx);
   mkV3 (vx mn) (vy mx) (vz mx); mkV3 (vx mx) (vy mx) (vz mn); mkV3 (vx mx) (vy mn) (vz mx); mkV3 (vx mx) (vy mx) (vz mx)].
(** the bounding box of a non-empty list of points, built like [transform_bbox] builds it *)
Definition hull (p0 : V) (l : list V) : B := fold_left bbox_from_union_point l (bbox_from_point p0).
Definition hull_of (l : list V) : B := match l with p0 :: l' => hull p0 l' | [] => bbox_from_point (mkV3 0 0 0) end.
Lemma bbox_by_is_hull (m : M) (b : B) : bbox_by m b = hull_of (map (mul4x4point m) (corners b)).
Proof. reflexivity. Qed.

Lemma hull_contains_points (p0 : V) (l : list V) : forall q, q = p0 \/ In q l -> Rin (hull p0 l) q.
Proof.
  intros q Hq. apply inb_R.
  refine (proj2 (g_hull_in okR R_lt_nle R_le_total R_le_refl R_le_trans p0 l _ _) q Hq); [|apply Forall_forall; intros]; repeat split.
Qed.

(** on each axis the larger of the two end values is taken, according to the sign of the coefficient *)
Lemma arow_le_corners (a b c d M : R) (bx : B) (p : V) : Rin bx p ->
  (forall q, In q (corners bx) -> arow a b c d q <= M) -> arow a b c d p <= M.
Proof.
  intros ((X0 & Y0 & Z0) & (X1 & Y1 & Z1)) H.
  assert (S : forall k lo v hi, lo <= v <= hi -> exists i : bool, k * v <= k * (if i then hi else lo)).
  { intros k lo v hi Hv. destruct (Rle_dec 0 k); [exists true | exists false]; nra. }
  destruct (S a _ _ _ (conj X0 X1)) as [i Hi]. destruct (S b _ _ _ (conj Y0 Y1)) as [j Hj]. destruct (S c _ _ _ (conj Z0 Z1)) as [k Hk].
  assert (Hq : In (mkV3 (if i then vx (bmax bx) else vx (bmin bx)) (if j then vy (bmax bx) else vy (bmin bx))
                        (if k then vz (bmax bx) else vz (bmin bx))) (corners bx)).
  { destruct i, j, k; cbn [corners In]; tauto. }
  specialize (H _ Hq). unfold arow in *. cbn [vx vy vz] in H. lra.
Qed.
Lemma arow_ge_corners (a b c d M : R) (bx : B) (p : V) : Rin bx p ->
  (forall q, In q (corners bx) -> M <= arow a b c d q) -> M <= arow a b c d p.
Proof.
  intros Hp H. assert (E : forall q, arow (- a) (- b) (- c) (- d) q = - arow a b c d q) by (intros; unfold arow; ring).
  apply Ropp_le_cancel. rewrite <- E. apply arow_le_corners with bx; [exact Hp|].
  intros q Hq. rewrite E. specialize (H q Hq). lra.
Qed.

(** a box that contains the images of the eight corners contains the image of every point of the box *)
Lemma corners_suffice (m : M) (b c : B) (p : V) : affine m -> Rin b p ->
  (forall q, In q (corners b) -> Rin c (mul4x4point m q)) -> Rin c (mul4x4point m p).
Proof.
  intros Ha Hp Hc. unfold Rin, Vle. destruct (pt_affine_coords m p Ha) as (-> & -> & ->).
  repeat split; (apply arow_ge_corners with b || apply arow_le_corners with b); try exact Hp;
    intros q Hq; destruct (Hc q Hq) as ((L1 & L2 & L3) & (U1 & U2 & U3));
    destruct (pt_affine_coords m q Ha) as (E1 & E2 & E3); rewrite <- ?E1, <- ?E2, <- ?E3; assumption.
Qed.

(** ** the transformed box contains the image of every point of the box *)
Theorem bbox_by_contains_image (m : M) (b : B) (p : V) : affine m -> Rin b p -> Rin (bbox_by m b) (mul4x4point m p).
Proof.
  intros Ha Hp. apply corners_suffice with (b := b); try assumption.
  intros q Hq. rewrite bbox_by_is_hull. cbn [map corners hull_of] in *.
  apply hull_contains_points. cbn [In] in *.
  repeat (destruct Hq as [<-|Hq]; [tauto|]). destruct Hq.
Qed.
Corollary tr_bbox_contains (t : T) (b : B) (p : V) : affine (elements t) -> Rin b p -> Rin (tr_bbox t b) (tr_pt t p).
Proof. apply bbox_by_contains_image. Qed.
Corollary tr_inv_bbox_contains (t : T) (b : B) (p : V) : affine (inv_elements t) -> Rin b p -> Rin (tr_inv_bbox t b) (tr_inv_pt t p).
Proof. apply bbox_by_contains_image. Qed.

Lemma bbox_by_wf (m : M) (b : B) : affine m -> Rwf b -> Rwf (bbox_by m b).
Proof.
  intros Ha Wb. assert (H : Rin b (bmin b)) by (bx; lra).
  pose proof (bbox_by_contains_image m b (bmin b) Ha H) as (L & U). bx. lra.
Qed.

(** round trip of boxes: transform then inverse transform contains the box we started from *)
Theorem bbox_round_trip_contains (t : T) (b : B) (p : V) : Inv t -> Rin b p -> Rin (tr_inv_bbox t (tr_bbox t b)) p.
Proof.
  intros Hi Hp. pose proof Hi as (_ & _ & A3 & A4).
  rewrite <- (inv_pt_pt t p Hi). apply tr_inv_bbox_contains; [exact A4|]. apply tr_bbox_contains; assumption.
Qed.
Corollary bbox_round_trip_contains_box (t : T) (b : B) : Inv t -> Rwf b -> Rcontains (tr_inv_bbox t (tr_bbox t b)) b.
Proof.
  intros Hi Wb.
  assert (H0 : Rin b (bmin b)) by (bx; lra). assert (H1 : Rin b (bmax b)) by (bx; lra).
  pose proof (bbox_round_trip_contains t b _ Hi H0) as (L0 & U0).
  pose proof (bbox_round_trip_contains t b _ Hi H1) as (L1 & U1). split; assumption.
Qed.

(** ** all eight corners are needed: dropping the k-th one breaks containment for some affine map *)
Fixpoint drop {A} (k : nat) (l : list A) : list A :=
  match k, l with O, _ :: l' => l' | S k', x :: l' => x :: drop k' l' | _, [] => [] end.
Definition bbox_by_without (k : nat) (m : M) (b : B) : B := hull_of (map (mul4x4point m) (drop k (corners b))).
Definition sgn_row (sx sy sz : R) : M := mkM4 sx sy sz 0  0 1 0 0  0 0 1 0  0 0 0 1.
Lemma sgn_row_x (sx sy sz : R) (q : V) : vx (mul4x4point (sgn_row sx sy sz) q) = sx * vx q + sy * vy q + sz * vz q.
Proof. destruct q as [qx qy qz]. unfold sgn_row, mul4x4point, vdivs. cbn [m00 m01 m02 m03 m30 m31 m32 m33 vx vy vz]. rnum. field; lra. Qed.
Lemma fold_upper (l : list V) (U : R) : forall r : B, vx (bmax r) <= U -> (forall q, In q l -> vx q <= U) ->
  vx (bmax (fold_left bbox_from_union_point l r)) <= U.
Proof.
  induction l as [|x l IH]; intros r Hr Hl; cbn [fold_left]; [exact Hr|].
  apply IH; [|intros q Hq; apply Hl; right; exact Hq].
  mmR. apply Rmax_lub; [exact Hr | apply Hl; left; reflexivity].
Qed.
Lemma hull_of_upper (l : list V) (U : R) : l <> [] -> (forall q, In q l -> vx q <= U) -> vx (bmax (hull_of l)) <= U.
Proof.
  destruct l as [|p0 l]; [congruence|]. intros _ H. unfold hull_of, hull.
  apply fold_upper; [apply H; left; reflexivity | intros q Hq; apply H; right; exact Hq].
Qed.

Lemma every_corner_is_needed : forall k, (k < 8)%nat ->
  exists (m : M) (b : B) (p : V), affine m /\ Rwf b /\ Rin b p /\ ~ Rin (bbox_by_without k m b) (mul4x4point m p).
Proof.
  intros k Hk.
  set (u := mkBBox (mkV3 0 0 0) (mkV3 1 1 1)).
  assert (W : Rwf u) by (unfold u; bx; lra).
  assert (A : forall sx sy sz, affine (sgn_row sx sy sz)) by (intros; unfold affine, sgn_row; cbn; tauto).
  assert (Key : forall sx sy sz (p : V) (U : R), U < sx * vx p + sy * vy p + sz * vz p ->
            (forall q, In q (drop k (corners u)) -> sx * vx q + sy * vy q + sz * vz q <= U) ->
            ~ Rin (bbox_by_without k (sgn_row sx sy sz) u) (mul4x4point (sgn_row sx sy sz) p)).
  { intros sx sy sz p U HU Hq (_ & (Ux & _)). rewrite sgn_row_x in Ux.
    assert (Hb : vx (bmax (bbox_by_without k (sgn_row sx sy sz) u)) <= U).
    { unfold bbox_by_without. apply hull_of_upper.
      - destruct k as [|[|[|[|[|[|[|[|k]]]]]]]]; try lia; discriminate.
      - intros q Hin. apply in_map_iff in Hin. destruct Hin as (c & <- & Hc). rewrite sgn_row_x. apply Hq. exact Hc. }
    lra. }
  destruct k as [|[|[|[|[|[|[|[|k]]]]]]]]; [..| exfalso; lia]; clear Hk.
  1: exists (sgn_row (-1) (-1) (-1)), u, (mkV3 0 0 0).
  2: exists (sgn_row 1 (-1) (-1)), u, (mkV3 1 0 0).
  3: exists (sgn_row (-1) 1 (-1)), u, (mkV3 0 1 0).
  4: exists (sgn_row (-1) (-1) 1), u, (mkV3 0 0 1).
  5: exists (sgn_row (-1) 1 1), u, (mkV3 0 1 1).
  6: exists (sgn_row 1 1 (-1)), u, (mkV3 1 1 0).
  7: exists (sgn_row 1 (-1) 1), u, (mkV3 1 0 1).
  8: exists (sgn_row 1 1 1), u, (mkV3 1 1 1).
  all: split; [apply A|]; split; [exact W|]; split; [unfold u; bx; lra|].
  1: apply Key with (U := -1). 3: apply Key with (U := 0). 5: apply Key with (U := 0). 7: apply Key with (U := 0).
  9: apply Key with (U := 1). 11: apply Key with (U := 1). 13: apply Key with (U := 1). 15: apply Key with (U := 2).
  all: cbn [vx vy vz]; try lra.
  all: unfold u, corners; cbn [drop bmin bmax vx vy vz In]; intros q Hq;
       repeat (destruct Hq as [<-|Hq]; [cbn [vx vy vz]; lra|]); destruct Hq.
Qed.

(** every convex combination of the vertices lies in the triangle's bounds *)
Theorem triangle_bounds_contain (a b c : V) (wa wb wc : R) :
  0 <= wa -> 0 <= wb -> 0 <= wc -> wa + wb + wc = 1 ->
  Rin (triangle_bounds a b c)
      (mkV3 (wa * vx a + wb * vx b + wc * vx c) (wa * vy a + wb * vy b + wc * vy c) (wa * vz a + wb * vz b + wc * vz c)).
Proof.
  intros Ha Hb Hc Hs. unfold triangle_bounds. mmR. bx.
  assert (L : forall x y z, Rmin (Rmin x y) z <= wa * x + wb * y + wc * z).
  { intros x y z. pose proof (Rmin_l (Rmin x y) z). pose proof (Rmin_r (Rmin x y) z). pose proof (Rmin_l x y). pose proof (Rmin_r x y).
    set (m := Rmin (Rmin x y) z) in *. assert (m <= x) by lra. assert (m <= y) by lra. nra. }
  assert (U : forall x y z, wa * x + wb * y + wc * z <= Rmax (Rmax x y) z).
  { intros x y z. pose proof (Rmax_l (Rmax x y) z). pose proof (Rmax_r (Rmax x y) z). pose proof (Rmax_l x y). pose proof (Rmax_r x y).
    set (m := Rmax (Rmax x y) z) in *. assert (x <= m) by lra. assert (y <= m) by lra. nra. }
  repeat split; first [apply L | apply U].
Qed.
Lemma triangle_world_bounds_eq (a b c : V) : triangle_world_bounds a b c = triangle_bounds a b c.
Proof. reflexivity. Qed.

Lemma sq_le_abs (x r : R) : x * x <= r * r -> Rmin (- r) r <= x <= Rmax (- r) r.
Proof.
  intros H. unfold Rmin, Rmax. destruct (Rle_dec (- r) r); split; nra.
Qed.

(** the box of the sphere is also that of the cylinder (any sign of [r]) *)
Lemma quadric_bounds_contain (r zmin zmax : R) (p : V) :
  vx p * vx p <= r * r -> vy p * vy p <= r * r -> zmin <= vz p <= zmax -> Rin (sphere_bounds r zmin zmax) p.
Proof.
  intros Hx Hy Hz. unfold sphere_bounds. mmR. rnum. bx.
  destruct (sq_le_abs _ _ Hx), (sq_le_abs _ _ Hy).
  pose proof (Rmin_l zmin zmax). pose proof (Rmax_r zmin zmax). repeat split; lra.
Qed.
(** every point of the sphere of radius [r] between the clipping planes lies in [sphere_bounds] *)
Theorem sphere_bounds_contain (r zmin zmax : R) (p : V) :
  vx p * vx p + vy p * vy p + vz p * vz p = r * r -> zmin <= vz p <= zmax -> Rin (sphere_bounds r zmin zmax) p.
Proof. intros E Hz. apply quadric_bounds_contain; [nra | nra | exact Hz]. Qed.
(** every point of the cylinder of radius [r] about the z axis between [zmin] and [zmax] lies in [cylinder_bounds] *)
Theorem cylinder_bounds_contain (r zmin zmax : R) (p : V) :
  vx p * vx p + vy p * vy p = r * r -> zmin <= vz p <= zmax -> Rin (cylinder_bounds r zmin zmax) p.
Proof. intros E Hz. apply (quadric_bounds_contain r zmin zmax p); [nra | nra | exact Hz]. Qed.

(** the constructors only ever shrink the z range of a sphere to [-r, r], where the surface lives anyway *)
Lemma fclamp_R (s : N) (x lo hi : R) : lo <= hi -> @fclamp R _ s x lo hi = Ok (Rmin (Rmax x lo) hi).
Proof.
  intros H. unfold fclamp. rnum. rcase_le lo hi E; [|lra]. cbn [negb].
  f_equal. unfold Rmin, Rmax. rcase x lo H1; [rcase hi lo H2 | rcase hi x H2]; destruct (Rle_dec x lo);
    repeat match goal with |- context [Rle_dec ?a ?b] => destruct (Rle_dec a b) end; lra.
Qed.
Theorem sphere_constructor_bounds_contain (r zmin zmax phi : R) (b : B) (p : V) :
  0 <= r -> sphere_new_bounds r zmin zmax phi = Ok b ->
  vx p * vx p + vy p * vy p + vz p * vz p = r * r -> zmin <= vz p <= zmax -> Rin b p.
Proof.
  intros Hr. unfold sphere_new_bounds, sphere_stored_z. rnum.
  destruct (Rltb zmax zmin); [discriminate|].
  rewrite !fclamp_R by lra. cbn [rbind]. destruct (negb (phi_ok phi)); [discriminate|]. cbn [rbind fst snd].
  intros E; inversion E; subst b; clear E. intros Hs Hz. apply sphere_bounds_contain; [exact Hs|].
  assert (Hzz : vz p * vz p <= r * r) by nra. destruct (sq_le_abs _ _ Hzz) as [L U].
  rewrite Rmin_left in L by lra. rewrite Rmax_right in U by lra.
  split.
  - eapply Rle_trans; [apply Rmin_l | apply Rmax_lub; lra].
  - apply Rmin_glb; [eapply Rle_trans; [|apply Rmax_l]; lra | lra].
Qed.
Theorem cylinder_constructor_bounds_contain (r zmin zmax phi : R) (b : B) (p : V) :
  cylinder_new_bounds r zmin zmax phi = Ok b ->
  vx p * vx p + vy p * vy p = r * r -> zmin <= vz p <= zmax -> Rin b p.
Proof.
  unfold cylinder_new_bounds, cylinder_stored_z.
  destruct (nltb zmax zmin); [discriminate|]. destruct (negb (phi_ok phi)); [discriminate|]. cbn [rbind fst snd].
  intros E; inversion E; subst b. apply cylinder_bounds_contain.
Qed.

(** world bounds: the image, under the attached transform, of every point of the local bounds - in
    particular of every surface point - lies in the world bounds *)
Definition place (t : option T) (p : V) : V := match t with Some t => tr_pt t p | None => p end.
Definition affine_opt (t : option T) : Prop := match t with Some t => affine (elements t) | None => True end.
Theorem world_bounds_contain (t : option T) (local_b : B) (p : V) :
  affine_opt t -> Rin local_b p -> Rin (world_bounds t local_b) (place t p).
Proof. destruct t as [t|]; cbn [world_bounds place affine_opt]; intros Ha Hp; [apply tr_bbox_contains; assumption | exact Hp]. Qed.
Lemma world_bounds_is_transformed_local (t : T) (local_b : B) : world_bounds (Some t) local_b = bbox_by (elements t) local_b.
Proof. reflexivity. Qed.

(** non-vacuity *)
Lemma nonvacuous_transform :
  let t := tr_mul_assign (tr_translate 1 2 3) (tr_scale 2 (-1) (1/2)) in
  let b := bbox_new (mkV3 1 1 1) (mkV3 0 0 0) in Inv t /\ Rwf b /\ Rin b (mkV3 (1/2) (1/3) 1).
Proof.
  cbv zeta. split; [apply Inv_mul_assign; [apply Inv_translate | apply Inv_scale; lra]|].
  split; [apply new_normalises|]. mmR. bx. unfold Rmin, Rmax. repeat match goal with |- context [Rle_dec ?a ?b] => destruct (Rle_dec a b) end; lra.
Qed.
