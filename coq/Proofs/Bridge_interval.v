(** * Bridge_interval: the [ApproxFloat] operators of Model/RoundError.v (18 forms, sqrt, constructors, accessors)
    and [af_solve_quadratic] commute with a [Num] homomorphism; at [P2B : NumF -> NumB64] the primitive-float run of
    the interval arithmetic (as used by the sphere / cylinder runners) IS the Flocq binary64 run that the C07 / C17
    theorems speak about. *)
From Coq Require Import ZArith Bool List Floats.
From G3 Require Import Model.Num Model.NumF Model.Base Model.RoundError Theory.PrimBridge.

Definition mapAF {A B} (f : A -> B) (a : AF A) : AF B := mkAF (f (low a)) (f (high a)).
Lemma mapAF_inv {A B} (f : B -> A) (g : A -> B) (a : AF A) :
  f (g (low a)) = low a -> f (g (high a)) = high a -> mapAF f (mapAF g a) = a.
Proof. destruct a as [l u]. unfold mapAF. cbn [low high]. intros -> ->. reflexivity. Qed.
Ltac af_norm := unfold mapAF, mapP; cbn [low high fst snd].

Section Interval.
  Context {K1 K2 : Type} {N1 : Num K1} {N2 : Num K2} (h : K1 -> K2) {H : NumHom N1 N2 h}.
  Notation mA := (mapAF h).

  Lemma hom_af_from_value_and_error (v e : K1) : af_from_value_and_error (h v) (h e) = mA (af_from_value_and_error v e).
  Proof. unfold af_from_value_and_error. af_norm. hom_pull h. reflexivity. Qed.
  Lemma hom_af_from (v : K1) : af_from (h v) = mA (af_from v).
  Proof. unfold af_from. rewrite (hom_n0 h). apply hom_af_from_value_and_error. Qed.
  Lemma hom_af_from_bounds (l u : K1) : af_from_bounds (h l) (h u) = mA (af_from_bounds l u).
  Proof. reflexivity. Qed.
  Lemma hom_af_from_bounds_debug_ok (l u : K1) : af_from_bounds_debug_ok (h l) (h u) = af_from_bounds_debug_ok l u.
  Proof. unfold af_from_bounds_debug_ok. hom_pull h. reflexivity. Qed.
  Lemma hom_af_midpoint (a : AF K1) : af_midpoint (mA a) = h (af_midpoint a).
  Proof. unfold af_midpoint. af_norm. hom_pull h. reflexivity. Qed.
  Lemma hom_af_as_float (a : AF K1) : af_as_float (mA a) = h (af_as_float a).
  Proof. apply hom_af_midpoint. Qed.
  Lemma hom_af_absolute_error (a : AF K1) : af_absolute_error (mA a) = h (af_absolute_error a).
  Proof. unfold af_absolute_error. af_norm. hom_pull h. reflexivity. Qed.
  Lemma hom_af_sqrt (a : AF K1) : af_sqrt (mA a) = mA (af_sqrt a).
  Proof. unfold af_sqrt. af_norm. hom_pull h. reflexivity. Qed.
  Lemma hom_af_neg (a : AF K1) : af_neg (mA a) = mA (af_neg a).
  Proof. unfold af_neg. af_norm. hom_pull h. reflexivity. Qed.
  Lemma hom_af_add (a b : AF K1) : af_add (mA a) (mA b) = mA (af_add a b).
  Proof. unfold af_add. af_norm. hom_pull h. reflexivity. Qed.
  Lemma hom_af_add_f (a : AF K1) (f : K1) : af_add_f (mA a) (h f) = mA (af_add_f a f).
  Proof. unfold af_add_f. rewrite hom_af_from. apply hom_af_add. Qed.
  Lemma hom_af_sub (a b : AF K1) : af_sub (mA a) (mA b) = mA (af_sub a b).
  Proof. unfold af_sub. af_norm. hom_pull h. reflexivity. Qed.
  Lemma hom_af_sub_f (a : AF K1) (f : K1) : af_sub_f (mA a) (h f) = mA (af_sub_f a f).
  Proof. unfold af_sub_f. rewrite hom_af_from. apply hom_af_sub. Qed.

  Lemma hom_max_min4 (a0 a1 a2 a3 : K1) : max_min4 (h a0) (h a1) (h a2) (h a3) = mapP h h (max_min4 a0 a1 a2 a3).
  Proof.
    unfold max_min4. cbv beta iota zeta. hom_pull h.
    repeat match goal with |- context [if ?c then _ else _] => destruct c end; reflexivity.
  Qed.

  Lemma hom_af_mul (a b : AF K1) : af_mul (mA a) (mA b) = mA (af_mul a b).
  Proof.
    unfold af_mul. cbv zeta. af_norm. hom_pull h. rewrite !hom_max_min4.
    destruct (max_min4 (nnext_dn _) _ _ _) as [x mn]. destruct (max_min4 (nnext_up _) _ _ _) as [mx y].
    af_norm. hom_pull h. reflexivity.
  Qed.
  Lemma hom_af_mul_f (a : AF K1) (f : K1) : af_mul_f (mA a) (h f) = mA (af_mul_f a f).
  Proof.
    unfold af_mul_f. cbv zeta. af_norm. hom_pull h. destruct (nltb _ _); af_norm; reflexivity.
  Qed.
  Lemma hom_af_div (a b : AF K1) : af_div (mA a) (mA b) = mA (af_div a b).
  Proof.
    unfold af_div. cbv zeta. af_norm. hom_pull h. rewrite !hom_max_min4.
    destruct (max_min4 (nnext_dn _) _ _ _) as [x mn]. destruct (max_min4 (nnext_up _) _ _ _) as [mx y].
    af_norm. hom_pull h. reflexivity.
  Qed.
  Lemma hom_af_div_f (a : AF K1) (f : K1) : af_div_f (mA a) (h f) = mA (af_div_f a f).
  Proof. unfold af_div_f. rewrite hom_af_from. apply hom_af_div. Qed.
  Lemma hom_af_add_assign (a b : AF K1) : af_add_assign (mA a) (mA b) = mA (af_add_assign a b).
  Proof. apply hom_af_add. Qed.
  Lemma hom_af_add_assign_f (a : AF K1) (f : K1) : af_add_assign_f (mA a) (h f) = mA (af_add_assign_f a f).
  Proof. apply hom_af_add_f. Qed.
  Lemma hom_af_sub_assign (a b : AF K1) : af_sub_assign (mA a) (mA b) = mA (af_sub_assign a b).
  Proof. apply hom_af_sub. Qed.
  Lemma hom_af_sub_assign_f (a : AF K1) (f : K1) : af_sub_assign_f (mA a) (h f) = mA (af_sub_assign_f a f).
  Proof. apply hom_af_sub_f. Qed.
  Lemma hom_af_mul_assign (a b : AF K1) : af_mul_assign (mA a) (mA b) = mA (af_mul_assign a b).
  Proof.
    unfold af_mul_assign. af_norm. hom_pull h. rewrite hom_max_min4.
    destruct (max_min4 _ _ _ _) as [mx mn]. af_norm. hom_pull h. reflexivity.
  Qed.
  Lemma hom_af_mul_assign_f (a : AF K1) (f : K1) : af_mul_assign_f (mA a) (h f) = mA (af_mul_assign_f a f).
  Proof. unfold af_mul_assign_f. rewrite hom_af_from. apply hom_af_mul_assign. Qed.
  Lemma hom_af_div_assign (a b : AF K1) : af_div_assign (mA a) (mA b) = mA (af_div_assign a b).
  Proof.
    unfold af_div_assign. af_norm. hom_pull h. rewrite hom_max_min4.
    destruct (max_min4 _ _ _ _) as [mx mn]. af_norm. hom_pull h. reflexivity.
  Qed.
  Lemma hom_af_div_assign_f (a : AF K1) (f : K1) : af_div_assign_f (mA a) (h f) = mA (af_div_assign_f a f).
  Proof. unfold af_div_assign_f. rewrite hom_af_from. apply hom_af_div_assign. Qed.

  Lemma low_mapAF (x : AF K1) : low (mA x) = h (low x). Proof. reflexivity. Qed.
  (** [ApproxFloat::solve_quadratic]: same decision (None / Some, order) and the images of both enclosures *)
  Lemma hom_af_solve_quadratic (a b c : AF K1) :
    af_solve_quadratic (mA a) (mA b) (mA c) = mapOpt (mapP mA mA) (af_solve_quadratic a b c).
  Proof.
    unfold af_solve_quadratic. cbv zeta.
    rewrite (hom_ofZ (h:=h) 4 eq_refl), (hom_nhalf h), (hom_n0 h).
    rewrite !hom_af_mul, hom_af_mul_f, hom_af_sub.
    rewrite !low_mapAF, (hom_ltb (h:=h)).
    destruct (nltb (low _) n0); [reflexivity|].
    rewrite hom_af_sqrt, hom_af_as_float, (hom_ltb (h:=h)).
    rewrite hom_af_sub, hom_af_add, !hom_af_neg, !hom_af_mul_f.
    assert (E : forall (t : bool) (x y : AF K1), (if t then mA x else mA y) = mA (if t then x else y)) by (intros []; reflexivity).
    rewrite E, !hom_af_div.
    rewrite !low_mapAF, (hom_ltb (h:=h)).
    destruct (nltb (low _) (low _)); reflexivity.
  Qed.
End Interval.

Notation pI := (mapAF P2B).
Lemma prim_af_example : @af_add _ NumF (mkAF 1%float 2%float) (mkAF 3%float 4%float) = mkAF (next_down 4%float) (next_up 6%float).
Proof. vm_compute. reflexivity. Qed.
