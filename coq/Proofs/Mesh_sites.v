(** * Mesh_sites (C09 b): the certified enumeration of the panic sites each operation of the model can reach.
    [NP okb op] says: whenever [op] ends in [Panic s], [okb s] holds.  Each lemma lists, as hypotheses on [okb],
    exactly the sites that occur; site 60 (Edge::from_i with an index > 2) and site 10 (the unwrap of
    is_collinear in Triangle3D::new) occur in none of them: they are unreachable.  Every number instance. *)
From Coq Require Import ZArith Bool List Arith Lia.
From G3 Require Import Model.Num Model.Base Model.Vec Model.Segment Model.Triangle Model.Loop Model.Polygon Model.Triangulation Proofs.Mesh_base.
Import ListNotations.

Section Leaves.
  Context {K : Type} {NK : Num K}.
  Notation V := (V3 K).
  Notation TP := (TriPiece K).
  Notation Mesh := (Mesh K).
  Variable okb : N -> bool.

  Lemma np_bind_lift {A B} (x : res A) (f : A -> MR (K:=K) B) :
    np_res okb x -> (forall a, x = Ok a -> NP okb (f a)) -> NP okb (mbind (mlift x) f).
  Proof.
    intros Hx Hf M M' s H. unfold mbind, mlift in H. destruct x as [a| |s'].
    - eapply Hf; [reflexivity | exact H].
    - discriminate.
    - inversion H; subst. apply Hx. reflexivity.
  Qed.

  (** *** leaves that never panic *)
  Lemma np_tri_vertex (t : Tri K) (i : N) : np_res okb (tri_vertex t i).
  Proof. intros s. unfold tri_vertex. destruct i as [|[[]|[]|]]; discriminate. Qed.
  Lemma np_tri_segment (t : Tri K) (i : N) : np_res okb (tri_segment t i).
  Proof. intros s. unfold tri_segment. destruct i as [|[[]|[]|]]; discriminate. Qed.
  Lemma np_opposite (t : Tri K) (sg : Seg K) : np_res okb (get_opposite_vertex t sg).
  Proof.
    intros s. unfold get_opposite_vertex. destruct (tri_get_edge_index_from_segment t sg) as [i|]; [|discriminate].
    destruct i as [|[[]|[]|]]; try discriminate; apply np_tri_vertex.
  Qed.
  Lemma np_edge_add (e : Edge) (k : N) : np_res okb (edge_add e k).
  Proof. intros s. destruct (edge_add_ok e k) as [e' ->]. discriminate. Qed.
  Lemma np_edge_from_lt (i : N) : (i < 3)%N -> np_res okb (edge_from_i i).
  Proof. intros H s. destruct (edge_from_i_lt i H) as [e ->]. discriminate. Qed.
  Lemma np_edge_of_points (site : N) (t : Tri K) (a b : V) : okb site = true -> np_res okb (edge_of_points site t a b).
  Proof.
    intros Hs s. unfold edge_of_points, tri_get_edge_index_from_points.
    destruct (tri_get_edge_index_from_segment t (seg_new a b)) as [i|] eqn:E.
    - apply np_edge_from_lt. eapply edge_index_lt. exact E.
    - intros H; inversion H; subst. exact Hs.
  Qed.
  Lemma np_edge_of_points_err (t : Tri K) (a b : V) : np_res okb (edge_of_points_err t a b).
  Proof.
    intros s. unfold edge_of_points_err, tri_get_edge_index_from_points.
    destruct (tri_get_edge_index_from_segment t (seg_new a b)) as [i|] eqn:E; [|discriminate].
    apply np_edge_from_lt. eapply edge_index_lt. exact E.
  Qed.
  (** Triangle3D::new never reaches its unwrap: the three [compare] tests come first *)
  Lemma tri_new_no_panic (a b c : V) : forall s, tri_new a b c <> Panic s.
  Proof.
    intros s. unfold tri_new. destruct (vcompare a b) eqn:E1; [discriminate|]. destruct (vcompare a c) eqn:E2; [discriminate|].
    destruct (vcompare b c) eqn:E3; [discriminate|]. cbn [orb].
    unfold is_collinear. rewrite E1, E2, E3. cbn [andb orb unwrap rbind]. destruct (nltb _ _); discriminate.
  Qed.
  Lemma tp_new_no_panic (a b c : V) (n : nat) : forall s, tp_new a b c n <> Panic s.
  Proof. intros s. unfold tp_new. pose proof (tri_new_no_panic a b c) as H. destruct (tri_new a b c) as [t| |s']; cbn [rbind]; try discriminate. intros E; inversion E; subst. eapply H; reflexivity. Qed.
  Lemma np_tri_new (a b c : V) : np_res okb (tri_new a b c).
  Proof. intros s H. exfalso. eapply tri_new_no_panic; exact H. Qed.
  Lemma np_tp_new (a b c : V) (n : nat) : np_res okb (tp_new a b c n).
  Proof. intros s H. exfalso. eapply tp_new_no_panic; exact H. Qed.
  Lemma np_push (a b c : V) (la : nat) : NP okb (mesh_push a b c la).
  Proof.
    intros M M' s H. exfalso. destruct (push_inv _ _ _ _ _ _ _ H) as (n & [[_ Q] | (t & _ & Q & _)]); [|discriminate].
    pose proof (tp_new_no_panic a b c n) as G. destruct (tp_new a b c n); [contradiction | discriminate | inversion Q; subst; eapply G; reflexivity].
  Qed.
  Lemma np_mupd (site : N) (i : nat) (f : TP -> TP) : okb site = true -> NP okb (mupd site i f).
  Proof. intros Hs M M' s H. unfold mupd in H. destruct (Nat.ltb i (length (tris M))); inversion H; subst. exact Hs. Qed.
  Lemma np_invalidate (i : nat) : okb 61%N = true -> NP okb (mesh_invalidate (K:=K) i).
  Proof. intros Hs M M' s H. destruct (invalidate_inv _ _ _ _ H) as [(_ & _ & Q) | (_ & _ & [[Q _] | (Q & _)])]; inversion Q; subst. exact Hs. Qed.

End Leaves.

(* one rule per construct; [side] proves that a site is among the allowed ones ([assumption] under the hypotheses of
   the sections below, [reflexivity] for a concrete [okb]) *)
Ltac np_step0 side :=
  match goal with
  | |- NP _ (mbind (mlift _) _) => apply np_bind_lift; [|intros ? ?]
  | |- NP _ (mbind _ _) => apply np_bind; [|intros ?]
  | |- NP _ (mret _) => apply np_ret
  | |- NP _ (mget _ _) => apply np_get; side
  | |- NP _ (mwhen _ _) => apply np_when
  | |- NP _ (mupd _ _ _) => apply np_mupd; side
  | |- NP _ (mesh_invalidate _) => apply np_invalidate; side
  | |- NP _ (mesh_push _ _ _ _) => apply np_push
  | |- NP _ (mlift _) => apply np_lift
  | |- np_res _ (Ok _) => apply np_res_ok
  | |- np_res _ (Err _) => apply np_res_err
  | |- np_res _ (Panic _) => apply np_res_panic; side
  | |- np_res _ (tri_vertex _ _) => apply np_tri_vertex
  | |- np_res _ (tri_segment _ _) => apply np_tri_segment
  | |- np_res _ (get_opposite_vertex _ _) => apply np_opposite
  | |- np_res _ (edge_add _ _) => apply np_edge_add
  | |- np_res _ (edge_of_points _ _ _ _) => apply np_edge_of_points; side
  | |- np_res _ (edge_of_points_err _ _ _) => apply np_edge_of_points_err
  | |- np_res _ (tp_new _ _ _ _) => apply np_tp_new
  | |- np_res _ (tri_new _ _ _) => apply np_tri_new
  | |- NP _ (if ?b then _ else _) => destruct b
  | |- np_res _ (if ?b then _ else _) => destruct b
  | |- NP _ (match ?x with _ => _ end) => destruct x eqn:?
  | |- np_res _ (match ?x with _ => _ end) => destruct x eqn:?
  | |- NP _ (let '(_, _) := ?x in _) => destruct x
  end.

(** *** mark_as_neighbours: 62 63 64 *)
Section Mark.
  Context {K : Type} {NK : Num K}.
  Variable okb : N -> bool.
  Hypothesis H62 : okb 62%N = true.
  Hypothesis H63 : okb 63%N = true.
  Hypothesis H64 : okb 64%N = true.
  Lemma np_mark (i1 : nat) (e1 : Edge) (i2 : nat) : NP okb (mark_as_neighbours (K:=K) i1 e1 i2).
  Proof.
    unfold mark_as_neighbours. repeat np_step0 assumption.
    match goal with H : match tri_get_edge_index_from_segment ?t ?s with _ => _ end = Ok _ |- _ =>
      destruct (tri_get_edge_index_from_segment t s) eqn:E; inversion H; subst end.
    apply np_edge_from_lt. eapply edge_index_lt. eassumption.
  Qed.
End Mark.
Ltac np_step side := first [apply np_mark; side | np_step0 side].

Section Sites.
  Context {K : Type} {NK : Num K}.
  Notation V := (V3 K).
  Notation TP := (TriPiece K).
  Notation Mesh := (Mesh K).
  Variable okb : N -> bool.
  Hypothesis H62 : okb 62%N = true.
  Hypothesis H63 : okb 63%N = true.
  Hypothesis H64 : okb 64%N = true.

  (** *** get_flipped_aspect_ratio (read only): 65 66 67 68 69 *)
  Hypothesis H65 : okb 65%N = true.
  Hypothesis H66 : okb 66%N = true.
  Hypothesis H67 : okb 67%N = true.
  Hypothesis H68 : okb 68%N = true.
  Hypothesis H69 : okb 69%N = true.
  Lemma np_gfar (M : Mesh) (i : nat) (e : Edge) : np_res okb (get_flipped_aspect_ratio M i e).
  Proof.
    unfold get_flipped_aspect_ratio.
    repeat first [np_step assumption | apply np_res_bind; [|intros ?]].
  Qed.

  (** *** flip_diagonal: 70..79, 61, and those of mark_as_neighbours *)
  Hypothesis H61 : okb 61%N = true.
  Hypothesis H70 : okb 70%N = true.
  Hypothesis H71 : okb 71%N = true.
  Hypothesis H72 : okb 72%N = true.
  Hypothesis H73 : okb 73%N = true.
  Hypothesis H74 : okb 74%N = true.
  Hypothesis H75 : okb 75%N = true.
  Hypothesis H76 : okb 76%N = true.
  Hypothesis H77 : okb 77%N = true.
  Hypothesis H78 : okb 78%N = true.
  Hypothesis H79 : okb 79%N = true.
  Lemma np_flip (i : nat) (e : Edge) : NP okb (flip_diagonal (K:=K) i e).
  Proof. unfold flip_diagonal. repeat np_step assumption. Qed.

  (** *** split_edge: 80 81 82 61 + mark; split_triangle: 83 84 61 + mark *)
  Hypothesis H80 : okb 80%N = true.
  Hypothesis H81 : okb 81%N = true.
  Hypothesis H82 : okb 82%N = true.
  Hypothesis H83 : okb 83%N = true.
  Hypothesis H84 : okb 84%N = true.
  Lemma np_hemisphere (s : Seg K) (p : V) (i : nat) : NP okb (process_hemisphere s p i).
  Proof.
    unfold process_hemisphere. repeat np_step assumption.
    all: try (match goal with H : match tri_get_edge_index_from_segment ?t ?s with _ => _ end = Ok _ |- np_res _ (edge_from_i _) =>
      destruct (tri_get_edge_index_from_segment t s) eqn:E; inversion H; subst; apply np_edge_from_lt; eapply edge_index_lt; eassumption end).
  Qed.
  Lemma np_precheck (s : Seg K) (p : V) (i : nat) : NP okb (split_precheck s p i).
  Proof. unfold split_precheck. repeat np_step assumption. Qed.
  Lemma np_split_edge (i : nat) (e : Edge) (p : V) : NP okb (split_edge i e p).
  Proof. unfold split_edge. repeat first [apply np_hemisphere | apply np_precheck | np_step assumption]. Qed.
  Lemma np_split_triangle (i : nat) (p : V) : NP okb (split_triangle i p).
  Proof. unfold split_triangle. repeat np_step assumption. Qed.

  (** *** restore_delaunay: 85 + get_flipped_aspect_ratio + flip_diagonal *)
  Hypothesis H85 : okb 85%N = true.
  Lemma np_restore (m : K) : NP okb (restore_delaunay m).
  Proof.
    intros M M' s H.
    refine (proj2 (proj2 (restore_all (fun _ => True) (fun _ _ => True) okb (fun _ => I) (fun _ _ _ _ _ => I) _ _ (fun _ _ _ _ => H85) m M M' _ I H)) s eq_refl).
    - intros M0 i e _. apply np_gfar.
    - intros i e M0 M1 r _ H1. split; [exact I | split; [exact I|]]. intros s' ->. exact (np_flip i e _ _ _ H1).
  Qed.

  (** *** add_point: 86 87 + split_edge + split_triangle.  Sites 88 and 89 are unreachable from [add_point]
      (the location it passes is never [Outside]) and from [refine] (which passes [Inside]). *)
  Hypothesis H86 : okb 86%N = true.
  Hypothesis H87 : okb 87%N = true.
  Lemma np_aptt (i : nat) (p : V) (loc : PIT) : loc <> Outside -> NP okb (add_point_to_triangle i p loc).
  Proof.
    intros Hloc. unfold add_point_to_triangle. apply np_bind; [apply np_get; assumption|]. intros t.
    destruct (negb (tp_valid t)); [apply np_lift, np_res_panic; assumption|].
    destruct loc; cbn [pit_is_vertex pit_is_edge]; try apply np_ret;
      try (apply np_bind_lift; [apply np_res_ok|]; intros ed _; apply np_bind; [apply np_split_edge | intros _; apply np_ret]).
    - apply np_bind; [apply np_split_triangle | intros _; apply np_ret].
    - exfalso. apply Hloc. reflexivity.
  Qed.
  Lemma find_container_not_outside (p : V) : forall l i k loc, find_container l i p = Some (k, loc) -> loc <> Outside.
  Proof.
    induction l as [|t l IH]; intros i k loc; cbn [find_container]; [discriminate|].
    destruct (negb (tp_valid t)); [apply IH|].
    destruct (tri_test_point (tp_tri t) p) eqn:E; try (intros H; inversion H; subst; discriminate). apply IH.
  Qed.
  Lemma np_add_point (p : V) : NP okb (add_point p).
  Proof.
    intros M M' s H. unfold add_point in H. destruct (find_container (tris M) 0 p) as [[i loc]|] eqn:E; [|discriminate].
    eapply np_aptt; [eapply find_container_not_outside; exact E | exact H].
  Qed.

  (** *** refine: 90 91 + split_edge + restore_delaunay + add_point *)
  Hypothesis H90 : okb 90%N = true.
  Hypothesis H91 : okb 91%N = true.
  Lemma np_refine_pass (a m : K) : forall cnt i l any, NP okb (refine_pass a m cnt i l any).
  Proof.
    induction cnt as [|cnt IH]; intros i l any; cbn [refine_pass]; [apply np_ret|].
    destruct l as [|t l']; [apply np_lift, np_res_panic; assumption|].
    destruct (negb (tp_valid t)); [apply np_lift, np_res_panic; assumption|].
    destruct (nltb (tarea (tp_tri t)) c1em3); [apply IH|].
    assert (Hc : forall b, NP okb (fun M : Mesh => refine_pass a m cnt (S i) (skipn (S i) (tris M)) b M))
      by (intros b M M' s H; exact (IH _ _ _ M M' s H)).
    destruct (nltb m (tp_ar t)).
    { apply np_bind_lift.
      - intros s. unfold longest_edge. cbn [tri_segment rbind]. destruct (nltb _ _); destruct (nltb _ _); discriminate.
      - intros [s_i sg] Hl. apply np_bind_lift; [apply np_edge_from_lt; eapply longest_edge_lt; exact Hl|]. intros ed _.
        apply np_bind; [apply np_split_edge|]. intros _. apply np_bind; [apply np_restore|]. intros _. apply Hc. }
    destruct (nltb a (tarea (tp_tri t))); [|apply IH].
    intros M M' s H. destruct (add_point (tp_cc t) M) as [M1 [did| c | s']] eqn:Eadd.
    - destruct did; [|eapply Hc; exact H]. revert H. apply np_bind; [apply np_restore|]. intros _. apply Hc.
    - revert H. apply np_bind; [apply np_get; assumption|]. intros t'.
      apply np_bind; [apply np_aptt; discriminate|]. intros did. destruct did; [|apply Hc].
      apply np_bind; [apply np_restore|]. intros _. apply Hc.
    - inversion H; subst. eapply np_add_point. exact Eadd.
  Qed.
  Lemma np_refine (a m : K) : forall fuel, NP okb (refine fuel a m).
  Proof.
    induction fuel as [|f IH]; cbn [refine]; [apply np_ret|].
    intros M M' s H. revert H. apply np_bind; [apply np_refine_pass|]. intros any. destruct any; [apply IH | apply np_ret].
  Qed.
End Sites.

Ltac np_step_g := np_step reflexivity.
