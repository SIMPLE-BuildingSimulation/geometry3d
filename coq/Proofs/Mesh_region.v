(** * Mesh_region (C08, geometric clauses): what the refinement steps do to the MULTISET of live triangles, and why
    the region they tile (coverage function, total signed area, orientation) does not change.

    Every number instance: [live_tris M] = the triangles of the valid slots.  [mark_as_neighbours] and the
    constrain / set_neighbour mutators keep it; [invalidate] of a live slot removes exactly that triangle; [push]
    returning Ok adds exactly the triangle [Triangle3D::new] built (slot reused or appended).  Hence, for the steps
    that return [Ok tt] (statements up to [Permutation], vertices not cached fields):
    - split_triangle i p : t = (a,b,c)           ~>  (c,a,p) (a,b,p) (b,c,p)
    - split_edge i e p   : each hemisphere (a,b,c) (the triangle, and its neighbour across e)  ~>  (a,p,c) (p,b,c)
    - flip_diagonal i e  : (a,b,c), neighbour nb  ~>  (a,opp,c) (c,opp,b)
    Real instance: in 2-D coordinates [pr] of any affine frame, the coverage function
    [cover d Ts q = Σ_T wn d [a;b;c] q] (= Σ ±[q strictly inside T] by Winding.wn_triangle) and the doubled signed area
    [area2sum Ts = Σ_T orient a b c] are kept by these replacements -- pure algebra of antisymmetric edge functionals. *)
From Coq Require Import ZArith Bool List Arith Lia Permutation.
From G3 Require Import Model.Num Model.Base Model.Vec Model.Segment Model.Triangle Model.Loop Model.Polygon Model.Triangulation
  Proofs.Mesh_base Proofs.Mesh_wf Proofs.Mesh_sites Proofs.Mesh_conf.
Import ListNotations.

Section LiveTris.
  Context {K : Type} {NK : Num K}.
  Notation V := (V3 K).
  Notation TP := (TriPiece K).
  Notation Mesh := (Mesh K).

  Definition live_l (l : list TP) : list (Tri K) := map tp_tri (filter tp_valid l).
  Definition live_tris (M : Mesh) : list (Tri K) := live_l (tris M).
  Definition tri_pts (T : Tri K) : V * V * V := (ta T, tb T, tc T).
  Definition live_pts (M : Mesh) : list (V * V * V) := map tri_pts (live_tris M).

  Lemma tri_new_pts (a b c : V) (T : Tri K) : tri_new a b c = Ok T -> tri_pts T = (a, b, c).
  Proof. intros H. destruct (tri_new_verts _ _ _ _ H) as (<- & <- & <-). reflexivity. Qed.
  Lemma tp_new_tri (a b c : V) (n : nat) (t : TP) : tp_new a b c n = Ok t -> tri_new a b c = Ok (tp_tri t).
  Proof. unfold tp_new. destruct (tri_new a b c) as [T| |]; cbn [rbind]; try discriminate. intros H; inversion H; reflexivity. Qed.

  (** ** the skeleton (triangle, validity) of every slot: what the link / constraint mutators never touch *)
  Definition skel (l : list TP) : list (Tri K * bool) := map (fun t => (tp_tri t, tp_valid t)) l.
  Lemma live_l_skel : forall l l' : list TP, skel l = skel l' -> live_l l = live_l l'.
  Proof.
    induction l as [|t l IH]; intros [|t' l'] H; cbn [skel map] in H; try discriminate; [reflexivity|].
    inversion H as [[H1 H2 H3]]. unfold live_l. cbn [filter]. rewrite H2. destruct (tp_valid t'); cbn [map]; [rewrite H1; f_equal|]; apply IH; exact H3.
  Qed.
  Lemma skel_upd_same (i : nat) (f : TP -> TP) (l : list TP) :
    (forall t, tp_tri (f t) = tp_tri t) -> (forall t, tp_valid (f t) = tp_valid t) -> skel (upd i f l) = skel l.
  Proof.
    intros H1 H2. revert i; induction l as [|t l IH]; intros [|i]; cbn [upd skel map]; try reflexivity.
    - rewrite H1, H2. reflexivity.
    - f_equal. apply IH.
  Qed.
  Lemma skel_nth (l : list TP) (j : nat) : nth_error (skel l) j = option_map (fun t => (tp_tri t, tp_valid t)) (nth_error l j).
  Proof. apply nth_error_map. Qed.

  Definition Rskel (M M' : Mesh) : Prop := skel (tris M') = skel (tris M).
  Lemma Rskel_refl M : Rskel M M. Proof. reflexivity. Qed.
  Lemma Rskel_trans M1 M2 M3 : Rskel M1 M2 -> Rskel M2 M3 -> Rskel M1 M3.
  Proof. unfold Rskel. intros H1 H2. rewrite H2. exact H1. Qed.
  Lemma Rskel_live M M' : Rskel M M' -> live_tris M' = live_tris M.
  Proof. intros H. apply live_l_skel. exact H. Qed.

  Lemma sk_mupd s i (f : TP -> TP) : (forall t, tp_tri (f t) = tp_tri t) -> (forall t, tp_valid (f t) = tp_valid t) -> Pres Rskel (mupd s i f).
  Proof.
    intros H1 H2 M M' r H. unfold mupd in H. destruct (Nat.ltb _ _); inversion H; subst; [|apply Rskel_refl].
    unfold Rskel; cbn [tris]. apply skel_upd_same; assumption.
  Qed.
  Lemma sk_constrain s i e : Pres Rskel (mupd (K:=K) s i (tp_constrain e)).
  Proof. apply sk_mupd; intros ?; [apply constrain_tri | apply constrain_valid]. Qed.
  Lemma sk_mark i1 e1 i2 : Pres Rskel (mark_as_neighbours (K:=K) i1 e1 i2).
  Proof. apply (pres_mark_upd Rskel Rskel_refl Rskel_trans). intros s i e j. apply sk_mupd; intros ?; [apply set_neighbour_tri | apply set_neighbour_valid]. Qed.
  Theorem live_mark (i1 : nat) (e1 : Edge) (i2 : nat) (M M' : Mesh) (r : res unit) :
    mark_as_neighbours i1 e1 i2 M = (M', r) -> live_tris M' = live_tris M.
  Proof. intros H. apply Rskel_live. exact (sk_mark _ _ _ _ _ _ H). Qed.
  Theorem live_constrain (s : N) (i : nat) (e : Edge) (M M' : Mesh) (r : res unit) :
    mupd s i (tp_constrain e) M = (M', r) -> live_tris M' = live_tris M.
  Proof. intros H. apply Rskel_live. exact (sk_constrain _ _ _ _ _ _ H). Qed.
  Theorem live_set_neighbour (s : N) (i : nat) (e : Edge) (j : nat) (M M' : Mesh) (r : res unit) :
    mupd s i (tp_set_neighbour e j) M = (M', r) -> live_tris M' = live_tris M.
  Proof. intros H. apply Rskel_live. revert H. apply sk_mupd; intros ?; [apply set_neighbour_tri | apply set_neighbour_valid]. Qed.

  Lemma live_l_in (j : nat) (u : TP) : forall l : list TP, nth_error l j = Some u -> tp_valid u = true ->
    exists l1 l2, live_l l = l1 ++ tp_tri u :: l2.
  Proof.
    induction j as [|j IH]; intros [|t l] H Hv; cbn [nth_error] in H; try discriminate.
    - inversion H; subst. exists [], (live_l l). unfold live_l. cbn [filter]. rewrite Hv. reflexivity.
    - destruct (IH l H Hv) as (l1 & l2 & E). unfold live_l in *. cbn [filter]. destruct (tp_valid t); cbn [map].
      + exists (tp_tri t :: l1), l2. rewrite E. reflexivity.
      + exists l1, l2. exact E.
  Qed.
  Lemma live_l_invalidate (i : nat) (t : TP) : forall l : list TP, nth_error l i = Some t -> tp_valid t = true ->
    exists l1 l2, live_l l = l1 ++ tp_tri t :: l2 /\ live_l (upd i tp_invalidate l) = l1 ++ l2.
  Proof.
    induction i as [|i IH]; intros [|u l] H Hv; cbn [nth_error] in H; try discriminate.
    - inversion H; subst. exists [], (live_l l). unfold live_l. cbn [upd filter tp_invalidate tp_valid]. rewrite Hv. split; reflexivity.
    - destruct (IH l H Hv) as (l1 & l2 & E1 & E2). unfold live_l in *. cbn [upd filter]. destruct (tp_valid u); cbn [map].
      + exists (tp_tri u :: l1), l2. rewrite E1, E2. split; reflexivity.
      + exists l1, l2. split; assumption.
  Qed.
  Lemma live_l_set_nth (i : nat) (x u : TP) : forall l : list TP, nth_error l i = Some u -> tp_valid u = false -> tp_valid x = true ->
    exists l1 l2, live_l l = l1 ++ l2 /\ live_l (set_nth i x l) = l1 ++ tp_tri x :: l2.
  Proof.
    induction i as [|i IH]; intros [|w l] H Hv Hx; cbn [nth_error] in H; try discriminate.
    - inversion H; subst. exists [], (live_l l). unfold live_l. cbn [set_nth filter]. rewrite Hv, Hx. split; reflexivity.
    - destruct (IH l H Hv Hx) as (l1 & l2 & E1 & E2). unfold live_l in *. cbn [set_nth filter]. destruct (tp_valid w); cbn [map].
      + exists (tp_tri w :: l1), l2. rewrite E1, E2. split; reflexivity.
      + exists l1, l2. split; assumption.
  Qed.
  Lemma live_l_app (l l' : list TP) : live_l (l ++ l') = live_l l ++ live_l l'.
  Proof. unfold live_l. rewrite filter_app, map_app. reflexivity. Qed.

  (** [invalidate] of a live slot removes exactly that slot's triangle *)
  Theorem live_invalidate (i : nat) (t : TP) (M M' : Mesh) (r : res unit) :
    nth_error (tris M) i = Some t -> tp_valid t = true -> mesh_invalidate i M = (M', r) ->
    tris M' = upd i tp_invalidate (tris M) /\
    exists l1 l2, live_tris M = l1 ++ tp_tri t :: l2 /\ live_tris M' = l1 ++ l2.
  Proof.
    intros Ht Hv H. pose proof (invalidate_tris _ _ _ _ _ Ht H) as E.
    split; [exact E|]. unfold live_tris. rewrite E. apply live_l_invalidate; assumption.
  Qed.
  (** [push] returning Ok adds exactly the triangle that Triangle3D::new built, whether the slot is reused or appended *)
  Theorem live_push (a b c : V) (la : nat) (M M' : Mesh) (n : nat) :
    mesh_push a b c la M = (M', Ok n) ->
    exists T, tri_new a b c = Ok T /\ Permutation (live_tris M') (T :: live_tris M).
  Proof.
    intros H. destruct (push_inv _ _ _ _ _ _ _ H) as (k & [[_ Q] | (t & Et & _ & _ & Hs)]); [destruct (tp_new a b c k); [contradiction | discriminate ..]|].
    exists (tp_tri t). split; [eapply tp_new_tri; exact Et|]. apply tp_new_valid in Et. unfold live_tris. destruct Hs as [(u & Hu & Hv & ->) | (_ & ->)].
    - destruct (live_l_set_nth k t u (tris M) Hu Hv Et) as (l1 & l2 & E1 & E2). rewrite E1, E2. symmetry. apply Permutation_middle.
    - rewrite live_l_app. unfold live_l at 2. cbn [filter]. rewrite Et. cbn [map]. symmetry. apply Permutation_cons_append.
  Qed.

  Definition Keep (i : nat) (M M' : Mesh) : Prop :=
    forall j u, j <> i -> nth_error (tris M) j = Some u -> tp_valid u = true ->
      exists u', nth_error (tris M') j = Some u' /\ tp_valid u' = true /\ tp_tri u' = tp_tri u.
  Lemma Keep_refl i M : Keep i M M. Proof. intros j u _ H Hv. exists u. repeat split; assumption. Qed.
  Lemma Keep_trans i M1 M2 M3 : Keep i M1 M2 -> Keep i M2 M3 -> Keep i M1 M3.
  Proof.
    intros H1 H2 j u Hj Hu Hv. destruct (H1 j u Hj Hu Hv) as (u1 & A & B & C). destruct (H2 j u1 Hj A B) as (u2 & A' & B' & C').
    exists u2. repeat split; [assumption | assumption | congruence].
  Qed.
  Lemma Rskel_Keep i M M' : Rskel M M' -> Keep i M M'.
  Proof.
    intros H j u _ Hu Hv. pose proof (f_equal (fun l => nth_error l j) H) as E. cbn beta in E. rewrite !skel_nth, Hu in E. cbn [option_map] in E.
    destruct (nth_error (tris M') j) as [u'|]; cbn [option_map] in E; [|discriminate]. inversion E. exists u'. repeat split; congruence.
  Qed.
  Lemma keep_of_skel {A} i (m : MR A) : Pres Rskel m -> Pres (Keep i) m.
  Proof. intros H M M' r E. apply Rskel_Keep. eapply H. exact E. Qed.
  Lemma keep_invalidate i : Pres (Keep i) (mesh_invalidate (K:=K) i).
  Proof.
    intros M M' r H. destruct (invalidate_inv _ _ _ _ H) as [(_ & -> & _) | (_ & E & _)]; [apply Keep_refl|].
    intros j u Hj Hu Hv. exists u. rewrite E, nth_error_upd. destruct (Nat.eqb_spec i j); [exfalso; apply Hj; congruence|]. repeat split; assumption.
  Qed.
  Lemma keep_push i (a b c : V) (la : nat) : Pres (Keep i) (mesh_push a b c la).
  Proof.
    intros M M' r H. destruct (push_inv _ _ _ _ _ _ _ H) as (k & [[-> _] | (_ & _ & -> & _)]); [apply Keep_refl|].
    destruct (push_ok_nth _ _ _ _ _ _ _ H) as (_ & _ & _ & Hd & Ho). intros j u _ Hu Hv. exists u.
    rewrite Ho; [repeat split; assumption|]. intros ->. rewrite (Hd u Hu) in Hv. discriminate.
  Qed.
  Lemma keep_hemisphere (s : Seg K) (p : V) (i : nat) : Pres (Keep i) (process_hemisphere s p i).
  Proof.
    unfold process_hemisphere.
    repeat pres_step (Keep i) (Keep_refl i) (Keep_trans i)
      ltac:(first [apply keep_of_skel, sk_constrain | apply keep_of_skel, sk_mark | apply keep_invalidate | apply keep_push]).
  Qed.

  Lemma bind_get_ok {B} (site : N) (i : nat) (f : TP -> MR B) (M M' : Mesh) (b : B) :
    mbind (mget site i) f M = (M', Ok b) -> exists t, nth_error (tris M) i = Some t /\ f t M = (M', Ok b).
  Proof. intros H. apply bind_get_inv in H. destruct H as [H | (_ & H & _)]; [exact H | discriminate]. Qed.
  Lemma bind_lift_ok {A B} (x : res A) (f : A -> MR B) (M M' : Mesh) (b : B) :
    mbind (mlift x) f M = (M', Ok b) -> exists a, x = Ok a /\ f a M = (M', Ok b).
  Proof. intros H. apply bind_lift_inv in H. destruct H as [H | (_ & [(c & H) | (s & H & _)])]; [exact H | discriminate | discriminate]. Qed.

  Theorem live_split_triangle (i : nat) (p : V) (M M' : Mesh) :
    split_triangle i p M = (M', Ok tt) ->
    exists t T1 T2 T3 rest,
      nth_error (tris M) i = Some t /\ tp_valid t = true /\
      tri_new (tc (tp_tri t)) (ta (tp_tri t)) p = Ok T1 /\
      tri_new (ta (tp_tri t)) (tb (tp_tri t)) p = Ok T2 /\
      tri_new (tb (tp_tri t)) (tc (tp_tri t)) p = Ok T3 /\
      Permutation (live_tris M) (tp_tri t :: rest) /\
      Permutation (live_tris M') (T1 :: T2 :: T3 :: rest).
  Proof.
    intros H. destruct (split_triangle_open _ _ _ _ _ H) as [(_ & Q & _) | (t & e1 & e2 & e3 & T1 & T2 & T3 & [Et Ev _ _ _ ET1 ET2 ET3] &
      [[Q _] | (M1 & M2 & M3 & M4 & cap & abp & bcp & H1 & H2 & H3 & H4 & H')])]; [destruct (Q tt eq_refl) | discriminate Q |].
    clear H. rename H' into H.
    destruct (live_invalidate i t M M1 _ Et Ev H1) as (_ & l1 & l2 & L0 & L1).
    destruct (live_push _ _ _ _ _ _ _ H2) as (T1' & ET1' & L2). destruct (live_push _ _ _ _ _ _ _ H3) as (T2' & ET2' & L3).
    destruct (live_push _ _ _ _ _ _ _ H4) as (T3' & ET3' & L4).
    rewrite ET1 in ET1'. rewrite ET2 in ET2'. rewrite ET3 in ET3'. inversion ET1'; inversion ET2'; inversion ET3'; subst T1' T2' T3'.
    apply (pres_st_links Rskel Rskel_refl Rskel_trans sk_mark sk_constrain) in H. apply Rskel_live in H.
    exists t, T1, T2, T3, (l1 ++ l2). repeat split; try assumption.
    - rewrite L0. symmetry. apply Permutation_middle.
    - rewrite H. rewrite L4. apply perm_trans with (T3 :: T2 :: T1 :: l1 ++ l2).
      + apply perm_skip. rewrite L3. apply perm_skip. rewrite L2. apply perm_skip. rewrite L1. reflexivity.
      + apply perm_trans with (T2 :: T3 :: T1 :: l1 ++ l2); [apply perm_swap|]. apply perm_trans with (T2 :: T1 :: T3 :: l1 ++ l2); [apply perm_skip, perm_swap|]. apply perm_swap.
  Qed.

  (** the four points the flip works with: the edge (a,b) of the triangle, its third vertex c, and the vertex of the
      neighbour opposite to the edge of the neighbour that [Segment3D::compare]s equal to (a,b) *)
  Definition flip_verts (T Tn : Tri K) (e : Edge) : res (V * V * V * V) :=
    do a <- tri_vertex T (N.modulo (edge_as_i e) 3);
    do b <- tri_vertex T (N.modulo (edge_as_i e + 1) 3);
    do c <- tri_vertex T (N.modulo (edge_as_i e + 2) 3);
    do o <- get_opposite_vertex Tn (seg_new a b);
    Ok (a, b, c, o).
  Theorem live_flip (i : nat) (e : Edge) (M M' : Mesh) :
    flip_diagonal i e M = (M', Ok tt) ->
    exists t ni nb a b c o T1 T2 rest,
      nth_error (tris M) i = Some t /\ tp_valid t = true /\ tp_neighbour t e = Some ni /\
      nth_error (tris M) ni = Some nb /\ tp_valid nb = true /\
      flip_verts (tp_tri t) (tp_tri nb) e = Ok (a, b, c, o) /\
      tri_new a o c = Ok T1 /\ tri_new c o b = Ok T2 /\
      (ni <> i -> Permutation (live_tris M) (tp_tri t :: tp_tri nb :: rest) /\ Permutation (live_tris M') (T1 :: T2 :: rest)).
  Proof.
    intros H.
    destruct (flip_inv _ _ _ _ _ H) as [[_ Q] | (t & nb & ni & a & b & c & o & e1 & e2 & e3 & e4 & T1 & T2 & [Et Ev En Enb Evn Ea Eb Ec Eo _ _ _ _ ET1 ET2] & H')]; [destruct (Q tt eq_refl)|].
    clear H. rename H' into H. unfold flip_suffix in H.
    apply mbind_ok in H. destruct H as ([] & M1 & H1 & H).
    apply mbind_ok in H. destruct H as ([] & M2 & H2 & H).
    apply mbind_ok in H. destruct H as (aoc & M3 & H3 & H). destruct (live_push _ _ _ _ _ _ _ H3) as (T1' & ET1' & L3).
    apply mbind_ok in H. destruct H as (cob & M4 & H4 & H). destruct (live_push _ _ _ _ _ _ _ H4) as (T2' & ET2' & L4).
    rewrite ET1 in ET1'. rewrite ET2 in ET2'. inversion ET1'; inversion ET2'; subst T1' T2'.
    apply (pres_flip_links Rskel Rskel_refl Rskel_trans sk_mark sk_constrain) in H. apply Rskel_live in H.
    destruct (live_invalidate i t M M1 _ Et Ev H1) as (T1e & l1 & l2 & L0 & L1).
    assert (FV : flip_verts (tp_tri t) (tp_tri nb) e = Ok (a, b, c, o)) by (unfold flip_verts; rewrite Ea; cbn [rbind]; rewrite Eb; cbn [rbind]; rewrite Ec; cbn [rbind]; rewrite Eo; reflexivity).
    destruct (Nat.eq_dec ni i) as [Heq|Hne].
    { exists t, ni, nb, a, b, c, o, T1, T2, []. repeat split; try assumption; exfalso; auto. }
    assert (Enb1 : nth_error (tris M1) ni = Some nb) by (rewrite T1e, nth_error_upd; destruct (Nat.eqb_spec i ni); [exfalso; apply Hne; congruence | exact Enb]).
    destruct (live_invalidate ni nb M1 M2 _ Enb1 Evn H2) as (_ & k1 & k2 & K0 & K1).
    exists t, ni, nb, a, b, c, o, T1, T2, (k1 ++ k2). repeat split; try assumption.
    - rewrite L0. apply perm_trans with (tp_tri t :: l1 ++ l2); [symmetry; apply Permutation_middle|]. apply perm_skip.
      rewrite <- L1, K0. symmetry. apply Permutation_middle.
    - rewrite H, L4. apply perm_trans with (T2 :: T1 :: k1 ++ k2); [|apply perm_swap]. apply perm_skip. rewrite L3. apply perm_skip. rewrite K1. reflexivity.
  Qed.

  (** the three points of one hemisphere: the edge (a,b) of the triangle that [Segment3D::compare]s equal to the
      segment to split, and the opposite vertex c *)
  Definition hemi_verts (T : Tri K) (s : Seg K) : res (V * V * V) :=
    do ab_index <- match tri_get_edge_index_from_segment T s with Some i => Ok i | None => Err 107%N end;
    do ab <- tri_segment T ab_index;
    do c <- get_opposite_vertex T ab;
    Ok (sstart ab, send ab, c).
  Definition hemi_suffix (p : V) (idx : nat) (a b c : V) (ed ea eb : Edge) : MR (K:=K) (nat * nat) :=
    mbind (mesh_invalidate idx) (fun _ => mbind (mget 81%N idx) (fun t' =>
    mbind (mesh_push a p c idx) (fun apc => mbind (mesh_push p b c 0) (fun pbc => hemi_links apc pbc t' ed ea eb)))).
  Lemma hemisphere_inv (s : Seg K) (p : V) (idx : nat) (M M' : Mesh) (r : res (nat * nat)) :
    process_hemisphere s p idx M = (M', r) ->
    (M' = M /\ (forall x, r <> Ok x) /\ forall t v, nth_error (tris M) idx = Some t -> hemi_verts (tp_tri t) s <> Ok v) \/
    exists t a b c ed ea eb, nth_error (tris M) idx = Some t /\ hemi_verts (tp_tri t) s = Ok (a, b, c) /\
      hemi_suffix p idx a b c ed ea eb M = (M', r).
  Proof.
    intros H. unfold process_hemisphere in H.
    apply bind_get_inv in H. destruct H as [(t & Et & H) | (-> & -> & En)]; [|left; repeat split; [discriminate | congruence]].
    cut ((M' = M /\ (forall x, r <> Ok x) /\ forall v, hemi_verts (tp_tri t) s <> Ok v) \/
         exists a b c ed ea eb, hemi_verts (tp_tri t) s = Ok (a, b, c) /\ hemi_suffix p idx a b c ed ea eb M = (M', r)).
    { intros [(A & B & C) | (a & b & c & ed & ea & eb & A & B)]; [left | right; exists t, a, b, c, ed, ea, eb; auto].
      repeat split; [exact A | exact B |]. intros t' v Et'. rewrite Et in Et'. inversion Et'; subst t'. apply C. }
    unfold hemi_verts.
    apply bind_lift_fail in H. destruct H as [(abi & Eabi & H) | (-> & Fx & Fr & _)].
    2:{ left. repeat split; [exact Fr|]. intros v. destruct (tri_get_edge_index_from_segment (tp_tri t) s); [destruct (Fx _ eq_refl) | discriminate]. }
    destruct (tri_get_edge_index_from_segment (tp_tri t) s) as [abi'|]; inversion Eabi; subst abi'. cbn [rbind].
    apply bind_lift_fail in H. destruct H as [(ab & Eab & H) | (-> & Fx & Fr & _)].
    2:{ left. repeat split; [exact Fr|]. intros v. destruct (tri_segment (tp_tri t) abi); [destruct (Fx _ eq_refl) | discriminate ..]. }
    rewrite Eab. cbn [rbind].
    apply bind_lift_fail in H. destruct H as [(ei & Eei & H) | (-> & Fx & Fr & _)].
    2:{ left. repeat split; [exact Fr|]. intros v. unfold get_opposite_vertex.
        destruct (tri_get_edge_index_from_segment (tp_tri t) ab); [destruct (Fx _ eq_refl) | discriminate]. }
    destruct (tri_get_edge_index_from_segment (tp_tri t) ab) as [ei'|] eqn:Eei'; inversion Eei; subst ei'.
    destruct (edge_from_i_lt ei (edge_index_lt _ _ _ Eei')) as (ed & Eed). rewrite (bind_lift_Ok _ ed) in H by exact Eed.
    apply bind_lift_fail in H. destruct H as [(c & Ec & H) | (-> & Fx & Fr & _)].
    2:{ left. repeat split; [exact Fr|]. intros v. destruct (get_opposite_vertex (tp_tri t) ab); [destruct (Fx _ eq_refl) | discriminate ..]. }
    rewrite Ec. cbn [rbind]. right.
    destruct (edge_add_ok ed 1) as (ea & Eea). destruct (edge_add_ok ed 2) as (eb & Eeb). rewrite Eea, Eeb in H.
    exists (sstart ab), (send ab), c, ed, ea, eb. split; [reflexivity | exact H].
  Qed.
  Lemma hemi_suffix_open (p : V) (idx : nat) (t : TP) (a b c : V) (ed ea eb : Edge) (TA TB : Tri K) (M M' : Mesh) (r : res (nat * nat)) :
    nth_error (tris M) idx = Some t -> tri_new a p c = Ok TA -> tri_new p b c = Ok TB ->
    hemi_suffix p idx a b c ed ea eb M = (M', r) ->
    (r = Panic 61%N /\ nvalid M = 0) \/
    exists M1 M2 M3 apc pbc, mesh_invalidate idx M = (M1, Ok tt) /\ mesh_push a p c idx M1 = (M2, Ok apc) /\ mesh_push p b c 0 M2 = (M3, Ok pbc) /\
      hemi_links apc pbc (tp_invalidate t) ed ea eb M3 = (M', r).
  Proof.
    intros Et ETA ETB H. unfold hemi_suffix in H.
    destruct (bind_invalidate_slot _ _ _ _ _ _ Et H) as [Q | (M1 & H1 & E1 & H')]; [left; exact Q | clear H; rename H' into H].
    rewrite (bind_get_Some _ _ (tp_invalidate t)) in H by (rewrite E1, nth_error_upd, Nat.eqb_refl, Et; reflexivity).
    apply (bind_push_checked _ _ _ _ _ _ _ _ _ ETA) in H. destruct H as (apc & M2 & H2 & H).
    apply (bind_push_checked _ _ _ _ _ _ _ _ _ ETB) in H. destruct H as (pbc & M3 & H3 & H).
    right. exists M1, M2, M3, apc, pbc. auto.
  Qed.
  Lemma hemisphere_open (s : Seg K) (p : V) (idx : nat) (t : TP) (a b c : V) (TA TB : Tri K) (M M' : Mesh) (r : res (nat * nat)) :
    nth_error (tris M) idx = Some t -> hemi_verts (tp_tri t) s = Ok (a, b, c) -> tri_new a p c = Ok TA -> tri_new p b c = Ok TB ->
    process_hemisphere s p idx M = (M', r) ->
    (r = Panic 61%N /\ nvalid M = 0) \/
    exists ed ea eb M1 M2 M3 apc pbc, mesh_invalidate idx M = (M1, Ok tt) /\ mesh_push a p c idx M1 = (M2, Ok apc) /\ mesh_push p b c 0 M2 = (M3, Ok pbc) /\
      hemi_links apc pbc (tp_invalidate t) ed ea eb M3 = (M', r).
  Proof.
    intros Et HV ETA ETB H.
    destruct (hemisphere_inv _ _ _ _ _ _ H) as [(_ & _ & Q) | (t' & a' & b' & c' & ed & ea & eb & Et' & HV' & H')]; [destruct (Q _ _ Et HV)|].
    rewrite Et in Et'. inversion Et'; subst t'. rewrite HV in HV'. inversion HV'; subst a' b' c'.
    destruct (hemi_suffix_open _ _ _ _ _ _ _ _ _ _ _ _ _ _ Et ETA ETB H') as [Q | (M1 & M2 & M3 & apc & pbc & G)]; [left; exact Q | right].
    exists ed, ea, eb, M1, M2, M3, apc, pbc. exact G.
  Qed.

  Lemma live_hemisphere (s : Seg K) (p : V) (i : nat) (t : TP) (M M' : Mesh) (r : nat * nat) :
    nth_error (tris M) i = Some t -> tp_valid t = true -> process_hemisphere s p i M = (M', Ok r) ->
    exists a b c TA TB rest,
      hemi_verts (tp_tri t) s = Ok (a, b, c) /\ tri_new a p c = Ok TA /\ tri_new p b c = Ok TB /\
      Permutation (live_tris M) (tp_tri t :: rest) /\ Permutation (live_tris M') (TA :: TB :: rest) /\
      (forall j u, j <> i -> nth_error (tris M) j = Some u -> tp_valid u = true -> exists rest', Permutation rest (tp_tri u :: rest')).
  Proof.
    intros Et Ev H.
    destruct (hemisphere_inv _ _ _ _ _ _ H) as [(_ & Q & _) | (t' & a & b & c & ed & ea & eb & Et' & HV & H')]; [destruct (Q r eq_refl)|].
    rewrite Et in Et'. inversion Et'; subst t'. clear H Et'. rename H' into H. unfold hemi_suffix in H.
    apply mbind_ok in H. destruct H as ([] & M1 & H1 & H).
    destruct (live_invalidate i t M M1 _ Et Ev H1) as (T1e & l1 & l2 & L0 & L1).
    apply bind_get_ok in H. destruct H as (t1 & _ & H).
    apply mbind_ok in H. destruct H as (apc & M2 & H2 & H). destruct (live_push _ _ _ _ _ _ _ H2) as (TA & ETA & L2).
    apply mbind_ok in H. destruct H as (pbc & M3 & H3 & H). destruct (live_push _ _ _ _ _ _ _ H3) as (TB & ETB & L3).
    apply (pres_hemi_links Rskel Rskel_refl Rskel_trans sk_mark sk_constrain) in H. apply Rskel_live in H.
    exists a, b, c, TA, TB, (l1 ++ l2). split; [exact HV | split; [exact ETA | split; [exact ETB|]]].
    split; [rewrite L0; symmetry; apply Permutation_middle|]. split.
    - rewrite H, L3. apply perm_trans with (TB :: TA :: l1 ++ l2); [|apply perm_swap]. apply perm_skip. rewrite L2. apply perm_skip. rewrite L1. reflexivity.
    - intros j u Hj Hu Hv. rewrite <- L1.
      assert (Eu : nth_error (tris M1) j = Some u) by (rewrite T1e, nth_error_upd; destruct (Nat.eqb_spec i j); [exfalso; apply Hj; congruence | exact Hu]).
      destruct (live_l_in j u (tris M1) Eu Hv) as (k1 & k2 & E). exists (k1 ++ k2). unfold live_tris. rewrite E. symmetry. apply Permutation_middle.
  Qed.
  Lemma precheck_ro (s : Seg K) (p : V) (i : nat) : Pres eq (split_precheck s p i).
  Proof.
    unfold split_precheck.
    repeat first [ apply (pres_bind eq (@eq_trans _)); [|intros ?] | apply (pres_get eq (@eq_refl _)) | apply (pres_lift eq (@eq_refl _)) | apply (pres_ret eq (@eq_refl _)) ].
  Qed.

  Lemma precheck_ok (s : Seg K) (p : V) (idx : nat) (M M' : Mesh) :
    split_precheck s p idx M = (M', Ok tt) ->
    exists t a b c TA TB, nth_error (tris M) idx = Some t /\ hemi_verts (tp_tri t) s = Ok (a, b, c) /\ tri_new a p c = Ok TA /\ tri_new p b c = Ok TB.
  Proof.
    intros H. unfold split_precheck in H.
    apply bind_get_ok in H. destruct H as (t & Et & H).
    apply bind_lift_ok in H. destruct H as (abi & E1 & H).
    apply bind_lift_ok in H. destruct H as (ab & E2 & H).
    apply bind_lift_ok in H. destruct H as (c & E3 & H).
    apply bind_lift_ok in H. destruct H as (TA & E4 & H).
    apply bind_lift_ok in H. destruct H as (TB & E5 & H).
    exists t, (sstart ab), (send ab), c, TA, TB. repeat split; try assumption.
    unfold hemi_verts. rewrite E1. cbn [rbind]. rewrite E2. cbn [rbind]. rewrite E3. reflexivity.
  Qed.
  Lemma bind_precheck {B} (s : Seg K) (p : V) (idx : nat) (f : unit -> MR B) (M M' : Mesh) (r : res B) :
    mbind (split_precheck s p idx) f M = (M', r) ->
    (M' = M /\ forall x, r <> Ok x) \/ (split_precheck s p idx M = (M, Ok tt) /\ f tt M = (M', r)).
  Proof.
    intros H. apply mbind_inv in H. destruct H as [([] & M0 & H0 & H) | [(c & H0 & ->) | (s' & H0 & ->)]];
      pose proof (precheck_ro _ _ _ _ _ _ H0) as E; subst; [right; split; assumption | left; split; [reflexivity | discriminate] ..].
  Qed.
  Definition split_edge_suffix (s : Seg K) (p : V) (i : nat) (nei : option nat) : MR (K:=K) unit :=
    mbind (process_hemisphere s p i) (fun top => let '(tl, tr) := top in
      match nei with
      | Some n => mbind (process_hemisphere s p n) (fun bot => let '(br, bl) := bot in
                    mbind (mark_as_neighbours tl Ab bl) (fun _ => mark_as_neighbours tr Ab br))
      | None => mret tt
      end).
  Lemma split_edge_inv (i : nat) (e : Edge) (p : V) (M M' : Mesh) (r : res unit) :
    split_edge i e p M = (M', r) ->
    (M' = M /\ forall x, r <> Ok x) \/
    exists t s a b c TA TB, nth_error (tris M) i = Some t /\ tp_valid t = true /\ tri_segment (tp_tri t) (edge_as_i e) = Ok s /\
      hemi_verts (tp_tri t) s = Ok (a, b, c) /\ tri_new a p c = Ok TA /\ tri_new p b c = Ok TB /\
      (forall nei, tp_neighbour t e = Some nei -> split_precheck s p nei M = (M, Ok tt)) /\
      split_edge_suffix s p i (tp_neighbour t e) M = (M', r).
  Proof.
    intros H. unfold split_edge in H.
    apply bind_get_inv in H. destruct H as [(t & Et & H) | (-> & -> & _)]; [|left; split; [reflexivity | discriminate]].
    destruct (tp_valid t) eqn:Ev; cbn [negb] in H; [|inversion H; subst; left; split; [reflexivity | discriminate]].
    apply bind_lift_fail in H. destruct H as [(s & Es & H) | (-> & _ & Fr & _)]; [|left; split; [reflexivity | exact Fr]].
    apply bind_precheck in H. destruct H as [Q | [H0 H]]; [left; exact Q|].
    destruct (precheck_ok _ _ _ _ _ H0) as (t' & a & b & c & TA & TB & Et' & HV & ETA & ETB). rewrite Et in Et'. inversion Et'; subst t'.
    assert (G : (M' = M /\ forall x, r <> Ok x) \/
                ((forall nei, tp_neighbour t e = Some nei -> split_precheck s p nei M = (M, Ok tt)) /\ split_edge_suffix s p i (tp_neighbour t e) M = (M', r))).
    { destruct (tp_neighbour t e) as [nei|].
      - apply bind_precheck in H. destruct H as [Q | [H1 H]]; [left; exact Q | right]. split; [|exact H]. intros n En. inversion En; subst n. exact H1.
      - right. split; [discriminate | exact H]. }
    destruct G as [Q | [G1 G2]]; [left; exact Q | right]. exists t, s, a, b, c, TA, TB. auto 10.
  Qed.

  Theorem live_split_edge (i : nat) (e : Edge) (p : V) (M M' : Mesh) :
    split_edge i e p M = (M', Ok tt) ->
    exists t s a b c TA TB,
      nth_error (tris M) i = Some t /\ tp_valid t = true /\ tri_segment (tp_tri t) (edge_as_i e) = Ok s /\
      hemi_verts (tp_tri t) s = Ok (a, b, c) /\ tri_new a p c = Ok TA /\ tri_new p b c = Ok TB /\
      match tp_neighbour t e with
      | None => exists rest, Permutation (live_tris M) (tp_tri t :: rest) /\ Permutation (live_tris M') (TA :: TB :: rest)
      | Some ni =>
        forall nb, ni <> i -> nth_error (tris M) ni = Some nb -> tp_valid nb = true ->
        exists a' b' c' TA' TB' rest,
          hemi_verts (tp_tri nb) s = Ok (a', b', c') /\ tri_new a' p c' = Ok TA' /\ tri_new p b' c' = Ok TB' /\
          Permutation (live_tris M) (tp_tri t :: tp_tri nb :: rest) /\
          Permutation (live_tris M') (TA :: TB :: TA' :: TB' :: rest)
      end.
  Proof.
    intros H. destruct (split_edge_inv _ _ _ _ _ _ H) as [[_ Q] | (t & s & _ & _ & _ & _ & _ & Et & Ev & Es & _ & _ & _ & _ & H')]; [destruct (Q tt eq_refl)|].
    clear H. rename H' into H. unfold split_edge_suffix in H.
    apply mbind_ok in H. destruct H as ([tl tr] & M1 & H1 & H).
    destruct (live_hemisphere s p i t M M1 _ Et Ev H1) as (a & b & c & TA & TB & rest1 & HV & ETA & ETB & L0 & L1 & Fr).
    exists t, s, a, b, c, TA, TB. repeat (split; [assumption|]).
    destruct (tp_neighbour t e) as [ni|].
    - intros nb Hne Enb Evn.
      apply mbind_ok in H. destruct H as ([br bl] & M2 & H2 & H).
      destruct (keep_hemisphere s p i M M1 _ H1 ni nb Hne Enb Evn) as (nb1 & Enb1 & Evn1 & Etri).
      destruct (live_hemisphere s p ni nb1 M1 M2 _ Enb1 Evn1 H2) as (a' & b' & c' & TA' & TB' & rest2 & HV' & ETA' & ETB' & K0 & K1 & _).
      rewrite Etri in *.
      apply (pres_bind Rskel Rskel_trans _ _ (sk_mark _ _ _) (fun _ => sk_mark _ _ _)) in H. apply Rskel_live in H.
      destruct (Fr ni nb Hne Enb Evn) as (rest & Hr).
      exists a', b', c', TA', TB', rest. repeat (split; [assumption|]). split.
      + rewrite L0. apply perm_skip. exact Hr.
      + rewrite H, K1.
        assert (P2 : Permutation rest2 (TA :: TB :: rest)).
        { apply Permutation_cons_inv with (a := tp_tri nb). rewrite <- K0, L1.
          apply perm_trans with (TA :: TB :: tp_tri nb :: rest); [do 2 apply perm_skip; exact Hr|].
          apply perm_trans with (TA :: tp_tri nb :: TB :: rest); [apply perm_skip, perm_swap | apply perm_swap]. }
        rewrite P2.
        apply perm_trans with (TA' :: TA :: TB' :: TB :: rest); [apply perm_skip, perm_swap|].
        apply perm_trans with (TA :: TA' :: TB' :: TB :: rest); [apply perm_swap|]. apply perm_skip.
        apply perm_trans with (TA' :: TB :: TB' :: rest); [apply perm_skip, perm_swap|]. apply perm_trans with (TB :: TA' :: TB' :: rest); [apply perm_swap | reflexivity].
    - inversion H; subst. exists rest1. split; assumption.
  Qed.
End LiveTris.

From Coq Require Import Reals Lra Psatz.
From G3 Require Import Theory.RInst Theory.Cyclic Theory.Winding Theory.Shoelace.
From G3 Require Proofs.C05_pointtest.

Section TsumPerm.
  Context {A G : Type} {rO rI : G} {radd rmul rsub : G -> G -> G} {ropp : G -> G}.
  Hypothesis Gth : ring_theory rO rI radd rmul rsub ropp (@eq G).
  Add Ring Gring_perm : Gth.
  Lemma tsum_perm (g : A -> A -> A -> G) (Ts Ts' : list (A * A * A)) : Permutation Ts Ts' -> tsum rO radd g Ts = tsum rO radd g Ts'.
  Proof.
    induction 1 as [| [[a b] c] l l' _ IH | [[a b] c] [[a' b'] c'] l | l l' l'' _ IH1 _ IH2]; [reflexivity | | | congruence];
      rewrite !tsum_cons; [rewrite IH; reflexivity | ring].
  Qed.
End TsumPerm.

Section RegionAlgebra.
  Local Open Scope R_scope.
  Notation T2 := (P2 * P2 * P2)%type.

  (** coverage of a list of planar triangles along the ray (q, d): Σ_T wn d [a;b;c] q.  By [Winding.wn_triangle] each
      summand is +1 / -1 / 0 as q is strictly inside a positively / negatively oriented triangle / outside, for (d, q)
      generic.  Doubled signed area: Σ_T orient a b c. *)
  Definition cover (d : P2) (Ts : list T2) (q : P2) : Z := tsum 0%Z Z.add (fun a b c => wn d [a; b; c] q) Ts.
  Definition area2sum (Ts : list T2) : R := tsum 0 Rplus orient Ts.

  Lemma cover_cons d a b c Ts q : cover d ((a, b, c) :: Ts) q = (wn d [a; b; c] q + cover d Ts q)%Z.
  Proof. reflexivity. Qed.
  Lemma area2sum_cons a b c Ts : area2sum ((a, b, c) :: Ts) = orient a b c + area2sum Ts.
  Proof. reflexivity. Qed.

  (** ** the three subdivisions, for the winding number: identities of the antisymmetric edge functional [crd] *)
  Lemma wn_fan3 (d q a b c p : P2) : wn d [a; b; c] q = (wn d [c; a; p] q + wn d [a; b; p] q + wn d [b; c; p] q)%Z.
  Proof.
    rewrite !wn_tri_unfold. pose proof (crd_antisym d p a q). pose proof (crd_antisym d p b q). pose proof (crd_antisym d p c q). lia.
  Qed.
  Lemma wn_flip (d q a b c o : P2) : (wn d [a; b; c] q + wn d [b; a; o] q = wn d [a; o; c] q + wn d [c; o; b] q)%Z.
  Proof.
    rewrite !wn_tri_unfold. pose proof (crd_antisym d a b q). pose proof (crd_antisym d o c q). lia.
  Qed.
  Lemma wn_split (d q a b c p : P2) : (crd d a p q + crd d p b q = crd d a b q)%Z ->
    wn d [a; b; c] q = (wn d [a; p; c] q + wn d [p; b; c] q)%Z.
  Proof. intros H. rewrite !wn_tri_unfold. pose proof (crd_antisym d p c q). lia. Qed.
  Lemma wn_rot3 (d q a b c : P2) : wn d [b; c; a] q = wn d [a; b; c] q.
  Proof. rewrite !wn_tri_unfold. lia. Qed.
  Lemma orient_fan3 (a b c p : P2) : orient a b c = orient c a p + orient a b p + orient b c p.
  Proof. unfold orient. ring. Qed.
  Lemma orient_flip (a b c o : P2) : orient a b c + orient b a o = orient a o c + orient c o b.
  Proof. unfold orient. ring. Qed.
  Lemma orient_split (a b c p : P2) : orient a b p = 0 -> orient a b c = orient a p c + orient p b c.
  Proof. intros H. replace (orient a b c) with (orient a p c + orient p b c + orient a b p) by (unfold orient; ring). lra. Qed.
  Lemma orient_split_any (a b c c' p : P2) : orient a b c + orient b a c' = (orient a p c + orient p b c) + (orient b p c' + orient p a c').
  Proof. unfold orient. ring. Qed.

  Definition rot3 {A} (x y : A * A * A) : Prop :=
    let '(a, b, c) := y in x = (a, b, c) \/ x = (b, c, a) \/ x = (c, a, b).
  Lemma tsum_rot3 {G} (rO : G) (radd : G -> G -> G) (g : P2 -> P2 -> P2 -> G) (x y : T2) Ts :
    (forall a b c, g b c a = g a b c) -> rot3 x y -> tsum rO radd g (x :: Ts) = tsum rO radd g (y :: Ts).
  Proof. intros Hg. destruct y as [[a b] c]. intros [E|[E|E]]; subst x; rewrite !tsum_cons; [reflexivity | rewrite Hg; reflexivity | rewrite <- Hg; reflexivity]. Qed.

  Lemma pos_split_triangle (a b c p : P2) : 0 < orient a b c -> inside_tri a b c p ->
    0 < orient c a p /\ 0 < orient a b p /\ 0 < orient b c p.
  Proof. intros Ho [(H1 & H2 & H3) | (H1 & H2 & H3)]; [tauto|]. pose proof (orient_bary_sum a b c p). lra. Qed.
  Lemma pos_split_edge (a b c : P2) (s : R) : 0 < s < 1 -> 0 < orient a b c ->
    0 < orient a (lerp a b s) c /\ 0 < orient (lerp a b s) b c.
  Proof. intros Hs Ho. rewrite orient_lerp_l, orient_lerp_r. split; nra. Qed.
  (** the two triangles on the new diagonal o-c are the turns at b and at a of the quadrilateral a, o, b, c, rotated *)
  Lemma pos_flip (a b c o : P2) : 0 < orient o b c -> 0 < orient c a o ->
    0 < orient a o c /\ 0 < orient c o b.
  Proof. intros H2 H3. split; [rewrite (orient_rot c a o) | rewrite (orient_rot b c o), (orient_rot o b c)]; assumption. Qed.

  (** what the coverage counts: for positively oriented triangles and a generic ray, the number of triangles that
      contain q strictly (Winding.wn_triangle) *)
  Theorem cover_counts_inside (d q : P2) (Ts : list T2) :
    (forall a b c, In (a, b, c) Ts -> 0 < orient a b c /\ generic d q [a; b; c] /\ off_lines a b c q) ->
    cover d Ts q = Z.of_nat (count_inside Ts q).
  Proof.
    induction Ts as [|[[a b] c] Ts IH]; intros H; [reflexivity|].
    rewrite cover_cons, count_inside_cons, IH by (intros; apply H; right; assumption).
    destruct (H a b c (or_introl eq_refl)) as (Ho & Hg & Hl). rewrite (wn_triangle d a b c q Ho Hg Hl).
    destruct (inside_trib a b c q); lia.
  Qed.
End RegionAlgebra.

(** ** the steps of the model, in 2-D coordinates of an affine frame (o, e1, e2) (orthonormal in the plane of the mesh
    for the intended reading, but none of the identities needs it) *)
Section RegionMesh.
  Local Open Scope R_scope.
  Notation VR := (V3 R).
  Notation T2 := (P2 * P2 * P2)%type.
  Variables o e1 e2 : V3 R.
  Notation pr := (C05_pointtest.plane2 o e1 e2).

  Definition t2 (T : Tri R) : T2 := (pr (ta T), pr (tb T), pr (tc T)).
  Definition tris2 (M : Mesh R) : list T2 := map t2 (live_tris M).
  Definition mesh_cover (d : P2) (M : Mesh R) (q : P2) : Z := cover d (tris2 M) q.
  Definition mesh_area2 (M : Mesh R) : R := area2sum (tris2 M).

  Lemma t2_new (a b c : VR) (T : Tri R) : tri_new a b c = Ok T -> t2 T = (pr a, pr b, pr c).
  Proof. intros H. apply tri_new_pts in H. unfold tri_pts in H. inversion H. unfold t2. congruence. Qed.
  Lemma pr_lerp (a b : VR) (s : R) : pr (vadd a (vscale (vsub b a) s)) = lerp (pr a) (pr b) s.
  Proof.
    destruct a as [a1 a2 a3], b as [b1 b2 b3], o as [o1 o2 o3], e1 as [u1 u2 u3], e2 as [w1 w2 w3].
    unfold C05_pointtest.plane2, lerp, vdot, vsub, vadd, vscale. cbn [vx vy vz fst snd]. rnum. f_equal; ring.
  Qed.
  Lemma rot3_t2 (T : Tri R) (a b c : VR) : rot3 (tri_pts T) (a, b, c) -> rot3 (t2 T) (pr a, pr b, pr c).
  Proof. unfold rot3, tri_pts, t2. intros [H|[H|H]]; inversion H; subst; auto. Qed.


  (** *** split_edge: in each hemisphere the three points are the triangle's (up to rotation) and p is on the split edge *)
  Definition on_line (p a b : VR) : Prop := exists s : R, p = vadd a (vscale (vsub b a) s).
  Definition between (p a b : VR) : Prop := exists s : R, 0 < s < 1 /\ p = vadd a (vscale (vsub b a) s).
  Lemma between_on_line p a b : between p a b -> on_line p a b.
  Proof. intros (s & _ & H). exists s. exact H. Qed.
  Definition hemi_ok (Q : VR -> VR -> VR -> Prop) (T : Tri R) (sg : Seg R) (p : VR) : Prop :=
    forall a b c, hemi_verts T sg = Ok (a, b, c) -> rot3 (tri_pts T) (a, b, c) /\ Q p a b.
  Definition split_edge_ok (Q : VR -> VR -> VR -> Prop) (M : Mesh R) (i : nat) (e : Edge) (p : VR) : Prop :=
    forall t sg, nth_error (tris M) i = Some t -> tp_valid t = true -> tri_segment (tp_tri t) (edge_as_i e) = Ok sg ->
      hemi_ok Q (tp_tri t) sg p /\
      (forall ni, tp_neighbour t e = Some ni ->
         ni <> i /\ exists nb, nth_error (tris M) ni = Some nb /\ tp_valid nb = true /\ hemi_ok Q (tp_tri nb) sg p).
  Lemma split_edge_ok_weaken (Q Q' : VR -> VR -> VR -> Prop) M i e p :
    (forall p a b, Q p a b -> Q' p a b) -> split_edge_ok Q M i e p -> split_edge_ok Q' M i e p.
  Proof.
    intros HQ H t sg Et Ev Es. destruct (H t sg Et Ev Es) as [H1 H2]. split.
    - intros a b c Hv. destruct (H1 a b c Hv). split; auto.
    - intros ni En. destruct (H2 ni En) as (Hne & nb & A & B & C). split; [exact Hne|]. exists nb. split; [exact A | split; [exact B|]].
      intros a b c Hv. destruct (C a b c Hv). split; auto.
  Qed.

  (** a step replaces the triangles [olds] by [news] in the live multiset.  A measure [mu] of lists of triangles that
      does not see the order and is monotone under [++] (for the preorder [le]: equality for a sum, implication for
      "all triangles are ...") moves along [le] as soon as it does so from [olds] to [news] *)
  Section Measure.
    Context {X : Type} (mu : list (Tri R) -> X) (le : X -> X -> Prop).
    Hypothesis le_trans : forall x y z, le x y -> le y z -> le x z.
    Hypothesis mu_perm : forall l l', Permutation l l' -> le (mu l) (mu l').
    Hypothesis mu_app : forall l1 l2 l1' l2', le (mu l1) (mu l2) -> le (mu l1') (mu l2') -> le (mu (l1 ++ l1')) (mu (l2 ++ l2')).
    Lemma mu_replace (M M' : Mesh R) (olds news rest : list (Tri R)) :
      Permutation (live_tris M) (olds ++ rest) -> Permutation (live_tris M') (news ++ rest) ->
      le (mu olds) (mu news) -> le (mu (live_tris M)) (mu (live_tris M')).
    Proof.
      intros P0 P1 H. apply (le_trans _ _ _ (mu_perm _ _ P0)). apply (le_trans _ (mu (news ++ rest))); [|apply mu_perm, Permutation_sym, P1].
      apply mu_app; [exact H | apply mu_perm, Permutation_refl].
    Qed.
    Lemma mu_split_edge (Q : VR -> VR -> VR -> Prop) (i : nat) (e : Edge) (p : VR) (M M' : Mesh R) :
      (forall T TA TB a b c, rot3 (tri_pts T) (a, b, c) -> Q p a b -> tri_new a p c = Ok TA -> tri_new p b c = Ok TB -> le (mu [T]) (mu [TA; TB])) ->
      split_edge_ok Q M i e p -> split_edge i e p M = (M', Ok tt) -> le (mu (live_tris M)) (mu (live_tris M')).
    Proof.
      intros Hh Hok H. destruct (live_split_edge i e p M M' H) as (t & sg & a & b & c & TA & TB & Et & Ev & Es & HV & EA & EB & Hn).
      destruct (Hok t sg Et Ev Es) as [H1 H2]. destruct (H1 a b c HV) as [Hr Hl]. pose proof (Hh _ _ _ _ _ _ Hr Hl EA EB) as L1.
      destruct (tp_neighbour t e) as [ni|].
      - destruct (H2 ni eq_refl) as (Hne & nb & Enb & Evn & H3).
        destruct (Hn nb Hne Enb Evn) as (a' & b' & c' & TA' & TB' & rest & HV' & EA' & EB' & P0 & P1).
        destruct (H3 a' b' c' HV') as [Hr' Hl'].
        apply (mu_replace M M' [tp_tri t; tp_tri nb] [TA; TB; TA'; TB'] rest P0 P1).
        exact (mu_app [_] [_; _] [_] [_; _] L1 (Hh _ _ _ _ _ _ Hr' Hl' EA' EB')).
      - destruct Hn as (rest & P0 & P1). exact (mu_replace M M' [tp_tri t] [TA; TB] rest P0 P1 L1).
    Qed.
  End Measure.
  Section Sum.
    Context {G : Type} {rO rI : G} {radd rmul rsub : G -> G -> G} {ropp : G -> G}.
    Hypothesis Gth : ring_theory rO rI radd rmul rsub ropp (@eq G).
    Variable g : P2 -> P2 -> P2 -> G.
    Notation mu := (fun l : list (Tri R) => tsum rO radd g (map t2 l)).
    Lemma sum_perm l l' : Permutation l l' -> mu l = mu l'.
    Proof. intros P. apply (tsum_perm Gth), Permutation_map, P. Qed.
    Lemma sum_app l1 l2 l1' l2' : mu l1 = mu l2 -> mu l1' = mu l2' -> mu (l1 ++ l1') = mu (l2 ++ l2').
    Proof. cbv beta. intros E E'. rewrite !map_app, !(tsum_app Gth), E, E'. reflexivity. Qed.
    Definition sum_replace := mu_replace mu eq (@eq_trans G) sum_perm sum_app.
    Definition sum_split_edge := mu_split_edge mu eq (@eq_trans G) sum_perm sum_app.
  End Sum.

  (** *** split_triangle: any point p, any ray, any q *)
  Theorem region_split_triangle (i : nat) (p : VR) (M M' : Mesh R) :
    split_triangle i p M = (M', Ok tt) ->
    mesh_area2 M' = mesh_area2 M /\ forall d q, mesh_cover d M' q = mesh_cover d M q.
  Proof.
    intros H. destruct (live_split_triangle i p M M' H) as (t & T1 & T2 & T3 & rest & Et & Ev & E1 & E2 & E3 & P0 & P1).
    split; [|intros d q]; symmetry.
    - apply (sum_replace RTheory orient M M' [tp_tri t] [T1; T2; T3] rest P0 P1). cbn [map].
      rewrite (t2_new _ _ _ _ E1), (t2_new _ _ _ _ E2), (t2_new _ _ _ _ E3). unfold t2. rewrite !tsum_cons.
      rewrite (orient_fan3 (pr (ta (tp_tri t))) (pr (tb (tp_tri t))) (pr (tc (tp_tri t))) (pr p)). cbn [tsum fold_right]. lra.
    - apply (sum_replace InitialRing.Zth (fun a b c => wn d [a; b; c] q) M M' [tp_tri t] [T1; T2; T3] rest P0 P1). cbn [map].
      rewrite (t2_new _ _ _ _ E1), (t2_new _ _ _ _ E2), (t2_new _ _ _ _ E3). unfold t2. rewrite !tsum_cons.
      rewrite (wn_fan3 d q (pr (ta (tp_tri t))) (pr (tb (tp_tri t))) (pr (tc (tp_tri t))) (pr p)). cbn [tsum fold_right]. lia.
  Qed.

  (** *** flip_diagonal: the neighbour holds the edge exactly, reversed *)
  Lemma flip_verts_rot {K} {NK : Num K} (T Tn : Tri K) (e : Edge) (a b c op : V3 K) :
    flip_verts T Tn e = Ok (a, b, c, op) -> rot3 (tri_pts T) (a, b, c).
  Proof.
    unfold flip_verts. destruct e; cbn [edge_as_i];
      [change (N.modulo 0 3) with 0%N; change (N.modulo (0 + 1) 3) with 1%N; change (N.modulo (0 + 2) 3) with 2%N
      | change (N.modulo 1 3) with 1%N; change (N.modulo (1 + 1) 3) with 2%N; change (N.modulo (1 + 2) 3) with 0%N
      | change (N.modulo 2 3) with 2%N; change (N.modulo (2 + 1) 3) with 0%N; change (N.modulo (2 + 2) 3) with 1%N ];
      cbn [tri_vertex rbind]; destruct (get_opposite_vertex _ _) as [x| |]; cbn [rbind]; try discriminate;
      intros H; inversion H; subst; unfold rot3, tri_pts; auto.
  Qed.
  Definition flip_shared (M : Mesh R) (i : nat) (e : Edge) : Prop :=
    forall t ni nb a b c op, nth_error (tris M) i = Some t -> tp_valid t = true -> tp_neighbour t e = Some ni ->
      nth_error (tris M) ni = Some nb -> tp_valid nb = true ->
      flip_verts (tp_tri t) (tp_tri nb) e = Ok (a, b, c, op) -> ni <> i /\ rot3 (tri_pts (tp_tri nb)) (b, a, op).
  Theorem region_flip (i : nat) (e : Edge) (M M' : Mesh R) :
    flip_shared M i e -> flip_diagonal i e M = (M', Ok tt) ->
    mesh_area2 M' = mesh_area2 M /\ forall d q, mesh_cover d M' q = mesh_cover d M q.
  Proof.
    intros Hs H. destruct (live_flip i e M M' H) as (t & ni & nb & a & b & c & op & T1 & T2 & rest & Et & Ev & En & Enb & Evn & FV & E1 & E2 & P).
    destruct (Hs t ni nb a b c op Et Ev En Enb Evn FV) as [Hne Hrot]. destruct (P Hne) as [P0 P1].
    pose proof (rot3_t2 _ _ _ _ (flip_verts_rot _ _ _ _ _ _ _ FV)) as R1. pose proof (rot3_t2 _ _ _ _ Hrot) as R2.
    split; [|intros d q]; symmetry.
    - apply (sum_replace RTheory orient M M' [tp_tri t; tp_tri nb] [T1; T2] rest P0 P1). cbn [map].
      rewrite (t2_new _ _ _ _ E1), (t2_new _ _ _ _ E2).
      rewrite (tsum_rot3 _ _ _ _ _ _ orient_rot R1), (tsum_cons _ _ _ _ _ _ [t2 (tp_tri nb)]), (tsum_rot3 _ _ _ _ _ _ orient_rot R2).
      rewrite !tsum_cons. pose proof (orient_flip (pr a) (pr b) (pr c) (pr op)). cbn [tsum fold_right]. lra.
    - apply (sum_replace InitialRing.Zth (fun a b c => wn d [a; b; c] q) M M' [tp_tri t; tp_tri nb] [T1; T2] rest P0 P1). cbn [map].
      rewrite (t2_new _ _ _ _ E1), (t2_new _ _ _ _ E2).
      rewrite (tsum_rot3 _ _ _ _ _ _ (wn_rot3 d q) R1), (tsum_cons _ _ _ _ _ _ [t2 (tp_tri nb)]), (tsum_rot3 _ _ _ _ _ _ (wn_rot3 d q) R2).
      rewrite !tsum_cons. pose proof (wn_flip d q (pr a) (pr b) (pr c) (pr op)). cbn [tsum fold_right]. lia.
  Qed.

  Lemma area_hemi (p : VR) (T TA TB : Tri R) (a b c : VR) :
    rot3 (tri_pts T) (a, b, c) -> on_line p a b -> tri_new a p c = Ok TA -> tri_new p b c = Ok TB ->
    area2sum [t2 T] = area2sum [t2 TA; t2 TB].
  Proof.
    intros Hr (s & Hp) EA EB. rewrite (t2_new _ _ _ _ EA), (t2_new _ _ _ _ EB). unfold area2sum. rewrite (tsum_rot3 _ _ _ _ _ _ orient_rot (rot3_t2 _ _ _ _ Hr)).
    rewrite !tsum_cons. cbn [tsum fold_right].
    assert (O : orient (pr a) (pr b) (pr p) = 0) by (rewrite Hp, pr_lerp; unfold orient, lerp; cbn [fst snd]; ring).
    rewrite (orient_split (pr a) (pr b) (pr c) (pr p) O). lra.
  Qed.
  Lemma cover_hemi d q (p : VR) : hgt d q (pr p) <> 0 -> forall (T TA TB : Tri R) (a b c : VR),
    rot3 (tri_pts T) (a, b, c) -> between p a b -> tri_new a p c = Ok TA -> tri_new p b c = Ok TB ->
    cover d [t2 T] q = cover d [t2 TA; t2 TB] q.
  Proof.
    intros Hg T TA TB a b c Hr (s & Hs & Hp) EA EB. rewrite (t2_new _ _ _ _ EA), (t2_new _ _ _ _ EB). unfold cover. rewrite (tsum_rot3 _ _ _ _ _ _ (wn_rot3 d q) (rot3_t2 _ _ _ _ Hr)).
    rewrite !tsum_cons. cbn [tsum fold_right].
    assert (C : (crd d (pr a) (pr p) q + crd d (pr p) (pr b) q = crd d (pr a) (pr b) q)%Z).
    { apply (crd_split d (pr a) (pr b) q (pr p) s Hs); [rewrite Hp; apply pr_lerp | exact Hg]. }
    rewrite (wn_split d q (pr a) (pr b) (pr c) (pr p) C). lia.
  Qed.
  Theorem region_split_edge_area (i : nat) (e : Edge) (p : VR) (M M' : Mesh R) :
    split_edge_ok on_line M i e p -> split_edge i e p M = (M', Ok tt) -> mesh_area2 M' = mesh_area2 M.
  Proof. intros Hok H. symmetry. exact (sum_split_edge RTheory orient on_line i e p M M' (area_hemi p) Hok H). Qed.
  Theorem region_split_edge_cover (i : nat) (e : Edge) (p : VR) (M M' : Mesh R) (d q : P2) :
    split_edge_ok between M i e p -> hgt d q (pr p) <> 0 -> split_edge i e p M = (M', Ok tt) -> mesh_cover d M' q = mesh_cover d M q.
  Proof.
    intros Hok Hg H. symmetry.
    exact (sum_split_edge InitialRing.Zth (fun a b c => wn d [a; b; c] q) between i e p M M' (cover_hemi d q p Hg) Hok H).
  Qed.
End RegionMesh.

Section RegionHistory.
  Local Open Scope R_scope.
  Notation VR := (V3 R).
  Variables o e1 e2 : V3 R.
  Notation pr := (C05_pointtest.plane2 o e1 e2).
  Notation area2 := (mesh_area2 o e1 e2).
  Notation coverM := (mesh_cover o e1 e2).

  Definition Same (M M' : Mesh R) : Prop := area2 M' = area2 M /\ forall d q, coverM d M' q = coverM d M q.
  Lemma Same_refl M : Same M M. Proof. split; reflexivity. Qed.
  Lemma Same_trans M1 M2 M3 : Same M1 M2 -> Same M2 M3 -> Same M1 M3.
  Proof. intros [A1 B1] [A2 B2]. split; [congruence | intros d q; rewrite B2; apply B1]. Qed.

  (** *** restore_delaunay only flips.  The hypothesis on the flipped edges is carried by any invariant [Inv] of the
      mesh that (1) implies that the neighbour across a flipped edge holds that edge exactly and (2) survives a flip
      ([GEO], the link geometry: Proofs/Mesh_links_region.v instantiates [Inv] with it, [region_restore_geo]) *)
  Section WithInv.
    Variable Inv : Mesh R -> Prop.
    Hypothesis Inv_shared : forall M i e, Inv M -> flip_shared M i e.
    Hypothesis Inv_flip : forall M i e M', Inv M -> flip_diagonal i e M = (M', Ok tt) -> Inv M'.

    Theorem region_restore (m : R) (M M' : Mesh R) : Inv M -> restore_delaunay m M = (M', Ok tt) -> Inv M' /\ Same M M'.
    Proof.
      apply (restore_ind Inv Same Same_refl Same_trans). intros i e ar M0 M1 HI _ H1.
      split; [exact (Inv_flip _ _ _ _ HI H1) | exact (region_flip o e1 e2 _ _ _ _ (Inv_shared _ i e HI) H1)].
    Qed.
  End WithInv.

  (** *** add_point: the located triangle is split at the point, or one of its edges is *)
  Definition add_point_ok (Q : VR -> VR -> VR -> Prop) (M : Mesh R) (p : VR) : Prop :=
    forall i loc, find_container (tris M) 0 p = Some (i, loc) ->
      match loc with
      | EdgeAB => split_edge_ok Q M i Ab p | EdgeBC => split_edge_ok Q M i Bc p | EdgeAC => split_edge_ok Q M i Ca p
      | _ => True end.
  Lemma aptt_cases (i : nat) (p : VR) (loc : PIT) (M M' : Mesh R) (b : bool) :
    add_point_to_triangle i p loc M = (M', Ok b) ->
    M' = M \/ (loc = Inside /\ split_triangle i p M = (M', Ok tt)) \/
    (exists ed, match loc with EdgeAB => ed = Ab | EdgeBC => ed = Bc | EdgeAC => ed = Ca | _ => False end /\ split_edge i ed p M = (M', Ok tt)).
  Proof.
    intros H. unfold add_point_to_triangle in H. apply bind_get_ok in H. destruct H as (t & _ & H).
    destruct (negb (tp_valid t)); [discriminate|].
    destruct loc; cbn [pit_is_vertex pit_is_edge] in H; try (inversion H; subst; left; reflexivity); try discriminate.
    1-3: apply bind_lift_ok in H; destruct H as (ed & Eed & H); apply mbind_ok in H; destruct H as ([] & M1 & H1 & H); inversion H; subst;
      right; right; exists ed; split; [inversion Eed; reflexivity | exact H1].
    apply mbind_ok in H. destruct H as ([] & M1 & H1 & H). inversion H; subst. right; left. split; [reflexivity | exact H1].
  Qed.
  Theorem region_add_point_area (p : VR) (M M' : Mesh R) (b : bool) :
    add_point_ok on_line M p -> add_point p M = (M', Ok b) -> area2 M' = area2 M.
  Proof.
    intros Hok H. unfold add_point in H. destruct (find_container (tris M) 0 p) as [[i loc]|] eqn:Ef; [|discriminate].
    specialize (Hok i loc Ef). apply aptt_cases in H. destruct H as [-> | [(_ & H) | (ed & Hed & H)]]; [reflexivity | |].
    - apply (region_split_triangle o e1 e2 _ _ _ _ H).
    - destruct loc; try contradiction; subst ed; eapply region_split_edge_area; eassumption.
  Qed.
  Theorem region_add_point_cover (p : VR) (M M' : Mesh R) (b : bool) (d q : P2) :
    add_point_ok between M p -> hgt d q (pr p) <> 0 -> add_point p M = (M', Ok b) -> coverM d M' q = coverM d M q.
  Proof.
    intros Hok Hg H. unfold add_point in H. destruct (find_container (tris M) 0 p) as [[i loc]|] eqn:Ef; [|discriminate].
    specialize (Hok i loc Ef). apply aptt_cases in H. destruct H as [-> | [(_ & H) | (ed & Hed & H)]]; [reflexivity | |].
    - apply (region_split_triangle o e1 e2 _ _ _ _ H).
    - destruct loc; try contradiction; subst ed; eapply region_split_edge_cover; eassumption.
  Qed.

  (** *** histories: every step returns Ok and meets its geometric hypothesis on the mesh it is applied to *)
  Section History.
    Variable Inv : Mesh R -> Prop.
    Hypothesis Inv_shared : forall M i e, Inv M -> flip_shared M i e.
    Hypothesis Inv_flip : forall M i e M', Inv M -> flip_diagonal i e M = (M', Ok tt) -> Inv M'.
    (** [Q p a b]: where the inserted point lies w.r.t. the split edge; [G p]: the ray avoids the inserted point *)
    Definition geo_ok (Q : VR -> VR -> VR -> Prop) (G : VR -> Prop) (M : Mesh R) (op : mop R) : Prop :=
      match op with
      | OSplitTriangle _ _ => True
      | OFlip i e => forall ed, edge_from_i e = Ok ed -> flip_shared M i ed
      | OSplitEdge i e p => (forall ed, edge_from_i e = Ok ed -> split_edge_ok Q M i ed p) /\ G p
      | ORestore _ => Inv M
      | OAddPoint p => add_point_ok Q M p /\ G p
      | ORefine _ _ _ => False
      end.
    Fixpoint good_run (Q : VR -> VR -> VR -> Prop) (G : VR -> Prop) (M : Mesh R) (ops : list (mop R)) : Prop :=
      match ops with
      | [] => True
      | op :: tl => geo_ok Q G M op /\ (exists x, snd (mesh_step op M) = Ok x) /\ good_run Q G (fst (mesh_step op M)) tl
      end.
    Lemma history_gen {X} (phi : Mesh R -> X) Q G :
      (forall M op M' x, geo_ok Q G M op -> mesh_step op M = (M', Ok x) -> phi M' = phi M) ->
      forall ops M, good_run Q G M ops -> phi (fst (mesh_run M ops)) = phi M.
    Proof.
      intros Hstep ops M. apply (mesh_run_inv (geo_ok Q G) (good_run Q G) (fun M' => phi M' = phi M) (fun _ _ _ H => H)); [|reflexivity].
      intros M1 op M2 x E Hg H. rewrite <- E. eapply Hstep; eassumption.
    Qed.
    Lemma step_inv (op : mop R) (M M' : Mesh R) (x : option bool) : mesh_step op M = (M', Ok x) ->
      match op with
      | OSplitEdge i e p => exists ed, edge_from_i e = Ok ed /\ split_edge i ed p M = (M', Ok tt)
      | OSplitTriangle i p => split_triangle i p M = (M', Ok tt)
      | OFlip i e => exists ed, edge_from_i e = Ok ed /\ flip_diagonal i ed M = (M', Ok tt)
      | ORestore m => restore_delaunay m M = (M', Ok tt)
      | OAddPoint p => exists b, add_point p M = (M', Ok b)
      | ORefine _ _ _ => True
      end.
    Proof.
      destruct op; cbn [mesh_step]; intros H.
      - apply bind_lift_ok in H. destruct H as (ed & Eed & H). apply mbind_ok in H. destruct H as ([] & M1 & H1 & H). inversion H; subst. exists ed. split; assumption.
      - apply mbind_ok in H. destruct H as ([] & M1 & H1 & H). inversion H; subst. exact H1.
      - apply bind_lift_ok in H. destruct H as (ed & Eed & H). apply mbind_ok in H. destruct H as ([] & M1 & H1 & H). inversion H; subst. exists ed. split; assumption.
      - apply mbind_ok in H. destruct H as ([] & M1 & H1 & H). inversion H; subst. exact H1.
      - apply mbind_ok in H. destruct H as (b & M1 & H1 & H). inversion H; subst. exists b. exact H1.
      - exact I.
    Qed.
    Theorem region_history_area (ops : list (mop R)) (M : Mesh R) :
      good_run on_line (fun _ => True) M ops -> area2 (fst (mesh_run M ops)) = area2 M.
    Proof.
      apply (history_gen area2). clear M ops. intros M op M' x Hg H. apply step_inv in H. destruct op; cbn [geo_ok] in Hg.
      - destruct H as (ed & Eed & H). destruct Hg as [Hg _]. eapply region_split_edge_area; [apply Hg; exact Eed | exact H].
      - apply (region_split_triangle o e1 e2 _ _ _ _ H).
      - destruct H as (ed & Eed & H). apply (region_flip o e1 e2 _ _ _ _ (Hg ed Eed) H).
      - apply (region_restore Inv Inv_shared Inv_flip _ _ _ Hg H).
      - destruct H as (b & H). destruct Hg as [Hg _]. eapply region_add_point_area; eassumption.
      - contradiction.
    Qed.
    Theorem region_history_cover (d q : P2) (ops : list (mop R)) (M : Mesh R) :
      good_run between (fun p => hgt d q (pr p) <> 0) M ops -> coverM d (fst (mesh_run M ops)) q = coverM d M q.
    Proof.
      apply (history_gen (fun M => coverM d M q)). clear M ops. intros M op M' x Hg H. apply step_inv in H. destruct op; cbn [geo_ok] in Hg.
      - destruct H as (ed & Eed & H). destruct Hg as [Hg Hq]. eapply region_split_edge_cover; [apply Hg; exact Eed | exact Hq | exact H].
      - apply (region_split_triangle o e1 e2 _ _ _ _ H).
      - destruct H as (ed & Eed & H). apply (region_flip o e1 e2 _ _ _ _ (Hg ed Eed) H).
      - apply (region_restore Inv Inv_shared Inv_flip _ _ _ Hg H).
      - destruct H as (b & H). destruct Hg as [Hg Hq]. eapply region_add_point_cover; eassumption.
      - contradiction.
    Qed.
  End History.
End RegionHistory.

(** ** what Triangle3D::new guarantees makes the rotation hypothesis of [hemi_ok] automatic (real instance) *)
Section Nondeg.
  Local Open Scope R_scope.
  Notation VR := (V3 R).
  Definition tri_nondeg (T : Tri R) : Prop :=
    vcompare (ta T) (tb T) = false /\ vcompare (ta T) (tc T) = false /\ vcompare (tb T) (tc T) = false.
  Lemma vcompare_refl_R (a : VR) : vcompare a a = true.
  Proof.
    unfold vcompare, c1em5. rnum.
    assert (E : forall x : R, Rltb (Rabs (x - x)) (1 / 100000) = true)
      by (intros x; apply Rltb_true; replace (x - x) with 0 by ring; rewrite Rabs_R0; lra).
    rewrite !E. reflexivity.
  Qed.
  Lemma vcompare_sym_R (a b : VR) : vcompare a b = vcompare b a.
  Proof. unfold vcompare. rnum. rewrite (Rabs_minus_sym (vx a)), (Rabs_minus_sym (vy a)), (Rabs_minus_sym (vz a)). reflexivity. Qed.
  Lemma tri_new_nondeg (a b c : VR) (T : Tri R) : tri_new a b c = Ok T -> tri_nondeg T.
  Proof.
    intros H. pose proof (tri_new_pts _ _ _ _ H) as P. unfold tri_pts in P. inversion P as [[Pa Pb Pc]]. unfold tri_new in H.
    destruct (vcompare a b) eqn:E1; [discriminate|]. destruct (vcompare a c) eqn:E2; [discriminate|]. destruct (vcompare b c) eqn:E3; [discriminate|].
    unfold tri_nondeg. rewrite Pa, Pb, Pc. auto.
  Qed.
  Lemma seg_self (T : Tri R) (k : N) (ab : Seg R) : tri_nondeg T -> tri_segment T k = Ok ab -> tri_get_edge_index_from_segment T ab = Some k.
  Proof.
    intros (H1 & H2 & H3) Hk.
    pose proof (vcompare_refl_R (ta T)) as Ra. pose proof (vcompare_refl_R (tb T)) as Rb. pose proof (vcompare_refl_R (tc T)) as Rc.
    pose proof H1 as H1'. pose proof H2 as H2'. pose proof H3 as H3'. rewrite vcompare_sym_R in H1', H2', H3'.
    unfold tri_get_edge_index_from_segment, seg_compare, tri_ab, tri_bc, tri_ca, seg_new. cbn [sstart send].
    unfold tri_segment in Hk. destruct k as [|[[|[]|]|[|[]|]|]]; try discriminate; inversion Hk; subst ab; unfold tri_ab, tri_bc, tri_ca, seg_new; cbn [sstart send];
      rewrite ?Ra, ?Rb, ?Rc, ?H1, ?H2, ?H3, ?H1', ?H2', ?H3'; reflexivity.
  Qed.
  Lemma hemi_rot (T : Tri R) (sg : Seg R) (a b c : VR) : tri_nondeg T -> hemi_verts T sg = Ok (a, b, c) -> rot3 (tri_pts T) (a, b, c).
  Proof.
    intros Hn H. unfold hemi_verts in H.
    destruct (tri_get_edge_index_from_segment T sg) as [k|]; cbn [rbind] in H; [|discriminate].
    destruct (tri_segment T k) as [ab| |] eqn:Ek; cbn [rbind] in H; try discriminate.
    unfold get_opposite_vertex in H. rewrite (seg_self T k ab Hn Ek) in H.
    unfold tri_segment in Ek. destruct k as [|[[|[]|]|[|[]|]|]]; try discriminate; inversion Ek; subst ab; cbn [tri_vertex rbind] in H;
      unfold tri_ab, tri_bc, tri_ca, seg_new in H; cbn [sstart send] in H; inversion H; subst; unfold rot3, tri_pts; auto.
  Qed.
  (** every live triangle was built by Triangle3D::new *)
  Definition AllNondeg (M : Mesh R) : Prop := forall T, In T (live_tris M) -> tri_nondeg T.
  Lemma nondeg_replace (M M' : Mesh R) (news rest olds : list (Tri R)) :
    Permutation (live_tris M) (olds ++ rest) -> Permutation (live_tris M') (news ++ rest) -> (forall T, In T news -> tri_nondeg T) ->
    AllNondeg M -> AllNondeg M'.
  Proof.
    intros P0 P1 Hn HA T HT. apply (Permutation_in _ P1) in HT. apply in_app_or in HT. destruct HT as [HT|HT]; [apply Hn; exact HT|].
    apply HA. apply (Permutation_in _ (Permutation_sym P0)). apply in_or_app. right. exact HT.
  Qed.
  Theorem nondeg_split_triangle i p (M M' : Mesh R) : split_triangle i p M = (M', Ok tt) -> AllNondeg M -> AllNondeg M'.
  Proof.
    intros H. destruct (live_split_triangle i p M M' H) as (t & T1 & T2 & T3 & rest & _ & _ & E1 & E2 & E3 & P0 & P1).
    apply (nondeg_replace M M' [T1; T2; T3] rest [tp_tri t] P0 P1). intros T [<-|[<-|[<-|[]]]]; eapply tri_new_nondeg; eassumption.
  Qed.
  Theorem nondeg_flip i e (M M' : Mesh R) : WF M -> flip_diagonal i e M = (M', Ok tt) -> AllNondeg M -> AllNondeg M'.
  Proof.
    intros W H. destruct (live_flip i e M M' H) as (t & ni & nb & a & b & c & op & T1 & T2 & rest & Et & _ & En & _ & _ & _ & E1 & E2 & P).
    destruct (W i t Et e ni En) as [_ Hne]. destruct (P Hne) as [P0 P1].
    apply (nondeg_replace M M' [T1; T2] rest [tp_tri t; tp_tri nb] P0 P1). intros T [<-|[<-|[]]]; eapply tri_new_nondeg; eassumption.
  Qed.
  Lemma in_live (M : Mesh R) (j : nat) (u : TriPiece R) : nth_error (tris M) j = Some u -> tp_valid u = true -> In (tp_tri u) (live_tris M).
  Proof. intros H Hv. destruct (live_l_in j u (tris M) H Hv) as (l1 & l2 & E). unfold live_tris. rewrite E. apply in_elt. Qed.
  (** with every live triangle built by Triangle3D::new, the hypothesis of the split_edge theorems is: in each hemisphere
      the point lies on (strictly inside) the edge that compares equal to the split segment; the neighbour is live *)
  Definition split_edge_pts (Q : VR -> VR -> VR -> Prop) (M : Mesh R) (i : nat) (e : Edge) (p : VR) : Prop :=
    forall t sg, nth_error (tris M) i = Some t -> tp_valid t = true -> tri_segment (tp_tri t) (edge_as_i e) = Ok sg ->
      (forall a b c, hemi_verts (tp_tri t) sg = Ok (a, b, c) -> Q p a b) /\
      (forall ni, tp_neighbour t e = Some ni ->
         ni <> i /\ exists nb, nth_error (tris M) ni = Some nb /\ tp_valid nb = true /\
                               forall a b c, hemi_verts (tp_tri nb) sg = Ok (a, b, c) -> Q p a b).
  Lemma split_edge_ok_of_nondeg Q (M : Mesh R) i e p : AllNondeg M -> split_edge_pts Q M i e p -> split_edge_ok Q M i e p.
  Proof.
    intros HA H t sg Et Ev Es. destruct (H t sg Et Ev Es) as [H1 H2]. split.
    - intros a b c Hv. split; [apply (hemi_rot _ sg); [apply HA; eapply in_live; eassumption | exact Hv] | eapply H1; exact Hv].
    - intros ni En. destruct (H2 ni En) as (Hne & nb & A & B & C). split; [exact Hne|]. exists nb. split; [exact A | split; [exact B|]].
      intros a b c Hv. split; [apply (hemi_rot _ sg); [apply HA; eapply in_live; eassumption | exact Hv] | eapply C; exact Hv].
  Qed.
End Nondeg.

(** ** orientation: positively oriented meshes stay positively oriented *)
Section Orientation.
  Local Open Scope R_scope.
  Notation VR := (V3 R).
  Notation T2 := (P2 * P2 * P2)%type.
  Variables o e1 e2 : V3 R.
  Notation pr := (C05_pointtest.plane2 o e1 e2).
  Definition pos3 (x : T2) : Prop := 0 < orient (fst (fst x)) (snd (fst x)) (snd x).
  Definition AllPos (M : Mesh R) : Prop := Forall pos3 (tris2 o e1 e2 M).
  Lemma pos3_rot3 (x y : T2) : rot3 x y -> pos3 x -> pos3 y.
  Proof. destruct y as [[a b] c]. unfold pos3. intros [E|[E|E]]; subst x; cbn [fst snd]; [tauto | rewrite orient_rot; tauto | rewrite <- orient_rot; tauto]. Qed.
  Notation all_pos := (fun l : list (Tri R) => Forall pos3 (map (t2 o e1 e2) l)).
  Notation impl := (fun A B : Prop => A -> B).
  Notation impl_trans := (fun (A B C : Prop) (f : A -> B) (g : B -> C) x => g (f x)).
  Lemma pos_perm l l' : Permutation l l' -> all_pos l -> all_pos l'.
  Proof. intros P. apply Permutation_Forall, Permutation_map, P. Qed.
  Lemma pos_app l1 l2 l1' l2' : (all_pos l1 -> all_pos l2) -> (all_pos l1' -> all_pos l2') -> all_pos (l1 ++ l1') -> all_pos (l2 ++ l2').
  Proof. cbv beta. rewrite !map_app, !Forall_app. tauto. Qed.
  Definition pos_replace := mu_replace all_pos impl impl_trans pos_perm pos_app.
  (** split_triangle at a point strictly inside the triangle *)
  Theorem pos_mesh_split_triangle (i : nat) (p : VR) (M M' : Mesh R) :
    (forall t, nth_error (tris M) i = Some t -> inside_tri (pr (ta (tp_tri t))) (pr (tb (tp_tri t))) (pr (tc (tp_tri t))) (pr p)) ->
    split_triangle i p M = (M', Ok tt) -> AllPos M -> AllPos M'.
  Proof.
    intros Hin H. destruct (live_split_triangle i p M M' H) as (t & T1 & T2 & T3 & rest & Et & _ & E1 & E2 & E3 & P0 & P1).
    apply (pos_replace M M' [tp_tri t] [T1; T2; T3] rest P0 P1). cbn [map]. intros Ho. inversion Ho as [|x l Hp _]; subst.
    rewrite (t2_new _ _ _ _ _ _ _ E1), (t2_new _ _ _ _ _ _ _ E2), (t2_new _ _ _ _ _ _ _ E3).
    destruct (pos_split_triangle _ _ _ _ Hp (Hin t Et)) as (A & B & C). repeat constructor; assumption.
  Qed.
  (** split_edge at a point strictly inside the edge *)
  Theorem pos_mesh_split_edge (i : nat) (e : Edge) (p : VR) (M M' : Mesh R) :
    split_edge_ok between M i e p -> split_edge i e p M = (M', Ok tt) -> AllPos M -> AllPos M'.
  Proof.
    apply (mu_split_edge all_pos impl impl_trans pos_perm pos_app between i e p M M').
    intros T TA TB a b c Hrot (s & Hs & Hp) EA EB HT. cbn [map] in *. rewrite (t2_new _ _ _ _ _ _ _ EA), (t2_new _ _ _ _ _ _ _ EB).
    apply Forall_inv in HT. apply (pos3_rot3 _ _ (rot3_t2 o e1 e2 _ _ _ _ Hrot)) in HT. unfold pos3 in *. cbn [fst snd] in *.
    rewrite Hp, pr_lerp. destruct (pos_split_edge _ _ _ s Hs HT). repeat constructor; assumption.
  Qed.
  (** flip across a strictly convex quadrilateral a, opp, b, c (in the plane coordinates: the turns at opp, b (second
      triangle) and a have the sign of the triangle -- the 2-D reading of the four cross products of [is_convex]) *)
  Definition flip_convex (M : Mesh R) (i : nat) (e : Edge) : Prop :=
    forall t ni nb a b c op, nth_error (tris M) i = Some t -> tp_neighbour t e = Some ni -> nth_error (tris M) ni = Some nb ->
      flip_verts (tp_tri t) (tp_tri nb) e = Ok (a, b, c, op) ->
      0 < orient (pr a) (pr op) (pr b) /\ 0 < orient (pr op) (pr b) (pr c) /\ 0 < orient (pr c) (pr a) (pr op).
  Theorem pos_mesh_flip (i : nat) (e : Edge) (M M' : Mesh R) :
    flip_shared M i e -> flip_convex M i e -> flip_diagonal i e M = (M', Ok tt) -> AllPos M -> AllPos M'.
  Proof.
    intros Hs Hc H. destruct (live_flip i e M M' H) as (t & ni & nb & a & b & c & op & T1 & T2 & rest & Et & Ev & En & Enb & Evn & FV & E1 & E2 & P).
    destruct (Hs t ni nb a b c op Et Ev En Enb Evn FV) as [Hne Hrot]. destruct (P Hne) as [P0 P1].
    destruct (Hc t ni nb a b c op Et En Enb FV) as (C1 & C2 & C3).
    apply (pos_replace M M' [tp_tri t; tp_tri nb] [T1; T2] rest P0 P1). cbn [map]. intros _.
    rewrite (t2_new _ _ _ _ _ _ _ E1), (t2_new _ _ _ _ _ _ _ E2).
    destruct (pos_flip _ _ _ _ C2 C3). repeat constructor; assumption.
  Qed.
End Orientation.

(** ** the model's [is_convex] (the test [get_flipped_aspect_ratio] -- hence [restore_delaunay] -- applies before it proposes a
    flip) read in the plane coordinates: for four points of the plane o + u e1 + v e2 of an orthonormal frame, the four
    cross products "same direction" means the four turns of the quadrilateral have the same strict sign *)
Section ConvexBridge.
  Local Open Scope R_scope.
  Notation VR := (V3 R).
  Variables o e1 e2 : V3 R.
  Notation pr := (C05_pointtest.plane2 o e1 e2).
  Hypothesis E11 : vdot e1 e1 = 1.
  Hypothesis E22 : vdot e2 e2 = 1.
  Hypothesis E12 : vdot e1 e2 = 0.
  Definition emb (u v : R) : VR := vadd o (vadd (vscale e1 u) (vscale e2 v)).
  Definition in_plane (p : VR) : Prop := exists u v : R, p = emb u v.
  Lemma pr_emb (u v : R) : pr (emb u v) = (u, v).
  Proof.
    pose proof E11 as H1. pose proof E22 as H2. pose proof E12 as H3.
    unfold C05_pointtest.plane2, emb, vdot, vsub, vadd, vscale in *. cbn [vx vy vz] in *. rnum. f_equal.
    - transitivity (u * (vx e1 * vx e1 + vy e1 * vy e1 + vz e1 * vz e1) + v * (vx e1 * vx e2 + vy e1 * vy e2 + vz e1 * vz e2)); [ring | rewrite H1, H3; ring].
    - transitivity (u * (vx e1 * vx e2 + vy e1 * vy e2 + vz e1 * vz e2) + v * (vx e2 * vx e2 + vy e2 * vy e2 + vz e2 * vz e2)); [ring | rewrite H2, H3; ring].
  Qed.
  Lemma cross_dot_emb (u1 v1 u2 v2 u3 v3 u1' v1' u2' v2' u3' v3' : R) :
    vdot (vcross (vsub (emb u2 v2) (emb u1 v1)) (vsub (emb u3 v3) (emb u2 v2)))
         (vcross (vsub (emb u2' v2') (emb u1' v1')) (vsub (emb u3' v3') (emb u2' v2'))) =
    orient (u1, v1) (u2, v2) (u3, v3) * orient (u1', v1') (u2', v2') (u3', v3') * vdot (vcross e1 e2) (vcross e1 e2).
  Proof. unfold emb, vdot, vcross, vsub, vadd, vscale, orient. cbn [vx vy vz fst snd]. rnum. ring. Qed.
  Lemma frame_unit : vdot (vcross e1 e2) (vcross e1 e2) = 1.
  Proof.
    pose proof E11 as H1. pose proof E22 as H2. pose proof E12 as H3. unfold vdot, vcross in *. cbn [vx vy vz] in *. rnum.
    transitivity ((vx e1 * vx e1 + vy e1 * vy e1 + vz e1 * vz e1) * (vx e2 * vx e2 + vy e2 * vy e2 + vz e2 * vz e2)
                  - (vx e1 * vx e2 + vy e1 * vy e2 + vz e1 * vz e2) * (vx e1 * vx e2 + vy e1 * vy e2 + vz e1 * vz e2)); [ring | rewrite H1, H2, H3; ring].
  Qed.
  Lemma same_direction_dot (a v : VR) : vis_same_direction a v = true -> 0 < vdot a v.
  Proof. unfold vis_same_direction. destruct (negb (vis_parallel a v)); [discriminate|]. rnum. intros H. apply Rltb_true in H. exact H. Qed.
  Theorem is_convex_2d (a b c d : VR) :
    in_plane a -> in_plane b -> in_plane c -> in_plane d -> is_convex a b c d = true ->
    0 < orient (pr a) (pr b) (pr c) * orient (pr b) (pr c) (pr d) /\
    0 < orient (pr a) (pr b) (pr c) * orient (pr c) (pr d) (pr a) /\
    0 < orient (pr a) (pr b) (pr c) * orient (pr d) (pr a) (pr b).
  Proof.
    intros (ua & va & ->) (ub & vb & ->) (uc & vc & ->) (ud & vd & ->) H. rewrite !pr_emb.
    unfold is_convex, is_convex_tag in H.
    destruct (vis_zero _); [discriminate|]. destruct (vis_zero _); [discriminate|].
    destruct (vis_same_direction _ _) eqn:S1; cbn [negb] in H; [|discriminate].
    destruct (vis_zero _); [discriminate|].
    destruct (vis_same_direction _ _) eqn:S2 in H; cbn [negb] in H; [|discriminate].
    destruct (vis_zero _); [discriminate|].
    destruct (vis_same_direction _ _) eqn:S3 in H; cbn [negb] in H; [|discriminate].
    apply same_direction_dot in S1. apply same_direction_dot in S2. apply same_direction_dot in S3.
    rewrite cross_dot_emb, frame_unit in S1, S2, S3. repeat split; lra.
  Qed.
  (** hence: the quadrilateral (a, opp, b, c) that [is_convex] accepts, with (a,b,c) positively oriented, is the
      hypothesis [flip_convex] *)
  Corollary is_convex_flip_convex (a op b c : VR) :
    in_plane a -> in_plane op -> in_plane b -> in_plane c -> is_convex a op b c = true -> 0 < orient (pr a) (pr b) (pr c) ->
    0 < orient (pr a) (pr op) (pr b) /\ 0 < orient (pr op) (pr b) (pr c) /\ 0 < orient (pr c) (pr a) (pr op).
  Proof.
    intros Ha Ho Hb Hc H Hp. destruct (is_convex_2d a op b c Ha Ho Hb Hc H) as (H1 & H2 & H3).
    rewrite (orient_rot (pr a) (pr b) (pr c)) in H2. (* orient b c a = orient a b c *)
    assert (P1 : 0 < orient (pr a) (pr op) (pr b)) by nra. repeat split; [exact P1 | nra | nra].
  Qed.
End ConvexBridge.
