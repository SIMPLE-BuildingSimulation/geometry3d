(** * Mesh_links (C08, the link geometry as an INVARIANT).  Every number instance.

    [LNKG M]: for every live slot i and edge e with [tp_neighbour t e = Some j]: j <> i, slot j is live, and slot j has
    an edge e' whose two points are EXACTLY (Leibniz equality of the V3 values) the points of e in the opposite order, and
    [tp_neighbour t_j e' = Some i].  (= [LNK] + reciprocity + [flip_shared] packaged per link.  The REVERSED order is
    required -- and is what the steps produce -- because the region identities need it.)
    [SEP M]: on the vertices of the live triangles [Point3D::compare] (tolerance 1e-5) decides Leibniz equality:
    [vcompare x y = true <-> x = y] (no two distinct mesh vertices within the tolerance; every vertex compares equal to
    itself: no NaN).  [DIST M]: the three vertices of every live triangle are distinct (under SEP: what Triangle3D::new checks).
    Under SEP the coordinate comparisons of [mark_as_neighbours] / [get_edge_index_from_segment] identify edges exactly,
    every [mark_as_neighbours] of a step is deterministic, and the final neighbour table is a list of overrides of the
    initial one: LNKG and DIST are re-established by split_triangle, flip_diagonal, split_edge returning Ok. *)
From Coq Require Import ZArith Bool List Arith Lia Permutation.
From G3 Require Import Model.Num Model.Base Model.Vec Model.Segment Model.Triangle Model.Loop Model.Polygon Model.Triangulation
  Proofs.Mesh_base Proofs.Mesh_wf Proofs.Mesh_sites Proofs.Mesh_conf Proofs.Mesh_region Proofs.Mesh_atomic.
Import ListNotations.

Section Links.
  Context {K : Type} {NK : Num K}.
  Notation V := (V3 K).
  Notation TP := (TriPiece K).
  Notation Mesh := (Mesh K).

  Definition edge_pts (T : Tri K) (e : Edge) : V * V :=
    match e with Ab => (ta T, tb T) | Bc => (tb T, tc T) | Ca => (tc T, ta T) end.
  Definition rev2 (x : V * V) : V * V := (snd x, fst x).
  Definition pair_of (s : Seg K) : V * V := (sstart s, send s).
  Definition same_seg (p q : V * V) : Prop := p = q \/ p = rev2 q.
  Definition tri_distinct (T : Tri K) : Prop := ta T <> tb T /\ ta T <> tc T /\ tb T <> tc T.
  Definition tri_in (P : V -> Prop) (T : Tri K) : Prop := P (ta T) /\ P (tb T) /\ P (tc T).
  Definition VSEP (P : V -> Prop) : Prop := forall x y, P x -> P y -> (vcompare x y = true <-> x = y).

  Lemma VSEP_sub (P Q : V -> Prop) : (forall x, Q x -> P x) -> VSEP P -> VSEP Q.
  Proof. intros H HP x y A B. apply HP; apply H; assumption. Qed.
  Fixpoint sepb (l : list V) : bool :=
    match l with
    | [] => true
    | x :: t => vcompare x x && forallb (fun y => negb (vcompare x y || vcompare y x)) t && sepb t
    end.
  Lemma sepb_sound (l : list V) : sepb l = true -> VSEP (fun x => In x l).
  Proof.
    induction l as [|a t IH]; intros H x y Hx Hy; [destruct Hx|]. cbn [sepb] in H. apply andb_prop in H. destruct H as [H Ht].
    apply andb_prop in H. destruct H as [Ha Hall]. rewrite forallb_forall in Hall.
    assert (N : forall u, In u t -> vcompare a u = false /\ vcompare u a = false /\ a <> u).
    { intros u Hu. specialize (Hall u Hu). apply negb_true_iff, orb_false_elim in Hall. destruct Hall as [N1 N2].
      split; [exact N1 | split; [exact N2|]]. intros ->. congruence. }
    destruct Hx as [<-|Hx], Hy as [<-|Hy].
    - split; intros _; [reflexivity | exact Ha].
    - destruct (N y Hy) as (N1 & _ & N3). split; [congruence | contradiction].
    - destruct (N x Hx) as (_ & N2 & N3). split; [congruence | intros E; symmetry in E; contradiction].
    - apply (IH Ht); assumption.
  Qed.

  Lemma rev2_invol (x : V * V) : rev2 (rev2 x) = x. Proof. destruct x; reflexivity. Qed.
  Lemma same_seg_sym (p q : V * V) : same_seg p q -> same_seg q p.
  Proof. intros [E|E]; subst p; [left; reflexivity | right; symmetry; apply rev2_invol]. Qed.
  Lemma same_seg_rev (p q : V * V) : same_seg p q -> same_seg p (rev2 q).
  Proof. intros [E|E]; subst p; [right; symmetry; apply rev2_invol | left; reflexivity]. Qed.
  Lemma tri_segment_pts (T : Tri K) (e : Edge) : exists sg, tri_segment T (edge_as_i e) = Ok sg /\ pair_of sg = edge_pts T e.
  Proof. destruct e; eexists; split; reflexivity. Qed.
  Lemma edge_pts_in (P : V -> Prop) (T : Tri K) (e : Edge) : tri_in P T -> P (fst (edge_pts T e)) /\ P (snd (edge_pts T e)).
  Proof. intros (A & B & C). destruct e; cbn; auto. Qed.
  Lemma edge_unique (T : Tri K) (q : V * V) (e e2 : Edge) :
    tri_distinct T -> same_seg q (edge_pts T e) -> same_seg q (edge_pts T e2) -> e = e2.
  Proof.
    intros (D1 & D2 & D3) H1 H2. destruct q as [x y].
    destruct e, e2; try reflexivity; exfalso; unfold same_seg, rev2, edge_pts in H1, H2; cbn [fst snd] in H1, H2;
      destruct H1 as [H1|H1], H2 as [H2|H2]; inversion H1; inversion H2; subst; congruence.
  Qed.
  Lemma edge_pts_neq (T : Tri K) (e : Edge) : tri_distinct T -> fst (edge_pts T e) <> snd (edge_pts T e).
  Proof. intros (D1 & D2 & D3). destruct e; cbn; congruence. Qed.

  Section Sep.
    Variable P : V -> Prop.
    Hypothesis HP : VSEP P.
    Lemma seg_compare_exact (s o : Seg K) : P (sstart s) -> P (send s) -> P (sstart o) -> P (send o) ->
      (seg_compare s o = true <-> same_seg (pair_of s) (pair_of o)).
    Proof.
      intros A B C D. unfold seg_compare, same_seg, pair_of, rev2. cbn [fst snd]. rewrite orb_true_iff, !andb_true_iff.
      rewrite (HP _ _ A C), (HP _ _ B D), (HP _ _ B C), (HP _ _ A D). split.
      - intros [[E1 E2] | [E1 E2]]; rewrite E1, E2; [left | right]; reflexivity.
      - intros [E|E]; inversion E; subst; [left | right]; split; reflexivity.
    Qed.
    Lemma edge_index_sound (T : Tri K) (s : Seg K) (k : N) : tri_in P T -> P (sstart s) -> P (send s) ->
      tri_get_edge_index_from_segment T s = Some k -> exists e, k = edge_as_i e /\ same_seg (pair_of s) (edge_pts T e).
    Proof.
      intros (A & B & C) Hs He H. unfold tri_get_edge_index_from_segment in H.
      destruct (seg_compare s (tri_ab T)) eqn:E1; [inversion H; exists Ab; split; [reflexivity|]; apply (seg_compare_exact s (tri_ab T)); assumption|].
      destruct (seg_compare s (tri_bc T)) eqn:E2; [inversion H; exists Bc; split; [reflexivity|]; apply (seg_compare_exact s (tri_bc T)); assumption|].
      destruct (seg_compare s (tri_ca T)) eqn:E3; [inversion H; exists Ca; split; [reflexivity|]; apply (seg_compare_exact s (tri_ca T)); assumption|].
      discriminate.
    Qed.
    Lemma edge_index_complete (T : Tri K) (s : Seg K) (e : Edge) : tri_in P T -> tri_distinct T -> P (sstart s) -> P (send s) ->
      same_seg (pair_of s) (edge_pts T e) -> tri_get_edge_index_from_segment T s = Some (edge_as_i e).
    Proof.
      intros HT HD Hs He H. pose proof HT as (A & B & C). unfold tri_get_edge_index_from_segment.
      destruct (seg_compare s (tri_ab T)) eqn:E1.
      { apply (seg_compare_exact s (tri_ab T)) in E1; try assumption. rewrite (edge_unique T _ e Ab HD H E1). reflexivity. }
      destruct (seg_compare s (tri_bc T)) eqn:E2.
      { apply (seg_compare_exact s (tri_bc T)) in E2; try assumption. rewrite (edge_unique T _ e Bc HD H E2). reflexivity. }
      destruct (seg_compare s (tri_ca T)) eqn:E3.
      { apply (seg_compare_exact s (tri_ca T)) in E3; try assumption. rewrite (edge_unique T _ e Ca HD H E3). reflexivity. }
      exfalso. destruct e.
      - apply (seg_compare_exact s (tri_ab T)) in H; try assumption. congruence.
      - apply (seg_compare_exact s (tri_bc T)) in H; try assumption. congruence.
      - apply (seg_compare_exact s (tri_ca T)) in H; try assumption. congruence.
    Qed.
    Lemma edge_index_exact (T : Tri K) (s : Seg K) (e : Edge) (k : N) : tri_in P T -> tri_distinct T -> P (sstart s) -> P (send s) ->
      same_seg (pair_of s) (edge_pts T e) -> tri_get_edge_index_from_segment T s = Some k -> k = edge_as_i e.
    Proof. intros HT HD Hs He H Hk. rewrite (edge_index_complete T s e HT HD Hs He H) in Hk. inversion Hk; reflexivity. Qed.
    Lemma tri_new_distinct (a b c : V) (T : Tri K) : P a -> P b -> P c -> tri_new a b c = Ok T -> tri_distinct T.
    Proof.
      intros A B C H. pose proof (tri_new_pts _ _ _ _ H) as E. unfold tri_pts in E. inversion E as [[Ea Eb Ec]]. unfold tri_new in H.
      destruct (vcompare a b) eqn:E1; [discriminate|]. destruct (vcompare a c) eqn:E2; [discriminate|]. destruct (vcompare b c) eqn:E3; [discriminate|].
      unfold tri_distinct. rewrite Ea, Eb, Ec. repeat split; intros Heq; [apply (HP _ _ A B) in Heq | apply (HP _ _ A C) in Heq | apply (HP _ _ B C) in Heq]; congruence.
    Qed.
    Lemma tri_new_table (a b c : V) (T : Tri K) : P a -> P b -> P c -> tri_new a b c = Ok T ->
      tri_in P T /\ tri_distinct T /\ (a <> b /\ a <> c /\ b <> c) /\ edge_pts T Ab = (a, b) /\ edge_pts T Bc = (b, c) /\ edge_pts T Ca = (c, a).
    Proof.
      intros A B C H. pose proof (tri_new_distinct a b c T A B C H) as D. pose proof (tri_new_pts _ _ _ _ H) as E. unfold tri_pts in E. inversion E as [[Ea Eb Ec]].
      unfold tri_in, tri_distinct, edge_pts in *. rewrite Ea, Eb, Ec in D |- *. destruct D as (D1 & D2 & D3). repeat split; assumption || reflexivity.
    Qed.
  End Sep.

  Definition lk (M : Mesh) (j : nat) (e : Edge) : option nat :=
    match nth_error (tris M) j with Some t => tp_neighbour t e | None => None end.
  Definition lvM (M : Mesh) (j : nat) (T : Tri K) : Prop := lvT (skel (tris M)) j T.
  Definition good (M : Mesh) (j : nat) (e : Edge) (k : nat) : Prop :=
    k <> j /\ exists T U e', lvM M j T /\ lvM M k U /\ lk M k e' = Some j /\ edge_pts U e' = rev2 (edge_pts T e).
  (** [LNKG] fails in the middle of a step: once a slot is invalidated, the entries of its neighbours that still name it
      are bad until the linking suffix overwrites them.  [G B M] is [LNKG] with the entries in [B] exempt.  A step is followed
      by letting [B] grow at each invalidation (the entries naming the removed slot, [G_invalidate]) and shrink at each
      [mark_as_neighbours] (the two entries written, [G_mark]); [LNKG] is back when no live entry is left in [B] ([G_LNKG]).
      ([LNKs S] of Mesh_atomic is the same device for [LNK], the liveness half alone: there a set of slots is exempt.) *)
  Definition G (B : nat -> Edge -> Prop) (M : Mesh) : Prop :=
    forall j T, lvM M j T -> forall e k, lk M j e = Some k -> B j e \/ good M j e k.
  Definition LNKG (M : Mesh) : Prop := forall j T, lvM M j T -> forall e k, lk M j e = Some k -> good M j e k.
  Definition mesh_vert (M : Mesh) (x : V) : Prop := exists j T, lvM M j T /\ (x = ta T \/ x = tb T \/ x = tc T).
  Definition SEP (M : Mesh) : Prop := VSEP (mesh_vert M).
  Definition DIST (M : Mesh) : Prop := forall j T, lvM M j T -> tri_distinct T.

  Lemma LNKG_G M : LNKG M -> G (fun _ _ => False) M.
  Proof. intros H j T L e k E. right. eapply H; eassumption. Qed.
  Lemma G_LNKG (B : nat -> Edge -> Prop) M : G B M -> (forall j T e k, lvM M j T -> lk M j e = Some k -> ~ B j e) -> LNKG M.
  Proof. intros H HB j T L e k E. destruct (H j T L e k E) as [A|A]; [exfalso; eapply HB; eassumption | exact A]. Qed.
  Lemma G_weaken (B B' : nat -> Edge -> Prop) M : (forall j e, B j e -> B' j e) -> G B M -> G B' M.
  Proof. intros HB H j T L e k E. destruct (H j T L e k E); auto. Qed.
  Lemma lvM_fun M j T U : lvM M j T -> lvM M j U -> T = U.
  Proof. unfold lvM, lvT. intros A B. rewrite A in B. inversion B. reflexivity. Qed.
  Lemma lvM_live M j T : lvM M j T -> live M j.
  Proof. intros H. destruct (lvT_slot _ _ _ H) as (t & A & B & _). exists t. split; assumption. Qed.
  Lemma mesh_vert_tri M j T : lvM M j T -> tri_in (mesh_vert M) T.
  Proof. intros H. repeat split; exists j, T; split; auto. Qed.
  Lemma LNKG_LNK M : LNKG M -> LNK M.
  Proof.
    intros H j t Hj Hv e k Hk. assert (L : lvM M j (tp_tri t)) by (apply slot_lvT; assumption).
    assert (E : lk M j e = Some k) by (unfold lk; rewrite Hj; exact Hk).
    destruct (H j _ L e k E) as (_ & T & U & e' & _ & LU & _). eapply lvM_live; exact LU.
  Qed.
  Lemma LNKG_WF_neq M j T e k : LNKG M -> lvM M j T -> lk M j e = Some k -> k <> j.
  Proof. intros H L E. exact (proj1 (H j T L e k E)). Qed.

  Lemma G_ext (B : nat -> Edge -> Prop) M M' : skel (tris M') = skel (tris M) -> (forall j e, lk M' j e = lk M j e) -> G B M -> G B M'.
  Proof.
    intros Hs Hl H j T L e k E. unfold lvM in *. rewrite Hs in L. rewrite Hl in E. destruct (H j T L e k E) as [A | (A1 & T' & U & e' & A2 & A3 & A4 & A5)]; [left; exact A|].
    right. split; [exact A1|]. exists T', U, e'. unfold lvM. rewrite Hs, Hl. repeat split; assumption.
  Qed.

  Lemma lk_invalidate (i : nat) (M M' : Mesh) (r : res unit) : mesh_invalidate i M = (M', r) -> forall j e, lk M' j e = lk M j e.
  Proof.
    intros H j e. unfold mesh_invalidate in H. destruct (Nat.ltb _ _); [|inversion H; reflexivity].
    assert (E : tris M' = upd i tp_invalidate (tris M)) by (destruct (nvalid M); inversion H; reflexivity).
    unfold lk. rewrite E, nth_error_upd. destruct (Nat.eqb i j); [|reflexivity].
    destruct (nth_error (tris M) j) as [t|]; cbn [option_map]; [apply invalidate_neighbours | reflexivity].
  Qed.
  Lemma lv_invalidate (i : nat) (t : TP) (M M' : Mesh) : nth_error (tris M) i = Some t -> mesh_invalidate i M = (M', Ok tt) ->
    forall j T, lvM M' j T <-> (lvM M j T /\ j <> i).
  Proof.
    intros Et H j T. destruct (invalidate_slot _ _ _ _ Et H) as (E & _). unfold lvM, lvT. rewrite !skel_nth, E, nth_error_upd.
    destruct (Nat.eqb_spec i j) as [->|Hne].
    - rewrite Et. cbn [option_map tp_invalidate tp_tri tp_valid]. split; [intros A; inversion A | intros [_ A]; exfalso; apply A; reflexivity].
    - split; [intros A; split; [exact A | congruence] | intros [A _]; exact A].
  Qed.
  Lemma push_nth (a b c : V) (la : nat) (M M' : Mesh) (n : nat) :
    mesh_push a b c la M = (M', Ok n) -> forall j, j <> n -> nth_error (tris M') j = nth_error (tris M) j.
  Proof.
    intros H j Hj. destruct (push_ok_nth _ _ _ _ _ _ _ H) as (t & _ & _ & _ & Ho). exact (Ho j Hj).
  Qed.
  Lemma push_lk_lv (a b c : V) (la : nat) (M M' : Mesh) (n : nat) :
    mesh_push a b c la M = (M', Ok n) ->
    exists T, tri_new a b c = Ok T /\ lvM M' n T /\ (forall e, lk M' n e = None) /\ (forall U, ~ lvM M n U) /\
      (forall j, j <> n -> (forall e, lk M' j e = lk M j e) /\ (forall U, lvM M' j U <-> lvM M j U)).
  Proof.
    intros H. destruct (push_tri _ _ _ _ _ _ _ H) as ((t & Et & Vt & Qt) & _). destruct (push_slot _ _ _ _ _ _ _ H) as (D & _ & _ & _ & _ & Hnew).
    exists (tp_tri t). split; [exact Qt|]. split; [apply slot_lvT; assumption|]. split; [intros e; unfold lk; rewrite Et; apply (Hnew t Et)|].
    split; [intros U L; apply D; eapply lvM_live; exact L|].
    intros j Hj. pose proof (push_nth _ _ _ _ _ _ _ H j Hj) as E. split; [intros e; unfold lk; rewrite E; reflexivity|].
    intros U. unfold lvM, lvT. rewrite !skel_nth, E. reflexivity.
  Qed.

  Lemma G_invalidate (B : nat -> Edge -> Prop) (i : nat) (t : TP) (M M' : Mesh) :
    nth_error (tris M) i = Some t -> mesh_invalidate i M = (M', Ok tt) -> G B M -> G (fun j e => B j e \/ lk M j e = Some i) M'.
  Proof.
    intros Et H HG j T L e k E. pose proof (lv_invalidate _ _ _ _ Et H) as Hlv. pose proof (lk_invalidate _ _ _ _ H) as Hlk.
    apply Hlv in L. destruct L as [L Hji]. rewrite Hlk in E.
    destruct (Nat.eq_dec k i) as [->|Hki]; [left; right; exact E|].
    destruct (HG j T L e k E) as [A | (A1 & T' & U & e' & A2 & A3 & A4 & A5)]; [left; left; exact A|].
    right. split; [exact A1|]. exists T', U, e'. rewrite Hlk. repeat split; try assumption; apply Hlv; split; assumption.
  Qed.
  Lemma G_push (B : nat -> Edge -> Prop) (a b c : V) (la : nat) (M M' : Mesh) (n : nat) :
    mesh_push a b c la M = (M', Ok n) -> G B M -> G B M'.
  Proof.
    intros H HG j T L e k E. destruct (push_lk_lv _ _ _ _ _ _ _ H) as (Tn & _ & Ln & Hnone & Hdead & Hold).
    destruct (Nat.eq_dec j n) as [->|Hjn]; [rewrite Hnone in E; discriminate|].
    destruct (Hold j Hjn) as [Hl Hv]. rewrite Hl in E. apply Hv in L.
    destruct (HG j T L e k E) as [A | (A1 & T' & U & e' & A2 & A3 & A4 & A5)]; [left; exact A|].
    assert (Hkn : k <> n) by (intros ->; exact (Hdead U A3)). destruct (Hold k Hkn) as [Hl' Hv'].
    right. split; [exact A1|]. exists T', U, e'. rewrite Hl'. repeat split; try assumption; [apply Hv; exact A2 | apply Hv'; exact A3].
  Qed.

  Lemma edge_eq_dec (e e' : Edge) : {e = e'} + {e <> e'}.
  Proof. decide equality. Qed.
  Lemma entry_dec (j i : nat) (e e0 : Edge) : (j = i /\ e = e0) \/ ~ (j = i /\ e = e0).
  Proof. destruct (Nat.eq_dec j i) as [->|], (edge_eq_dec e e0) as [->|]; [left; split; reflexivity | right; intros [? ?]; contradiction ..]. Qed.
  Lemma lk_upd_set (i : nat) (e0 : Edge) (v : nat) (l : list TP) (nv : nat) (j : nat) (e : Edge) : i < length l ->
    lk (mkMesh (upd i (tp_set_neighbour e0 v) l) nv) j e = if Nat.eq_dec j i then (if edge_eq_dec e e0 then Some v else lk (mkMesh l nv) j e) else lk (mkMesh l nv) j e.
  Proof.
    intros Hi. unfold lk. cbn [tris]. rewrite nth_error_upd. destruct (Nat.eq_dec j i) as [->|Hne].
    - rewrite Nat.eqb_refl. destruct (nth_error l i) as [t|] eqn:Et; [|apply nth_error_None in Et; lia]. cbn [option_map].
      destruct (edge_eq_dec e e0) as [->|He]; [destruct e0; reflexivity | destruct e0, e; try reflexivity; exfalso; apply He; reflexivity].
    - destruct (Nat.eqb_spec i j); [exfalso; apply Hne; congruence | reflexivity].
  Qed.
  Lemma mark_exact (i1 : nat) (e1 : Edge) (i2 : nat) (T1 T2 : Tri K) (k0 : Edge) (M M' : Mesh) :
    lvM M i1 T1 -> lvM M i2 T2 -> i1 <> i2 ->
    (forall sg k, tri_segment T1 (edge_as_i e1) = Ok sg -> tri_get_edge_index_from_segment T2 sg = Some k -> k = edge_as_i k0) ->
    mark_as_neighbours i1 e1 i2 M = (M', Ok tt) ->
    skel (tris M') = skel (tris M) /\
    lk M' i1 e1 = Some i2 /\ lk M' i2 k0 = Some i1 /\
    (forall j e, ~ (j = i1 /\ e = e1) -> ~ (j = i2 /\ e = k0) -> lk M' j e = lk M j e).
  Proof.
    intros L1 L2 Hne Hdet H. pose proof (sk_mark _ _ _ _ _ _ H) as Hsk. split; [exact Hsk|].
    destruct (lvT_slot _ _ _ L1) as (t1 & E1 & V1 & Q1). destruct (lvT_slot _ _ _ L2) as (t2 & E2 & V2 & Q2).
    unfold mark_as_neighbours in H. destruct (Nat.eqb_spec i1 i2) as [Heq|_]; [contradiction|].
    apply bind_get_ok in H. destruct H as (t1' & E1' & H). rewrite E1 in E1'. inversion E1'; subst t1'. clear E1'.
    rewrite V1 in H. cbn [negb] in H.
    apply bind_lift_ok in H. destruct H as (sg & Es & H).
    apply bind_get_ok in H. destruct H as (t2' & E2' & H). rewrite E2 in E2'. inversion E2'; subst t2'. clear E2'.
    rewrite V2 in H. cbn [negb] in H.
    apply bind_lift_ok in H. destruct H as (k & Ek & H).
    destruct (tri_get_edge_index_from_segment (tp_tri t2) sg) as [k'|] eqn:Ek'; inversion Ek; subst k'. clear Ek.
    rewrite Q1 in Es. rewrite Q2 in Ek'. pose proof (Hdet sg k Es Ek') as Hk. subst k.
    apply bind_lift_ok in H. destruct H as (ed & Eed & H).
    assert (ed = k0) by (destruct k0; cbn in Eed; inversion Eed; reflexivity). subst ed.
    assert (A1 : i1 < length (tris M)) by (apply nth_error_Some; congruence).
    assert (A2 : i2 < length (tris M)) by (apply nth_error_Some; congruence).
    unfold mbind, mupd in H. pose proof A1 as A1'. pose proof A2 as A2'. apply Nat.ltb_lt in A1', A2'. rewrite A1' in H. cbn [tris nvalid] in H. rewrite upd_length, A2' in H.
    inversion H; subst M'. clear H.
    assert (F : forall j e, lk (mkMesh (upd i2 (tp_set_neighbour k0 i1) (upd i1 (tp_set_neighbour e1 i2) (tris M))) (nvalid M)) j e =
                  if Nat.eq_dec j i2 then (if edge_eq_dec e k0 then Some i1 else lk M j e)
                  else if Nat.eq_dec j i1 then (if edge_eq_dec e e1 then Some i2 else lk M j e) else lk M j e).
    { intros j e. rewrite lk_upd_set by (rewrite upd_length; exact A2). rewrite lk_upd_set by exact A1.
      assert (EM : forall j e, lk (mkMesh (tris M) (nvalid M)) j e = lk M j e) by reflexivity. rewrite !EM.
      destruct (Nat.eq_dec j i2) as [->|]; [|reflexivity]. destruct (Nat.eq_dec i2 i1); [exfalso; apply Hne; congruence | reflexivity]. }
    split; [|split].
    - rewrite F. destruct (Nat.eq_dec i1 i2); [contradiction|]. destruct (Nat.eq_dec i1 i1); [|congruence]. destruct (edge_eq_dec e1 e1); [reflexivity | congruence].
    - rewrite F. destruct (Nat.eq_dec i2 i2); [|congruence]. destruct (edge_eq_dec k0 k0); [reflexivity | congruence].
    - intros j e N1 N2. rewrite F. destruct (Nat.eq_dec j i2) as [->|].
      + destruct (edge_eq_dec e k0) as [->|]; [exfalso; apply N2; split; reflexivity | reflexivity].
      + destruct (Nat.eq_dec j i1) as [->|]; [|reflexivity]. destruct (edge_eq_dec e e1) as [->|]; [exfalso; apply N1; split; reflexivity | reflexivity].
  Qed.

  Lemma G_mark (B : nat -> Edge -> Prop) (i1 : nat) (e1 : Edge) (i2 : nat) (T1 T2 : Tri K) (k0 : Edge) (M M' : Mesh) :
    G B M -> lvM M i1 T1 -> lvM M i2 T2 -> i1 <> i2 ->
    (forall sg k, tri_segment T1 (edge_as_i e1) = Ok sg -> tri_get_edge_index_from_segment T2 sg = Some k -> k = edge_as_i k0) ->
    edge_pts T2 k0 = rev2 (edge_pts T1 e1) ->
    lk M i1 e1 = None ->
    (forall x U e'', lk M i2 k0 = Some x -> lvM M x U -> edge_pts U e'' = rev2 (edge_pts T2 k0) -> x = i1 /\ e'' = e1) ->
    mark_as_neighbours i1 e1 i2 M = (M', Ok tt) ->
    G (fun j e => B j e /\ ~ (j = i2 /\ e = k0) /\ ~ (j = i1 /\ e = e1)) M' /\ skel (tris M') = skel (tris M) /\
    lk M' i1 e1 = Some i2 /\ lk M' i2 k0 = Some i1 /\
    (forall j e, ~ (j = i1 /\ e = e1) -> ~ (j = i2 /\ e = k0) -> lk M' j e = lk M j e).
  Proof.
    intros HG L1 L2 Hne Hdet Hgeo Hnone Hvict H.
    destruct (mark_exact _ _ _ _ _ _ _ _ L1 L2 Hne Hdet H) as (Hsk & F1 & F2 & F3). split; [|repeat split; assumption].
    assert (Hlv : forall j T, lvM M' j T <-> lvM M j T) by (intros j T; unfold lvM; rewrite Hsk; reflexivity).
    intros j T L e k E. apply Hlv in L.
    destruct (entry_dec j i2 e k0) as [[-> ->] | N2].
    { rewrite F2 in E. inversion E; subst k. right. split; [exact Hne|]. exists T, T1, e1. rewrite (lvM_fun _ _ _ _ L L2).
      repeat split; [apply Hlv; exact L2 | apply Hlv; exact L1 | exact F1 | rewrite Hgeo; symmetry; apply rev2_invol]. }
    destruct (entry_dec j i1 e e1) as [[-> ->] | N1].
    { rewrite F1 in E. inversion E; subst k. right. split; [intros A; apply Hne; congruence|]. exists T, T2, k0. rewrite (lvM_fun _ _ _ _ L L1).
      repeat split; [apply Hlv; exact L1 | apply Hlv; exact L2 | exact F2 | exact Hgeo]. }
    rewrite (F3 _ _ N1 N2) in E. destruct (HG j T L e k E) as [A | (A1 & T' & U & e' & A2 & A3 & A4 & A5)]; [left; split; [exact A | split; assumption]|].
    right. split; [exact A1|]. exists T', U, e'. repeat split; try (apply Hlv; assumption); [|exact A5].
    (* the mate's entry is not one of the two written: (i1, e1) was empty, and (i2, k0) named the owner of the reversed edge *)
    assert (M1 : ~ (k = i1 /\ e' = e1)) by (intros [-> ->]; rewrite Hnone in A4; discriminate).
    assert (M2 : ~ (k = i2 /\ e' = k0)).
    { intros [-> ->]. apply N1. apply (Hvict j T' e A4 A2). rewrite (lvM_fun _ _ _ _ A3 L2) in A5. rewrite A5, rev2_invol. reflexivity. }
    rewrite (F3 _ _ M1 M2). exact A4.
  Qed.

  Lemma G_mark_sep (P : V -> Prop) (B : nat -> Edge -> Prop) (i1 : nat) (e1 : Edge) (i2 : nat) (T1 T2 : Tri K) (k0 : Edge) (M M' : Mesh) :
    VSEP P -> tri_in P T1 -> tri_in P T2 -> tri_distinct T2 ->
    G B M -> lvM M i1 T1 -> lvM M i2 T2 -> i1 <> i2 ->
    edge_pts T2 k0 = rev2 (edge_pts T1 e1) ->
    lk M i1 e1 = None ->
    (forall x U e'', lk M i2 k0 = Some x -> lvM M x U -> edge_pts U e'' = edge_pts T1 e1 -> x = i1 /\ e'' = e1) ->
    mark_as_neighbours i1 e1 i2 M = (M', Ok tt) ->
    G (fun j e => B j e /\ ~ (j = i2 /\ e = k0) /\ ~ (j = i1 /\ e = e1)) M' /\ skel (tris M') = skel (tris M) /\
    lk M' i1 e1 = Some i2 /\ lk M' i2 k0 = Some i1 /\
    (forall j e, ~ (j = i1 /\ e = e1) -> ~ (j = i2 /\ e = k0) -> lk M' j e = lk M j e).
  Proof.
    intros HP I1 I2 D2 HG L1 L2 Hne Hgeo Hnone Hvict H.
    apply (G_mark B i1 e1 i2 T1 T2 k0 M M' HG L1 L2 Hne); try assumption.
    - intros sg k Es Ek. destruct (tri_segment_pts T1 e1) as (sg' & Es' & Ep). rewrite Es in Es'. inversion Es'; subst sg'.
      destruct (edge_pts_in P T1 e1 I1) as [Q1 Q2]. rewrite <- Ep in Q1, Q2. cbn [pair_of fst snd] in Q1, Q2.
      apply (edge_index_exact P HP T2 sg k0 k I2 D2 Q1 Q2); [|exact Ek]. right. rewrite Ep, Hgeo, rev2_invol. reflexivity.
    - intros x U e'' A1 A2 A3. apply (Hvict x U e'' A1 A2). rewrite A3, Hgeo, rev2_invol. reflexivity.
  Qed.

  Definition next_e (e : Edge) : Edge := match e with Ab => Bc | Bc => Ca | Ca => Ab end.
  Definition opp_v (T : Tri K) (e : Edge) : V := match e with Ab => tc T | Bc => ta T | Ca => tb T end.
  Lemma edge_pts_next (T : Tri K) (e : Edge) :
    edge_pts T (next_e e) = (snd (edge_pts T e), opp_v T e) /\ edge_pts T (next_e (next_e e)) = (opp_v T e, fst (edge_pts T e)).
  Proof. destruct e; split; reflexivity. Qed.
  Lemma edges_all (e x : Edge) : x = e \/ x = next_e e \/ x = next_e (next_e e).
  Proof. destruct e, x; cbn; auto. Qed.
  Lemma opp_v_in (P : V -> Prop) (T : Tri K) (e : Edge) : tri_in P T -> P (opp_v T e).
  Proof. intros (A & B & C). destruct e; assumption. Qed.
  Lemma tri_distinct_edge (T : Tri K) (e : Edge) : tri_distinct T ->
    fst (edge_pts T e) <> snd (edge_pts T e) /\ fst (edge_pts T e) <> opp_v T e /\ snd (edge_pts T e) <> opp_v T e.
  Proof. intros (A & B & C). destruct e; cbn; repeat split; congruence. Qed.
  Lemma opposite_exact (P : V -> Prop) (T : Tri K) (s : Seg K) (e : Edge) (o : V) :
    VSEP P -> tri_in P T -> tri_distinct T -> P (sstart s) -> P (send s) -> same_seg (pair_of s) (edge_pts T e) ->
    get_opposite_vertex T s = Ok o -> o = opp_v T e.
  Proof.
    intros HP I D Q1 Q2 Hs H. unfold get_opposite_vertex in H. rewrite (edge_index_complete P HP T s e I D Q1 Q2 Hs) in H.
    destruct e; cbn in H; inversion H; reflexivity.
  Qed.
  Lemma edge_of_points_exact (P : V -> Prop) (site : N) (T : Tri K) (x y : V) (e0 e : Edge) :
    VSEP P -> tri_in P T -> tri_distinct T -> P x -> P y -> same_seg (x, y) (edge_pts T e0) -> edge_of_points site T x y = Ok e -> e = e0.
  Proof.
    intros HP I D Qx Qy Hs H. unfold edge_of_points, tri_get_edge_index_from_points in H.
    rewrite (edge_index_complete P HP T (seg_new x y) e0 I D Qx Qy Hs) in H. destruct e0; cbn in H; inversion H; reflexivity.
  Qed.
  Lemma edge_of_points_err_exact (P : V -> Prop) (T : Tri K) (x y : V) (e0 e : Edge) :
    VSEP P -> tri_in P T -> tri_distinct T -> P x -> P y -> same_seg (x, y) (edge_pts T e0) -> edge_of_points_err T x y = Ok e -> e = e0.
  Proof.
    intros HP I D Qx Qy Hs H. unfold edge_of_points_err, tri_get_edge_index_from_points in H.
    rewrite (edge_index_complete P HP T (seg_new x y) e0 I D Qx Qy Hs) in H. destruct e0; cbn in H; inversion H; reflexivity.
  Qed.
  Lemma good_inv (M : Mesh) (j : nat) (T : Tri K) (e : Edge) (n : nat) : LNKG M -> lvM M j T -> lk M j e = Some n ->
    n <> j /\ exists U k, lvM M n U /\ lk M n k = Some j /\ edge_pts U k = rev2 (edge_pts T e).
  Proof.
    intros H L E. destruct (H j T L e n E) as (A1 & T' & U & e' & A2 & A3 & A4 & A5). split; [exact A1|]. exists U, e'.
    rewrite (lvM_fun _ _ _ _ L A2). repeat split; assumption.
  Qed.

  (** [Wr]: the entries an optional link writes ([k0]: the edge found in slot [n]); they are what leaves the exempt set. *)
  Definition Wr (o : option nat) (i1 : nat) (e1 k0 : Edge) (j : nat) (e : Edge) : Prop :=
    o <> None /\ ((j = i1 /\ e = e1) \/ (o = Some j /\ e = k0)).
  Lemma G_mark_opt (P : V -> Prop) (B : nat -> Edge -> Prop) (o : option nat) (i1 : nat) (e1 : Edge) (T1 : Tri K) (M M' : Mesh) :
    VSEP P -> tri_in P T1 -> G B M -> lvM M i1 T1 -> lk M i1 e1 = None ->
    (forall n, o = Some n -> exists T2 k0, tri_in P T2 /\ tri_distinct T2 /\ lvM M n T2 /\ i1 <> n /\ edge_pts T2 k0 = rev2 (edge_pts T1 e1) /\
       (forall x U e'', lk M n k0 = Some x -> lvM M x U -> edge_pts U e'' = edge_pts T1 e1 -> x = i1 /\ e'' = e1)) ->
    match o with Some n => mark_as_neighbours i1 e1 n | None => mret tt end M = (M', Ok tt) ->
    exists k0,
    G (fun j e => B j e /\ ~ Wr o i1 e1 k0 j e) M' /\ skel (tris M') = skel (tris M) /\
    (forall j e, ~ Wr o i1 e1 k0 j e -> lk M' j e = lk M j e) /\
    (forall n, o = Some n -> lk M' i1 e1 = Some n /\ lk M' n k0 = Some i1 /\ exists T2, lvM M n T2 /\ edge_pts T2 k0 = rev2 (edge_pts T1 e1)).
  Proof.
    intros HP I1 HG L1 Hnone Hn H. destruct o as [n|].
    - destruct (Hn n eq_refl) as (T2 & k0 & I2 & D2 & L2 & Hne & Hgeo & Hvict). exists k0.
      destruct (G_mark_sep P B i1 e1 n T1 T2 k0 M M' HP I1 I2 D2 HG L1 L2 Hne Hgeo Hnone Hvict H) as (A1 & A2 & A3 & A4 & A5).
      split; [|split; [exact A2 | split]].
      + revert A1. apply G_weaken. intros j e (Q1 & Q2 & Q3). split; [exact Q1|]. intros (_ & [Q | (Q & Q')]); [apply Q3; exact Q | apply Q2; inversion Q; split; [reflexivity | exact Q']].
      + intros j e Hw. apply A5; intros [Q Q']; apply Hw; (split; [discriminate|]); [left; split; assumption | right; split; [congruence | assumption]].
      + intros n' E. inversion E; subst n'. split; [exact A3 | split; [exact A4 | exists T2; split; assumption]].
    - exists Ab. inversion H; subst M'. split; [|split; [reflexivity | split; [reflexivity | intros n E; discriminate]]].
      revert HG. apply G_weaken. intros j e Q. split; [exact Q | intros (Q' & _); apply Q'; reflexivity].
  Qed.
  Definition Meq (M M' : Mesh) : Prop := skel (tris M') = skel (tris M) /\ forall j e, lk M' j e = lk M j e.
  Lemma Meq_refl M : Meq M M. Proof. split; reflexivity. Qed.
  Lemma Meq_trans M1 M2 M3 : Meq M1 M2 -> Meq M2 M3 -> Meq M1 M3.
  Proof. intros [A1 A2] [B1 B2]. split; [rewrite B1; exact A1 | intros j e; rewrite B2; apply A2]. Qed.
  Lemma Meq_constrain (b : bool) (s : N) (i : nat) (e0 : Edge) (M M' : Mesh) (r : res unit) : mwhen b (mupd s i (tp_constrain e0)) M = (M', r) -> Meq M M'.
  Proof.
    intros H. destruct b; [|inversion H; split; reflexivity]. cbn [mwhen] in H.
    split; [exact (sk_mupd s i (tp_constrain e0) (constrain_tri e0) (constrain_valid e0) _ _ _ H)|].
    intros j e. unfold mupd in H. destruct (Nat.ltb _ _); inversion H; subst; [|reflexivity].
    unfold lk. cbn [tris]. rewrite nth_error_upd. destruct (Nat.eqb i j); [|reflexivity].
    destruct (nth_error (tris M) j); cbn [option_map]; [apply constrain_neighbours | reflexivity].
  Qed.
  Lemma lvM_skel (M M' : Mesh) : skel (tris M') = skel (tris M) -> forall j T, lvM M' j T <-> lvM M j T.
  Proof. intros H j T. unfold lvM. rewrite H. reflexivity. Qed.
  Lemma invalidate_dead (i : nat) (t : TP) (M M' : Mesh) : nth_error (tris M) i = Some t -> mesh_invalidate i M = (M', Ok tt) ->
    (exists u, nth_error (tris M') i = Some u /\ tp_valid u = false) /\ (forall j, j <> i -> nth_error (tris M') j = nth_error (tris M) j).
  Proof.
    intros Et H. destruct (invalidate_slot _ _ _ _ Et H) as (E & _). split.
    - exists (tp_invalidate t). rewrite E, nth_error_upd, Nat.eqb_refl, Et. split; reflexivity.
    - intros j Hj. rewrite E, nth_error_upd. destruct (Nat.eqb_spec i j); [exfalso; apply Hj; congruence | reflexivity].
  Qed.
  Lemma flip_abc (T : Tri K) (e : Edge) (a b c : V) :
    tri_vertex T (N.modulo (edge_as_i e) 3) = Ok a -> tri_vertex T (N.modulo (edge_as_i e + 1) 3) = Ok b -> tri_vertex T (N.modulo (edge_as_i e + 2) 3) = Ok c ->
    edge_pts T e = (a, b) /\ opp_v T e = c.
  Proof. destruct e; vm_compute; intros H1 H2 H3; inversion H1; inversion H2; inversion H3; split; reflexivity. Qed.

  Lemma Wr_dec (o : option nat) (i1 : nat) (e1 k0 : Edge) (j : nat) (e : Edge) : Wr o i1 e1 k0 j e \/ ~ Wr o i1 e1 k0 j e.
  Proof.
    unfold Wr. destruct o as [n|]; [|right; intros [Q _]; apply Q; reflexivity].
    destruct (entry_dec j i1 e e1) as [A|A]; [left; split; [discriminate | left; exact A]|].
    destruct (entry_dec j n e k0) as [[-> ->]|B']; [left; split; [discriminate | right; split; reflexivity]|].
    right. intros (_ & [Q | [Q Q']]); [exact (A Q) | apply B'; split; [congruence | exact Q']].
  Qed.
  Lemma G_weaken_live (B B' : nat -> Edge -> Prop) M :
    (forall j T e k, lvM M j T -> lk M j e = Some k -> B j e -> B' j e) -> G B M -> G B' M.
  Proof. intros HB H j T L e k E. destruct (H j T L e k E) as [A|A]; [left; eapply HB; eassumption | right; exact A]. Qed.
  Lemma edge_add_next (e : Edge) : edge_add e 1 = Ok (next_e e) /\ edge_add e 2 = Ok (next_e (next_e e)).
  Proof. destruct e; split; reflexivity. Qed.
  Lemma edge_from_as (e : Edge) : edge_from_i (edge_as_i e) = Ok e.
  Proof. destruct e; reflexivity. Qed.

End Links.

Section LinkLists.
  Context {K : Type} {NK : Num K}.
  Notation V := (V3 K).
  Notation TP := (TriPiece K).
  Notation Mesh := (Mesh K).

  (** After its invalidations and pushes a step holds a few new slots ([New]) with empty neighbour tables, and [G B] for
      exempt entries [B] that name removed slots.  What follows is a list of links, each from an entry of a new slot,
      with constrain steps in between: [Lnew] to an entry [k0] of another new slot, [Lold] to the old neighbour across the
      edge, if there is one (its entry is found by the edge search). *)
  Inductive lop : Type :=
  | Lnew (i1 : nat) (e1 : Edge) (n : nat) (k0 : Edge)
  | Lold (i1 : nat) (e1 : Edge) (o : option nat).
  Definition lop_run (op : lop) : MR (K:=K) unit :=
    match op with
    | Lnew i1 e1 n _ => mark_as_neighbours i1 e1 n
    | Lold i1 e1 o => match o with Some n => mark_as_neighbours i1 e1 n | None => mret tt end
    end.
  (** the entries of new slots that a link writes *)
  Definition lop_wr (op : lop) : list (nat * Edge) :=
    match op with Lnew i1 e1 n k0 => [(i1, e1); (n, k0)] | Lold i1 e1 _ => [(i1, e1)] end.
  Fixpoint Links (ops : list lop) (M M' : Mesh) : Prop :=
    match ops with
    | [] => Meq M M'
    | op :: r => exists Ma Mb, Meq M Ma /\ lop_run op Ma = (Mb, Ok tt) /\ Links r Mb M'
    end.
  Fixpoint fresh (ws : list (nat * Edge)) (ops : list lop) : Prop :=
    match ops with [] => True | op :: r => (forall x, In x (lop_wr op) -> ~ In x ws) /\ fresh (lop_wr op ++ ws) r end.

  Section Tail.
    Variables (P : V -> Prop) (New : nat -> Prop) (B : nat -> Edge -> Prop) (M0 : Mesh).
    Hypothesis HP : VSEP P.
    Hypothesis HB : forall j e x U, B j e -> lk M0 j e = Some x -> lvM M0 x U -> New x.

    Definition mate_ok (i1 : nat) (e1 : Edge) (T1 : Tri K) (n : nat) (T2 : Tri K) (k0 : Edge) : Prop :=
      lvM M0 n T2 /\ tri_in P T2 /\ tri_distinct T2 /\ i1 <> n /\ edge_pts T2 k0 = rev2 (edge_pts T1 e1).
    (** [Lold], the clause on [x U e'']: the slot that the exempt entry of the old neighbour names meanwhile is a new one,
        and the edge search must not find it to be a second owner of the edge. *)
    Definition lop_ok (op : lop) : Prop :=
      match op with
      | Lnew i1 e1 n k0 => New i1 /\ New n /\ exists T1 T2, lvM M0 i1 T1 /\ tri_in P T1 /\ mate_ok i1 e1 T1 n T2 k0
      | Lold i1 e1 o => New i1 /\ exists T1, lvM M0 i1 T1 /\ tri_in P T1 /\
          forall n, o = Some n -> ~ New n /\
            (forall x U e'', New x -> lvM M0 x U -> edge_pts U e'' = edge_pts T1 e1 -> x = i1 /\ e'' = e1) /\
            exists T2 k0, mate_ok i1 e1 T1 n T2 k0 /\ B n k0
      end.
    (** the entry of old slot [j] that the link to [j] overwrites *)
    Definition mated (ops : list lop) (j : nat) (e : Edge) : Prop :=
      exists i1 e1 T1 Tj, In (Lold i1 e1 (Some j)) ops /\ lvM M0 i1 T1 /\ lvM M0 j Tj /\ edge_pts Tj e = rev2 (edge_pts T1 e1).

    (** the invariant between two links: [W] the entries written so far, [ws] those of them that belong to new slots *)
    Definition Stage (ws : list (nat * Edge)) (W : nat -> Edge -> Prop) (Mk : Mesh) : Prop :=
      skel (tris Mk) = skel (tris M0) /\ G (fun j e => B j e /\ ~ W j e) Mk /\
      (forall j e, New j -> ~ In (j, e) ws -> lk Mk j e = None) /\
      (forall j e, ~ New j -> lk Mk j e = lk M0 j e \/ (W j e /\ exists n, New n /\ lk Mk j e = Some n)).

    Lemma Stage_Meq ws W Mk Ma : Stage ws W Mk -> Meq Mk Ma -> Stage ws W Ma.
    Proof.
      intros (S & HG & C3 & C4) [Sq Lq]. split; [rewrite Sq; exact S|]. split; [exact (G_ext _ Mk Ma Sq Lq HG)|].
      split; [intros j e Nj Hw; rewrite Lq; exact (C3 j e Nj Hw) | intros j e Oj; rewrite !Lq; exact (C4 j e Oj)].
    Qed.
    Lemma Stage_link ws W o i1 e1 T1 Mk Mb :
      Stage ws W Mk -> New i1 -> lvM M0 i1 T1 -> tri_in P T1 -> ~ In (i1, e1) ws ->
      (forall n, o = Some n -> exists T2 k0, mate_ok i1 e1 T1 n T2 k0 /\
         ((New n /\ ~ In (n, k0) ws) \/
          (~ New n /\ B n k0 /\ forall x U e'', New x -> lvM M0 x U -> edge_pts U e'' = edge_pts T1 e1 -> x = i1 /\ e'' = e1))) ->
      match o with Some n => mark_as_neighbours i1 e1 n | None => mret tt end Mk = (Mb, Ok tt) ->
      exists k0,
        skel (tris Mb) = skel (tris M0) /\ G (fun j e => B j e /\ ~ (W j e \/ Wr o i1 e1 k0 j e)) Mb /\
        (forall j e, ~ Wr o i1 e1 k0 j e -> lk Mb j e = lk Mk j e) /\
        (forall j e, ~ New j -> lk Mb j e = lk M0 j e \/ ((W j e \/ Wr o i1 e1 k0 j e) /\ exists n, New n /\ lk Mb j e = Some n)) /\
        (forall n T2 k, o = Some n -> lvM M0 n T2 -> tri_distinct T2 -> edge_pts T2 k = rev2 (edge_pts T1 e1) -> k = k0).
    Proof.
      intros (S & HG & C3 & C4) N1 L1 I1 F1 Hm H. pose proof (lvM_skel _ _ S) as Hlv.
      destruct (G_mark_opt P _ o i1 e1 T1 Mk Mb HP I1 HG) as (k0 & A1 & A2 & A3 & A4); [apply Hlv; exact L1 | apply C3; assumption | | exact H | ].
      { intros n E. destruct (Hm n E) as (T2 & k0 & (L2 & I2 & D2 & Hne & Hgeo) & Hc). exists T2, k0.
        split; [exact I2|]. split; [exact D2|]. split; [apply Hlv; exact L2|]. split; [exact Hne|]. split; [exact Hgeo|].
        intros x U e'' Q1 Q2 Q3. apply Hlv in Q2. destruct Hc as [(Nn & Fn) | (On & Bn & Htab)].
        - rewrite (C3 n k0 Nn Fn) in Q1. discriminate.
        - apply (Htab x U e''); [|exact Q2 | exact Q3]. destruct (C4 n k0 On) as [Q | (_ & m & Nm & Q)]; rewrite Q in Q1;
            [exact (HB _ _ _ _ Bn Q1 Q2) | inversion Q1; subst x; exact Nm]. }
      exists k0. split; [rewrite A2; exact S|]. split; [|split; [exact A3|split]].
      - revert A1. apply G_weaken. intros j e ((Q1 & Q2) & Q3). split; [exact Q1 | intros [Q|Q]; contradiction].
      - intros j e Oj. destruct (Wr_dec o i1 e1 k0 j e) as [Wy | Wn].
        + right. split; [right; exact Wy|]. exists i1. split; [exact N1|]. destruct Wy as (_ & [[Q _] | [Q Q']]); [exfalso; apply Oj; rewrite Q; exact N1|].
          subst e. exact (proj1 (proj2 (A4 j Q))).
        + rewrite (A3 j e Wn). destruct (C4 j e Oj) as [Q | (Q & n & Q1 & Q2)]; [left; exact Q | right; split; [left; exact Q | exists n; split; assumption]].
      - intros n T2 k E L2 D2 Gk. destruct (A4 n E) as (_ & _ & T2' & L2' & Geo). apply Hlv in L2'. rewrite (lvM_fun _ _ _ _ L2' L2) in Geo.
        apply (edge_unique T2 (edge_pts T2 k) k k0 D2); left; [reflexivity | rewrite Gk, Geo; reflexivity].
    Qed.

    Lemma Links_Stage (ops : list lop) : forall ws W Mk M', Stage ws W Mk -> Forall lop_ok ops -> fresh ws ops -> Links ops Mk M' ->
      skel (tris M') = skel (tris M0) /\ G (fun j e => B j e /\ ~ W j e /\ ~ mated ops j e) M' /\
      (forall j e, New j -> ~ In (j, e) ws -> ~ In (j, e) (flat_map lop_wr ops) -> lk M' j e = None) /\
      (forall j e, ~ New j -> lk M' j e = lk M0 j e \/ ((W j e \/ mated ops j e) /\ exists n, New n /\ lk M' j e = Some n)).
    Proof.
      induction ops as [|op r IH]; intros ws W Mk M' St Hok Hf H.
      - destruct St as (S & HG & C3 & C4). destruct H as [Sq Lq]. split; [rewrite Sq; exact S|]. split; [|split].
        + apply (G_ext _ Mk M' Sq Lq). revert HG. apply G_weaken. intros j e (Q1 & Q2). split; [exact Q1 | split; [exact Q2 | intros (? & ? & ? & ? & [] & _)]].
        + intros j e Nj Hw _. rewrite Lq. exact (C3 j e Nj Hw).
        + intros j e Oj. rewrite Lq. destruct (C4 j e Oj) as [Q | (Q & Q')]; [left; exact Q | right; split; [left; exact Q | exact Q']].
      - destruct H as (Ma & Mb & Hq & Hr & H). inversion Hok as [|? ? Hop Hok']; subst. destruct Hf as [Hf Hf'].
        apply (fun St => Stage_Meq _ _ _ _ St Hq) in St. pose proof St as (_ & _ & C3 & _).
        (* one link: [W'] is what it writes.  Among the entries of old slots that is exactly the entry [mated] describes: the
           edge the search finds is the only one with the reversed end points (last clause of [Stage_link]) *)
        assert (Step : exists W', Stage (lop_wr op ++ ws) (fun j e => W j e \/ W' j e) Mb /\
                  (forall i1 e1 j T1 Tj e, op = Lold i1 e1 (Some j) -> lvM M0 i1 T1 -> lvM M0 j Tj -> edge_pts Tj e = rev2 (edge_pts T1 e1) -> W' j e) /\
                  (forall j e, ~ New j -> W' j e -> mated [op] j e)).
        { destruct op as [i1 e1 n k0 | i1 e1 o]; cbn [lop_run lop_wr lop_ok] in *.
          - destruct Hop as (N1 & Nn & T1 & T2 & L1 & I1 & Hmate).
            destruct (Stage_link ws W (Some n) i1 e1 T1 Ma Mb St N1 L1 I1 (Hf _ (or_introl eq_refl))) as (k & A1 & A2 & A3 & A4 & A5); [ | exact Hr | ].
            { intros n' E. inversion E; subst n'. exists T2, k0. split; [exact Hmate|]. left. split; [exact Nn | exact (Hf _ (or_intror (or_introl eq_refl)))]. }
            destruct Hmate as (L2 & _ & D2 & _ & Hgeo). rewrite <- (A5 n T2 k0 eq_refl L2 D2 Hgeo) in *.
            exists (Wr (Some n) i1 e1 k0). split; [|split; [intros ? ? ? ? ? ? Q; discriminate Q|]].
            2:{ intros j e Oj (_ & [[Q _] | [Q _]]); exfalso; apply Oj; [rewrite Q; exact N1 | inversion Q; subst j; exact Nn]. }
            split; [exact A1|]. split; [exact A2|]. split; [|exact A4].
            intros j e Nj Hin. rewrite A3; [apply C3; [exact Nj | intros Q; apply Hin; right; right; exact Q]|].
            intros (_ & [[Q Q'] | [Q Q']]); apply Hin; [left | right; left; inversion Q]; subst; reflexivity.
          - destruct Hop as (N1 & T1 & L1 & I1 & Hold).
            destruct (Stage_link ws W o i1 e1 T1 Ma Mb St N1 L1 I1 (Hf _ (or_introl eq_refl))) as (k & A1 & A2 & A3 & A4 & A5); [ | exact Hr | ].
            { intros n E. destruct (Hold n E) as (On & Htab & T2 & k0 & Hmate & Bn). exists T2, k0. split; [exact Hmate|]. right. auto. }
            exists (Wr o i1 e1 k). split; [|split].
            + split; [exact A1|]. split; [exact A2|]. split; [|exact A4].
              intros j e Nj Hin. rewrite A3; [apply C3; [exact Nj | intros Q; apply Hin; right; exact Q]|].
              intros (_ & [[Q Q'] | [Q _]]); [apply Hin; left; subst; reflexivity | exact (proj1 (Hold j Q) Nj)].
            + intros i1' e1' j T1' Tj e E L1' Lj Ge. inversion E; subst i1' e1' o. rewrite (lvM_fun _ _ _ _ L1' L1) in Ge.
              destruct (Hold j eq_refl) as (_ & _ & T2 & k0 & (L2 & _ & D2 & _) & _). rewrite (lvM_fun _ _ _ _ L2 Lj) in D2.
              rewrite (A5 j Tj e eq_refl Lj D2 Ge). split; [discriminate | right; split; reflexivity].
            + intros j e Oj (_ & [[Q _] | [Q Q']]); [exfalso; apply Oj; rewrite Q; exact N1|]. subst o.
              destruct (Hold j eq_refl) as (_ & _ & T2 & k0 & (L2 & _ & D2 & _ & Hgeo) & _). rewrite (A5 j T2 k0 eq_refl L2 D2 Hgeo) in Hgeo. subst e.
              exists i1, e1, T1, T2. split; [left; reflexivity | auto]. }
        destruct Step as (W' & St' & HW' & HW''). destruct (IH _ _ Mb M' St' Hok' Hf' H) as (S' & G' & N' & O'). split; [exact S'|]. split; [|split].
        + revert G'. apply G_weaken. intros j e (Q1 & Q2 & Q3). split; [exact Q1|]. split; [intros Q; apply Q2; left; exact Q|].
          intros (i1 & e1 & T1 & Tj & [Q|Q] & L1 & Lj & Ge); [apply Q2; right; exact (HW' _ _ _ _ _ _ Q L1 Lj Ge) | apply Q3; exists i1, e1, T1, Tj; auto].
        + intros j e Nj Hw Ho. cbn [flat_map] in Ho. apply N'; [exact Nj | |]; intros Q; apply Ho; apply in_or_app; [|right; exact Q].
          apply in_app_or in Q. destruct Q as [Q|Q]; [left; exact Q | contradiction].
        + intros j e Oj. destruct (O' j e Oj) as [Q | (Q & Q')]; [left; exact Q | right; split; [|exact Q']].
          destruct Q as [[Q|Q]|(i1 & e1 & T1 & Tj & Q & Q2)]; [left; exact Q | right | right; exists i1, e1, T1, Tj; split; [right; exact Q | exact Q2]].
          destruct (HW'' j e Oj Q) as (i1 & e1 & T1 & Tj & [Q1|[]] & Q2). exists i1, e1, T1, Tj. split; [left; exact Q1 | exact Q2].
    Qed.
    Lemma Links_G (ops : list lop) (M' : Mesh) : (forall j e, New j -> lk M0 j e = None) -> G B M0 ->
      Forall lop_ok ops -> fresh [] ops -> Links ops M0 M' ->
      skel (tris M') = skel (tris M0) /\ G (fun j e => B j e /\ ~ mated ops j e) M' /\
      (forall j e, New j -> ~ In (j, e) (flat_map lop_wr ops) -> lk M' j e = None) /\
      (forall j e, ~ New j -> lk M' j e = lk M0 j e \/ (mated ops j e /\ exists n, New n /\ lk M' j e = Some n)).
    Proof.
      intros Hnew HG Hok Hf H. destruct (Links_Stage ops [] (fun _ _ => False) M0 M') as (S & G' & N' & O'); try assumption.
      - split; [reflexivity|]. split; [revert HG; apply G_weaken; intros j e Q; split; [exact Q | intros []]|].
        split; [intros j e Nj _; apply Hnew; exact Nj | intros j e _; left; reflexivity].
      - split; [exact S|]. split; [revert G'; apply G_weaken; intros j e (Q1 & _ & Q3); split; assumption|].
        split; [intros j e Nj Q; apply N'; [exact Nj | intros [] | exact Q]|].
        intros j e Oj. destruct (O' j e Oj) as [Q | ([[]|Q] & Q')]; [left; exact Q | right; split; assumption].
    Qed.
  End Tail.

  (** Before the links a step invalidates the slots [rm] of [M] and then pushes triangles; [news] lists them with the slots
      they went to (a push may take a slot of [rm] again).  [Pre rm news Mk] is what is then known of the mesh reached;
      [Pre_tail] puts it in the form [Links_G] starts from, with [news] as the new slots. *)
  Section Prefix.
    Context {B : nat -> Edge -> Prop} {M : Mesh}.
    Definition Pre (rm : list nat) (news : list (nat * Tri K)) (Mk : Mesh) : Prop :=
      NoDup (map fst news) /\ (forall n T, In (n, T) news -> lvM Mk n T) /\
      (forall n, In n (map fst news) -> (forall e, lk Mk n e = None) /\ forall U, lvM M n U -> In n rm) /\
      (forall j, ~ In j (map fst news) -> (forall e, lk Mk j e = lk M j e) /\ forall U, lvM Mk j U <-> lvM M j U /\ ~ In j rm) /\
      G (fun j e => B j e \/ exists i, In i rm /\ lk M j e = Some i) Mk.

    Lemma Pre_init : G B M -> Pre [] [] M.
    Proof.
      intros HG. split; [apply NoDup_nil|]. split; [intros n T []|]. split; [intros n []|]. split; [|revert HG; apply G_weaken; auto].
      intros j _. split; [reflexivity|]. intros U. split; [intros A; split; [exact A | intros []] | intros [A _]; exact A].
    Qed.
    Lemma Pre_invalidate {rm i t Mk Mk'} : Pre rm [] Mk -> nth_error (tris Mk) i = Some t -> mesh_invalidate i Mk = (Mk', Ok tt) -> Pre (i :: rm) [] Mk'.
    Proof.
      intros (_ & _ & _ & Ho & HG) Et H. pose proof (lv_invalidate _ _ _ _ Et H) as Hlv. pose proof (lk_invalidate _ _ _ _ H) as Hlk.
      split; [apply NoDup_nil|]. split; [intros n T []|]. split; [intros n []|]. split.
      - intros j Hj. destruct (Ho j Hj) as [Ol Ov]. split; [intros e; rewrite Hlk; apply Ol|]. intros U. split.
        + intros A. apply Hlv in A. destruct A as [A A']. apply Ov in A. destruct A as [A A'']. split; [exact A | intros [Q|Q]; [apply A'; symmetry; exact Q | exact (A'' Q)]].
        + intros [A A']. apply Hlv. split; [apply Ov; split; [exact A | intros Q; apply A'; right; exact Q] | intros Q; apply A'; left; symmetry; exact Q].
      - generalize (G_invalidate _ _ _ _ _ Et H HG). apply G_weaken.
        intros j e [[Q | (i0 & Q & Q')] | Q]; [left; exact Q | right; exists i0; split; [right; exact Q | exact Q'] | right; exists i; split; [left; reflexivity|]].
        rewrite <- (proj1 (Ho j (fun F => F))). exact Q.
    Qed.
    Lemma Pre_push {rm news a b c la T Mk Mk' n} :
      Pre rm news Mk -> tri_new a b c = Ok T -> mesh_push a b c la Mk = (Mk', Ok n) -> Pre rm ((n, T) :: news) Mk'.
    Proof.
      intros (Nd & Hn & Hd & Ho & HG) ET H. destruct (push_lk_lv _ _ _ _ _ _ _ H) as (T' & ET' & Ln & Hnone & Hdead & Hold). rewrite ET in ET'. inversion ET'; subst T'.
      assert (Fn : ~ In n (map fst news)).
      { intros Q. apply in_map_iff in Q. destruct Q as ([n' T'] & Q & Q'). cbn [fst] in Q. subst n'. exact (Hdead T' (Hn n T' Q')). }
      assert (Hne : forall n', In n' (map fst news) -> n' <> n) by (intros n' Q ->; exact (Fn Q)).
      split; [cbn [map fst]; apply NoDup_cons; assumption|]. split; [|split; [|split; [|exact (G_push _ _ _ _ _ _ _ _ H HG)]]].
      - intros n' T' [Q | Q]; [inversion Q; subst n' T'; exact Ln|]. apply (proj2 (Hold n' (Hne n' (in_map fst _ _ Q)))). exact (Hn n' T' Q).
      - intros n' [<- | Q].
        + split; [exact Hnone|]. intros U A. destruct (in_dec Nat.eq_dec n rm) as [I|I]; [exact I|].
          exfalso. apply (Hdead U). apply (proj2 (Ho n Fn)). split; assumption.
        + destruct (Hd n' Q) as [A1 A2]. split; [intros e; rewrite (proj1 (Hold n' (Hne n' Q))); apply A1 | exact A2].
      - intros j Hj. assert (Hjn : j <> n) by (intros ->; apply Hj; left; reflexivity). destruct (Hold j Hjn) as [Hl Hv].
        destruct (Ho j (fun Q => Hj (or_intror Q))) as [Ol Ov]. split; [intros e; rewrite Hl; apply Ol | intros U; exact (iff_trans (Hv U) (Ov U))].
    Qed.
    Lemma Pre_lv {rm news Mk} : Pre rm news Mk ->
      forall j U, lvM Mk j U -> In (j, U) news \/ (~ In j (map fst news) /\ ~ In j rm /\ lvM M j U).
    Proof.
      intros (_ & Hn & _ & Ho & _) j U L. destruct (in_dec Nat.eq_dec j (map fst news)) as [I|I].
      - left. apply in_map_iff in I. destruct I as ([j' T'] & Q & Q'). cbn [fst] in Q. subst j'. rewrite (lvM_fun _ _ _ _ L (Hn j T' Q')). exact Q'.
      - right. apply (proj2 (Ho j I)) in L. destruct L as [L L']. auto.
    Qed.
    Lemma Pre_new {rm news Mk} : Pre rm news Mk -> forall j U, In j (map fst news) -> lvM Mk j U -> In (j, U) news.
    Proof. intros R j U Nj L. destruct (Pre_lv R j U L) as [Q | (Oj & _)]; [exact Q | destruct (Oj Nj)]. Qed.
    Lemma Pre_tail {rm news Mk} : Pre rm news Mk -> (forall j e, B j e -> In j (map fst news)) ->
      (forall j e x U, ~ In j (map fst news) /\ (exists i, In i rm /\ lk M j e = Some i) -> lk Mk j e = Some x -> lvM Mk x U -> In x (map fst news)) /\
      G (fun j e => ~ In j (map fst news) /\ exists i, In i rm /\ lk M j e = Some i) Mk.
    Proof.
      intros (_ & _ & Hd & Ho & HG) HB. split.
      - intros j e x U (Oj & i & Ii & Q) E L. destruct (in_dec Nat.eq_dec x (map fst news)) as [I|I]; [exact I | exfalso].
        rewrite (proj1 (Ho j Oj)), Q in E. inversion E; subst x. apply (proj2 (Ho i I)) in L. exact (proj2 L Ii).
      - revert HG. apply G_weaken_live. intros j Tj e k _ E Q.
        assert (Oj : ~ In j (map fst news)) by (intros I; rewrite (proj1 (Hd j I)) in E; discriminate).
        split; [exact Oj|]. destruct Q as [Q|Q]; [destruct (Oj (HB j e Q)) | exact Q].
    Qed.
    Lemma Pre_tris {rm news Mk} (P : V -> Prop) (M' : Mesh) : Pre rm news Mk -> skel (tris M') = skel (tris Mk) ->
      (forall j U, In (j, U) news -> tri_distinct U /\ tri_in P U) -> DIST M -> (forall x, mesh_vert M x -> P x) ->
      DIST M' /\ forall x, mesh_vert M' x -> P x.
    Proof.
      intros R S NT HD HPM. pose proof (lvM_skel _ _ S) as Hlv. pose proof (Pre_lv R) as Hlv'. split.
      - intros j U L. apply Hlv in L. destruct (Hlv' j U L) as [Q | (_ & _ & L')]; [exact (proj1 (NT j U Q)) | exact (HD j U L')].
      - intros x (j & U & L & Hx). apply Hlv in L. destruct (Hlv' j U L) as [Q | (_ & _ & L')]; [|apply HPM; exists j, U; split; assumption].
        destruct (proj2 (NT j U Q)) as (Q1 & Q2 & Q3). destruct Hx as [-> | [-> | ->]]; assumption.
    Qed.
  End Prefix.

  Lemma st_links_Links (cap abp bcp : nat) (t : TP) (e1 e2 e3 : Edge) (M M' : Mesh) :
    st_links cap abp bcp t e1 e2 e3 M = (M', Ok tt) ->
    Links [Lnew cap Bc abp Ca; Lnew abp Bc bcp Ca; Lnew bcp Bc cap Ca;
           Lold cap Ab (tp_neighbour t e3); Lold abp Ab (tp_neighbour t e1); Lold bcp Ab (tp_neighbour t e2)] M M'.
  Proof.
    intros H. unfold st_links in H.
    apply mbind_ok in H. destruct H as ([] & M5 & H5 & H). apply mbind_ok in H. destruct H as ([] & M6 & H6 & H).
    apply mbind_ok in H. destruct H as ([] & M7 & H7 & H). apply mbind_ok in H. destruct H as ([] & M7c & H7c & H).
    apply mbind_ok in H. destruct H as ([] & M8 & H8 & H). apply mbind_ok in H. destruct H as ([] & M8c & H8c & H).
    apply mbind_ok in H. destruct H as ([] & M9 & H9 & H). apply mbind_ok in H. destruct H as ([] & M9c & H9c & H).
    exists M, M5. split; [apply Meq_refl | split; [exact H5|]]. exists M5, M6. split; [apply Meq_refl | split; [exact H6|]].
    exists M6, M7. split; [apply Meq_refl | split; [exact H7|]].
    exists M7c, M8. split; [exact (Meq_constrain _ _ _ _ _ _ _ H7c) | split; [exact H8|]].
    exists M8c, M9. split; [exact (Meq_constrain _ _ _ _ _ _ _ H8c) | split; [exact H9|]].
    exists M9c, M'. split; [exact (Meq_constrain _ _ _ _ _ _ _ H9c) | split; [exact H | apply Meq_refl]].
  Qed.
  Lemma flip_links_Links (i aoc cob : nat) (t nb : TP) (e1 e2 e3 e4 : Edge) (M M' : Mesh) :
    flip_links i aoc cob t nb e1 e2 e3 e4 M = (M', Ok tt) ->
    Links [Lold i Ab (tp_neighbour nb e4); Lnew aoc Bc cob Ab; Lold i Ca (tp_neighbour t e1);
           Lold cob Bc (tp_neighbour nb e3); Lold cob Ca (tp_neighbour t e2)] M M'.
  Proof.
    intros H. unfold flip_links in H.
    apply mbind_ok in H. destruct H as ([] & M5a & H5a & H). apply mbind_ok in H. destruct H as ([] & M5 & H5c & H).
    apply mbind_ok in H. destruct H as ([] & M6 & H6 & H).
    apply mbind_ok in H. destruct H as ([] & M7a & H7a & H). apply mbind_ok in H. destruct H as ([] & M7 & H7c & H).
    apply mbind_ok in H. destruct H as ([] & M8a & H8a & H). apply mbind_ok in H. destruct H as ([] & M8 & H8c & H).
    apply mbind_ok in H. destruct H as ([] & M9a & H9a & H).
    exists M, M5a. split; [apply Meq_refl | split; [exact H5a|]].
    exists M5, M6. split; [exact (Meq_constrain _ _ _ _ _ _ _ H5c) | split; [exact H6|]].
    exists M6, M7a. split; [apply Meq_refl | split; [exact H7a|]].
    exists M7, M8a. split; [exact (Meq_constrain _ _ _ _ _ _ _ H7c) | split; [exact H8a|]].
    exists M8, M9a. split; [exact (Meq_constrain _ _ _ _ _ _ _ H8c) | split; [exact H9a|]].
    exact (Meq_constrain _ _ _ _ _ _ _ H).
  Qed.
  Lemma hemi_links_Links (apc pbc : nat) (t : TP) (ed ea eb : Edge) (M M' : Mesh) (r : nat * nat) :
    hemi_links apc pbc t ed ea eb M = (M', Ok r) ->
    r = (apc, pbc) /\ Links [Lnew apc Bc pbc Ca; Lold apc Ca (tp_neighbour t eb); Lold pbc Bc (tp_neighbour t ea)] M M'.
  Proof.
    intros H. unfold hemi_links in H.
    apply mbind_ok in H. destruct H as ([] & M3c & H3c & H). apply mbind_ok in H. destruct H as ([] & M4 & H4 & H).
    apply mbind_ok in H. destruct H as ([] & M5a & H5a & H). apply mbind_ok in H. destruct H as ([] & M5b & H5b & H).
    apply mbind_ok in H. destruct H as ([] & M5 & H5c & H).
    apply mbind_ok in H. destruct H as ([] & M6a & H6a & H). apply mbind_ok in H. destruct H as ([] & M6 & H6c & H).
    inversion H; subst M' r. split; [reflexivity|].
    exists M3c, M4. split; [exact (Meq_constrain _ _ _ _ _ _ _ H3c) | split; [exact H4|]].
    exists M4, M5a. split; [apply Meq_refl | split; [exact H5a|]].
    exists M5, M6a. split; [exact (Meq_trans _ _ _ (Meq_constrain _ _ _ _ _ _ _ H5b) (Meq_constrain _ _ _ _ _ _ _ H5c)) | split; [exact H6a|]].
    exact (Meq_constrain _ _ _ _ _ _ _ H6c).
  Qed.
End LinkLists.
