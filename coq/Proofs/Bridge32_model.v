(** * Bridge32_model: the model functions on the executed binary32 instance ARE their Flocq binary32 runs.
    [of_b32 : b32 -> float] is a total homomorphism [NumB32 -> NumF32] (Theory/F32Bridge.v, [of_b32_hom]; the double
    rounding through binary64 is innocuous), so every generic lifting lemma of Proofs/Bridge_model.v and
    Proofs/Bridge_interval.v applies with [h := of_b32]:
      running a model function on [NumF32] (= [NumF32fast], what the f32 runners execute) on embedded binary32 inputs
      returns the embedding of what the Flocq instance [NumB32 = NumB 24 128] returns.
    [oV oR oB oM oT oI] = [of_b32] mapped over vectors, rays, boxes, matrices, transforms, intervals; [tV ...] = [to_b32]
    mapped likewise (left inverse: [tV (oV v) = v]; right inverse on binary32-valued floats: [is32V v -> oV (tV v) = v]). *)
From Coq Require Import ZArith Reals Bool Floats.
From Flocq Require Import Core BinarySingleNaN.
From G3 Require Import Model.Num Model.NumF Model.NumF32 Model.Base Model.Vec Model.BBox Model.Transform Model.RoundError.
From G3 Require Import Run.FastNum32 Run.FastNum32Proof Theory.PrimBridge Theory.F32Bridge Proofs.Bridge_model Proofs.Bridge_interval.

Notation prim := Coq.Floats.PrimFloat.float (only parsing).
Notation oV := (mapV3 of_b32).
Notation oR := (mapRay of_b32).
Notation oB := (mapBBox of_b32).
Notation oM := (mapM4 of_b32).
Notation oT := (mapTr of_b32).
Notation oI := (mapAF of_b32).
Notation tV := (mapV3 to_b32).
Notation tR := (mapRay to_b32).
Notation tB := (mapBBox to_b32).
Notation tM := (mapM4 to_b32).
Notation tI := (mapAF to_b32).

Lemma tV_oV (v : V3 b32) : tV (oV v) = v.
Proof. apply mapV3_inv; apply to_b32_of_b32. Qed.
Lemma tR_oR (r : Ray b32) : tR (oR r) = r.
Proof. apply mapRay_inv; apply tV_oV. Qed.
Lemma tB_oB (b : BBox b32) : tB (oB b) = b.
Proof. apply mapBBox_inv; apply tV_oV. Qed.
Lemma tM_oM (m : M4 b32) : tM (oM m) = m.
Proof. apply mapM4_inv; apply to_b32_of_b32. Qed.
Lemma tI_oI (a : AF b32) : tI (oI a) = a.
Proof. apply mapAF_inv; apply to_b32_of_b32. Qed.
Lemma tP_oP (x : V3 b32 * V3 b32) : mapP tV tV (mapP oV oV x) = x.
Proof. apply mapP_inv; apply tV_oV. Qed.

(** binary32-valued inputs *)
Definition is32V (v : V3 prim) : Prop := is32 (vx v) /\ is32 (vy v) /\ is32 (vz v).
Definition is32R (r : Ray prim) : Prop := is32V (rorigin r) /\ is32V (rdir r).
Definition is32B (b : BBox prim) : Prop := is32V (bmin b) /\ is32V (bmax b).
Lemma oV_tV (v : V3 prim) : is32V v -> oV (tV v) = v.
Proof. intros (Hx & Hy & Hz). exact (mapV3_inv of_b32 to_b32 v Hx Hy Hz). Qed.
Lemma oR_tR (r : Ray prim) : is32R r -> oR (tR r) = r.
Proof. intros (Ho & Hd). exact (mapRay_inv of_b32 to_b32 r (oV_tV _ Ho) (oV_tV _ Hd)). Qed.
Lemma oB_tB (b : BBox prim) : is32B b -> oB (tB b) = b.
Proof. intros (Hl & Hh). exact (mapBBox_inv of_b32 to_b32 b (oV_tV _ Hl) (oV_tV _ Hh)). Qed.
Lemma is32V_oV (v : V3 b32) : is32V (oV v).
Proof. repeat split; apply is32_of_b32. Qed.

(** ** BBox (C14) *)
Theorem f32_bbox_intersect (b : BBox b32) (r : Ray b32) (i : V3 b32) :
  @bbox_intersect _ NumF32 (oB b) (oR r) (oV i) = @bbox_intersect _ NumB32 b r i.
Proof. apply (hom_bbox_intersect of_b32). Qed.
Theorem f32_bbox_intersect_tag (b : BBox b32) (r : Ray b32) (i : V3 b32) :
  @bbox_intersect_tag _ NumF32 (oB b) (oR r) (oV i) = @bbox_intersect_tag _ NumB32 b r i.
Proof. apply (hom_bbox_intersect_tag of_b32). Qed.
Theorem f32_bbox_point_inside (b : BBox b32) (p : V3 b32) :
  @bbox_point_inside _ NumF32 (oB b) (oV p) = @bbox_point_inside _ NumB32 b p.
Proof. apply (hom_bbox_point_inside of_b32). Qed.
Theorem f32_ray_project (r : Ray b32) (t : b32) : @ray_project _ NumF32 (oR r) (of_b32 t) = oV (@ray_project _ NumB32 r t).
Proof. apply (hom_ray_project of_b32). Qed.

(** the same on binary32-VALUED primitive floats (what the runner holds), read back through [to_b32] *)
Theorem f32_bbox_intersect_is32 (b : BBox prim) (r : Ray prim) (i : V3 prim) : is32B b -> is32R r -> is32V i ->
  @bbox_intersect _ NumF32 b r i = @bbox_intersect _ NumB32 (tB b) (tR r) (tV i).
Proof. intros Hb Hr Hi. rewrite <- f32_bbox_intersect. rewrite (oB_tB b Hb), (oR_tR r Hr), (oV_tV i Hi). reflexivity. Qed.
Theorem f32_bbox_intersect_tag_is32 (b : BBox prim) (r : Ray prim) (i : V3 prim) : is32B b -> is32R r -> is32V i ->
  @bbox_intersect_tag _ NumF32 b r i = @bbox_intersect_tag _ NumB32 (tB b) (tR r) (tV i).
Proof. intros Hb Hr Hi. rewrite <- f32_bbox_intersect_tag. rewrite (oB_tB b Hb), (oR_tR r Hr), (oV_tV i Hi). reflexivity. Qed.

(** ** Transform (C16): value AND reported error *)
Theorem f32_pt_with_error (m : M4 b32) (p : V3 b32) :
  mapP tV tV (@pt_with_error _ NumF32 (oM m) (oV p)) = @pt_with_error _ NumB32 m p.
Proof. rewrite (hom_pt_with_error of_b32). apply tP_oP. Qed.
Theorem f32_vec_with_error (m : M4 b32) (v : V3 b32) :
  mapP tV tV (@vec_with_error _ NumF32 (oM m) (oV v)) = @vec_with_error _ NumB32 m v.
Proof. rewrite (hom_vec_with_error of_b32). apply tP_oP. Qed.
Theorem f32_pt_propagate_error (m : M4 b32) (p e : V3 b32) :
  mapP tV tV (@pt_propagate_error _ NumF32 (oM m) (oV p) (oV e)) = @pt_propagate_error _ NumB32 m p e.
Proof. rewrite (hom_pt_propagate_error of_b32). apply tP_oP. Qed.
Theorem f32_vec_propagate_error (m : M4 b32) (v e : V3 b32) :
  mapP tV tV (@vec_propagate_error _ NumF32 (oM m) (oV v) (oV e)) = @vec_propagate_error _ NumB32 m v e.
Proof. rewrite (hom_vec_propagate_error of_b32). apply tP_oP. Qed.
