(** * C17_quadratic: the interval quadratic solver encloses the true roots.
    Built on the C07 operator lemmas (Proofs/C07_interval.v).  Statements are in Properties/C17.v. *)
From Coq Require Import ZArith Reals Bool Lra Lia Psatz.
From Flocq Require Import Core Plus_error BinarySingleNaN.
From G3 Require Import Model.Num Model.Base Model.RoundError Model.Quadratic Model.Pinned Model.PinnedQuadratic
  Theory.IntervalSpec Theory.QuadraticSpec Proofs.C07_interval.
Local Open Scope R_scope.

(** ** The solver is the composition of its named steps (any number instance) *)
Lemma solve_steps_eq : forall (K : Type) (NK : Num K) (a b c : AF K),
  af_solve_quadratic a b c = quad_result (quad_steps a b c).
Proof.
  intros K NK a b c. unfold af_solve_quadratic, quad_result, quad_steps.
  cbn [q_disc q_xa q_xb]. destruct (nltb (af_as_float b) n0); reflexivity.
Qed.

(** ** Real algebra: with [q = (-b + s sqrt D)/2], [q/a] and [c/q] are the two roots *)
Lemma vieta_q : forall a b c s q : R,
  a <> 0 -> 0 <= qdisc a b c -> s * s = 1 ->
  q = (- b + s * sqrt (qdisc a b c)) / 2 -> q <> 0 ->
  q / a = (- b + s * sqrt (qdisc a b c)) / (2 * a) /\
  c / q = (- b - s * sqrt (qdisc a b c)) / (2 * a).
Proof.
  intros a b c s q Ha HD Hs Hq Hq0.
  pose proof (sqrt_sqrt _ HD) as HS. set (r := sqrt (qdisc a b c)) in *.
  split.
  - rewrite Hq. field. exact Ha.
  - assert (E : c * (2 * a) = q * (- b - s * r)).
    { rewrite Hq.
      replace ((- b + s * r) / 2 * (- b - s * r)) with ((b * b - (s * s) * (r * r)) / 2) by field.
      rewrite Hs, HS. unfold qdisc. field. }
    apply Rmult_eq_reg_r with (q * (2 * a)).
    + replace (c / q * (q * (2 * a))) with (c * (2 * a)) by (field; exact Hq0).
      replace ((- b - s * r) / (2 * a) * (q * (2 * a))) with (q * (- b - s * r)) by (field; exact Ha).
      exact E.
    + apply Rmult_integral_contrapositive_currified. exact Hq0. lra.
Qed.

(** the two quotients are the roots [root_minus], [root_plus] in one of the two orders *)
Lemma vieta_sets : forall a b c s q : R,
  a <> 0 -> 0 <= qdisc a b c -> (s = 1 \/ s = -1) ->
  q = (- b + s * sqrt (qdisc a b c)) / 2 -> q <> 0 ->
  (q / a = root_plus a b c /\ c / q = root_minus a b c) \/
  (q / a = root_minus a b c /\ c / q = root_plus a b c).
Proof.
  intros a b c s q Ha HD Hs Hq Hq0.
  assert (Hs2 : s * s = 1) by (destruct Hs; subst s; ring).
  destruct (vieta_q a b c s q Ha HD Hs2 Hq Hq0) as [E1 E2].
  unfold root_plus, root_minus. destruct Hs; subst s; [left|right]; rewrite E1, E2; split; f_equal; ring.
Qed.

Lemma roots_are_roots : forall a b c : R, a <> 0 -> 0 <= qdisc a b c ->
  a * root_minus a b c * root_minus a b c + b * root_minus a b c + c = 0 /\
  a * root_plus a b c * root_plus a b c + b * root_plus a b c + c = 0.
Proof.
  intros a b c Ha HD. pose proof (sqrt_sqrt _ HD) as HS.
  unfold root_minus, root_plus. set (r := sqrt (qdisc a b c)) in *.
  assert (Hr : r * r = b * b - 4 * a * c) by exact HS.
  split.
  - replace (a * ((- b - r) / (2 * a)) * ((- b - r) / (2 * a)) + b * ((- b - r) / (2 * a)) + c)
      with ((r * r - (b * b - 4 * a * c)) / (4 * a)) by (field; exact Ha).
    rewrite Hr. field. exact Ha.
  - replace (a * ((- b + r) / (2 * a)) * ((- b + r) / (2 * a)) + b * ((- b + r) / (2 * a)) + c)
      with ((r * r - (b * b - 4 * a * c)) / (4 * a)) by (field; exact Ha).
    rewrite Hr. field. exact Ha.
Qed.

Lemma root_hi_minus_lo : forall a b c : R, a <> 0 -> 0 <= qdisc a b c ->
  root_hi a b c - root_lo a b c = sqrt (qdisc a b c) / Rabs a.
Proof.
  intros a b c Ha HD. unfold root_hi, root_lo, root_minus, root_plus.
  pose proof (sqrt_pos (qdisc a b c)) as Hr. set (r := sqrt (qdisc a b c)) in *.
  destruct (Rlt_dec 0 a) as [P|P].
  - rewrite Rabs_pos_eq by lra.
    assert (H : (- b - r) / (2 * a) <= (- b + r) / (2 * a)).
    { apply Rmult_le_compat_r. left. apply Rinv_0_lt_compat. lra. lra. }
    rewrite Rmin_left, Rmax_right by exact H. field. exact Ha.
  - assert (N : a < 0) by lra. rewrite Rabs_left by exact N.
    assert (H : (- b + r) / (2 * a) <= (- b - r) / (2 * a)).
    { assert (I : / (2 * a) < 0) by (apply Rinv_lt_0_compat; lra). unfold Rdiv. nra. }
    rewrite Rmin_right, Rmax_left by exact H. field. exact Ha.
Qed.

Section C17.
  Variable prec emax : Z.
  Context (Hprec : FLX.Prec_gt_0 prec) (Hmax : Prec_lt_emax prec emax).
  Notation bf := (binary_float prec emax).
  Notation emin := (3 - emax - prec)%Z.
  Notation fexp := (FLT_exp emin prec).
  Local Instance NB17 : Num bf := NumB prec emax Hprec Hmax.
  Implicit Types I J A B C X : AF bf.
  Implicit Types x y r a b c : R.
  Implicit Types f v l h : bf.

  Notation lbP := (@lb prec emax).

  Lemma nfinite_spec : forall v, nfinite v = is_finite v.
  Proof.
    intros [s|s| |s m e H]; unfold nfinite; simpl; try reflexivity.
  Qed.

  Lemma wfb_spec : forall I, wfb I = true <-> wf I.
  Proof.
    intros I. unfold wfb, wf. rewrite !andb_true_iff, !nfinite_spec. split.
    - intros [[Fl Fh] L]. repeat split; try assumption. apply Bleb_finite; assumption.
    - intros (Fl & Fh & L). repeat split; try assumption. apply Bleb_finite; assumption.
  Qed.

  Lemma B2R_n0 : is_finite (n0 : bf) = true /\ B2R (n0 : bf) = 0.
  Proof. exact (Bofz0 prec emax Hprec Hmax). Qed.

  Lemma no_zerob_spec : forall I, wf I -> (no_zerob I = true <-> no_zero I).
  Proof.
    intros I (Fl & Fh & _). destruct B2R_n0 as [F0 V0].
    unfold no_zerob, no_zero. rewrite orb_true_iff.
    change (n0 <? low I)%num with (Bltb (n0 : bf) (low I)).
    change (high I <? n0)%num with (Bltb (high I) (n0 : bf)).
    rewrite (Bltb_finite _ _ F0 Fl), (Bltb_finite _ _ Fh F0), V0. tauto.
  Qed.

  (** the side conditions as predicates of the steps, whatever they are the steps of: [disc_ok A B C] is
      [disc_ok_of (quad_steps A B C)] by unfolding, and no proof below looks inside [quad_steps] *)
  Definition disc_ok_of (s : QSteps bf) : Prop := wf (q_bb s) /\ wf (q_ac s) /\ wf (q_ac4 s).
  Definition inter_ok_of (s : QSteps bf) : Prop :=
    disc_ok_of s /\ wf (q_disc s) /\ wf (q_sqrt s) /\ wf (q_pm s) /\ wf (q_q s) /\ no_zero (q_q s).

  Lemma disc_ok_s_spec : forall s : QSteps bf, disc_ok_s s = true <-> disc_ok_of s.
  Proof. intros s. unfold disc_ok_s, disc_ok_of. rewrite !andb_true_iff, !wfb_spec. tauto. Qed.

  Lemma inter_ok_s_spec : forall s : QSteps bf, inter_ok_s s = true <-> inter_ok_of s.
  Proof.
    intros s. unfold inter_ok_s, inter_ok_of. rewrite !andb_true_iff, !wfb_spec, disc_ok_s_spec.
    split.
    - intros (((((H1 & H2) & H3) & H4) & H5) & H6).
      refine (conj H1 (conj H2 (conj H3 (conj H4 (conj H5 _))))). apply no_zerob_spec; assumption.
    - intros (H1 & H2 & H3 & H4 & H5 & H6).
      refine (conj (conj (conj (conj (conj H1 H2) H3) H4) H5) _). apply no_zerob_spec; assumption.
  Qed.

  Lemma disc_okb_spec : forall A B C, disc_okb A B C = true <-> disc_ok prec emax Hprec Hmax A B C.
  Proof. intros A B C. exact (disc_ok_s_spec (quad_steps A B C)). Qed.

  Lemma inter_okb_spec : forall A B C, inter_okb A B C = true <-> inter_ok prec emax Hprec Hmax A B C.
  Proof. intros A B C. exact (inter_ok_s_spec (quad_steps A B C)). Qed.

  Lemma sort_sorted : forall XA XB X1 X2 r r', contains XA r -> contains XB r' ->
    (if Bltb (low XB) (low XA) then Some (XB, XA) else Some (XA, XB)) = Some (X1, X2) ->
    ext_le (low X1) (low X2) /\
    ((contains X1 r /\ contains X2 r') \/ (contains X1 r' /\ contains X2 r)).
  Proof.
    intros XA XB X1 X2 r r' CA CB E.
    pose proof (lb_not_nan _ _ _ _ (proj1 CA)) as NA. pose proof (lb_not_nan _ _ _ _ (proj1 CB)) as NB.
    destruct (Bltb (low XB) (low XA)) eqn:S; injection E as <- <-.
    - split. exact (Bltb_Bleb _ _ S). right. split; assumption.
    - split. exact (Bltb_false_Bleb _ _ NA NB S). left. split; assumption.
  Qed.

  Lemma sorted_encloses : forall X1 X2 r1 r2, contains X1 r1 -> contains X2 r2 -> ext_le (low X1) (low X2) ->
    contains X1 (Rmin r1 r2) /\ (not_nested X1 X2 -> contains X2 (Rmax r1 r2)).
  Proof.
    intros X1 X2 r1 r2 [L1 U1] [L2 U2] OL. destruct (Bleb_le _ _ OL) as [LL _]. split.
    - split.
      + apply Rmin_case; [exact L1 | apply LL; exact L2].
      + apply ub_mono with (1 := U1). apply Rmin_l.
    - intros NN. destruct (Bleb_le _ _ NN) as [_ UU]. split.
      + apply lb_mono with (1 := L2). apply Rmax_r.
      + apply Rmax_case; [apply UU; exact U1 | exact U2].
  Qed.

  (** *** the two literals of the solver, [4.] and [0.5], are exact in every format with [2 < emax] *)
  Lemma format_bpow : forall k : Z, (emin <= k)%Z -> generic_format radix2 fexp (bpow radix2 k).
  Proof.
    intros k Hk. apply generic_format_bpow. unfold FLT_exp.
    pose proof Hprec as P. unfold FLX.Prec_gt_0 in P. lia.
  Qed.

  Lemma emin_le_m1 : (2 < emax)%Z -> (emin <= -1)%Z.
  Proof. intros H. pose proof Hprec as P. unfold FLX.Prec_gt_0 in P. lia. Qed.

  Lemma Bofz_pow2 : forall k : Z, (0 <= k < emax)%Z -> (2 < emax)%Z ->
    is_finite (Bofz prec emax Hprec Hmax (2 ^ k)) = true /\ B2R (Bofz prec emax Hprec Hmax (2 ^ k)) = bpow radix2 k.
  Proof.
    intros k Hk H3.
    assert (E : IZR (2 ^ k) = bpow radix2 k) by (apply (IZR_Zpower radix2); lia).
    rewrite <- E. apply (Bofz_exact prec emax Hprec Hmax).
    - rewrite E. apply format_bpow. pose proof (emin_le_m1 H3). lia.
    - rewrite E. rewrite Rabs_pos_eq by apply bpow_ge_0. apply bpow_lt. lia.
  Qed.

  Lemma const_four : (2 < emax)%Z ->
    is_finite (nofZ 4 : bf) = true /\ B2R (nofZ 4 : bf) = 4.
  Proof.
    intros H3. destruct (Bofz_pow2 2 ltac:(lia) H3) as [F V].
    change (nofZ 4 : bf) with (Bofz prec emax Hprec Hmax (2 ^ 2)). split. exact F.
    rewrite V. simpl. lra.
  Qed.

  Lemma const_half : (2 < emax)%Z ->
    is_finite (nhalf : bf) = true /\ B2R (nhalf : bf) = / 2.
  Proof.
    intros H3.
    destruct (Bofz_pow2 0 ltac:(lia) H3) as [F1 V1].
    destruct (Bofz_pow2 1 ltac:(lia) H3) as [F2 V2].
    assert (N2 : B2R (Bofz prec emax Hprec Hmax (2 ^ 1)) <> 0) by (rewrite V2; simpl; lra).
    pose proof (is_rnd_div prec emax Hprec Hmax _ _ F1 F2 N2) as D. rewrite V1, V2 in D.
    replace (bpow radix2 0 / bpow radix2 1) with (bpow radix2 (-1)) in D by (simpl; lra).
    (* 1/2 is a number of the format: the division is exact *)
    assert (E : RN prec emax (bpow radix2 (-1)) = bpow radix2 (-1)).
    { apply round_generic; [auto with typeclass_instances|apply format_bpow, emin_le_m1, H3]. }
    destruct (rnd_fwd _ _ D) as [F V].
    - rewrite E, Rabs_pos_eq by apply bpow_ge_0. apply bpow_lt. lia.
    - split; [exact F|]. rewrite E in V. etransitivity; [exact V|simpl; lra].
  Qed.

  (** conversely, if [4.] is a finite float of the format then [2 < emax]; and a well-formed
      [a*c*4.] forces [4.] to be finite: the side condition [disc_ok] already excludes the degenerate
      format, so the theorems need no separate hypothesis on the format *)
  Lemma four_finite_fmt : is_finite (nofZ 4 : bf) = true -> (2 < emax)%Z.
  Proof.
    change (nofZ 4 : bf) with (Bofz prec emax Hprec Hmax 4). unfold Bofz.
    generalize (binary_normalize_correct prec emax Hprec Hmax mode_NE 4 0 false). cbv zeta.
    replace (F2R (Float radix2 4 0)) with (bpow radix2 2) by (unfold F2R; simpl; lra).
    rewrite round_generic; [|auto with typeclass_instances|].
    2:{ apply format_bpow. pose proof Hprec as P. unfold FLX.Prec_gt_0 in P.
        pose proof Hmax as M. unfold Prec_lt_emax in M. lia. }
    rewrite Rabs_pos_eq by apply bpow_ge_0.
    case Rlt_bool_spec.
    - intros L _ _. apply (lt_bpow radix2). exact L.
    - intros _ E F. rewrite <- is_finite_SF_B2SF, E in F. discriminate.
  Qed.

  Lemma mul_f_wf_finite : forall I f, wf I -> wf (af_mul_f I f) -> is_finite f = true.
  Proof.
    intros I f (Fl & Fh & _) (Gl & Gh & _). revert Gl Gh.
    rewrite (af_mul_f_eq prec emax Hprec Hmax). cbn [low high]. unfold bmin, bmax.
    destruct f as [sf|sf| |sf mf ef Hf]; try reflexivity; intros Gl Gh; exfalso.
    - destruct (low I) as [sl|sl| |sl ml el Hl]; try discriminate;
      destruct (high I) as [sh|sh| |sh mh eh Hh]; try discriminate;
      destruct sf; try destruct sl; try destruct sh; simpl in Gl, Gh; discriminate.
    - destruct (low I) as [sl|sl| |sl ml el Hl]; try discriminate;
      destruct (high I) as [sh|sh| |sh mh eh Hh]; try discriminate;
      simpl in Gl, Gh; discriminate.
  Qed.

  Lemma af_neg_wf : forall I, wf I -> wf (af_neg I).
  Proof.
    intros I (Fl & Fh & L). unfold wf, af_neg. cbn [low high].
    change (- high I)%num with (Bopp (high I)). change (- low I)%num with (Bopp (low I)).
    rewrite !is_finite_Bopp, !B2R_Bopp. repeat split; try assumption. lra.
  Qed.

  Lemma contains_nonzero : forall I x, wf I -> no_zero I -> contains I x -> x <> 0.
  Proof.
    intros I x W NZ Cx. destruct (wf_contains _ _ I x W Cx) as (_ & _ & Hx).
    destruct NZ; lra.
  Qed.

  Lemma ltb_n0_false : forall v, is_finite v = true -> Bltb v (n0 : bf) = false -> 0 <= B2R v.
  Proof.
    intros v Fv H. destruct B2R_n0 as [F0 V0].
    destruct (Rle_lt_dec 0 (B2R v)) as [P|P]; [exact P|exfalso].
    assert (T : Bltb v (n0 : bf) = true) by (apply Bltb_finite; [exact Fv|exact F0|rewrite V0; exact P]).
    congruence.
  Qed.
  Lemma ltb_n0_true : forall v r, lbP v r -> r < 0 -> Bltb v (n0 : bf) = true.
  Proof.
    intros v r L Hr. destruct B2R_n0 as [F0 V0].
    destruct (is_finite v) eqn:Fv.
    - apply Bltb_finite; [exact Fv|exact F0|]. apply lb_finite in L; [|exact Fv]. rewrite V0. lra.
    - destruct v as [sv|[|]| |sv mv ev Hv]; try discriminate; simpl in L; try tauto.
  Qed.

  (** the equations that make [s] the steps of the solver on [A B C]: all the proofs need of [quad_steps] *)
  Record steps_of A B C (s : QSteps bf) : Prop := {
    e_bb : q_bb s = af_mul B B;
    e_ac : q_ac s = af_mul A C;
    e_ac4 : q_ac4 s = af_mul_f (q_ac s) (nofZ 4);
    e_disc : q_disc s = af_sub (q_bb s) (q_ac4 s);
    e_sqrt : q_sqrt s = af_sqrt (q_disc s);
    e_pm : q_pm s = if q_branch s then af_sub B (q_sqrt s) else af_add B (q_sqrt s);
    e_neg : q_neg s = af_neg (q_pm s);
    e_q : q_q s = af_mul_f (q_neg s) nhalf;
    e_xa : q_xa s = af_div (q_q s) A;
    e_xb : q_xb s = af_div C (q_q s) }.
  Arguments e_bb {A B C s}. Arguments e_ac {A B C s}. Arguments e_ac4 {A B C s}. Arguments e_disc {A B C s}. Arguments e_sqrt {A B C s}.
  Arguments e_pm {A B C s}. Arguments e_neg {A B C s}. Arguments e_q {A B C s}. Arguments e_xa {A B C s}. Arguments e_xb {A B C s}.

  Lemma quad_steps_of : forall A B C, steps_of A B C (quad_steps A B C).
  Proof. intros A B C. split; reflexivity. Qed.

  (** the sign [s] of the square root in [q = (-b + s sqrt D)/2]: [+1] when [mid(b) < 0] *)
  Definition sgn_of (br : bool) : R := if br then 1 else -1.

  Section Steps.
    Variables A B C : AF bf.
    Variable s : QSteps bf.
    Hypothesis E : steps_of A B C s.
    Variables a b c : R.
    Hypothesis WA : wf A. Hypothesis WB : wf B. Hypothesis WC : wf C.
    Hypothesis CA : contains A a. Hypothesis CB : contains B b. Hypothesis CC : contains C c.

    Lemma steps_fmt : disc_ok_of s -> (2 < emax)%Z.
    Proof.
      intros (_ & Wac & Wac4). rewrite (e_ac4 E) in Wac4.
      apply four_finite_fmt. exact (mul_f_wf_finite _ _ Wac Wac4).
    Qed.

    Lemma step_disc : disc_ok_of s -> contains (q_disc s) (qdisc a b c).
    Proof.
      intros DO. destruct (const_four (steps_fmt DO)) as [F4 V4]. destruct DO as (Wbb & Wac & Wac4).
      assert (Cac : contains (q_ac s) (a * c)) by (rewrite (e_ac E); apply af_mul_correct; assumption).
      rewrite (e_disc E). replace (qdisc a b c) with (b * b - a * c * 4) by (unfold qdisc; ring).
      apply af_sub_correct; try assumption.
      - rewrite (e_bb E). apply af_mul_correct; assumption.
      - rewrite (e_ac4 E), <- V4. apply af_mul_f_correct; assumption.
    Qed.

    Lemma step_q : inter_ok_of s -> Bltb (low (q_disc s)) (n0 : bf) = false ->
      0 <= qdisc a b c /\
      contains (q_q s) ((- b + sgn_of (q_branch s) * sqrt (qdisc a b c)) / 2).
    Proof.
      intros (DO & Wd & Ws & Wpm & Wq & NZ) NR.
      pose proof (step_disc DO) as Cd.
      destruct (wf_contains _ _ _ _ Wd Cd) as (Fdl & _ & Hd).
      pose proof (ltb_n0_false _ Fdl NR) as P0.
      assert (HD : 0 <= qdisc a b c) by lra.
      split. exact HD.
      assert (Csq : contains (q_sqrt s) (sqrt (qdisc a b c))) by (rewrite (e_sqrt E); apply af_sqrt_correct; assumption).
      destruct (const_half (steps_fmt DO)) as [Fh Vh].
      assert (Cpm : contains (q_pm s) (b - sgn_of (q_branch s) * sqrt (qdisc a b c))).
      { rewrite (e_pm E). destruct (q_branch s); unfold sgn_of.
        - replace (b - 1 * sqrt (qdisc a b c)) with (b - sqrt (qdisc a b c)) by ring.
          apply af_sub_correct; assumption.
        - replace (b - -1 * sqrt (qdisc a b c)) with (b + sqrt (qdisc a b c)) by ring.
          apply af_add_correct; assumption. }
      replace ((- b + sgn_of (q_branch s) * sqrt (qdisc a b c)) / 2)
        with (- (b - sgn_of (q_branch s) * sqrt (qdisc a b c)) * B2R (nhalf : bf)) by (rewrite Vh; field).
      rewrite (e_q E), (e_neg E).
      apply af_mul_f_correct; [apply af_neg_wf; exact Wpm | exact Fh | apply af_neg_correct; assumption].
    Qed.

    Lemma step_roots : no_zero A -> inter_ok_of s -> Bltb (low (q_disc s)) (n0 : bf) = false ->
      0 <= qdisc a b c /\
      ((contains (q_xa s) (root_plus a b c) /\ contains (q_xb s) (root_minus a b c)) \/
       (contains (q_xa s) (root_minus a b c) /\ contains (q_xb s) (root_plus a b c))).
    Proof.
      intros NA IO NR. destruct (step_q IO NR) as [HD Cq].
      destruct IO as (_ & _ & _ & _ & Wq & NZ).
      set (q := (- b + sgn_of (q_branch s) * sqrt (qdisc a b c)) / 2) in *.
      assert (Ha : a <> 0) by (apply contains_nonzero with (1 := WA); assumption).
      assert (Hq : q <> 0) by (apply contains_nonzero with (1 := Wq); assumption).
      assert (Ca : contains (q_xa s) (q / a)) by (rewrite (e_xa E); apply af_div_correct; assumption).
      assert (Cb : contains (q_xb s) (c / q)) by (rewrite (e_xb E); apply af_div_correct; assumption).
      split. exact HD.
      assert (Hs : sgn_of (q_branch s) = 1 \/ sgn_of (q_branch s) = -1) by (destruct (q_branch s); auto).
      destruct (vieta_sets a b c _ q Ha HD Hs eq_refl Hq) as [[<- <-]|[<- <-]]; [left|right]; split; assumption.
    Qed.
  End Steps.


  Lemma quad_result_eq : forall s : QSteps bf, quad_result s =
    if Bltb (low (q_disc s)) (n0 : bf) then None
    else if Bltb (low (q_xb s)) (low (q_xa s)) then Some (q_xb s, q_xa s) else Some (q_xa s, q_xb s).
  Proof. reflexivity. Qed.

  Lemma result_some_iff : forall s : QSteps bf,
    (exists XX : AF bf * AF bf, quad_result s = Some XX) <-> Bltb (low (q_disc s)) (n0 : bf) = false.
  Proof.
    intros s. rewrite quad_result_eq. destruct (Bltb (low (q_disc s)) (n0 : bf)).
    - split. intros [XX HX]; discriminate. discriminate.
    - split. reflexivity. intros _. destruct (Bltb (low (q_xb s)) (low (q_xa s))); eexists; reflexivity.
  Qed.

  (** *** each root is enclosed by one of the two returned intervals, nested or not, and
      the intervals come in ascending order of their lower bounds; the other forms follow from this *)
  Theorem solve_sorted : forall A B C X1 X2 a b c,
    wf A -> wf B -> wf C -> no_zero A -> inter_ok prec emax Hprec Hmax A B C ->
    af_solve_quadratic A B C = Some (X1, X2) ->
    contains A a -> contains B b -> contains C c ->
    0 <= qdisc a b c /\ ext_le (low X1) (low X2) /\
    ((contains X1 (root_minus a b c) /\ contains X2 (root_plus a b c)) \/
     (contains X1 (root_plus a b c) /\ contains X2 (root_minus a b c))).
  Proof.
    intros A B C X1 X2 a b c WA WB WC NA IO E0 CA CB CC.
    rewrite solve_steps_eq in E0. pose proof (quad_steps_of A B C) as E.
    change (inter_ok_of (quad_steps A B C)) in IO. revert E IO E0. generalize (quad_steps A B C).
    intros s E IOs E0. rewrite quad_result_eq in E0.
    destruct (Bltb (low (q_disc s)) (n0 : bf)) eqn:NR; [discriminate|].
    destruct (step_roots A B C s E a b c WA WB WC CA CB CC NA IOs NR) as (HD & [[Ca Cb]|[Ca Cb]]);
      destruct (sort_sorted _ _ _ _ _ _ Ca Cb E0) as [OL H]; tauto.
  Qed.

  Theorem each_root_enclosed_af : forall A B C X1 X2 a b c,
    wf A -> wf B -> wf C -> no_zero A -> inter_ok prec emax Hprec Hmax A B C ->
    af_solve_quadratic A B C = Some (X1, X2) ->
    contains A a -> contains B b -> contains C c ->
    (contains X1 (root_minus a b c) /\ contains X2 (root_plus a b c)) \/
    (contains X1 (root_plus a b c) /\ contains X2 (root_minus a b c)).
  Proof.
    intros A B C X1 X2 a b c WA WB WC NA IO E CA CB CC.
    exact (proj2 (proj2 (solve_sorted A B C X1 X2 a b c WA WB WC NA IO E CA CB CC))).
  Qed.

  Theorem roots_enclosed_af : forall A B C X1 X2 a b c,
    wf A -> wf B -> wf C -> no_zero A -> inter_ok prec emax Hprec Hmax A B C ->
    af_solve_quadratic A B C = Some (X1, X2) ->
    contains A a -> contains B b -> contains C c ->
    0 <= qdisc a b c /\
    contains X1 (root_lo a b c) /\
    (not_nested X1 X2 -> contains X2 (root_hi a b c)) /\
    ext_wf X1 /\ ext_wf X2 /\ ext_le (low X1) (low X2).
  Proof.
    intros A B C X1 X2 a b c WA WB WC NA IO E CA CB CC.
    destruct (solve_sorted A B C X1 X2 a b c WA WB WC NA IO E CA CB CC) as (HD & OL & [[C1 C2]|[C1 C2]]);
      destruct (sorted_encloses _ _ _ _ C1 C2 OL) as [S1 S2]; unfold root_lo, root_hi.
    2: rewrite Rmin_comm, Rmax_comm.
    all: exact (conj HD (conj S1 (conj S2 (conj (contains_ext_wf _ _ _ _ C1) (conj (contains_ext_wf _ _ _ _ C2) OL))))).
  Qed.

  Lemma disjoint_not_nested : forall X1 X2, ext_wf X2 -> disjoint X1 X2 -> not_nested X1 X2.
  Proof.
    intros [l1 h1] [l2 h2] W D. unfold disjoint, not_nested, ext_le, ext_wf in *. cbn [low high] in *.
    destruct h1 as [s1|s1| |s1 m1 e1 H1]; destruct l2 as [sl|sl| |sl ml el Hl];
      destruct h2 as [s2|s2| |s2 m2 e2 H2]; try destruct s1; try destruct sl; try destruct s2;
      try discriminate; try tauto; try reflexivity.
    all: try (match goal with |- Bleb ?x ?y = true =>
      assert (Fx : is_finite x = true) by reflexivity; assert (Fy : is_finite y = true) by reflexivity;
      apply (Bleb_finite x y Fx Fy) end;
      match type of D with Bltb ?x ?y = true =>
      assert (Fx' : is_finite x = true) by reflexivity; assert (Fy' : is_finite y = true) by reflexivity;
      apply (Bltb_finite x y Fx' Fy') in D end; simpl B2R in *; lra).
  Qed.

  Theorem hi_enclosed_when_disjoint_af : forall A B C X1 X2 a b c,
    wf A -> wf B -> wf C -> no_zero A -> inter_ok prec emax Hprec Hmax A B C ->
    af_solve_quadratic A B C = Some (X1, X2) ->
    contains A a -> contains B b -> contains C c ->
    disjoint X1 X2 -> contains X2 (root_hi a b c).
  Proof.
    intros A B C X1 X2 a b c WA WB WC NA IO E CA CB CC D.
    destruct (roots_enclosed_af A B C X1 X2 a b c WA WB WC NA IO E CA CB CC) as (_ & _ & H & _ & W2 & _).
    apply H. exact (disjoint_not_nested X1 X2 W2 D).
  Qed.

  (** the solver answers [Some] exactly when the computed discriminant's lower bound is not [< 0] *)
  Lemma some_iff_low_disc : forall A B C,
    (exists XX : AF bf * AF bf, af_solve_quadratic A B C = Some XX) <-> Bltb (low (q_disc (quad_steps A B C))) (n0 : bf) = false.
  Proof. intros A B C. rewrite solve_steps_eq. apply result_some_iff. Qed.

  (** a negative discriminant for ONE admissible choice is enough for the rejection *)
  Theorem none_when_negative_af : forall A B C a b c,
    wf A -> wf B -> wf C -> disc_ok prec emax Hprec Hmax A B C ->
    contains A a -> contains B b -> contains C c ->
    qdisc a b c < 0 -> af_solve_quadratic A B C = None.
  Proof.
    intros A B C a b c WA WB WC DO CA CB CC HD.
    pose proof (step_disc A B C _ (quad_steps_of A B C) a b c WA WB WC CA CB CC DO) as [L _].
    rewrite solve_steps_eq, quad_result_eq, (ltb_n0_true _ _ L HD). reflexivity.
  Qed.

  (** the lower bound of [x - y] (outward rounded) is not negative iff [y < x]: subtraction of two
      floats never rounds a non-zero difference to zero *)
  Lemma sub_low_sign : forall x y : bf, is_finite x = true -> is_finite y = true ->
    (Bltb (Bpred (Bminus mode_NE x y)) (n0 : bf) = false <-> B2R y < B2R x).
  Proof.
    intros x y Fx Fy. destruct B2R_n0 as [F0 V0].
    pose proof (is_rnd_minus prec emax Hprec Hmax x y Fx Fy) as Rz.
    set (z := Bminus mode_NE x y) in *.
    pose proof (rnd_lb0 prec emax Hprec Hmax z _ Rz) as Lz.
    pose proof (bpow_gt_0 radix2 emax) as Pe.
    destruct (Rtotal_order (B2R x - B2R y) 0) as [N|[Z|P]].
    - rewrite (ltb_n0_true _ _ Lz N). split; [discriminate|lra].
    - (* x = y: the difference is a zero, and its predecessor, -inf or -2^emin, is negative *)
      assert (L : lbP (Bpred z) (pred radix2 fexp 0)).
      { rewrite Z in Rz. destruct Rz as (_ & _ & [[Fz Vz]|[s [Ez Hov]]]).
        - rewrite (RN_0 prec emax) in Vz.
          destruct (Bpred_cases prec emax Hprec Hmax z Fz) as [[-> _]|[FR VR]]; [exact I|].
          apply lb_finite. exact FR. rewrite VR, Vz. apply Rle_refl.
        - rewrite (RN_0 prec emax), Rabs_R0 in Hov. lra. }
      rewrite (ltb_n0_true _ _ L). split; [discriminate|lra].
      rewrite pred_0, (@ulp_FLT_0 radix2 emin prec Hprec). pose proof (bpow_gt_0 radix2 emin). lra.
    - split; [lra|intros _].
      assert (NZ : RN prec emax (B2R x - B2R y) <> 0).
      { unfold RN, Rminus. apply round_plus_neq_0; auto with typeclass_instances.
        apply generic_format_B2R. apply generic_format_opp, generic_format_B2R. lra. }
      assert (P0 : 0 <= RN prec emax (B2R x - B2R y)).
      { rewrite <- (RN_0 prec emax). apply RN_le. exact Hprec. lra. }
      destruct Rz as (S0 & S1 & [[Fz Vz]|[s [Ez Hov]]]).
      + assert (G0 : 0 <= pred radix2 fexp (B2R z)).
        { apply pred_ge_0; auto with typeclass_instances. rewrite Vz. lra. apply generic_format_B2R. }
        destruct (Bpred_cases prec emax Hprec Hmax z Fz) as [[_ Hle]|[FR VR]]; [lra|].
        destruct (Bltb (Bpred z) (n0 : bf)) eqn:T; [|reflexivity]. exfalso.
        apply (Bltb_finite _ _ FR F0) in T. rewrite VR, V0 in T. lra.
      + destruct s.
        * exfalso. rewrite Ez in S1. specialize (S1 eq_refl). lra.
        * rewrite Ez. reflexivity.
  Qed.

  (** exact characterisation: roots are returned iff the lower bound computed for [b*b] exceeds the
      upper bound computed for [4ac] (for finite operands; every format) *)
  Lemma steps_some_iff : forall A B C (s : QSteps bf), steps_of A B C s -> disc_ok_of s ->
    ((exists XX : AF bf * AF bf, quad_result s = Some XX) <-> B2R (high (q_ac4 s)) < B2R (low (q_bb s))).
  Proof.
    intros A B C s E (Wbb & _ & Wac4). rewrite result_some_iff, (e_disc E).
    exact (sub_low_sign _ _ (proj1 Wbb) (proj1 (proj2 Wac4))).
  Qed.

  Theorem some_iff_operands : forall A B C,
    disc_ok prec emax Hprec Hmax A B C ->
    let s := quad_steps A B C in
    ((exists XX : AF bf * AF bf, af_solve_quadratic A B C = Some XX) <-> B2R (high (q_ac4 s)) < B2R (low (q_bb s))).
  Proof. intros A B C DO s. rewrite solve_steps_eq. exact (steps_some_iff A B C s (quad_steps_of A B C) DO). Qed.

  Lemma nested_width : forall X1 X2 r1 r2, contains X1 r1 -> contains X2 r2 -> ext_le (low X1) (low X2) ->
    is_finite (low X1) = true -> is_finite (high X1) = true -> Bleb (high X1) (high X2) = false ->
    Rmax r1 r2 - Rmin r1 r2 <= width X1.
  Proof.
    intros X1 X2 r1 r2 [L1 U1] [L2 U2] OL Fl Fh NN.
    destruct (Bleb_le _ _ OL) as [LL _].
    destruct (ltb_true_le _ _ _ _ (Bleb_false_Bltb _ _ (finite_not_nan _ _ _ Fh) (ub_not_nan _ _ _ _ U2) NN)) as [_ UU].
    apply LL in L2. apply UU in U2.
    apply lb_finite in L1, L2; try exact Fl. apply ub_finite in U1, U2; try exact Fh.
    unfold width, Rmax, Rmin. destruct (Rle_dec r1 r2); lra.
  Qed.

  (** if the first enclosure is finite and some admissible choice has its two roots further apart
      than that enclosure is wide, the enclosures are not nested (so the larger root is in [X2]) *)
  Theorem not_nested_when_separated_af : forall A B C X1 X2 a b c,
    wf A -> wf B -> wf C -> no_zero A -> inter_ok prec emax Hprec Hmax A B C ->
    af_solve_quadratic A B C = Some (X1, X2) ->
    contains A a -> contains B b -> contains C c ->
    is_finite (low X1) = true -> is_finite (high X1) = true ->
    width X1 < sqrt (qdisc a b c) / Rabs a ->
    not_nested X1 X2.
  Proof.
    intros A B C X1 X2 a b c WA WB WC NA IO E CA CB CC Fl Fh Sep.
    destruct (solve_sorted A B C X1 X2 a b c WA WB WC NA IO E CA CB CC) as (HD & OL & Hc).
    unfold not_nested, ext_le. destruct (Bleb (high X1) (high X2)) eqn:NN; [reflexivity|exfalso].
    assert (Ha : a <> 0) by (apply contains_nonzero with (1 := WA); assumption).
    pose proof (root_hi_minus_lo a b c Ha HD) as W. unfold root_hi, root_lo in W.
    destruct Hc as [[C1 C2]|[C1 C2]]; pose proof (nested_width _ _ _ _ C1 C2 OL Fl Fh NN) as K.
    2: rewrite Rmax_comm, Rmin_comm in K.
    all: lra.
  Qed.
End C17.

(** ** binary64: non-vacuity, the pinned solver refuted, and the need for "q excludes zero" *)
Lemma root_hi_gt : forall a b c h : R,
  0 < a -> 0 <= qdisc a b c ->
  (2 * a * h + b < 0 \/ (2 * a * h + b) * (2 * a * h + b) < qdisc a b c) -> h < root_hi a b c.
Proof.
  intros a b c h Ha HD Hlt.
  assert (Hs : 2 * a * h + b < sqrt (qdisc a b c)).
  { destruct (Rlt_le_dec (2 * a * h + b) 0) as [N|Ht].
    - pose proof (sqrt_pos (qdisc a b c)). lra.
    - destruct Hlt as [N|Hlt]; [lra|].
      rewrite <- (sqrt_square (2 * a * h + b)) by exact Ht. apply sqrt_lt_1_alt. split; [nra|exact Hlt]. }
  apply Rlt_le_trans with (root_plus a b c); [|apply Rmax_r].
  unfold root_plus. apply Rmult_lt_reg_r with (2 * a). lra.
  replace ((- b + sqrt (qdisc a b c)) / (2 * a) * (2 * a)) with (- b + sqrt (qdisc a b c)) by (field; lra).
  lra.
Qed.

Definition mk64 (l h : spec_float) : AF b64 := mkAF (B64ofSF l) (B64ofSF h).
Lemma wfb_wf64 : forall I : AF b64, wfb I = true -> wf I.
Proof. intros I H. apply (wfb_spec 53 1024 Hprec53 Hmax1024). exact H. Qed.
Lemma no_zerob64 : forall I : AF b64, wfb I = true -> no_zerob I = true -> no_zero I.
Proof.
  intros I W H. apply (no_zerob_spec 53 1024 Hprec53 Hmax1024). apply wfb_wf64. exact W. exact H.
Qed.
Lemma contains64 : forall (I : AF b64) sl ml el sh mh eh x,
  B2SF (low I) = S754_finite sl ml el -> B2SF (high I) = S754_finite sh mh eh ->
  SF2R radix2 (S754_finite sl ml el) <= x <= SF2R radix2 (S754_finite sh mh eh) -> contains I x.
Proof.
  intros I sl ml el sh mh eh x Hl Hh Hx.
  destruct (sf_finite_B2R _ _ _ _ Hl) as [Fl Vl]. destruct (sf_finite_B2R _ _ _ _ Hh) as [Fh Vh].
  split; [apply lb_finite|apply ub_finite]; try assumption.
  - apply Rle_trans with (2 := proj1 Hx). right. exact Vl.
  - apply Rle_trans with (1 := proj2 Hx). right. symmetry. exact Vh.
Qed.
Lemma not_contains64 : forall (I : AF b64) s m e x,
  B2SF (high I) = S754_finite s m e -> SF2R radix2 (S754_finite s m e) < x -> ~ contains I x.
Proof.
  intros I s m e x H G [_ U]. destruct (sf_finite_B2R _ _ _ _ H) as [F V].
  apply ub_finite in U; [|exact F]. rewrite <- V in G. exact (Rlt_irrefl _ (Rle_lt_trans _ _ _ U G)).
Qed.

(** the upper bounds of a solver's answer, so that one evaluation of the solver yields all that the
    refutations below need of it *)
Definition highs (r : option (AF b64 * AF b64)) : option (spec_float * spec_float) :=
  match r with Some (x1, x2) => Some (B2SF (high x1), B2SF (high x2)) | None => None end.
Lemma highs_inv : forall r h1 h2, highs r = Some (h1, h2) ->
  exists X1 X2, r = Some (X1, X2) /\ B2SF (high X1) = h1 /\ B2SF (high X2) = h2.
Proof. intros [[X1 X2]|] h1 h2 H; [|discriminate]. injection H as <- <-. exists X1, X2. auto. Qed.

(** *** the committed witness of finding F1 on the solver: a in [1,1.000001], b in [-3.000003,-3], c in [2,2.000002] *)
Definition pA : AF b64 := mk64 (S754_finite false 4503599627370496 (-52)) (S754_finite false 4503604130970123 (-52)).
Definition pB : AF b64 := mk64 (S754_finite true 6755406196455185 (-51)) (S754_finite true 6755399441055744 (-51)).
Definition pC : AF b64 := mk64 (S754_finite false 4503599627370496 (-51)) (S754_finite false 4503604130970123 (-51)).

Lemma pABC_facts :
  wf pA /\ wf pB /\ wf pC /\ no_zero pA /\
  contains pA 1 /\ contains pB (- 6755406196455185 / 2251799813685248) /\ contains pC 2.
Proof.
  assert (WA : wfb pA = true) by (vm_compute; reflexivity).
  split. apply wfb_wf64, WA. split. apply wfb_wf64. vm_compute; reflexivity.
  split. apply wfb_wf64. vm_compute; reflexivity.
  split. apply no_zerob64. exact WA. vm_compute; reflexivity.
  split; [|split]; eapply contains64; try (vm_compute; reflexivity); b2r_lit; lra.
Qed.

(** the solver built from the pinned operators returns x2 = [1.9999985.., 2.0000015..]; the larger root
    of a = 1, b = -3.000003, c = 2 is 2.000006.. *)
Lemma pinned_solver_refuted :
  exists (A B C X1 X2 : AF b64) (a b c : R),
    wf A /\ wf B /\ wf C /\ no_zero A /\
    af_solve_quadratic_pinned A B C = Some (X1, X2) /\
    contains A a /\ contains B b /\ contains C c /\ 0 <= qdisc a b c /\
    ~ contains X2 (root_hi a b c).
Proof.
  destruct pABC_facts as (WA & WB & WC & NA & CA & CB & CC).
  edestruct (highs_inv (af_solve_quadratic_pinned pA pB pC)) as (X1 & X2 & E & _ & HX); [vm_compute; reflexivity|].
  exists pA, pB, pC, X1, X2, 1, (- 6755406196455185 / 2251799813685248), 2.
  repeat (split; [assumption|]).
  split. unfold qdisc. lra.
  apply not_contains64 with (1 := HX). b2r_lit. apply root_hi_gt; unfold qdisc; lra.
Qed.

(** *** non-vacuity: the same coefficient intervals meet every hypothesis of C17_roots_enclosed *)
Lemma nonvacuous_proof :
  wf pA /\ wf pB /\ wf pC /\ no_zero pA /\ inter_ok 53 1024 Hprec53 Hmax1024 pA pB pC /\
  (exists X1 X2 : AF b64, af_solve_quadratic pA pB pC = Some (X1, X2)) /\
  contains pA 1 /\ contains pB (- 6755406196455185 / 2251799813685248) /\ contains pC 2.
Proof.
  destruct pABC_facts as (WA & WB & WC & NA & CA & CB & CC).
  repeat (split; [assumption|]).
  split. apply (inter_okb_spec 53 1024 Hprec53 Hmax1024). vm_compute. reflexivity.
  split; [|split; [assumption|split; assumption]].
  edestruct (highs_inv (af_solve_quadratic pA pB pC)) as (X1 & X2 & E & _); [vm_compute; reflexivity|].
  exists X1, X2. exact E.
Qed.

(** *** "q excludes zero" cannot be dropped.
    What one evaluation of the solver has to show for that: every hypothesis of the enclosure theorem but
    "q excludes zero" holds, and these are the upper bounds of the two returned intervals *)
Definition q_zero_summary (A B C : AF b64) : bool * option (spec_float * spec_float) :=
  let s := quad_steps A B C in
  (inputs_okb A B C && no_zerob A && disc_ok_s s && wfb (q_disc s) && wfb (q_sqrt s) && wfb (q_pm s) && wfb (q_q s)
     && negb (no_zerob (q_q s)),
   highs (quad_result s)).

Lemma q_zero_schema : forall (A B C : AF b64) (a b c : R) s1 m1 e1 s2 m2 e2,
  q_zero_summary A B C = (true, Some (S754_finite s1 m1 e1, S754_finite s2 m2 e2)) ->
  contains A a -> contains B b -> contains C c -> 0 <= qdisc a b c ->
  SF2R radix2 (S754_finite s1 m1 e1) < root_hi a b c -> SF2R radix2 (S754_finite s2 m2 e2) < root_hi a b c ->
  exists X1 X2 : AF b64,
    wf A /\ wf B /\ wf C /\ no_zero A /\
    (let s := quad_steps A B C in
     disc_ok 53 1024 Hprec53 Hmax1024 A B C /\ wf (q_disc s) /\ wf (q_sqrt s) /\ wf (q_pm s) /\ wf (q_q s) /\ ~ no_zero (q_q s)) /\
    af_solve_quadratic A B C = Some (X1, X2) /\
    contains A a /\ contains B b /\ contains C c /\ 0 <= qdisc a b c /\
    ~ contains X1 (root_hi a b c) /\ ~ contains X2 (root_hi a b c).
Proof.
  intros A B C a b c s1 m1 e1 s2 m2 e2 H CA CB CC HD G1 G2.
  rewrite solve_steps_eq. cbv zeta. change (disc_ok 53 1024 Hprec53 Hmax1024 A B C) with (disc_ok_of 53 1024 (quad_steps A B C)).
  revert H. unfold q_zero_summary. cbv zeta. generalize (quad_steps A B C). intros s H.
  injection H as Hb Hh. unfold inputs_okb in Hb. rewrite !andb_true_iff, negb_true_iff in Hb.
  destruct Hb as (((((((((WA & WB) & WC) & NA) & D) & W1) & W2) & W3) & W4) & Z).
  destruct (highs_inv _ _ _ Hh) as (X1 & X2 & E & H1 & H2).
  exists X1, X2.
  split. exact (wfb_wf64 _ WA). split. exact (wfb_wf64 _ WB). split. exact (wfb_wf64 _ WC).
  split. exact (no_zerob64 _ WA NA).
  split.
  { split. apply (disc_ok_s_spec 53 1024 Hprec53 Hmax1024). exact D.
    split. exact (wfb_wf64 _ W1). split. exact (wfb_wf64 _ W2). split. exact (wfb_wf64 _ W3).
    split. exact (wfb_wf64 _ W4).
    intros NZ. apply (no_zerob_spec 53 1024 Hprec53 Hmax1024) in NZ; [|exact (wfb_wf64 _ W4)].
    exact (Bool.diff_false_true (eq_trans (eq_sym Z) NZ)). }
  split. exact E.
  repeat (split; [assumption|]).
  split; [exact (not_contains64 _ _ _ _ _ H1 G1) | exact (not_contains64 _ _ _ _ _ H2 G2)].
Qed.

(** a = 1, b in [-1,1], c = -3/8.
    Every intermediate is finite and well formed, the discriminant's lower bound is positive, the
    solver answers [Some], but its [q] interval contains zero, [c / q] is not an enclosure, and the
    root (1 + sqrt 2.5)/2 = 1.29.. of a = 1, b = -1, c = -3/8 lies in NEITHER returned interval. *)
Definition zA : AF b64 := mk64 (S754_finite false 4503599627370496 (-52)) (S754_finite false 4503599627370496 (-52)).
Definition zB : AF b64 := mk64 (S754_finite true 4503599627370496 (-52)) (S754_finite false 4503599627370496 (-52)).
Definition zC : AF b64 := mk64 (S754_finite true 6755399441055744 (-54)) (S754_finite true 6755399441055744 (-54)).

Lemma q_zero_refuted :
  exists (A B C X1 X2 : AF b64) (a b c : R),
    wf A /\ wf B /\ wf C /\ no_zero A /\
    (let s := quad_steps A B C in
     disc_ok 53 1024 Hprec53 Hmax1024 A B C /\ wf (q_disc s) /\ wf (q_sqrt s) /\ wf (q_pm s) /\ wf (q_q s) /\ ~ no_zero (q_q s)) /\
    af_solve_quadratic A B C = Some (X1, X2) /\
    contains A a /\ contains B b /\ contains C c /\ 0 <= qdisc a b c /\
    ~ contains X1 (root_hi a b c) /\ ~ contains X2 (root_hi a b c).
Proof.
  exists zA, zB, zC.
  destruct (q_zero_schema zA zB zC 1 (-1) (-3 / 8) false 5234433237235365 (-54) false 5276295164430460 (-55))
    as (X1 & X2 & H); [vm_compute; reflexivity | ..| exists X1, X2, 1, (-1), (-3 / 8); exact H].
  1-3: eapply contains64; try (vm_compute; reflexivity); b2r_lit; lra.
  - unfold qdisc. lra.
  - b2r_lit. apply root_hi_gt; unfold qdisc; lra.
  - b2r_lit. apply root_hi_gt; unfold qdisc; lra.
Qed.

(** *** the same defect on coefficient intervals as they arise from a sphere: unit sphere, ray from
    (1 - 7.5e-15, 0, 0) along (0, 1, 0) with a direction error box of 1e-7 (harness generator
    [witness-q-zero]; these are the a, b, c that sphere3d.rs computes).  The larger root 2.6e-7 of the
    choice a = A.low, b = B.low = -2e-7, c = C.low = -1.55e-14 lies in neither returned interval. *)
Definition sA : AF b64 := mk64 (S754_finite false 9007197453301048 (-53)) (S754_finite false 4503600528090561 (-52)).
Definition sB : AF b64 := mk64 (S754_finite true 7555786372591380 (-75)) (S754_finite false 7555786372591380 (-75)).
Definition sC : AF b64 := mk64 (S754_finite true 4925812092436481 (-98)) (S754_finite true 4644337115725823 (-98)).

Lemma q_zero_sphere_refuted :
  exists (X1 X2 : AF b64) (a b c : R),
    wf sA /\ wf sB /\ wf sC /\ no_zero sA /\
    (let s := quad_steps sA sB sC in
     disc_ok 53 1024 Hprec53 Hmax1024 sA sB sC /\ wf (q_disc s) /\ wf (q_sqrt s) /\ wf (q_pm s) /\ wf (q_q s) /\ ~ no_zero (q_q s)) /\
    af_solve_quadratic sA sB sC = Some (X1, X2) /\
    contains sA a /\ contains sB b /\ contains sC c /\ 0 <= qdisc a b c /\
    ~ contains X1 (root_hi a b c) /\ ~ contains X2 (root_hi a b c).
Proof.
  destruct (q_zero_schema sA sB sC (9007197453301048 / 9007199254740992) (- 7555786372591380 / 37778931862957161709568)
              (- 4925812092436481 / 316912650057057350374175801344)
              false 4520034329873151 (-76) false 4801381626969689 (-77))
    as (X1 & X2 & H); [vm_compute; reflexivity | ..| exists X1, X2; eexists _, _, _; exact H].
  1-3: eapply contains64; try (vm_compute; reflexivity); b2r_lit; lra.
  - unfold qdisc. lra.
  - b2r_lit. apply root_hi_gt; unfold qdisc; lra.
  - b2r_lit. apply root_hi_gt; unfold qdisc; lra.
Qed.
