(** * PrimBridge: the primitive-float instance [NumF] IS the Flocq instance [NumB64], operation by operation.

    The float-tier theorems (C07, C14, C15, C16, C17) are proved on [NumB prec emax] (Flocq [binary_float], every format);
    what is executed bit for bit against the f64 build of the crate is [NumF] (Coq's primitive binary64 floats).
    This file links the two by proof:

    - generic: [NumHom N1 N2 h] -- [h : K1 -> K2] commutes with every NON-libm member of the class [Num]
      (the five libm members and [npi] are outside every float-tier theorem; on [NumB] they are NaN by definition).
      Derived lemmas for every constant / derived operation of Model/Num.v and Model/BBox.v ([n0 n1 n2 nhalf c1em3 ...
      c1em10 ctiny ngamma nofQ nmax nmin fmax fmin gamma3 widen]), the map functions on the record types of the model
      ([mapV3 mapRay mapBBox mapM4 mapTr mapP]) and the tactic [hom_pull] / [bridge] that pulls [h] out of a model term
      ([nadd (h x) (h y)] becomes [h (nadd x y)], [nltb (h x) (h y)] becomes [nltb x y], ...).
    - [P2B := Prim2B] (Flocq.IEEE754.PrimFloat) is such a homomorphism from [NumF] to [NumB64]
      ([P2B_hom]); the individual equalities in the reading direction [P2B (nadd x y) = nadd (P2B x) (P2B y)] are
      [P2B_nadd] ... [P2B_nofZ] (integer literals: every [z] with [|z| < 2^53], which covers every literal of the model).

    Axioms: the specification axioms of primitive floats / integers (those of FloatAxioms and Uint63Axioms) through Flocq's
    PrimFloat equivalences, and the classical reals (Flocq).  Nothing is declared here. *)
From Coq Require Import ZArith Reals Lia Lra Bool Floats Uint63 Eqdep_dec.
From Flocq Require Import Core BinarySingleNaN.
Require Flocq.IEEE754.PrimFloat.
From G3 Require Import Model.Num Model.NumF Model.Base Model.Vec Model.BBox Model.Transform Theory.PrimBase.
Module FP := Flocq.IEEE754.PrimFloat.

(** the integer literals that are mapped exactly: [|z| < 2^53] (as a boolean, so that the side condition of a
    rewrite is closed by [reflexivity]) *)
Definition smallZ (z : Z) : bool := Z.ltb (Z.abs z) (2 ^ 53).

Class NumHom {K1 K2 : Type} (N1 : Num K1) (N2 : Num K2) (h : K1 -> K2) : Prop := {
  hom_add : forall x y : K1, nadd (h x) (h y) = h (nadd x y);
  hom_sub : forall x y : K1, nsub (h x) (h y) = h (nsub x y);
  hom_mul : forall x y : K1, nmul (h x) (h y) = h (nmul x y);
  hom_div : forall x y : K1, ndiv (h x) (h y) = h (ndiv x y);
  hom_neg : forall x : K1, nneg (h x) = h (nneg x);
  hom_abs : forall x : K1, nabs (h x) = h (nabs x);
  hom_sqrt : forall x : K1, nsqrt (h x) = h (nsqrt x);
  hom_ltb : forall x y : K1, nltb (h x) (h y) = nltb x y;
  hom_leb : forall x y : K1, nleb (h x) (h y) = nleb x y;
  hom_eqb : forall x y : K1, neqb (h x) (h y) = neqb x y;
  hom_is_nan : forall x : K1, nis_nan (h x) = nis_nan x;
  hom_next_up : forall x : K1, nnext_up (h x) = h (nnext_up x);
  hom_next_dn : forall x : K1, nnext_dn (h x) = h (nnext_dn x);
  hom_ofZ : forall z : Z, smallZ z = true -> @nofZ K2 N2 z = h (@nofZ K1 N1 z);
  hom_eps : @neps K2 N2 = h (@neps K1 N1);
  hom_maxf : @nmaxf K2 N2 = h (@nmaxf K1 N1);
  hom_inf : @ninf K2 N2 = h (@ninf K1 N1)
}.

Definition mapV3 {A B} (f : A -> B) (v : V3 A) : V3 B := mkV3 (f (vx v)) (f (vy v)) (f (vz v)).
Definition mapRay {A B} (f : A -> B) (r : Ray A) : Ray B := mkRay (mapV3 f (rorigin r)) (mapV3 f (rdir r)).
Definition mapBBox {A B} (f : A -> B) (b : BBox A) : BBox B := mkBBox (mapV3 f (bmin b)) (mapV3 f (bmax b)).
Definition mapM4 {A B} (f : A -> B) (m : M4 A) : M4 B :=
  mkM4 (f (m00 m)) (f (m01 m)) (f (m02 m)) (f (m03 m)) (f (m10 m)) (f (m11 m)) (f (m12 m)) (f (m13 m))
       (f (m20 m)) (f (m21 m)) (f (m22 m)) (f (m23 m)) (f (m30 m)) (f (m31 m)) (f (m32 m)) (f (m33 m)).
Definition mapTr {A B} (f : A -> B) (t : Tr A) : Tr B := mkTr (mapM4 f (elements t)) (mapM4 f (inv_elements t)).
Definition mapP {A B C D} (f : A -> B) (g : C -> D) (p : A * C) : B * D := (f (fst p), g (snd p)).
Definition mapOpt {A B} (f : A -> B) (o : option A) : option B := match o with Some a => Some (f a) | None => None end.
Definition mapRes {A B} (f : A -> B) (r : res A) : res B :=
  match r with Ok a => Ok (f a) | Err c => Err c | Panic s => Panic s end.

Lemma mapV3_inv {A B} (f : B -> A) (g : A -> B) (v : V3 A) :
  f (g (vx v)) = vx v -> f (g (vy v)) = vy v -> f (g (vz v)) = vz v -> mapV3 f (mapV3 g v) = v.
Proof. destruct v as [x y z]. unfold mapV3. cbn [vx vy vz]. intros -> -> ->. reflexivity. Qed.
Lemma mapRay_inv {A B} (f : B -> A) (g : A -> B) (r : Ray A) :
  mapV3 f (mapV3 g (rorigin r)) = rorigin r -> mapV3 f (mapV3 g (rdir r)) = rdir r -> mapRay f (mapRay g r) = r.
Proof. destruct r as [o d]. unfold mapRay. cbn [rorigin rdir]. intros -> ->. reflexivity. Qed.
Lemma mapBBox_inv {A B} (f : B -> A) (g : A -> B) (b : BBox A) :
  mapV3 f (mapV3 g (bmin b)) = bmin b -> mapV3 f (mapV3 g (bmax b)) = bmax b -> mapBBox f (mapBBox g b) = b.
Proof. destruct b as [lo hi]. unfold mapBBox. cbn [bmin bmax]. intros -> ->. reflexivity. Qed.
Lemma mapM4_inv {A B} (f : B -> A) (g : A -> B) (m : M4 A) :
  f (g (m00 m)) = m00 m -> f (g (m01 m)) = m01 m -> f (g (m02 m)) = m02 m -> f (g (m03 m)) = m03 m ->
  f (g (m10 m)) = m10 m -> f (g (m11 m)) = m11 m -> f (g (m12 m)) = m12 m -> f (g (m13 m)) = m13 m ->
  f (g (m20 m)) = m20 m -> f (g (m21 m)) = m21 m -> f (g (m22 m)) = m22 m -> f (g (m23 m)) = m23 m ->
  f (g (m30 m)) = m30 m -> f (g (m31 m)) = m31 m -> f (g (m32 m)) = m32 m -> f (g (m33 m)) = m33 m ->
  mapM4 f (mapM4 g m) = m.
Proof.
  destruct m as [a00 a01 a02 a03 a10 a11 a12 a13 a20 a21 a22 a23 a30 a31 a32 a33]. unfold mapM4. cbn [m00 m01 m02 m03 m10 m11 m12 m13 m20 m21 m22 m23 m30 m31 m32 m33].
  intros -> -> -> -> -> -> -> -> -> -> -> -> -> -> -> ->. reflexivity.
Qed.
Lemma mapP_inv {A B C D} (f : B -> A) (g : A -> B) (f' : D -> C) (g' : C -> D) (x : A * C) :
  f (g (fst x)) = fst x -> f' (g' (snd x)) = snd x -> mapP f f' (mapP g g' x) = x.
Proof. destruct x as [a c]. unfold mapP. cbn [fst snd]. intros -> ->. reflexivity. Qed.

Section Hom.
  Context {K1 K2 : Type} {N1 : Num K1} {N2 : Num K2} (h : K1 -> K2) {H : NumHom N1 N2 h}.

  Lemma hom_if (c : bool) (a b : K1) : (if c then h a else h b) = h (if c then a else b).
  Proof. destruct c; reflexivity. Qed.
  (** the ordered pair that [get_mins_maxs], [bbox_intersect_tag] and the interval operations build *)
  Lemma hom_ord (a b : K1) :
    (if nltb (h b) (h a) then (h b, h a) else (h a, h b)) = mapP h h (if nltb b a then (b, a) else (a, b)).
  Proof. rewrite hom_ltb. destruct (nltb b a); reflexivity. Qed.

  Lemma hom_nofQ (p q : Z) : smallZ p = true -> smallZ q = true -> @nofQ K2 N2 p q = h (nofQ p q).
  Proof. intros Hp Hq. unfold nofQ. rewrite (hom_ofZ p Hp), (hom_ofZ q Hq). apply hom_div. Qed.
  Lemma hom_n0 : @n0 K2 N2 = h n0. Proof. apply hom_ofZ. reflexivity. Qed.
  Lemma hom_n1 : @n1 K2 N2 = h n1. Proof. apply hom_ofZ. reflexivity. Qed.
  Lemma hom_n2 : @n2 K2 N2 = h n2. Proof. apply hom_ofZ. reflexivity. Qed.
  Lemma hom_nhalf : @nhalf K2 N2 = h nhalf. Proof. apply hom_nofQ; reflexivity. Qed.
  Lemma hom_c1em3 : @c1em3 K2 N2 = h c1em3. Proof. apply hom_nofQ; reflexivity. Qed.
  Lemma hom_c1em5 : @c1em5 K2 N2 = h c1em5. Proof. apply hom_nofQ; reflexivity. Qed.
  Lemma hom_c1em7 : @c1em7 K2 N2 = h c1em7. Proof. apply hom_nofQ; reflexivity. Qed.
  Lemma hom_c1em8 : @c1em8 K2 N2 = h c1em8. Proof. apply hom_nofQ; reflexivity. Qed.
  Lemma hom_c1em9 : @c1em9 K2 N2 = h c1em9. Proof. apply hom_nofQ; reflexivity. Qed.
  Lemma hom_c1em10 : @c1em10 K2 N2 = h c1em10. Proof. apply hom_nofQ; reflexivity. Qed.
  Lemma hom_ctiny : @ctiny K2 N2 = h ctiny.
  Proof. unfold ctiny. rewrite (hom_ofZ 100 eq_refl), hom_eps. apply hom_mul. Qed.
  Lemma hom_ngamma (n : Z) : smallZ n = true -> @ngamma K2 N2 n = h (ngamma n).
  Proof.
    intros Hn. unfold ngamma. cbv zeta.
    rewrite hom_eps, hom_n2, hom_n1, (hom_ofZ n Hn), !hom_div, !hom_mul, hom_sub, hom_div. reflexivity.
  Qed.
  Lemma hom_nmax (a b : K1) : nmax (h a) (h b) = h (nmax a b).
  Proof. unfold nmax. rewrite hom_ltb. apply hom_if. Qed.
  Lemma hom_nmin (a b : K1) : nmin (h a) (h b) = h (nmin a b).
  Proof. unfold nmin. rewrite hom_ltb. apply hom_if. Qed.
  Lemma hom_fmax (a b : K1) : fmax (h a) (h b) = h (fmax a b).
  Proof. unfold fmax. rewrite !hom_is_nan, hom_ltb. repeat destruct (nis_nan _); try reflexivity. apply hom_if. Qed.
  Lemma hom_fmin (a b : K1) : fmin (h a) (h b) = h (fmin a b).
  Proof. unfold fmin. rewrite !hom_is_nan, hom_ltb. repeat destruct (nis_nan _); try reflexivity. apply hom_if. Qed.
  (** the two constants of Model/BBox.v *)
  Lemma hom_gamma3 : @gamma3 K2 N2 = h gamma3. Proof. apply hom_ngamma. reflexivity. Qed.
  Lemma hom_widen : @widen K2 N2 = h widen.
  Proof. unfold widen. rewrite hom_n1, hom_n2, hom_gamma3, hom_mul, hom_add. reflexivity. Qed.
End Hom.

(** [hom_pull h]: pull [h] outwards through every operation, constant and comparison of the goal (not under binders).
    [ngamma n] is pulled for the literal arguments the model uses.  The constants go first and once: a rewrite that
    finds nothing still walks the whole goal, so trying all of them again after every step is what would cost. *)
Ltac hom_consts h :=
  rewrite ?(hom_widen h), ?(hom_gamma3 h), ?(hom_ctiny h), ?(hom_n0 h), ?(hom_n1 h), ?(hom_n2 h), ?(hom_nhalf h),
    ?(hom_c1em3 h), ?(hom_c1em5 h), ?(hom_c1em7 h), ?(hom_c1em8 h), ?(hom_c1em9 h), ?(hom_c1em10 h),
    ?(hom_eps (h:=h)), ?(hom_maxf (h:=h)), ?(hom_inf (h:=h));
  rewrite ?(hom_ngamma h) by reflexivity; rewrite ?(hom_ofZ (h:=h)) by reflexivity.
Ltac hom_pull_step h :=
  first
  [ rewrite (hom_mul (h:=h)) | rewrite (hom_add (h:=h)) | rewrite (hom_sub (h:=h)) | rewrite (hom_div (h:=h))
  | rewrite (hom_ltb (h:=h)) | rewrite (hom_leb (h:=h)) | rewrite (hom_if h)
  | rewrite (hom_neg (h:=h)) | rewrite (hom_abs (h:=h)) | rewrite (hom_sqrt (h:=h))
  | rewrite (hom_eqb (h:=h)) | rewrite (hom_is_nan (h:=h))
  | rewrite (hom_next_up (h:=h)) | rewrite (hom_next_dn (h:=h))
  | rewrite (hom_fmax h) | rewrite (hom_fmin h) | rewrite (hom_nmax h) | rewrite (hom_nmin h) ].
Ltac hom_pull h := hom_consts h; repeat (hom_pull_step h).

(** unfold the map functions and reduce the record projections *)
Ltac hom_norm :=
  unfold mapTr, mapM4, mapBBox, mapRay, mapV3, mapP;
  cbn [vx vy vz rorigin rdir bmin bmax elements inv_elements fst snd
       m00 m01 m02 m03 m10 m11 m12 m13 m20 m21 m22 m23 m30 m31 m32 m33].
(** [bridge h]: normalise, pull, close; case analysis on the conditions, identical on both sides once [h] is pulled, when a branch remains *)
Ltac bridge h :=
  hom_norm; hom_pull h; try reflexivity;
  repeat (match goal with |- context [if ?c then _ else _] => destruct c end;
          cbv beta iota zeta; hom_norm; hom_pull h; try reflexivity).

Notation prim := Coq.Floats.PrimFloat.float (only parsing).
Definition P2B : prim -> b64 := FP.Prim2B.

Lemma Hprec53_eq : Hprec53 = FP.Hprec.
Proof. apply UIP_dec. decide equality. Qed.
Lemma Hmax1024_eq : Hmax1024 = FP.Hmax.
Proof. apply UIP_dec. decide equality. Qed.
Lemma NumB64_FP : NumB64 = NumB 53 1024 FP.Hprec FP.Hmax.
Proof. unfold NumB64. rewrite Hprec53_eq, Hmax1024_eq. reflexivity. Qed.

Local Open Scope R_scope.

Lemma Bldexp_0 (x : b64) : @Bldexp 53 1024 FP.Hprec FP.Hmax mode_NE x 0 = x.
Proof.
  destruct x as [s|s| |s m e Hb] eqn:Ex; try reflexivity. rewrite <- Ex.
  assert (Fx : is_finite x = true) by (rewrite Ex; reflexivity).
  generalize (Bldexp_correct 53 1024 FP.Hprec FP.Hmax mode_NE x 0).
  change (bpow radix2 0) with 1. rewrite Rmult_1_r.
  rewrite round_generic by (try typeclasses eauto; apply generic_format_B2R).
  rewrite Rlt_bool_true by (apply abs_B2R_lt_emax).
  intros (H1 & H2 & H3).
  apply B2R_Bsign_inj; try assumption. rewrite H2. exact Fx.
Qed.

Lemma Bofz_exact (Hp : FLX.Prec_gt_0 53) (Hm : Prec_lt_emax 53 1024) (z : Z) : smallZ z = true ->
  let f := Bofz 53 1024 Hp Hm z in
  is_finite f = true /\ B2R f = IZR z /\ Bsign f = Z.ltb z 0.
Proof.
  intros Hz f. unfold smallZ in Hz. apply Z.ltb_lt in Hz.
  generalize (binary_normalize_correct 53 1024 Hp Hm mode_NE z 0 false). fold (Bofz 53 1024 Hp Hm z). fold f.
  cbv zeta. norm3264. rewrite F2R_exp0.
  assert (Fmt : generic_format radix2 f64exp (IZR z)).
  { rewrite <- F2R_exp0. apply generic_format_FLT. exists (Float radix2 z 0); [reflexivity| |cbn [Fexp]; lia]. cbn [Fnum]. exact Hz. }
  rewrite round_generic by (try typeclasses eauto; exact Fmt).
  rewrite Rlt_bool_true.
  2:{ rewrite <- abs_IZR. apply Rlt_le_trans with (bpow radix2 53).
      - change (bpow radix2 53) with (IZR (2 ^ 53)). apply IZR_lt. exact Hz.
      - apply bpow_le. lia. }
  intros (E1 & E2 & E3). split; [exact E2|]. split; [exact E1|]. rewrite E3. apply Rcompare_IZR_sign.
Qed.

Lemma P2B_zero : P2B 0%float = B754_zero false.
Proof. exact Prim2B_zero. Qed.

Lemma P2B_ldexp_pos (p : positive) : smallZ (Zpos p) = true ->
  FP.Prim2B (Z.ldexp (of_uint63 (of_Z (Zpos p))) 0) = Bofz 53 1024 FP.Hprec FP.Hmax (Zpos p).
Proof.
  intros Hz.
  rewrite FP.ldexp_equiv, FP.of_int63_equiv, Bldexp_0.
  rewrite of_Z_spec, Z.mod_small.
  - reflexivity.
  - unfold smallZ in Hz. apply Z.ltb_lt in Hz. change wB with (2 ^ 63)%Z. cbn [Z.abs] in Hz. lia.
Qed.

Lemma P2B_FofZ (z : Z) : smallZ z = true -> P2B (FofZ z) = Bofz 53 1024 FP.Hprec FP.Hmax z.
Proof.
  intros Hz. destruct z as [|p|p].
  - unfold FofZ; rewrite P2B_zero. reflexivity.
  - unfold FofZ, P2B. cbn [SF2Prim]. apply P2B_ldexp_pos, Hz.
  - assert (Hp : smallZ (Zpos p) = true) by exact Hz.
    unfold FofZ, P2B. cbn [SF2Prim]. rewrite FP.opp_equiv, (P2B_ldexp_pos p Hp).
    change FloatOps.prec with 53%Z; change FloatOps.emax with 1024%Z.
    destruct (Bofz_exact FP.Hprec FP.Hmax (Zpos p) Hp) as (F1 & R1 & S1).
    destruct (Bofz_exact FP.Hprec FP.Hmax (Zneg p) Hz) as (F2 & R2 & S2).
    apply (B2R_Bsign_inj 53 1024).
    + rewrite is_finite_Bopp. exact F1.
    + exact F2.
    + rewrite B2R_Bopp, R1, R2. rewrite <- opp_IZR. reflexivity.
    + rewrite S2. rewrite Bsign_Bopp.
      * rewrite S1. reflexivity.
      * destruct (Bofz 53 1024 FP.Hprec FP.Hmax (Z.pos p)); try discriminate; reflexivity.
Qed.

Lemma P2B_const (c : prim) (b : b64) : Prim2SF c = B2SF b -> P2B c = b.
Proof. intros E. apply B2SF_inj. unfold P2B. rewrite FP.B2SF_Prim2B. exact E. Qed.

(** witnesses are written as bit patterns; their images under [P2B] are the same patterns read by Flocq *)
Notation pS s m e := (SF2Prim (S754_finite s m e)).
Ltac p2b_consts :=
  repeat match goal with
  | |- context [P2B (SF2Prim ?s)] => rewrite (P2B_const (SF2Prim s) (B64ofSF s)) by (vm_compute; reflexivity)
  | |- context [P2B 0%float] => rewrite (P2B_const 0%float (B64ofSF (S754_zero false))) by (vm_compute; reflexivity)
  end.

Global Instance P2B_hom : NumHom NumF NumB64 P2B.
Proof.
  rewrite NumB64_FP. constructor; unfold P2B; intros; cbn [nadd nsub nmul ndiv nneg nabs nsqrt nltb nleb neqb nis_nan
    nnext_up nnext_dn nofZ neps nmaxf ninf NumB NumF].
  - symmetry; apply FP.add_equiv.
  - symmetry; apply FP.sub_equiv.
  - symmetry; apply FP.mul_equiv.
  - symmetry; apply FP.div_equiv.
  - symmetry; apply FP.opp_equiv.
  - symmetry; apply FP.abs_equiv.
  - symmetry; apply FP.sqrt_equiv.
  - symmetry; apply FP.ltb_equiv.
  - symmetry; apply FP.leb_equiv.
  - symmetry; apply FP.eqb_equiv.
  - symmetry; apply FP.is_nan_equiv.
  - symmetry; apply FP.next_up_equiv.
  - symmetry; apply FP.next_down_equiv.
  - symmetry; apply P2B_FofZ; assumption.
  - symmetry; apply P2B_const; vm_compute; reflexivity.
  - symmetry; apply P2B_const; vm_compute; reflexivity.
  - symmetry; apply P2B_const; vm_compute; reflexivity.
Qed.

(** the same facts in the reading direction, one per class member *)
Section P2B_members.
  Local Open Scope num_scope.
  Lemma P2B_nadd (x y : prim) : P2B (nadd x y) = nadd (P2B x) (P2B y). Proof. symmetry; apply (hom_add (h:=P2B)). Qed.
  Lemma P2B_nsub (x y : prim) : P2B (nsub x y) = nsub (P2B x) (P2B y). Proof. symmetry; apply (hom_sub (h:=P2B)). Qed.
  Lemma P2B_nmul (x y : prim) : P2B (nmul x y) = nmul (P2B x) (P2B y). Proof. symmetry; apply (hom_mul (h:=P2B)). Qed.
  Lemma P2B_ndiv (x y : prim) : P2B (ndiv x y) = ndiv (P2B x) (P2B y). Proof. symmetry; apply (hom_div (h:=P2B)). Qed.
  Lemma P2B_nneg (x : prim) : P2B (nneg x) = nneg (P2B x). Proof. symmetry; apply (hom_neg (h:=P2B)). Qed.
  Lemma P2B_nabs (x : prim) : P2B (nabs x) = nabs (P2B x). Proof. symmetry; apply (hom_abs (h:=P2B)). Qed.
  Lemma P2B_nsqrt (x : prim) : P2B (nsqrt x) = nsqrt (P2B x). Proof. symmetry; apply (hom_sqrt (h:=P2B)). Qed.
  Lemma P2B_nltb (x y : prim) : nltb x y = nltb (P2B x) (P2B y). Proof. symmetry; apply (hom_ltb (h:=P2B)). Qed.
  Lemma P2B_nleb (x y : prim) : nleb x y = nleb (P2B x) (P2B y). Proof. symmetry; apply (hom_leb (h:=P2B)). Qed.
  Lemma P2B_neqb (x y : prim) : neqb x y = neqb (P2B x) (P2B y). Proof. symmetry; apply (hom_eqb (h:=P2B)). Qed.
  Lemma P2B_nis_nan (x : prim) : nis_nan x = nis_nan (P2B x). Proof. symmetry; apply (hom_is_nan (h:=P2B)). Qed.
  Lemma P2B_nnext_up (x : prim) : P2B (nnext_up x) = nnext_up (P2B x). Proof. symmetry; apply (hom_next_up (h:=P2B)). Qed.
  Lemma P2B_nnext_dn (x : prim) : P2B (nnext_dn x) = nnext_dn (P2B x). Proof. symmetry; apply (hom_next_dn (h:=P2B)). Qed.
  Lemma P2B_nofZ (z : Z) : (Z.abs z < 2 ^ 53)%Z -> P2B (nofZ z) = nofZ z.
  Proof. intros Hz. symmetry. apply (hom_ofZ (h:=P2B)). apply Z.ltb_lt. exact Hz. Qed.
  Lemma P2B_neps : P2B neps = neps. Proof. symmetry; apply (hom_eps (h:=P2B)). Qed.
  Lemma P2B_nmaxf : P2B nmaxf = nmaxf. Proof. symmetry; apply (hom_maxf (h:=P2B)). Qed.
  Lemma P2B_ninf : P2B ninf = ninf. Proof. symmetry; apply (hom_inf (h:=P2B)). Qed.
  Lemma P2B_n0 : P2B n0 = n0. Proof. symmetry; apply (hom_n0 P2B). Qed.
  Lemma P2B_n1 : P2B n1 = n1. Proof. symmetry; apply (hom_n1 P2B). Qed.
  Lemma P2B_n2 : P2B n2 = n2. Proof. symmetry; apply (hom_n2 P2B). Qed.
  Lemma P2B_nhalf : P2B nhalf = nhalf. Proof. symmetry; apply (hom_nhalf P2B). Qed.
  Lemma P2B_c1em3 : P2B c1em3 = c1em3. Proof. symmetry; apply (hom_c1em3 P2B). Qed.
  Lemma P2B_c1em5 : P2B c1em5 = c1em5. Proof. symmetry; apply (hom_c1em5 P2B). Qed.
  Lemma P2B_c1em7 : P2B c1em7 = c1em7. Proof. symmetry; apply (hom_c1em7 P2B). Qed.
  Lemma P2B_c1em8 : P2B c1em8 = c1em8. Proof. symmetry; apply (hom_c1em8 P2B). Qed.
  Lemma P2B_c1em9 : P2B c1em9 = c1em9. Proof. symmetry; apply (hom_c1em9 P2B). Qed.
  Lemma P2B_c1em10 : P2B c1em10 = c1em10. Proof. symmetry; apply (hom_c1em10 P2B). Qed.
  Lemma P2B_ctiny : P2B ctiny = ctiny. Proof. symmetry; apply (hom_ctiny P2B). Qed.
  Lemma P2B_ngamma (k : Z) : (Z.abs k < 2 ^ 53)%Z -> P2B (ngamma k) = ngamma k.
  Proof. intros Hk. symmetry. apply (hom_ngamma P2B). apply Z.ltb_lt. exact Hk. Qed.
  Lemma P2B_fmax (x y : prim) : P2B (fmax x y) = fmax (P2B x) (P2B y). Proof. symmetry; apply (hom_fmax P2B). Qed.
  Lemma P2B_fmin (x y : prim) : P2B (fmin x y) = fmin (P2B x) (P2B y). Proof. symmetry; apply (hom_fmin P2B). Qed.
  Lemma P2B_nmax (x y : prim) : P2B (nmax x y) = nmax (P2B x) (P2B y). Proof. symmetry; apply (hom_nmax P2B). Qed.
  Lemma P2B_nmin (x y : prim) : P2B (nmin x y) = nmin (P2B x) (P2B y). Proof. symmetry; apply (hom_nmin P2B). Qed.
End P2B_members.

(** [P2B] loses nothing: it is injective, and the real value / the classification of a primitive float are those of
    its image *)
Lemma P2B_inj (x y : prim) : P2B x = P2B y -> x = y.
Proof. apply FP.Prim2B_inj. Qed.
Lemma P2B_SF (x : prim) : B2SF (P2B x) = Prim2SF x.
Proof. apply FP.B2SF_Prim2B. Qed.

(** ** reading a primitive float as a real number *)
Notation pV := (mapV3 P2B).
Notation pR := (mapRay P2B).
Notation pB := (mapBBox P2B).
Notation pM := (mapM4 P2B).
Notation pT := (mapTr P2B).
Definition FR (x : prim) : R := B2R (P2B x).
Definition Ffin (x : prim) : Prop := is_finite (P2B x) = true.
Lemma Ffin_prim (x : prim) : Ffin x <-> Coq.Floats.PrimFloat.is_finite x = true.
Proof. unfold Ffin, P2B. rewrite FP.is_finite_equiv. reflexivity. Qed.
Definition Ffin3 (v : V3 prim) : Prop := Ffin (vx v) /\ Ffin (vy v) /\ Ffin (vz v).
Definition FV (v : V3 prim) : V3 R := mkV3 (FR (vx v)) (FR (vy v)) (FR (vz v)).
Definition FM (m : M4 prim) : M4 R :=
  mkM4 (FR (m00 m)) (FR (m01 m)) (FR (m02 m)) (FR (m03 m)) (FR (m10 m)) (FR (m11 m)) (FR (m12 m)) (FR (m13 m))
       (FR (m20 m)) (FR (m21 m)) (FR (m22 m)) (FR (m23 m)) (FR (m30 m)) (FR (m31 m)) (FR (m32 m)) (FR (m33 m)).
