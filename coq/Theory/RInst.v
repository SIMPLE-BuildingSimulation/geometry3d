From Coq Require Import ZArith Reals Lra Bool List.
From G3 Require Import Model.Num Model.Base.
Local Open Scope R_scope.

(** unfold the [Num] projections of [NumR] (and the derived constants) to plain real arithmetic *)
Ltac rnum :=
  cbn [nadd nsub nmul ndiv nneg nabs nsqrt nltb nleb neqb nofZ neps nmaxf nnext_up nnext_dn nis_nan
       nsin ncos ntan nacos natan2 npi NumR] in *;
  unfold n0, n1, n2, nhalf, nofQ in *;
  cbn [nadd nsub nmul ndiv nneg nabs nsqrt nltb nleb neqb nofZ neps nmaxf nnext_up nnext_dn nis_nan
       nsin ncos ntan nacos natan2 npi NumR] in *.

(** the same on the goal alone, where the cost must not grow with the context *)
Ltac rnumg :=
  cbn [nadd nsub nmul ndiv nneg nabs nsqrt nltb nleb neqb nofZ neps nmaxf nnext_up nnext_dn nis_nan
       nsin ncos ntan nacos natan2 npi NumR n0 n1 n2 nhalf nofQ].

Lemma Rltb_true a b : Rltb a b = true <-> a < b.
Proof. unfold Rltb; destruct (Rlt_dec a b); split; intros; try easy; congruence. Qed.
Lemma Rltb_false a b : Rltb a b = false <-> b <= a.
Proof. unfold Rltb; destruct (Rlt_dec a b); split; intros; try easy; try lra. Qed.
Lemma Rleb_true a b : Rleb a b = true <-> a <= b.
Proof. unfold Rleb; destruct (Rle_dec a b); split; intros; try easy; congruence. Qed.
Lemma Rleb_false a b : Rleb a b = false <-> b < a.
Proof. unfold Rleb; destruct (Rle_dec a b); split; intros; try easy; try lra. Qed.
Lemma Reqb_true a b : Reqb a b = true <-> a = b.
Proof. unfold Reqb; destruct (Req_EM_T a b); split; intros; try easy; congruence. Qed.

Lemma Rltb_lt a b : a < b -> Rltb a b = true.
Proof. apply Rltb_true. Qed.
Lemma Rltb_ge a b : b <= a -> Rltb a b = false.
Proof. apply Rltb_false. Qed.
Lemma Rleb_le a b : a <= b -> Rleb a b = true.
Proof. apply Rleb_true. Qed.
Lemma Rleb_gt a b : b < a -> Rleb a b = false.
Proof. apply Rleb_false. Qed.

(** [H] names the outcome and must not be the name of a global constant (Reals has [A1], [B1], [C1], [E1]) *)
Ltac rcase a b H :=
  let E := fresh "E" in
  destruct (Rltb a b) eqn:E; [apply Rltb_true in E | apply Rltb_false in E]; rename E into H.

Ltac rcase_le a b H :=
  let E := fresh "E" in
  destruct (Rleb a b) eqn:E; [apply Rleb_true in E | apply Rleb_false in E]; rename E into H.

Lemma v3_eq {K} (a b : V3 K) : vx a = vx b -> vy a = vy b -> vz a = vz b -> a = b.
Proof. destruct a, b; simpl; intros; subst; reflexivity. Qed.

(** ** the thresholds of the crate as real numbers: EPSILON = 2^-52, [ctiny] = 100 EPSILON, [c1em5] *)
Lemma neps_pos : 0 < @neps R _.
Proof. apply Rinv_0_lt_compat, IZR_lt. reflexivity. Qed.
Lemma neps_small : @neps R _ < / 100000000.
Proof. apply Rinv_lt_contravar; [apply Rmult_lt_0_compat; [lra|] |]; apply IZR_lt; reflexivity. Qed.
Lemma ctiny_pos : 0 < @ctiny R _.
Proof. pose proof neps_pos. unfold ctiny. rnumg. lra. Qed.
Lemma ctiny_small : @ctiny R _ < / 1000000.
Proof. pose proof neps_small. unfold ctiny. rnumg. lra. Qed.
Lemma c1em5_R : @c1em5 R _ = / 100000.
Proof. unfold c1em5. rnumg. lra. Qed.
Lemma c1em5_pos : 0 < @c1em5 R _.
Proof. rewrite c1em5_R. lra. Qed.
