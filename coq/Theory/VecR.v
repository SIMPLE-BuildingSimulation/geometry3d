From Coq Require Import ZArith Reals Lra Psatz.
From G3 Require Import Model.Num Model.Base Model.Vec Theory.RInst.
From G3 Require Model.Loop.
Local Open Scope R_scope.
Local Notation V := (V3 R).

Ltac vcbn := cbn [vadd vsub vneg vscale vdivs vcross vdot vlen2 vabs psqdist ray_project ray_advance rorigin rdir vx vy vz
  Loop.vzero nadd nsub nmul ndiv nneg nofZ n0 n1 n2 nhalf nofQ NumR].
Ltac vring := try apply v3_eq; vcbn; ring.

Lemma Rabs_pos_neq (x t : R) : 0 <= t -> t < Rabs x -> x <> 0.
Proof. intros Ht H E. subst. rewrite Rabs_R0 in H. lra. Qed.

Lemma vadd_comm (a b : V) : vadd a b = vadd b a.
Proof. vring. Qed.
Lemma vadd_assoc (a b c : V) : vadd (vadd a b) c = vadd a (vadd b c).
Proof. vring. Qed.
Lemma vsub_vadd_neg (a b : V) : vsub a b = vadd a (vneg b).
Proof. vring. Qed.
Lemma vadd_vsub (a b : V) : vadd a (vsub b a) = b.
Proof. vring. Qed.
Lemma vsub_vadd (a b : V) : vsub (vadd a b) a = b.
Proof. vring. Qed.
Lemma vsub_shift (a w b : V) : vsub (vadd a w) b = vsub w (vsub b a).
Proof. vring. Qed.
Lemma vsub_zero_eq (a b : V) : vsub a b = mkV3 0 0 0 -> a = b.
Proof. intros [= H1 H2 H3]. apply v3_eq; lra. Qed.
Lemma vneg_neg (a : V) : vneg (vneg a) = a.
Proof. vring. Qed.
Lemma vneg_add (a b : V) : vneg (vadd a b) = vadd (vneg a) (vneg b).
Proof. vring. Qed.
Lemma vscale_vadd (a b : V) (s : R) : vscale (vadd a b) s = vadd (vscale a s) (vscale b s).
Proof. vring. Qed.
Lemma vscale_vscale (a : V) (s t : R) : vscale (vscale a s) t = vscale a (s * t).
Proof. vring. Qed.
Lemma vscale_1 (a : V) : vscale a 1 = a.
Proof. vring. Qed.
Lemma vscale_m1 (a : V) : vscale a (- 1) = vneg a.
Proof. vring. Qed.
Lemma vdivs_vscale (a : V) (s : R) : s <> 0 -> vdivs (vscale a s) s = a /\ vdivs a s = vscale a (/ s).
Proof. intros. split; apply v3_eq; vcbn; field; assumption. Qed.
Lemma vadd_assoc_scale (o d : V) (a b : R) : vadd (vadd o (vscale d a)) (vscale d b) = vadd o (vscale d (a + b)).
Proof. vring. Qed.

Lemma vdot_comm (a b : V) : vdot a b = vdot b a.
Proof. vring. Qed.
Lemma vdot_vadd_l (a b c : V) : vdot (vadd a b) c = vdot a c + vdot b c.
Proof. vring. Qed.
Lemma vdot_vsub_l (a b c : V) : vdot (vsub a b) c = vdot a c - vdot b c.
Proof. vring. Qed.
Lemma vdot_vscale_l (a b : V) (s : R) : vdot (vscale a s) b = s * vdot a b.
Proof. vring. Qed.
Lemma vdot_neg_l (a b : V) : vdot (vneg a) b = - vdot a b.
Proof. vring. Qed.
Lemma vdot_add_r (n a b : V) : vdot n (vadd a b) = vdot n a + vdot n b.
Proof. vring. Qed.
Lemma vdot_neg_r (n a : V) : vdot n (vneg a) = - vdot n a.
Proof. vring. Qed.
Lemma vdot_comb_r (n a b : V) (s t : R) : vdot n (vadd (vscale a s) (vscale b t)) = s * vdot n a + t * vdot n b.
Proof. vring. Qed.
Lemma vdot_project (n : V) (ray : Ray R) (t : R) : vdot n (ray_project ray t) = vdot n (rorigin ray) + t * vdot n (rdir ray).
Proof. vring. Qed.
Lemma vlen2_vdot (a : V) : vlen2 a = vdot a a.
Proof. reflexivity. Qed.
Lemma vlen2_nonneg (a : V) : 0 <= vlen2 a.
Proof. vcbn. nra. Qed.
Lemma vlen2_zero (a : V) : vlen2 a = 0 <-> a = mkV3 0 0 0.
Proof.
  split; [|intros ->; vring]. destruct a as [x y z]. vcbn. intros H.
  assert (x = 0 /\ y = 0 /\ z = 0) as (-> & -> & ->) by (repeat split; nra). reflexivity.
Qed.
Lemma vlen2_neg (a : V) : vlen2 (vneg a) = vlen2 a.
Proof. vring. Qed.
Lemma vlen2_vscale (a : V) (s : R) : vlen2 (vscale a s) = s * s * vlen2 a.
Proof. vring. Qed.
Lemma vlen2_vsub_expand (w u : V) : vlen2 (vsub w u) = vlen2 w - 2 * vdot w u + vlen2 u.
Proof. vring. Qed.
Lemma comb_dots (u v : V) (al be : R) :
  let w := vadd (vscale u al) (vscale v be) in
  vdot w u = al * vlen2 u + be * vdot u v /\ vdot w v = al * vdot u v + be * vlen2 v /\
  vlen2 w = al * al * vlen2 u + 2 * al * be * vdot u v + be * be * vlen2 v /\ vdot w (vcross u v) = 0.
Proof. repeat split; vring. Qed.
Lemma psqdist_vsub (a p : V) : psqdist a p = vlen2 (vsub a p).
Proof. vring. Qed.

Lemma vlen_nonneg (a : V) : 0 <= vlen a.
Proof. apply sqrt_pos. Qed.
Lemma vlen_sqr (a : V) : vlen a * vlen a = vlen2 a.
Proof. apply sqrt_sqrt, vlen2_nonneg. Qed.
Lemma vlen_pos (a : V) : vlen2 a <> 0 -> 0 < vlen a.
Proof. intros H. apply sqrt_lt_R0. pose proof (vlen2_nonneg a). lra. Qed.
Lemma vlen_vzero : vlen (Loop.vzero : V) = 0.
Proof. unfold vlen. replace (vlen2 Loop.vzero) with 0 by vring. apply sqrt_0. Qed.
Lemma vlen_vscale (a : V) (s : R) : vlen (vscale a s) = Rabs s * vlen a.
Proof.
  unfold vlen. rewrite vlen2_vscale. rnumg. rewrite sqrt_mult by (try apply vlen2_nonneg; nra).
  f_equal. apply sqrt_Rsqr_abs.
Qed.
Lemma vlen_ge_abs (v : V) : Rabs (vx v) <= vlen v /\ Rabs (vy v) <= vlen v /\ Rabs (vz v) <= vlen v.
Proof.
  assert (Q : forall x s, 0 <= s -> Rabs x <= sqrt (x * x + s)).
  { intros x s Hs. rewrite <- sqrt_Rsqr_abs. apply sqrt_le_1_alt. unfold Rsqr. lra. }
  unfold vlen. rnumg. repeat split.
  - replace (vlen2 v) with (vx v * vx v + (vy v * vy v + vz v * vz v)) by vring. apply Q. nra.
  - replace (vlen2 v) with (vy v * vy v + (vx v * vx v + vz v * vz v)) by vring. apply Q. nra.
  - replace (vlen2 v) with (vz v * vz v + (vx v * vx v + vy v * vy v)) by vring. apply Q. nra.
Qed.
Lemma pdist_vsub (a p : V) : pdist a p = vlen (vsub a p).
Proof. unfold pdist, vlen. rewrite psqdist_vsub. reflexivity. Qed.
Lemma pdist_sym (a p : V) : pdist a p = pdist p a.
Proof. unfold pdist. f_equal. vring. Qed.
Lemma pdist_zero (a p : V) : pdist a p = 0 <-> a = p.
Proof.
  rewrite pdist_vsub. split.
  - intros H. apply vsub_zero_eq, vlen2_zero. rewrite <- vlen_sqr, H. ring.
  - intros ->. unfold vlen. replace (vlen2 (vsub p p)) with 0 by vring. apply sqrt_0.
Qed.

Lemma vcross_perp (a b : V) : vdot (vcross a b) a = 0 /\ vdot (vcross a b) b = 0.
Proof. split; vring. Qed.
Lemma vcross_anticomm (a b : V) : vcross a b = vneg (vcross b a).
Proof. vring. Qed.
Lemma vcross_self (a : V) : vcross a a = mkV3 0 0 0.
Proof. vring. Qed.
Lemma vcross_scale_l (a b : V) (s : R) : vcross (vscale a s) b = vscale (vcross a b) s.
Proof. vring. Qed.
Lemma vcross_vcross (n a b : V) : vcross n (vcross a b) = vadd (vscale a (vdot n b)) (vscale b (- vdot n a)).
Proof. vring. Qed.
Lemma lagrange (a b : V) : vlen2 a * vlen2 b - vdot a b * vdot a b = vlen2 (vcross a b).
Proof. vring. Qed.
Lemma cauchy_schwarz (a b : V) : vdot a b * vdot a b <= vlen2 a * vlen2 b.
Proof. pose proof (lagrange a b). pose proof (vlen2_nonneg (vcross a b)). lra. Qed.

Lemma frame_expand (a b r : V) :
  vscale r (vlen2 (vcross a b)) =
  vadd (vadd (vscale a (vdot r a * vlen2 b - vdot r b * vdot a b)) (vscale b (vdot r b * vlen2 a - vdot r a * vdot a b)))
       (vscale (vcross a b) (vdot r (vcross a b))).
Proof. vring. Qed.

Lemma vnormalize_scale (a : V) : vnormalize a = vscale a (1 / vlen a).
Proof. reflexivity. Qed.
Lemma vnormalize_unit (a : V) : vlen2 a <> 0 -> vlen (vnormalize a) = 1 /\ vnormalize a = vscale a (/ vlen a) /\ 0 < / vlen a.
Proof.
  intros H. pose proof (vlen_pos a H) as Hl. pose proof (Rinv_0_lt_compat _ Hl) as Hp.
  rewrite vnormalize_scale. unfold Rdiv. rewrite Rmult_1_l.
  split; [|auto]. rewrite vlen_vscale, Rabs_pos_eq by (left; exact Hp). apply Rinv_l. lra.
Qed.
Lemma vnormalize_len2 (a : V) : vlen2 a <> 0 -> vlen2 (vnormalize a) = 1.
Proof. intros H. destruct (vnormalize_unit a H) as (U & _). rewrite <- vlen_sqr, U. ring. Qed.
Lemma vnormalize_dot (a b : V) : vdot (vnormalize a) b = vdot a b / vlen a.
Proof. rewrite vnormalize_scale, vdot_vscale_l. unfold Rdiv. ring. Qed.
Lemma vnormalize_dot_sign (a b : V) : vlen2 a <> 0 ->
  (vdot (vnormalize a) b < 0 <-> vdot a b < 0) /\ (0 < vdot (vnormalize a) b <-> 0 < vdot a b) /\ (vdot (vnormalize a) b = 0 <-> vdot a b = 0).
Proof.
  intros H. rewrite vnormalize_dot. pose proof (Rinv_0_lt_compat _ (vlen_pos a H)) as Hi. unfold Rdiv.
  generalize dependent (/ vlen a). intros l Hl. repeat split; intros; nra.
Qed.
Lemma vnormalize_of_unit (a : V) : vlen2 a = 1 -> vnormalize a = a.
Proof. intros H. rewrite vnormalize_scale. unfold vlen. rewrite H. rnumg. rewrite sqrt_1. replace (1 / 1) with 1 by field. apply vscale_1. Qed.

Lemma perp_core (p q : R) : p <> 0 ->
  let s := sqrt (p * p + q * q) in
  0 < s /\ (- q * (p / s) / p) * (- q * (p / s) / p) + (p / s) * (p / s) = 1 /\ (- q * (p / s) / p) * p + (p / s) * q = 0.
Proof.
  intros Hp s. assert (Hpos : 0 < p * p + q * q) by nra.
  assert (Hs : 0 < s) by (apply sqrt_lt_R0; exact Hpos).
  assert (Hss : s * s = p * p + q * q) by (apply sqrt_sqrt; lra).
  split; [exact Hs|]. split.
  - replace (- q * (p / s) / p * (- q * (p / s) / p) + p / s * (p / s)) with ((p * p + q * q) / (s * s)) by (field; split; lra).
    rewrite Hss. field. lra.
  - field. split; lra.
Qed.
Lemma vget_perpendicular_ok (v w : V) : vget_perpendicular v = Ok w -> vdot w v = 0 /\ vlen w = 1.
Proof.
  destruct v as [px py pz]. unfold vget_perpendicular. cbn [vx vy vz]. rnumg. pose proof (Rlt_le _ _ ctiny_pos) as Ht.
  rcase (@ctiny R _) (Rabs px) H1; [|rcase (@ctiny R _) (Rabs py) H2; [|rcase (@ctiny R _) (Rabs pz) H3; [|discriminate]]]; intros E; inversion E; subst; clear E.
  - destruct (perp_core px py (Rabs_pos_neq _ _ Ht H1)) as (Hs & Hu & Hd). cbv zeta in *.
    unfold vlen. vcbn. split.
    + rewrite Rmult_0_l, Rplus_0_r. exact Hd.
    + rewrite Rmult_0_l, Rplus_0_r, Hu. apply sqrt_1.
  - destruct (perp_core py px (Rabs_pos_neq _ _ Ht H2)) as (Hs & Hu & Hd). cbv zeta in *.
    rewrite (Rplus_comm (py * py)) in *.
    unfold vlen. vcbn. split.
    + rewrite Rmult_0_l, Rplus_0_r. lra.
    + rewrite Rmult_0_l, Rplus_0_r. rewrite Rplus_comm, Hu. apply sqrt_1.
  - destruct (perp_core pz px (Rabs_pos_neq _ _ Ht H3)) as (Hs & Hu & Hd). cbv zeta in *.
    unfold vlen. vcbn. split.
    + rewrite Rmult_0_l, Rplus_0_r. lra.
    + rewrite Rmult_0_l, Rplus_0_r. rewrite Rplus_comm, Hu. apply sqrt_1.
Qed.
Lemma vget_perpendicular_err (v : V) :
  (forall s, vget_perpendicular v <> Panic s) /\
  (forall c, vget_perpendicular v = Err c <-> (c = 2%N /\ Rabs (vx v) <= ctiny /\ Rabs (vy v) <= ctiny /\ Rabs (vz v) <= ctiny)).
Proof.
  destruct v as [px py pz]. unfold vget_perpendicular. cbn [vx vy vz]. rnumg.
  rcase (@ctiny R _) (Rabs px) H1; [|rcase (@ctiny R _) (Rabs py) H2; [|rcase (@ctiny R _) (Rabs pz) H3]]; (split; [discriminate|]); intros c; split;
    try discriminate; try (intros (_ & ? & ? & ?); lra).
  - intros E. inversion E. auto.
  - intros (-> & _). reflexivity.
Qed.

