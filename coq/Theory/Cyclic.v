(* Theory/Cyclic.v — list combinatorics of closed (cyclic) vertex lists and of sums of an
   edge functional over them.  Depends on the Coq standard library only.

   A closed polygonal chain is a [list A]; its directed edges are the consecutive pairs,
   including the closing edge last -> first ([edges_closed]).  For an edge functional
   [f : A -> A -> G] with values in (the additive group of) a commutative ring [G] we study
        csum f L  :=  Σ_{(a,b) ∈ edges_closed L} f a b .
   The ring structure is only used through its additive group (so that the tactic [ring]
   does the algebra); it is instantiated with Z (winding numbers), R (signed area) and
   R^3 with the componentwise product (Newell vector).

   Under  f a b = − f b a  and  f a a = 0  ("antisymmetric edge functional") we get:
   invariance under cyclic shift, negation under reversal, the ear identity
        csum (v0::v1::v2::rest) = csum (v0::v2::rest) + tri v0 v1 v2,
   removal of the vertex at any cyclic position, the fan decomposition, the sum along any
   ear decomposition ([ear_decomp]), and additivity under merging two cycles by a bridge
   walked once each way. *)
From Coq Require Import List Arith Lia Ring.
Import ListNotations.
Set Implicit Arguments.

(** * Edges of open and closed vertex lists, cyclic indexing, ear decompositions *)
Section Edges.
  Variable A : Type.

  (* [edges_to z [a1;...;an]] = [(a1,a2);...;(a(n-1),an);(an,z)]: the path a1..an then on to z. *)
  Fixpoint edges_to (z : A) (L : list A) : list (A * A) :=
    match L with
    | [] => []
    | a :: t => (a, hd z t) :: edges_to z t
    end.

  (* directed edges of the closed chain L, including last -> first.  A one-vertex list has
     the single (degenerate) edge (a,a); the empty list has none. *)
  Definition edges_closed (L : list A) : list (A * A) :=
    match L with
    | [] => []
    | a :: _ => edges_to a L
    end.

  (* consecutive pairs of an open list: [(a1,a2);...;(a(n-1),an)] *)
  Fixpoint edges_open (L : list A) : list (A * A) :=
    match L with
    | [] => []
    | a :: t => match t with [] => [] | b :: _ => (a, b) :: edges_open t end
    end.

  Definition rotl (L : list A) : list A :=
    match L with [] => [] | a :: t => t ++ [a] end.

  Definition remove_at (i : nat) (L : list A) : list A := firstn i L ++ skipn (S i) L.

  (* cyclic indexing (indices modulo the length), as in  v[(i + n - 1) % n], v[(i + 1) % n] *)
  Definition cnth (dflt : A) (L : list A) (k : nat) : A := nth (k mod length L) L dflt.
  Definition cprev (dflt : A) (L : list A) (i : nat) : A := cnth dflt L (i + length L - 1).
  Definition cnext (dflt : A) (L : list A) (i : nat) : A := cnth dflt L (i + 1).

  Lemma edges_to_app : forall (z : A) (l1 l2 : list A),
      edges_to z (l1 ++ l2) = edges_to (hd z l2) l1 ++ edges_to z l2.
  Proof.
    intros z l1 l2; induction l1 as [|a t IH]; simpl; [reflexivity|].
    rewrite IH. f_equal. destruct t; simpl; reflexivity.
  Qed.

  Lemma edges_to_length : forall (z : A) (L : list A), length (edges_to z L) = length L.
  Proof. intros z L; induction L; simpl; congruence. Qed.

  Lemma edges_closed_length : forall L : list A, length (edges_closed L) = length L.
  Proof. intros [|a t]; [reflexivity|]. unfold edges_closed. apply edges_to_length. Qed.

  Lemma edges_open_cons2 : forall (a b : A) (t : list A),
      edges_open (a :: b :: t) = (a, b) :: edges_open (b :: t).
  Proof. reflexivity. Qed.

  Lemma edges_to_open : forall (z : A) (L : list A), edges_to z L = edges_open (L ++ [z]).
  Proof.
    intros z L; induction L as [|a t IH]; [reflexivity|].
    simpl edges_to. rewrite IH. destruct t; reflexivity.
  Qed.

  (* endpoints of edges are vertices *)
  Lemma edges_to_In : forall (z : A) (L : list A) (a b : A),
      In (a, b) (edges_to z L) -> In a L /\ (In b L \/ b = z).
  Proof.
    intros z L; induction L as [|x t IH]; simpl; intros a b H; [contradiction|].
    destruct H as [H|H].
    - inversion H; subst. split; [now left|]. destruct t; simpl; [now right| left; right; now left].
    - destruct (IH _ _ H) as [H1 H2]. split; [now right|]. destruct H2; [left; now right| now right].
  Qed.

  Lemma edges_closed_In : forall (L : list A) (a b : A),
      In (a, b) (edges_closed L) -> In a L /\ In b L.
  Proof.
    intros [|x t] a b H; [contradiction|].
    unfold edges_closed in H. destruct (edges_to_In _ _ _ _ H) as [H1 [H2|H2]]; split; auto.
    subst; now left.
  Qed.

  Lemma edges_open_In : forall (L : list A) (a b : A),
      In (a, b) (edges_open L) -> In a L /\ In b L.
  Proof.
    induction L as [|x t IH]; intros a b H; [contradiction|].
    destruct t as [|y t']; [contradiction|].
    rewrite edges_open_cons2 in H. destruct H as [H|H].
    - inversion H; subst. split; [now left| right; now left].
    - destruct (IH _ _ H). split; now right.
  Qed.

  (* every vertex starts an edge of the closed chain *)
  Lemma edges_to_In_src : forall (z : A) (L : list A) (a : A),
      In a L -> exists b, In (a, b) (edges_to z L).
  Proof.
    intros z L; induction L as [|x t IH]; simpl; intros a H; [contradiction|].
    destruct H as [H|H]; [subst; eexists; left; reflexivity|].
    destruct (IH _ H) as [b Hb]. exists b; now right.
  Qed.

  Lemma edges_closed_In_src : forall (L : list A) (a : A),
      In a L -> exists b, In (a, b) (edges_closed L).
  Proof. intros [|x t] a H; [contradiction|]. apply edges_to_In_src; exact H. Qed.

  (** ** splitting a list at an index; cyclic neighbours *)

  Lemma split_at : forall (dflt : A) (L : list A) (i : nat), i < length L ->
      L = firstn i L ++ nth i L dflt :: skipn (S i) L.
  Proof.
    intros dflt L; induction L as [|a t IH]; simpl; intros i H; [lia|].
    destruct i; simpl; [reflexivity|]. f_equal. apply IH. lia.
  Qed.

  Lemma nth_middle' : forall (dflt : A) (pre post : list A) (v : A),
      nth (length pre) (pre ++ v :: post) dflt = v.
  Proof. intros; rewrite app_nth2 by lia. rewrite Nat.sub_diag; reflexivity. Qed.

  Lemma remove_at_middle : forall (pre post : list A) (v : A),
      remove_at (length pre) (pre ++ v :: post) = pre ++ post.
  Proof.
    intros; unfold remove_at. rewrite firstn_app, Nat.sub_diag, firstn_all. simpl.
    rewrite app_nil_r. f_equal.
    induction pre; simpl; auto.
  Qed.

  Lemma remove_at_length : forall (L : list A) (i : nat), i < length L ->
      length (remove_at i L) = length L - 1.
  Proof.
    intros L i H. unfold remove_at. rewrite app_length, firstn_length, skipn_length. lia.
  Qed.

  Lemma last_cons_default : forall (t : list A) (a d : A), last (a :: t) d = last t a.
  Proof.
    induction t as [|b t' IH]; intros a d; [reflexivity|].
    change (last (a :: b :: t') d) with (last (b :: t') d). rewrite !IH. reflexivity.
  Qed.

  Lemma nth_length_cons : forall (dflt : A) (post : list A) (v : A),
      nth (length post) (v :: post) dflt = last post v.
  Proof.
    intros dflt post; induction post as [|a t IH]; intros v; [reflexivity|].
    change (nth (length (a :: t)) (v :: a :: t) dflt) with (nth (length t) (a :: t) dflt).
    rewrite IH. symmetry. apply last_cons_default.
  Qed.

  (* the cyclic predecessor of the element at the split point *)
  Lemma cprev_middle : forall (dflt : A) (pre post : list A) (v : A),
      cprev dflt (pre ++ v :: post) (length pre) = last (post ++ pre) v.
  Proof.
    intros dflt pre post v. unfold cprev, cnth.
    destruct pre as [|x pre0].
    - rewrite app_nil_r. cbn [app length].
      replace (0 + S (length post) - 1) with (length post) by lia.
      rewrite Nat.mod_small by lia. apply nth_length_cons.
    - destruct (@exists_last _ (x :: pre0)) as [pre' [p Hp]]; [discriminate|].
      rewrite Hp; clear Hp x pre0.
      rewrite app_assoc, last_last.
      rewrite !app_length. simpl length.
      replace (length pre' + 1 + (length pre' + 1 + S (length post)) - 1)
        with (length pre' + 1 * (length pre' + 1 + S (length post))) by lia.
      rewrite Nat.mod_add by lia. rewrite Nat.mod_small by lia.
      rewrite <- app_assoc. simpl. apply nth_middle'.
  Qed.

  (* the cyclic successor of the element at the split point *)
  Lemma cnext_middle : forall (dflt : A) (pre post : list A) (v : A),
      cnext dflt (pre ++ v :: post) (length pre) = hd v (post ++ pre).
  Proof.
    intros dflt pre post v. unfold cnext, cnth.
    assert (HL : length (pre ++ v :: post) = length pre + S (length post))
      by (rewrite app_length; reflexivity).
    rewrite HL.
    destruct post as [|n post'].
    - simpl length. replace (length pre + 1) with (1 * (length pre + 1)) at 1 by lia.
      rewrite Nat.mod_mul by lia.
      destruct pre; reflexivity.
    - rewrite Nat.mod_small by (simpl; lia).
      replace (pre ++ v :: n :: post') with ((pre ++ [v]) ++ n :: post')
        by (rewrite <- app_assoc; reflexivity).
      replace (length pre + 1) with (length (pre ++ [v])) by (rewrite app_length; reflexivity).
      rewrite nth_middle'. reflexivity.
  Qed.

  (** ** ear decompositions *)

  (* [ear_decomp L Ts]: Ts is the list of triangles (prev, v, next) cut off by successively
     removing one vertex v of the closed chain (prev/next are its *cyclic* neighbours at the
     time of removal) until a single triangle is left.  The vertex removed is the one at the
     split point of  pre ++ v :: post;  its cyclic neighbours are  last (post ++ pre) v  and
     hd v (post ++ pre). *)
  Inductive ear_decomp : list A -> list (A * A * A) -> Prop :=
  | ed_tri : forall a b c : A, ear_decomp [a; b; c] [(a, b, c)]
  | ed_step : forall (pre post : list A) (v : A) (Ts : list (A * A * A)),
      ear_decomp (pre ++ post) Ts ->
      ear_decomp (pre ++ v :: post) ((last (post ++ pre) v, v, hd v (post ++ pre)) :: Ts).

  (* the same step, by index: remove the vertex at position i; neighbours by cyclic indexing *)
  Lemma ear_decomp_idx : forall (dflt : A) (L : list A) (i : nat) (Ts : list (A * A * A)),
      i < length L ->
      ear_decomp (remove_at i L) Ts ->
      ear_decomp L ((cprev dflt L i, nth i L dflt, cnext dflt L i) :: Ts).
  Proof.
    intros dflt L i Ts Hi H.
    pose proof (split_at dflt L Hi) as HL.
    set (pre := firstn i L) in *. set (post := skipn (S i) L) in *. set (v := nth i L dflt) in *.
    assert (Hlen : length pre = i) by (unfold pre; rewrite firstn_length; lia).
    unfold remove_at in H. fold pre in H. fold post in H.
    rewrite HL. rewrite <- Hlen.
    rewrite cprev_middle, cnext_middle.
    apply ed_step; exact H.
  Qed.

  (* specialisations: vertex in the middle / first / last *)
  Lemma ed_mid : forall (pre post : list A) (p v n : A) (Ts : list (A * A * A)),
      ear_decomp (pre ++ p :: n :: post) Ts ->
      ear_decomp (pre ++ p :: v :: n :: post) ((p, v, n) :: Ts).
  Proof.
    intros pre post p v n Ts H.
    replace (pre ++ p :: n :: post) with ((pre ++ [p]) ++ n :: post) in H
      by (rewrite <- app_assoc; reflexivity).
    pose proof (ed_step (pre ++ [p]) (n :: post) v H) as H'.
    rewrite (app_assoc (n :: post) pre [p]) in H'. rewrite last_last in H'.
    rewrite <- (app_assoc pre [p]) in H'. exact H'.
  Qed.

  Lemma ed_first : forall (mid : list A) (p v n : A) (Ts : list (A * A * A)),
      ear_decomp (n :: mid ++ [p]) Ts ->
      ear_decomp (v :: n :: mid ++ [p]) ((p, v, n) :: Ts).
  Proof.
    intros mid p v n Ts H.
    pose proof (ed_step [] (n :: mid ++ [p]) v H) as H'.
    rewrite app_nil_r in H'.
    change (n :: mid ++ [p]) with ((n :: mid) ++ [p]) in H' at 2.
    rewrite last_last in H'. exact H'.
  Qed.

  Lemma ed_last : forall (mid : list A) (p v n : A) (Ts : list (A * A * A)),
      ear_decomp (n :: mid ++ [p]) Ts ->
      ear_decomp (n :: mid ++ [p; v]) ((p, v, n) :: Ts).
  Proof.
    intros mid p v n Ts H.
    replace (n :: mid ++ [p]) with ((n :: mid ++ [p]) ++ []) in H by apply app_nil_r.
    pose proof (ed_step (n :: mid ++ [p]) [] v H) as H'.
    change ([] ++ n :: mid ++ [p]) with ((n :: mid) ++ [p]) in H'.
    rewrite last_last in H'.
    replace (n :: mid ++ [p; v]) with ((n :: mid ++ [p]) ++ [v])
      by (simpl; rewrite <- app_assoc; reflexivity).
    exact H'.
  Qed.

  Lemma ear_decomp_length : forall (L : list A) (Ts : list (A * A * A)),
      ear_decomp L Ts -> length L = length Ts + 2.
  Proof.
    intros L Ts H; induction H; [reflexivity|].
    rewrite app_length in *. simpl. lia.
  Qed.

  Lemma last_In : forall (l : list A) (d : A), In (last l d) (d :: l).
  Proof.
    induction l as [|a t IH]; intros d; [now left|].
    rewrite last_cons_default. right. apply IH.
  Qed.

  Lemma hd_In : forall (l : list A) (d : A), In (hd d l) (d :: l).
  Proof. intros [|a t] d; simpl; auto. Qed.

  (* one ear step: the ear's corners, and what is left of the chain, lie in the chain *)
  Lemma ear_step_In : forall (pre post : list A) (v : A) (Ts : list (A * A * A)) (a b c : A),
      (In (a, b, c) Ts -> In a (pre ++ post) /\ In b (pre ++ post) /\ In c (pre ++ post)) ->
      In (a, b, c) ((last (post ++ pre) v, v, hd v (post ++ pre)) :: Ts) ->
      In a (pre ++ v :: post) /\ In b (pre ++ v :: post) /\ In c (pre ++ v :: post).
  Proof.
    intros pre post v Ts a b c IH Hin.
    assert (Hsub : forall x, In x (v :: post ++ pre) -> In x (pre ++ v :: post)).
    { intros x [Hx|Hx]; [subst; apply in_elt|].
      apply in_app_or in Hx. apply in_or_app. destruct Hx; [right; now right| now left]. }
    assert (Hs2 : forall x, In x (pre ++ post) -> In x (pre ++ v :: post)).
    { intros x Hx. apply in_app_or in Hx. apply in_or_app. destruct Hx; [now left| right; now right]. }
    destruct Hin as [Hin|Hin].
    - inversion Hin; subst. repeat split; [apply Hsub, last_In | apply in_elt | apply Hsub, hd_In].
    - destruct (IH Hin) as [Ha [Hb Hc]]. auto.
  Qed.

  Lemma ear_decomp_In : forall (L : list A) (Ts : list (A * A * A)),
      ear_decomp L Ts ->
      forall a b c : A, In (a, b, c) Ts -> In a L /\ In b L /\ In c L.
  Proof.
    intros L Ts H; induction H; intros a' b' c' Hin.
    - destruct Hin as [Hin|[]]. inversion Hin; subst. simpl; intuition.
    - eapply ear_step_In; [apply IHear_decomp | exact Hin].
  Qed.

End Edges.

(** * Sums of an edge functional over open / closed chains *)
Section Sums.
  Variables (A G : Type).
  Variables (rO : G) (radd : G -> G -> G).

  (* Σ_{(a,b) ∈ E} f a b *)
  Definition esum (f : A -> A -> G) (E : list (A * A)) : G :=
    fold_right (fun e acc => radd (f (fst e) (snd e)) acc) rO E.

  (* Σ over the edges of the closed chain L *)
  Definition csum (f : A -> A -> G) (L : list A) : G := esum f (edges_closed L).

  (* the closed-chain sum of the triangle a -> b -> c -> a *)
  Definition tri (f : A -> A -> G) (a b c : A) : G := csum f [a; b; c].

  (* Σ_{(a,b,c) ∈ Ts} g a b c *)
  Definition tsum (g : A -> A -> A -> G) (Ts : list (A * A * A)) : G :=
    fold_right (fun t acc => radd (g (fst (fst t)) (snd (fst t)) (snd t)) acc) rO Ts.

  Lemma esum_nil : forall f : A -> A -> G, esum f [] = rO.
  Proof. reflexivity. Qed.
  Lemma esum_cons : forall (f : A -> A -> G) (a b : A) (E : list (A * A)),
      esum f ((a, b) :: E) = radd (f a b) (esum f E).
  Proof. reflexivity. Qed.
  Lemma tsum_nil : forall g : A -> A -> A -> G, tsum g [] = rO.
  Proof. reflexivity. Qed.
  Lemma tsum_cons : forall (g : A -> A -> A -> G) (a b c : A) (Ts : list (A * A * A)),
      tsum g ((a, b, c) :: Ts) = radd (g a b c) (tsum g Ts).
  Proof. reflexivity. Qed.
  Lemma tri_unfold : forall (f : A -> A -> G) (a b c : A),
      tri f a b c = radd (f a b) (radd (f b c) (radd (f c a) rO)).
  Proof. reflexivity. Qed.

  Lemma esum_ext_in : forall (f g : A -> A -> G) (E : list (A * A)),
      (forall a b, In (a, b) E -> f a b = g a b) -> esum f E = esum g E.
  Proof.
    intros f g E; induction E as [|[a b] E IH]; intros H; [reflexivity|].
    rewrite !esum_cons. rewrite IH, (H a b); [reflexivity|now left|].
    intros; apply H; now right.
  Qed.

  Lemma csum_ext_in : forall (f g : A -> A -> G) (L : list A),
      (forall a b, In a L -> In b L -> f a b = g a b) -> csum f L = csum g L.
  Proof.
    intros f g L H. apply esum_ext_in. intros a b Hab.
    destruct (edges_closed_In _ _ _ Hab). auto.
  Qed.

  Lemma csum_ext : forall (f g : A -> A -> G) (L : list A),
      (forall a b, f a b = g a b) -> csum f L = csum g L.
  Proof. intros; apply csum_ext_in; auto. Qed.

  Lemma tsum_ext_in : forall (g1 g2 : A -> A -> A -> G) (Ts : list (A * A * A)),
      (forall a b c, In (a, b, c) Ts -> g1 a b c = g2 a b c) -> tsum g1 Ts = tsum g2 Ts.
  Proof.
    intros g1 g2 Ts; induction Ts as [|[[a b] c] Ts IH]; intros H; [reflexivity|].
    rewrite !tsum_cons. rewrite IH, (H a b c); [reflexivity|now left|].
    intros; apply H; now right.
  Qed.
End Sums.

(* homomorphic images of sums (e.g. Z -> R by IZR, R -> R^3 by scaling a fixed vector) *)
Section SumsHom.
  Variables (A G1 G2 : Type).
  Variables (z1 : G1) (add1 : G1 -> G1 -> G1) (z2 : G2) (add2 : G2 -> G2 -> G2).
  Variable h : G1 -> G2.
  Hypothesis h_zero : h z1 = z2.
  Hypothesis h_add : forall x y, h (add1 x y) = add2 (h x) (h y).

  Lemma esum_hom : forall (f : A -> A -> G1) (E : list (A * A)),
      esum z2 add2 (fun a b => h (f a b)) E = h (esum z1 add1 f E).
  Proof.
    intros f E; induction E as [|[a b] E IH]; [symmetry; exact h_zero|].
    rewrite !esum_cons, h_add, IH. reflexivity.
  Qed.

  Lemma csum_hom : forall (f : A -> A -> G1) (L : list A),
      csum z2 add2 (fun a b => h (f a b)) L = h (csum z1 add1 f L).
  Proof. intros; apply esum_hom. Qed.

  Lemma tsum_hom : forall (g : A -> A -> A -> G1) (Ts : list (A * A * A)),
      tsum z2 add2 (fun a b c => h (g a b c)) Ts = h (tsum z1 add1 g Ts).
  Proof.
    intros g Ts; induction Ts as [|[[a b] c] Ts IH]; [symmetry; exact h_zero|].
    rewrite !tsum_cons, h_add, IH. reflexivity.
  Qed.
End SumsHom.

(* image of a chain under a map of the vertices *)
Section SumsMap.
  Variables (A B G : Type).
  Variables (rO : G) (radd : G -> G -> G).
  Variable h : A -> B.

  Lemma edges_to_map : forall (z : A) (L : list A),
      edges_to (h z) (map h L) = map (fun e => (h (fst e), h (snd e))) (edges_to z L).
  Proof.
    intros z L; induction L as [|a t IH]; [reflexivity|].
    simpl. rewrite IH. f_equal. destruct t; reflexivity.
  Qed.

  Lemma edges_closed_map : forall L : list A,
      edges_closed (map h L) = map (fun e => (h (fst e), h (snd e))) (edges_closed L).
  Proof. intros [|a t]; [reflexivity|]. apply (edges_to_map a (a :: t)). Qed.

  Lemma esum_map : forall (f : B -> B -> G) (E : list (A * A)),
      esum rO radd f (map (fun e => (h (fst e), h (snd e))) E)
      = esum rO radd (fun a b => f (h a) (h b)) E.
  Proof.
    intros f E; induction E as [|[a b] E IH]; [reflexivity|].
    simpl map. rewrite !esum_cons, IH. reflexivity.
  Qed.

  Lemma csum_map : forall (f : B -> B -> G) (L : list A),
      csum rO radd f (map h L) = csum rO radd (fun a b => f (h a) (h b)) L.
  Proof. intros; unfold csum. rewrite edges_closed_map. apply esum_map. Qed.
End SumsMap.

(** * Algebra of closed-chain sums (values in the additive group of a commutative ring) *)
Section CSum.
  Variables (A G : Type).
  Variables (rO rI : G) (radd rmul rsub : G -> G -> G) (ropp : G -> G).
  Hypothesis Gth : ring_theory rO rI radd rmul rsub ropp (@eq G).
  Add Ring Gring : Gth.
  Local Notation "x [+] y" := (radd x y) (at level 50, left associativity).
  Local Notation "x [-] y" := (rsub x y) (at level 50, left associativity).
  Local Notation "[-] x" := (ropp x) (at level 35, right associativity).
  Local Notation esum := (esum (A := A) rO radd).
  Local Notation csum := (csum (A := A) rO radd).
  Local Notation tri := (tri (A := A) rO radd).
  Local Notation tsum := (tsum (A := A) rO radd).

  Ltac csx := unfold Cyclic.csum, edges_closed; cbn [edges_to hd app last rev];
              rewrite ?esum_cons, ?esum_nil.

  Lemma esum_app : forall (f : A -> A -> G) (E1 E2 : list (A * A)),
      esum f (E1 ++ E2) = esum f E1 [+] esum f E2.
  Proof.
    intros f E1 E2; induction E1 as [|[a b] E1 IH]; simpl app.
    - rewrite esum_nil. ring.
    - rewrite !esum_cons, IH. ring.
  Qed.

  Lemma tsum_app : forall (g : A -> A -> A -> G) (T1 T2 : list (A * A * A)),
      tsum g (T1 ++ T2) = tsum g T1 [+] tsum g T2.
  Proof.
    intros g T1 T2; induction T1 as [|[[a b] c] T1 IH]; simpl app.
    - rewrite tsum_nil. ring.
    - rewrite !tsum_cons, IH. ring.
  Qed.

  (* accumulating from the left (as an imperative loop does) gives the same sum *)
  Lemma esum_fold_left : forall (f : A -> A -> G) (E : list (A * A)) (acc : G),
      fold_left (fun s e => s [+] f (fst e) (snd e)) E acc = acc [+] esum f E.
  Proof.
    intros f E; induction E as [|[a b] E IH]; intros acc; simpl fold_left.
    - rewrite esum_nil. ring.
    - rewrite IH, esum_cons. simpl fst; simpl snd. ring.
  Qed.

  (* a closed chain may be cut open anywhere: cyclic shift by any amount *)
  Lemma csum_rot_app : forall (f : A -> A -> G) (l1 l2 : list A),
      csum f (l1 ++ l2) = csum f (l2 ++ l1).
  Proof.
    intros f [|a t1] [|b t2]; rewrite ?app_nil_r; try reflexivity.
    unfold Cyclic.csum.
    change (edges_closed ((a :: t1) ++ b :: t2)) with (edges_to a ((a :: t1) ++ b :: t2)).
    change (edges_closed ((b :: t2) ++ a :: t1)) with (edges_to b ((b :: t2) ++ a :: t1)).
    rewrite !edges_to_app. cbn [hd]. rewrite !esum_app. ring.
  Qed.

  Lemma csum_rotl : forall (f : A -> A -> G) (L : list A), csum f (rotl L) = csum f L.
  Proof.
    intros f [|a t]; [reflexivity|]. unfold rotl.
    change (a :: t) with ([a] ++ t). apply csum_rot_app.
  Qed.

  Lemma csum_plus_fun : forall (f g : A -> A -> G) (L : list A),
      csum (fun a b => f a b [+] g a b) L = csum f L [+] csum g L.
  Proof.
    intros f g L; unfold Cyclic.csum. induction (edges_closed L) as [|[a b] E IH].
    - rewrite !esum_nil. ring.
    - rewrite !esum_cons, IH. ring.
  Qed.

  Lemma csum_opp_fun : forall (f : A -> A -> G) (L : list A),
      csum (fun a b => [-] f a b) L = [-] csum f L.
  Proof.
    intros f L; unfold Cyclic.csum. induction (edges_closed L) as [|[a b] E IH].
    - rewrite !esum_nil. ring.
    - rewrite !esum_cons, IH. ring.
  Qed.

  (* a potential difference sums to zero around a closed chain *)
  Lemma csum_telescope : forall (g : A -> G) (L : list A),
      csum (fun a b => g b [-] g a) L = rO.
  Proof.
    intros g [|a0 t]; [reflexivity|]. unfold Cyclic.csum, edges_closed.
    assert (H : forall (z : A) (t : list A) (a : A),
               esum (fun a b => g b [-] g a) (edges_to z (a :: t)) = g z [-] g a).
    { intros z t'; induction t' as [|b t' IH]; intros a.
      - simpl edges_to. rewrite esum_cons, esum_nil. simpl hd. ring.
      - change (edges_to z (a :: b :: t')) with ((a, b) :: edges_to z (b :: t')).
        rewrite esum_cons, IH. ring. }
    rewrite H. ring.
  Qed.

  (** ** antisymmetric edge functionals *)
  Section Anti.
    Variable f : A -> A -> G.
    Hypothesis f_anti : forall a b : A, f a b = [-] f b a.
    Hypothesis f_self : forall a : A, f a a = rO.

    Lemma psum_rev : forall (L : list A) (y z : A),
        esum f (edges_to y (z :: rev L)) = [-] esum f (edges_to z (y :: L)).
    Proof.
      induction L as [|a t IH]; intros y z.
      - csx. rewrite (f_anti z y). ring.
      - simpl rev.
        change (z :: rev t ++ [a]) with ((z :: rev t) ++ [a]).
        rewrite edges_to_app, esum_app. cbn [hd]. rewrite IH.
        change (edges_to z (y :: a :: t)) with ((y, a) :: edges_to z (a :: t)).
        simpl edges_to. rewrite !esum_cons, esum_nil. simpl hd.
        rewrite (f_anti a y). ring.
    Qed.

    Lemma csum_rev : forall L : list A, csum f (rev L) = [-] csum f L.
    Proof.
      intros [|a t].
      - csx. ring.
      - simpl rev. rewrite csum_rot_app. simpl app.
        unfold Cyclic.csum, edges_closed. apply psum_rev.
    Qed.

    Lemma tri_rot : forall a b c : A, tri f b c a = tri f a b c.
    Proof. intros; rewrite !tri_unfold; ring. Qed.

    Lemma tri_swap : forall a b c : A, tri f a c b = [-] tri f a b c.
    Proof.
      intros; rewrite !tri_unfold.
      rewrite (f_anti a c), (f_anti c b), (f_anti b a). ring.
    Qed.

    Lemma tri_degenerate : forall a b : A, tri f a a b = rO.
    Proof. intros; rewrite tri_unfold, f_self, (f_anti a b). ring. Qed.

    (* ear identity: cutting the ear (v0,v1,v2) off the chain *)
    Lemma csum_ear : forall (v0 v1 v2 : A) (rest : list A),
        csum f (v0 :: v1 :: v2 :: rest) = csum f (v0 :: v2 :: rest) [+] tri f v0 v1 v2.
    Proof.
      intros. rewrite tri_unfold. unfold Cyclic.csum, edges_closed.
      change (edges_to v0 (v0 :: v1 :: v2 :: rest))
        with ((v0, v1) :: (v1, v2) :: edges_to v0 (v2 :: rest)).
      change (edges_to v0 (v0 :: v2 :: rest)) with ((v0, v2) :: edges_to v0 (v2 :: rest)).
      rewrite !esum_cons. rewrite (f_anti v2 v0). ring.
    Qed.

    (* removing the vertex at the split point of pre ++ v :: post; its cyclic neighbours are
       last (post ++ pre) v  (predecessor)  and  hd v (post ++ pre)  (successor) *)
    Lemma csum_remove : forall (pre post : list A) (v : A),
        csum f (pre ++ v :: post)
        = csum f (pre ++ post) [+] tri f (last (post ++ pre) v) v (hd v (post ++ pre)).
    Proof.
      intros pre post v.
      rewrite (csum_rot_app f pre (v :: post)), (csum_rot_app f pre post).
      simpl app. generalize (post ++ pre) as R. clear pre post.
      intros [|n R'].
      - rewrite tri_unfold. csx. rewrite !f_self. ring.
      - destruct R' as [|x R''].
        + rewrite tri_unfold. csx. rewrite !f_self. ring.
        + destruct (@exists_last _ (x :: R'')) as [mid [p Hp]]; [discriminate|].
          rewrite Hp; clear Hp x R''.
          change (n :: mid ++ [p]) with ((n :: mid) ++ [p]) at 3.
          rewrite last_last. cbn [hd]. rewrite tri_unfold.
          unfold Cyclic.csum, edges_closed.
          change (edges_to v (v :: n :: mid ++ [p]))
            with ((v, n) :: edges_to v ((n :: mid) ++ [p])).
          change (edges_to n (n :: mid ++ [p])) with (edges_to n ((n :: mid) ++ [p])).
          rewrite !edges_to_app. cbn [hd edges_to].
          rewrite !esum_cons, !esum_app, !esum_cons, !esum_nil. cbn [hd].
          rewrite (f_anti n p). ring.
    Qed.

    (* the same by position: remove the vertex at index i, neighbours by cyclic indexing *)
    Lemma csum_remove_at : forall (dflt : A) (L : list A) (i : nat), i < length L ->
        csum f L = csum f (remove_at i L)
                   [+] tri f (cprev dflt L i) (nth i L dflt) (cnext dflt L i).
    Proof.
      intros dflt L i Hi.
      pose proof (split_at dflt L Hi) as HL.
      assert (Hlen : length (firstn i L) = i) by (rewrite firstn_length; lia).
      unfold remove_at.
      generalize dependent (firstn i L). generalize dependent (skipn (S i) L).
      generalize dependent (nth i L dflt).
      intros v post pre HL Hlen. subst L i.
      rewrite cprev_middle, cnext_middle. apply csum_remove.
    Qed.

    (* inserting a vertex m between cyclic neighbours p, n with f p m + f m n = f p n
       (e.g. a point on the edge) does not change the sum *)
    Lemma csum_insert_gen : forall (pre post : list A) (m : A),
        f (last (post ++ pre) m) m [+] f m (hd m (post ++ pre))
        = f (last (post ++ pre) m) (hd m (post ++ pre)) ->
        csum f (pre ++ m :: post) = csum f (pre ++ post).
    Proof.
      intros pre post m H. rewrite csum_remove, tri_unfold.
      set (p := last (post ++ pre) m) in *. set (n := hd m (post ++ pre)) in *.
      replace (f p m [+] (f m n [+] (f n p [+] rO))) with ((f p m [+] f m n) [+] f n p) by ring.
      rewrite H, (f_anti n p). ring.
    Qed.

    Lemma csum_insert : forall (pre post : list A) (a m b : A),
        f a m [+] f m b = f a b ->
        csum f (pre ++ a :: m :: b :: post) = csum f (pre ++ a :: b :: post).
    Proof.
      intros pre post a m b H.
      replace (pre ++ a :: m :: b :: post) with ((pre ++ [a]) ++ m :: b :: post)
        by (rewrite <- app_assoc; reflexivity).
      replace (pre ++ a :: b :: post) with ((pre ++ [a]) ++ b :: post)
        by (rewrite <- app_assoc; reflexivity).
      apply csum_insert_gen.
      rewrite (app_assoc (b :: post) pre [a]), last_last. cbn [app hd]. exact H.
    Qed.

    (* inserting on the closing edge last -> first *)
    Lemma csum_insert_closing : forall (mid : list A) (a m b : A),
        f a m [+] f m b = f a b ->
        csum f (b :: mid ++ [a; m]) = csum f (b :: mid ++ [a]).
    Proof.
      intros mid a m b H.
      replace (b :: mid ++ [a; m]) with ((b :: mid ++ [a]) ++ m :: [])
        by (simpl; rewrite <- app_assoc; reflexivity).
      replace (b :: mid ++ [a]) with ((b :: mid ++ [a]) ++ []) at 2 by apply app_nil_r.
      apply csum_insert_gen.
      change ([] ++ b :: mid ++ [a]) with ((b :: mid) ++ [a]). rewrite last_last.
      cbn [app hd]. exact H.
    Qed.

    (* fan decomposition from the first vertex *)
    Lemma csum_fan : forall (v0 : A) (vs : list A),
        csum f (v0 :: vs) = esum (tri f v0) (edges_open vs).
    Proof.
      intros v0 vs; induction vs as [|v1 t IH].
      - csx. rewrite f_self. ring.
      - destruct t as [|v2 rest].
        + csx. rewrite (f_anti v1 v0). ring.
        + rewrite csum_ear, IH, edges_open_cons2, esum_cons. ring.
    Qed.

    (* cone decomposition from an arbitrary apex p: Σ over the closed edges (a,b) of the
       triangle sums (p,a,b); the spokes p-a cancel in pairs *)
    Lemma csum_cone : forall (p : A) (L : list A),
        csum f L = esum (tri f p) (edges_closed L).
    Proof.
      intros p L.
      transitivity (csum (fun a b => f a b [+] (f b p [-] f a p)) L).
      - rewrite (csum_plus_fun f (fun a b => f b p [-] f a p)).
        rewrite (csum_telescope (fun v => f v p)). ring.
      - apply esum_ext_in. intros a b _. rewrite tri_unfold, (f_anti p a). ring.
    Qed.

    (* the sum over the chain is the sum over the ears of any ear decomposition *)
    Lemma csum_ear_decomp : forall (L : list A) (Ts : list (A * A * A)),
        ear_decomp L Ts -> csum f L = tsum (tri f) Ts.
    Proof.
      intros L Ts H; induction H.
      - rewrite tsum_cons, tsum_nil. unfold Cyclic.tri. ring.
      - rewrite csum_remove, IHear_decomp, tsum_cons. ring.
    Qed.

    (* merging a second cycle h0 :: hs into pre ++ e :: post through the bridge e -> h0,
       walked once each way: the sums add *)
    Lemma csum_bridge : forall (pre post hs : list A) (e h0 : A),
        csum f (pre ++ e :: h0 :: hs ++ h0 :: e :: post)
        = csum f (pre ++ e :: post) [+] csum f (h0 :: hs).
    Proof.
      intros pre post hs e h0.
      rewrite (csum_rot_app f pre), (csum_rot_app f pre (e :: post)).
      replace ((e :: h0 :: hs ++ h0 :: e :: post) ++ pre)
        with (e :: (h0 :: hs) ++ h0 :: e :: (post ++ pre))
        by (simpl; rewrite <- app_assoc; reflexivity).
      simpl app at 3. generalize (post ++ pre) as R; intros R.
      unfold Cyclic.csum, edges_closed.
      change (edges_to e (e :: (h0 :: hs) ++ h0 :: e :: R))
        with ((e, h0) :: edges_to e ((h0 :: hs) ++ h0 :: e :: R)).
      rewrite edges_to_app. cbn [hd].
      change (edges_to e (h0 :: e :: R)) with ((h0, e) :: edges_to e (e :: R)).
      rewrite esum_cons, esum_app, esum_cons. rewrite (f_anti h0 e). ring.
    Qed.
  End Anti.
End CSum.

Arguments esum_hom [A G1 G2] z1 add1 z2 add2 h h_zero h_add f E.
Arguments csum_hom [A G1 G2] z1 add1 z2 add2 h h_zero h_add f L.
Arguments tsum_hom [A G1 G2] z1 add1 z2 add2 h h_zero h_add g Ts.
