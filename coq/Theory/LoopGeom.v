(** Everything is stated with the model's operations so that the C10 / C05 proofs can use it directly; the vector
    algebra is that of Theory/VecR.v. *)
From Coq Require Import ZArith Reals Lra Lia Bool List Arith Psatz.
From G3 Require Import Model.Num Model.Base Model.Vec Model.Segment Model.Loop Theory.RInst.
From G3 Require Export Theory.VecR.
From G3 Require Theory.Cyclic.
Import ListNotations.
Local Open Scope R_scope.

Notation V := (V3 R).

Ltac vunf := unfold vadd, vsub, vneg, vscale, vdivs, vcross, vdot, vlen2, psqdist, vzero in *; cbn [vx vy vz] in *.
(** decide the model's comparisons in the goal whose outcome linear arithmetic settles *)
Ltac rdec :=
  repeat match goal with
  | |- context [Rltb ?a ?b] => first [rewrite (Rltb_lt a b) by lra | rewrite (Rltb_ge a b) by lra]
  | |- context [Rleb ?a ?b] => first [rewrite (Rleb_le a b) by lra | rewrite (Rleb_gt a b) by lra]
  end.

Lemma vadd_zero_l (a : V) : vadd vzero a = a. Proof. vring. Qed.
Lemma vadd_zero_r (a : V) : vadd a vzero = a. Proof. vring. Qed.
Lemma vcross_self (a : V) : vcross a a = vzero. Proof. vring. Qed.
Lemma vneg_zero : vneg (vzero : V) = vzero. Proof. vring. Qed.
Lemma vdot_zero_r (n : V) : vdot n vzero = 0. Proof. vring. Qed.

Lemma Rabs_ge_l (c x : R) : c <= x -> c <= Rabs x.
Proof. intros H. pose proof (Rle_abs x). lra. Qed.
Lemma Rabs_ge_r (c x : R) : c <= - x -> c <= Rabs x.
Proof. intros H. rewrite <- Rabs_Ropp. pose proof (Rle_abs (- x)). lra. Qed.
Lemma vis_zero_false (v : V) : 1 <= Rabs (vx v) \/ 1 <= Rabs (vy v) \/ 1 <= Rabs (vz v) -> vis_zero v = false.
Proof.
  intros H. unfold vis_zero. rnum. pose proof ctiny_small as T.
  destruct H as [H|[H|H]].
  - rewrite (Rltb_ge (Rabs (vx v))) by lra. reflexivity.
  - rewrite (Rltb_ge (Rabs (vy v))) by lra. rewrite andb_false_r. reflexivity.
  - rewrite (Rltb_ge (Rabs (vz v))) by lra. apply andb_false_r.
Qed.
Lemma vcompare_false_intro (a b : V) :
  1 / 100000 <= Rabs (vx a - vx b) \/ 1 / 100000 <= Rabs (vy a - vy b) \/ 1 / 100000 <= Rabs (vz a - vz b) -> vcompare a b = false.
Proof.
  intros H. unfold vcompare, c1em5. rnum. destruct H as [H|[H|H]]; apply Rltb_false in H; rewrite H;
    rewrite ?andb_false_r; reflexivity.
Qed.

(** ** sums along chains, generic in the summand (values in a commutative monoid) *)
Section Chain.
  Context {A : Type} (op : A -> A -> A) (e : A) (f : V -> V -> A).
  Hypothesis op_comm : forall x y, op x y = op y x.
  Hypothesis op_assoc : forall x y z, op (op x y) z = op x (op y z).
  Hypothesis op_e_l : forall x, op e x = x.

  (** sum of [f a b] over the consecutive pairs of an OPEN chain *)
  Fixpoint chain (l : list V) : A :=
    match l with
    | a :: ((b :: _) as tl) => op (f a b) (chain tl)
    | _ => e
    end.
  (** the closed chain: wraps around to the first vertex *)
  Definition cyc (l : list V) : A := match l with [] => e | v :: _ => chain (l ++ [v]) end.

  Lemma op_e_r x : op x e = x. Proof. rewrite op_comm. apply op_e_l. Qed.

  Lemma chain_cons2 a b l : chain (a :: b :: l) = op (f a b) (chain (b :: l)). Proof. reflexivity. Qed.

  (** splitting a chain at a vertex *)
  Lemma chain_app (l1 : list V) (x : V) (l2 : list V) :
    chain (l1 ++ x :: l2) = op (chain (l1 ++ [x])) (chain (x :: l2)).
  Proof.
    induction l1 as [|a l1 IH]; cbn [app].
    - cbn [chain]. rewrite op_e_l. reflexivity.
    - destruct l1 as [|b l1]; cbn [app] in *.
      + rewrite !chain_cons2. cbn [chain]. rewrite op_e_r. reflexivity.
      + rewrite !chain_cons2. rewrite IH. rewrite op_assoc. reflexivity.
  Qed.

  Lemma chain_esum (z : V) (l : list V) : chain (l ++ [z]) = Cyclic.esum e op f (Cyclic.edges_to z l).
  Proof.
    induction l as [|a l IH]; [reflexivity|]. destruct l as [|b l]; [reflexivity|].
    change ((a :: b :: l) ++ [z]) with (a :: (b :: l) ++ [z]). cbn [app] in *. rewrite chain_cons2, IH. reflexivity.
  Qed.
  Lemma cyc_csum (l : list V) : cyc l = Cyclic.csum e op f l.
  Proof. destruct l as [|v l]; [reflexivity | apply chain_esum]. Qed.

  (** the model's accumulating loops ([sum_cross], [sum_len]) are instances of this scheme *)
  Fixpoint acc_loop (vs : list V) (first : V) (acc : A) : A :=
    match vs with
    | [] => acc
    | v :: tl => let nxt := match tl with [] => first | w :: _ => w end in acc_loop tl first (op acc (f v nxt))
    end.
  Lemma acc_loop_chain (vs : list V) (first : V) (acc : A) :
    vs <> [] -> acc_loop vs first acc = op acc (chain (vs ++ [first])).
  Proof.
    revert acc. induction vs as [|v tl IH]; intros acc Hne; [congruence|].
    destruct tl as [|w tl].
    - cbn [acc_loop app chain]. rewrite op_e_r. reflexivity.
    - change (acc_loop (v :: w :: tl) first acc) with (acc_loop (w :: tl) first (op acc (f v w))).
      rewrite IH by discriminate. cbn [app]. rewrite chain_cons2. rewrite op_assoc. reflexivity.
  Qed.
  Lemma acc_loop_cyc (vs : list V) (acc : A) : acc_loop vs (vnth vs O) acc = op acc (cyc vs).
  Proof.
    destruct vs as [|v tl]; [cbn [acc_loop cyc]; rewrite op_e_r; reflexivity|].
    rewrite acc_loop_chain by discriminate. reflexivity.
  Qed.
End Chain.

Ltac vmon := first [apply vadd_comm | apply vadd_assoc | apply vadd_zero_l].
Ltac rmon := first [apply Rplus_comm | apply Rplus_assoc | apply Rplus_0_l].

(** ** the Newell vector  S = sum v_i x v_{i+1}  (twice the vector area) *)
Definition xchain : list V -> V := chain vadd vzero vcross.
Definition newell : list V -> V := cyc vadd vzero vcross.

(** vectors with the componentwise product are a ring: the closed-chain lemmas of Theory/Cyclic.v apply to [newell] *)
Definition vmul (a b : V) : V := mkV3 (vx a * vx b) (vy a * vy b) (vz a * vz b).
Lemma V3_ring : ring_theory (vzero : V) (mkV3 1 1 1) vadd vmul vsub vneg eq.
Proof. constructor; intros; unfold vmul; vring. Qed.
Lemma newell_csum (l : list V) : newell l = Cyclic.csum vzero vadd vcross l.
Proof. apply cyc_csum. Qed.

(** [sum_cross] of the model computes exactly the Newell vector *)
Lemma sum_cross_acc_loop (vs : list V) (first acc : V) : sum_cross vs first acc = acc_loop vadd vcross vs first acc.
Proof. revert acc. induction vs as [|v tl IH]; intros acc; [reflexivity|]. cbn [sum_cross acc_loop]. apply IH. Qed.
Theorem sum_cross_newell (vs : list V) : sum_cross vs (vnth vs O) vzero = newell vs.
Proof.
  rewrite sum_cross_acc_loop. unfold newell. rewrite (acc_loop_cyc vadd vzero vcross); [apply vadd_zero_l | vmon ..].
Qed.

(** independence of the start vertex *)
Theorem newell_rot (l1 l2 : list V) : newell (l1 ++ l2) = newell (l2 ++ l1).
Proof. rewrite !newell_csum. apply (Cyclic.csum_rot_app V3_ring). Qed.

(** reversal negates *)
Theorem newell_rev (l : list V) : newell (rev l) = vneg (newell l).
Proof. rewrite !newell_csum. apply (Cyclic.csum_rev V3_ring vcross vcross_anticomm). Qed.

(** translation changes each summand by the potential difference  t x b - t x a,  which sums to zero around a closed chain *)
Theorem newell_translate (t : V) (l : list V) : newell (map (vadd t) l) = newell l.
Proof.
  rewrite !newell_csum, Cyclic.csum_map.
  rewrite (Cyclic.csum_ext _ _ _ (fun a b => vadd (vcross a b) (vsub (vcross t b) (vcross t a)))) by (intros; vring).
  rewrite (Cyclic.csum_plus_fun V3_ring), (Cyclic.csum_telescope V3_ring (vcross t)). apply vadd_zero_r.
Qed.

(** a point exactly on an edge contributes nothing *)
Lemma xchain_on_edge (a b : V) (s : R) :
  let m := vadd a (vscale (vsub b a) s) in vadd (vcross a m) (vcross m b) = vcross a b.
Proof. cbn zeta. vring. Qed.
Theorem newell_insert_on_edge (l1 l2 : list V) (a b : V) (s : R) :
  newell (l1 ++ a :: vadd a (vscale (vsub b a) s) :: b :: l2) = newell (l1 ++ a :: b :: l2).
Proof. rewrite !newell_csum. apply (Cyclic.csum_insert V3_ring vcross vcross_anticomm vcross_self). apply xchain_on_edge. Qed.
(** ... also on the closing edge (between the last and the first vertex) *)
Theorem newell_insert_on_closing_edge (v : V) (l : list V) (s : R) :
  let a := last (v :: l) vzero in
  newell ((v :: l) ++ [vadd a (vscale (vsub v a) s)]) = newell (v :: l).
Proof.
  cbn zeta. destruct (exists_last (l := v :: l)) as [l' [a E]]; [discriminate|]. rewrite E. rewrite last_last.
  rewrite <- app_assoc. cbn [app].
  (* v is the head of l' ++ [a] *)
  assert (Hv : hd vzero (l' ++ [a]) = v) by (rewrite <- E; reflexivity).
  rewrite (newell_rot l' [a; _]), (newell_rot l' [a]). cbn [app].
  destruct l' as [|w l']; cbn [app hd] in Hv; subst.
  - (* single vertex: a = v *) unfold newell, cyc. cbn [app chain]. vring.
  - unfold newell, cyc. fold xchain. cbn [app]. unfold xchain. rewrite !chain_cons2. fold xchain.
    rewrite <- vadd_assoc. f_equal. apply xchain_on_edge.
Qed.

(** removing the ear (v0, v1, v2): the Newell vector changes by the ear's own (v1 - v0) x (v2 - v0) *)
Theorem newell_ear (v0 v1 v2 : V) (l : list V) :
  newell (v0 :: v1 :: v2 :: l) = vadd (newell (v0 :: v2 :: l)) (vcross (vsub v1 v0) (vsub v2 v0)).
Proof. rewrite !newell_csum, (Cyclic.csum_ear V3_ring vcross vcross_anticomm), Cyclic.tri_unfold. f_equal. vring. Qed.

(** for a planar outline (every vertex in the plane through v0 with normal n) the Newell vector is
    parallel to n; with |n| = 1 the quantity |n . S| / 2 is therefore |S| / 2, the polygon's area *)
Lemma cross_in_plane_parallel (n a b : V) : vdot n a = 0 -> vdot n b = 0 -> vcross n (vcross a b) = vzero.
Proof. intros Ha Hb. rewrite vcross_vcross, Ha, Hb. vring. Qed.
Lemma xchain_in_plane (n : V) (l : list V) :
  (forall v, In v l -> vdot n v = 0) -> vcross n (xchain l) = vzero.
Proof.
  induction l as [|a l IH]; intros H; [unfold xchain; cbn [chain]; vring|].
  destruct l as [|b l]; [unfold xchain; cbn [chain]; vring|].
  unfold xchain in *. rewrite chain_cons2.
  assert (Hab : vcross n (vcross a b) = vzero) by (apply cross_in_plane_parallel; apply H; [left | right; left]; reflexivity).
  assert (IH' := IH (fun v Hv => H v (or_intror Hv))).
  revert IH'. generalize (chain vadd vzero vcross (b :: l)); intros c IH'.
  transitivity (vadd (vcross n (vcross a b)) (vcross n c)); [vring|]. rewrite Hab, IH'. vring.
Qed.
Theorem newell_parallel_normal (n : V) (l : list V) (v0 : V) :
  hd vzero l = v0 -> (forall v, In v l -> vdot n (vsub v v0) = 0) -> vcross n (newell l) = vzero.
Proof.
  intros Hh Hp. destruct l as [|w l]; [unfold newell, cyc; vring|]. cbn [hd] in Hh. subst w.
  rewrite <- (newell_translate (vneg v0)). unfold newell, cyc. cbn [map]. fold xchain. apply xchain_in_plane.
  intros v Hv. change (vadd (vneg v0) v0 :: map (vadd (vneg v0)) l) with (map (vadd (vneg v0)) (v0 :: l)) in Hv.
  assert (Hz : vdot n (vsub v0 v0) = 0) by (apply Hp; left; reflexivity).
  apply in_app_or in Hv. destruct Hv as [Hv|[Hv|[]]].
  - apply in_map_iff in Hv. destruct Hv as [u [Eu Hu]]. subst v.
    replace (vadd (vneg v0) u) with (vsub u v0) by vring. apply Hp. exact Hu.
  - subst v. replace (vadd (vneg v0) v0) with (vsub v0 v0) by vring. exact Hz.
Qed.
Lemma parallel_dot (n S : V) : vcross n S = vzero -> (vdot n S * vdot n S = vdot n n * vdot S S)%R.
Proof. intros E. pose proof (lagrange n S) as L. rewrite E in L. revert L. vcbn. lra. Qed.
Lemma parallel_unit_dot (n S : V) : vdot n n = 1 -> vcross n S = vzero -> (vdot n S * vdot n S = vdot S S)%R.
Proof. intros Hn E. rewrite (parallel_dot n S E), Hn. ring. Qed.

(** ** sum of the edge lengths *)
Definition elen (a b : V) : R := vlen (vsub a b).
Definition lchain : list V -> R := chain Rplus 0 elen.
Definition perimeter_of : list V -> R := cyc Rplus 0 elen.
Lemma elen_sym (a b : V) : elen a b = elen b a.
Proof. unfold elen, vlen. f_equal. vring. Qed.
Lemma sum_len_acc_loop (vs : list V) (first : V) (acc : R) : sum_len vs first acc = acc_loop Rplus elen vs first acc.
Proof. revert acc. induction vs as [|v tl IH]; intros acc; [reflexivity|]. cbn [sum_len acc_loop]. rewrite IH. reflexivity. Qed.
Theorem sum_len_perimeter (vs : list V) : sum_len vs (vnth vs O) 0 = perimeter_of vs.
Proof.
  rewrite sum_len_acc_loop. unfold perimeter_of. rewrite (acc_loop_cyc Rplus 0 elen); [apply Rplus_0_l | rmon ..].
Qed.
Theorem perimeter_rot (l1 l2 : list V) : perimeter_of (l1 ++ l2) = perimeter_of (l2 ++ l1).
Proof. unfold perimeter_of. rewrite !cyc_csum. apply (Cyclic.csum_rot_app RTheory). Qed.
Lemma lchain_app l1 x l2 : lchain (l1 ++ x :: l2) = (lchain (l1 ++ [x]) + lchain (x :: l2))%R.
Proof. apply chain_app; rmon. Qed.
Lemma lchain_rev (l : list V) : lchain (rev l) = lchain l.
Proof.
  induction l as [|a l IH]; [reflexivity|].
  destruct l as [|b l]; [reflexivity|].
  cbn [rev] in *. rewrite <- app_assoc. cbn [app]. change (rev l ++ [b; a]) with (rev l ++ b :: [a]). rewrite lchain_app. rewrite IH.
  unfold lchain. rewrite chain_cons2. cbn [chain]. rewrite (elen_sym b a). lra.
Qed.
Theorem perimeter_rev (l : list V) : perimeter_of (rev l) = perimeter_of l.
Proof.
  destruct l as [|v l]; [reflexivity|].
  cbn [rev]. rewrite (perimeter_rot (rev l) [v]). cbn [app]. unfold perimeter_of, cyc. fold lchain.
  replace ((v :: rev l) ++ [v]) with (rev ((v :: l) ++ [v])) by (rewrite rev_app_distr; cbn [rev app]; reflexivity).
  apply lchain_rev.
Qed.

(** ** vertex sums (centroid) *)
Definition vsum (l : list V) : V := fold_right vadd vzero l.
Lemma vsum_app (l1 l2 : list V) : vsum (l1 ++ l2) = vadd (vsum l1) (vsum l2).
Proof. induction l1 as [|a l1 IH]; cbn [app vsum fold_right]; [symmetry; apply vadd_zero_l|]. fold (vsum (l1 ++ l2)). fold (vsum l1). rewrite IH. symmetry. apply vadd_assoc. Qed.
Theorem vsum_rot (l1 l2 : list V) : vsum (l1 ++ l2) = vsum (l2 ++ l1).
Proof. rewrite !vsum_app. apply vadd_comm. Qed.
Theorem vsum_rev (l : list V) : vsum (rev l) = vsum l.
Proof. induction l as [|a l IH]; [reflexivity|]. cbn [rev]. rewrite vsum_app. rewrite IH. cbn [vsum fold_right]. fold (vsum l). rewrite vadd_zero_r. apply vadd_comm. Qed.

(** ** maps that respect sums and cross products (rotations) carry the Newell vector along *)
Theorem newell_map (f : V -> V) :
  (forall a b, f (vadd a b) = vadd (f a) (f b)) -> f vzero = vzero -> (forall a b, f (vcross a b) = vcross (f a) (f b)) ->
  forall l, newell (map f l) = f (newell l).
Proof.
  intros Hadd Hz Hx l. rewrite !newell_csum, Cyclic.csum_map, <- (@Cyclic.csum_hom _ _ _ vzero vadd vzero vadd f Hz Hadd).
  apply Cyclic.csum_ext. intros a b. symmetry. apply Hx.
Qed.
(** a rigid motion  p |-> f p + t  with such an f: S is rotated, not otherwise changed *)
Theorem newell_rigid (f : V -> V) (t : V) :
  (forall a b, f (vadd a b) = vadd (f a) (f b)) -> f vzero = vzero -> (forall a b, f (vcross a b) = vcross (f a) (f b)) ->
  forall l, newell (map (fun p => vadd t (f p)) l) = f (newell l).
Proof.
  intros Hadd Hz Hx l. rewrite <- (newell_map f Hadd Hz Hx). rewrite <- (newell_translate t (map f l)). rewrite map_map. reflexivity.
Qed.
(** example of such a map: the quarter turn about the z axis *)
Definition quarter_turn_z (p : V) : V := mkV3 (- vy p) (vx p) (vz p).
Lemma quarter_turn_z_ok :
  (forall a b, quarter_turn_z (vadd a b) = vadd (quarter_turn_z a) (quarter_turn_z b)) /\ quarter_turn_z vzero = vzero /\
  (forall a b, quarter_turn_z (vcross a b) = vcross (quarter_turn_z a) (quarter_turn_z b)) /\
  (forall a b, vdot (quarter_turn_z a) (quarter_turn_z b) = vdot a b).
Proof.
  unfold quarter_turn_z. repeat split; intros; vring.
Qed.

(** ** closed outlines as edge lists; counting edges with a property *)
Section Edges.
  Context {A : Type}.
  Fixpoint edges_from (vs : list A) (first : A) : list (A * A) :=
    match vs with
    | [] => []
    | a :: tl => (a, match tl with [] => first | w :: _ => w end) :: edges_from tl first
    end.
  Definition countb (f : A -> A -> bool) (es : list (A * A)) : nat := length (filter (fun e => f (fst e) (snd e)) es).
  (** parity of that count, as an exclusive or *)
  Definition xpar (f : A -> A -> bool) (es : list (A * A)) : bool := fold_right (fun e acc => xorb (f (fst e) (snd e)) acc) false es.
  Lemma odd_countb (f : A -> A -> bool) (es : list (A * A)) : Nat.odd (countb f es) = xpar f es.
  Proof.
    induction es as [|e es IH]; [reflexivity|]. unfold countb in *. cbn [filter xpar fold_right]. fold (xpar f es).
    destruct (f (fst e) (snd e)); cbn [length]; [rewrite Nat.odd_succ, <- Nat.negb_odd, IH; reflexivity | rewrite IH; destruct (xpar f es); reflexivity].
  Qed.
  Lemma countb_ext (f g : A -> A -> bool) (es : list (A * A)) :
    (forall a b, In (a, b) es -> f a b = g a b) -> countb f es = countb g es.
  Proof.
    induction es as [|[a b] es IH]; intros H; [reflexivity|]. unfold countb in *. cbn [filter fst snd].
    rewrite (H a b (or_introl eq_refl)). destruct (g a b); cbn [length]; [f_equal|]; apply IH; intros; apply H; right; assumption.
  Qed.
  Lemma xpar_ext (f g : A -> A -> bool) (es : list (A * A)) :
    (forall a b, In (a, b) es -> f a b = g a b) -> xpar f es = xpar g es.
  Proof.
    induction es as [|[a b] es IH]; intros H; [reflexivity|]. cbn [xpar fold_right fst snd].
    rewrite (H a b (or_introl eq_refl)). f_equal. apply IH. intros; apply H; right; assumption.
  Qed.
  Lemma edges_from_is_edges_to (l : list A) (z : A) : edges_from l z = Cyclic.edges_to z l.
  Proof. induction l as [|a l IH]; [reflexivity|]. cbn [edges_from Cyclic.edges_to]. rewrite IH. destruct l; reflexivity. Qed.
  Lemma in_edges_from (vs : list A) (first a b : A) : In (a, b) (edges_from vs first) -> In a vs /\ (In b vs \/ b = first).
  Proof. rewrite edges_from_is_edges_to. apply Cyclic.edges_to_In. Qed.
  Lemma in_edges_from_src (vs : list A) (first a : A) : In a vs -> exists b, In (a, b) (edges_from vs first).
  Proof. intros H. destruct (Cyclic.edges_to_In_src first vs a H) as [b Hb]. exists b. rewrite edges_from_is_edges_to. exact Hb. Qed.
End Edges.
Lemma edges_from_map {A B : Type} (g : A -> B) (vs : list A) (first : A) :
  edges_from (map g vs) (g first) = map (fun e => (g (fst e), g (snd e))) (edges_from vs first).
Proof. rewrite !edges_from_is_edges_to. apply Cyclic.edges_to_map. Qed.
Lemma xpar_map {A B : Type} (g : A -> B) (f : B -> B -> bool) (es : list (A * A)) :
  xpar f (map (fun e => (g (fst e), g (snd e))) es) = xpar (fun a b => f (g a) (g b)) es.
Proof. induction es as [|e es IH]; [reflexivity|]. unfold xpar in *. cbn [map fold_right fst snd]. rewrite IH. reflexivity. Qed.

(** ** planar crossing parity (device D2, parity form) *)
Definition P2 := (R * R)%type.
Definition det2 (u v : P2) : R := (fst u * snd v - snd u * fst v)%R.
Definition sub2 (a b : P2) : P2 := ((fst a - fst b)%R, (snd a - snd b)%R).
(** side of p w.r.t. the line through q with direction d; side of p w.r.t. the line through a and b *)
Definition hgt2 (q d p : P2) : R := det2 d (sub2 p q).
Definition orient2 (a b p : P2) : R := det2 (sub2 b a) (sub2 p a).
(** the RAY from q in direction d properly crosses the edge (a,b) *)
Definition ray_cross2 (q d a b : P2) : bool :=
  Rltb (hgt2 q d a * hgt2 q d b) 0 && Rleb (orient2 a b q * det2 (sub2 b a) d) 0.
(** q strictly inside the triangle (o,a,b), either orientation *)
Definition in_tri2 (q o a b : P2) : bool :=
  (Rltb 0 (orient2 o a q) && Rltb 0 (orient2 a b q) && Rltb 0 (orient2 b o q)) ||
  (Rltb (orient2 o a q) 0 && Rltb (orient2 a b q) 0 && Rltb (orient2 b o q) 0).

Definition sgb (x : R) : bool := Rltb 0 x.
Lemma sgb_neg (x : R) : x <> 0 -> Rltb x 0 = negb (sgb x).
Proof. intros H. unfold sgb. rcase 0 x E; [apply Rltb_ge | apply Rltb_lt]; lra. Qed.
(** the RAY from q in direction d crosses the edge (a,b) in the half-open sense: one end point strictly to the left of the
    directed line (hgt2 > 0), the other one on it or to its right, and the edge's line meets the ray (not its backward
    prolongation) *)
Definition half2 (q d a b : P2) : bool :=
  xorb (sgb (hgt2 q d a)) (sgb (hgt2 q d b)) && Rleb (orient2 a b q * det2 (sub2 b a) d) 0.

Lemma half2_sym (q d a b : P2) : half2 q d a b = half2 q d b a.
Proof.
  unfold half2. rewrite (xorb_comm (sgb (hgt2 q d a))). f_equal.
  replace (orient2 b a q * det2 (sub2 a b) d)%R with (orient2 a b q * det2 (sub2 b a) d)%R; [reflexivity|].
  destruct q as [q1 q2], d as [d1 d2], a as [a1 a2], b as [b1 b2]. unfold orient2, det2, sub2. cbn [fst snd]. ring.
Qed.

Lemma half2_generic (q d a b : P2) :
  hgt2 q d a <> 0 -> hgt2 q d b <> 0 -> half2 q d a b = ray_cross2 q d a b.
Proof.
  intros Ha Hb. unfold half2, ray_cross2. f_equal. unfold sgb.
  rcase 0 (hgt2 q d a) Ea; rcase 0 (hgt2 q d b) Eb; cbn [xorb]; symmetry;
  first [apply Rltb_true; nra | apply Rltb_false; nra].
Qed.

(** sign bits of the half-open rule: x, y (the two heights) may vanish, A (the orientation of q w.r.t. the edge) may not *)
Lemma half_bits (x y A : R) : A <> 0 ->
  xorb (sgb x) (sgb y) && Rleb (A * (x - y)) 0 = xorb (sgb x) (sgb y) && xorb (sgb A) (sgb x).
Proof.
  intros HA. unfold sgb.
  rcase 0 x Ex; rcase 0 y Ey; rcase 0 A Ea; cbn [xorb andb]; try reflexivity.
  all: first [apply Rleb_true; nra | apply Rleb_false; nra].
Qed.

Lemma sign_feasible_half (x1 y1 x2 y2 x3 y3 : R) :
  x1 <> 0 -> y1 <> 0 -> y2 <> 0 -> y3 <> 0 -> (x1 * y1 + x2 * y2 + x3 * y3 = 0)%R ->
  ~ (xorb (sgb x1) (sgb y1) = xorb (sgb x2) (sgb y2) /\ xorb (sgb x2) (sgb y2) = xorb (sgb x3) (sgb y3)).
Proof.
  intros H1 H1' H2' H3' E [E1 E2].
  assert (P : forall x y, y <> 0 -> (xorb (sgb x) (sgb y) = false -> 0 <= x * y) /\ (xorb (sgb x) (sgb y) = true -> x * y <= 0)).
  { intros x y Hy. unfold sgb.
    rcase 0 x Ex; rcase 0 y Ey; cbn [xorb]; split; intros K; try discriminate; nra. }
  destruct (P x1 y1 H1') as [Pa Pb]. destruct (P x2 y2 H2') as [Qa Qb]. destruct (P x3 y3 H3') as [Ra Rb].
  assert (N1 : (x1 * y1 <> 0)%R) by (intros K; apply Rmult_integral in K; tauto).
  destruct (xorb (sgb x1) (sgb y1)); rewrite <- E1 in E2; rewrite <- E1 in *; rewrite <- E2 in *.
  - pose proof (Pb eq_refl). pose proof (Qb eq_refl). pose proof (Rb eq_refl). lra.
  - pose proof (Pa eq_refl). pose proof (Qa eq_refl). pose proof (Ra eq_refl). lra.
Qed.

(** the triangle lemma for the half-open rule: for ANY ray from q whose line avoids the apex o, and q on none of the three
    edge lines, the ray crosses the boundary of the triangle (o,a,b) an odd number of times (half-open count) iff q is
    strictly inside -- the vertices a, b may lie on the ray *)
Theorem half2_tri_parity (q d o a b : P2) :
  hgt2 q d o <> 0 ->
  orient2 o a q <> 0 -> orient2 a b q <> 0 -> orient2 b o q <> 0 ->
  xorb (xorb (half2 q d o a) (half2 q d a b)) (half2 q d b o) = in_tri2 q o a b.
Proof.
  intros Ho A1 A2 A3. unfold half2, in_tri2.
  set (ho := hgt2 q d o) in *. set (ha := hgt2 q d a) in *. set (hb := hgt2 q d b) in *.
  set (a1 := orient2 o a q) in *. set (a2 := orient2 a b q) in *. set (a3 := orient2 b o q) in *.
  assert (D1 : det2 (sub2 a o) d = (ho - ha)%R) by (unfold ho, ha, hgt2, det2, sub2; destruct q, d, o, a; cbn [fst snd]; ring).
  assert (D2 : det2 (sub2 b a) d = (ha - hb)%R) by (unfold ha, hb, hgt2, det2, sub2; destruct q, d, a, b; cbn [fst snd]; ring).
  assert (D3 : det2 (sub2 o b) d = (hb - ho)%R) by (unfold ho, hb, hgt2, det2, sub2; destruct q, d, o, b; cbn [fst snd]; ring).
  assert (PL : (ho * a2 + ha * a3 + hb * a1 = 0)%R).
  { unfold ho, ha, hb, a1, a2, a3, hgt2, orient2, det2, sub2. destruct q, d, o, a, b. cbn [fst snd]. ring. }
  rewrite D1, D2, D3. rewrite (half_bits ho ha a1), (half_bits ha hb a2), (half_bits hb ho a3) by assumption.
  rewrite !sgb_neg by assumption. fold (sgb a1) (sgb a2) (sgb a3).
  pose proof (sign_feasible_half ho a2 ha a3 hb a1 Ho A2 A3 A1 PL) as F.
  revert F. generalize (sgb ho) (sgb ha) (sgb hb) (sgb a1) (sgb a2) (sgb a3). intros [] [] [] [] [] []; cbn; intros F; try reflexivity; exfalso; apply F; split; reflexivity.
Qed.

Definition cyc_edges2 (vs : list P2) : list (P2 * P2) := edges_from vs (hd (0, 0) vs).

(** fan decomposition for any symmetric edge predicate: the spokes from the apex are used twice *)
Section Fan.
  Variable f : P2 -> P2 -> bool.
  Hypothesis f_sym : forall a b, f a b = f b a.
  Definition tri_f (o a b : P2) : bool := xorb (xorb (f o a) (f a b)) (f b o).
  Lemma fan_chain_f (o : P2) (vs : list P2) (first : P2) :
    vs <> [] ->
    xpar (tri_f o) (edges_from vs first) = xorb (xpar f (edges_from vs first)) (xorb (f o (hd first vs)) (f o first)).
  Proof.
    induction vs as [|a tl IH]; [congruence|]. intros _. destruct tl as [|w tl].
    - cbn [edges_from xpar fold_right fst snd hd]. unfold tri_f. rewrite (f_sym first o).
      destruct (f o a), (f a first), (f o first); reflexivity.
    - change (edges_from (a :: w :: tl) first) with ((a, w) :: edges_from (w :: tl) first).
      cbn [xpar fold_right fst snd hd]. fold (xpar (tri_f o) (edges_from (w :: tl) first)). fold (xpar f (edges_from (w :: tl) first)).
      rewrite IH by discriminate. cbn [hd]. unfold tri_f. rewrite (f_sym w o).
      destruct (f o a), (f a w), (f o w), (f o first), (xpar f (edges_from (w :: tl) first)); reflexivity.
  Qed.
  Lemma fan_cycle_f (o : P2) (vs : list P2) : xpar (tri_f o) (cyc_edges2 vs) = xpar f (cyc_edges2 vs).
  Proof.
    destruct vs as [|v tl]; [reflexivity|]. unfold cyc_edges2. rewrite fan_chain_f by discriminate. cbn [hd].
    destruct (f o v), (xpar f (edges_from (v :: tl) v)); reflexivity.
  Qed.
End Fan.

Lemma in_cyc_edges2 (vs : list P2) (a b : P2) : In (a, b) (cyc_edges2 vs) -> In a vs /\ In b vs.
Proof.
  unfold cyc_edges2. intros Hin. destruct (in_edges_from _ _ _ _ Hin) as [I1 I2]. split; [exact I1|].
  destruct I2 as [I2|I2]; [exact I2|]. subst b. destruct vs as [|v tl]; [destruct I1 | left; reflexivity].
Qed.
Lemma orient2_swap (a b p : P2) : orient2 b a p = (- orient2 a b p)%R.
Proof. unfold orient2, det2, sub2. destruct a, b, p. cbn [fst snd]. ring. Qed.

(** the half-open crossing parity of ANY ray from q whose line avoids the apex o = the parity of the number of fan
    triangles (any apex in general position) that contain q -- a quantity in which the direction d does not occur *)
Theorem half2_parity_fan (q d o : P2) (vs : list P2) :
  hgt2 q d o <> 0 ->
  (forall v, In v vs -> orient2 o v q <> 0) ->
  (forall a b, In (a, b) (cyc_edges2 vs) -> orient2 a b q <> 0) ->
  xpar (half2 q d) (cyc_edges2 vs) = xpar (in_tri2 q o) (cyc_edges2 vs).
Proof.
  intros Ho Hv He. rewrite <- (fan_cycle_f (half2 q d) (half2_sym q d) o). apply xpar_ext. intros a b Hin.
  destruct (in_cyc_edges2 _ _ _ Hin) as [Ia Ib].
  apply half2_tri_parity; [exact Ho | apply Hv; exact Ia | apply He; exact Hin|].
  intros E. apply (Hv b Ib). rewrite orient2_swap, E. ring.
Qed.
Theorem ray_parity_fan (q d o : P2) (vs : list P2) :
  hgt2 q d o <> 0 ->
  (forall v, In v vs -> hgt2 q d v <> 0 /\ orient2 o v q <> 0) ->
  (forall a b, In (a, b) (cyc_edges2 vs) -> orient2 a b q <> 0) ->
  xpar (ray_cross2 q d) (cyc_edges2 vs) = xpar (in_tri2 q o) (cyc_edges2 vs).
Proof.
  intros Ho Hv He. rewrite <- (half2_parity_fan q d o vs Ho (fun v Iv => proj2 (Hv v Iv)) He). apply xpar_ext. intros a b Hin.
  destruct (in_cyc_edges2 _ _ _ Hin) as [Ia Ib]. symmetry. apply half2_generic; [apply (Hv a Ia) | apply (Hv b Ib)].
Qed.
Corollary ray_parity_direction_independent (q d d' o : P2) (vs : list P2) :
  hgt2 q d o <> 0 -> hgt2 q d' o <> 0 ->
  (forall v, In v vs -> hgt2 q d v <> 0 /\ hgt2 q d' v <> 0 /\ orient2 o v q <> 0) ->
  (forall a b, In (a, b) (cyc_edges2 vs) -> orient2 a b q <> 0) ->
  xpar (ray_cross2 q d) (cyc_edges2 vs) = xpar (ray_cross2 q d') (cyc_edges2 vs).
Proof.
  intros Ho Ho' Hv He. rewrite (ray_parity_fan q d o), (ray_parity_fan q d' o); try assumption; [reflexivity| |];
    intros v Iv; destruct (Hv v Iv) as [H1 [H2 H3]]; split; assumption.
Qed.
