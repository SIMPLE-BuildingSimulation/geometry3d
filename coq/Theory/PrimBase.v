(** * PrimBase: small facts about Flocq's formats and its view of primitive floats, used by Run/FastNum32Proof.v,
    Theory/PrimBridge.v and Theory/F32Bridge.v alike. *)
From Coq Require Import ZArith Reals Lia Floats.
From Flocq Require Import Core BinarySingleNaN.
Require Flocq.IEEE754.PrimFloat.

Notation f32exp := (FLT_exp (-149) 24).
Notation f64exp := (FLT_exp (-1074) 53).

(** the exponent functions, the overflow threshold and the rounding mode in the [*_correct] theorems of
    BinarySingleNaN, as the generic formats the rounding lemmas of Flocq speak of *)
Ltac norm3264 :=
  change (SpecFloat.fexp 53 1024) with f64exp in *; change (SpecFloat.fexp 24 128) with f32exp in *;
  change (SpecFloat.fexp FloatOps.prec FloatOps.emax) with f64exp in *;
  change (bpow radix2 FloatOps.emax) with (bpow radix2 1024) in *;
  change (round_mode mode_NE) with ZnearestE in *.

Lemma F2R_exp0 (z : Z) : F2R (Float radix2 z 0) = IZR z.
Proof. unfold F2R. cbn [Fnum Fexp bpow]. apply Rmult_1_r. Qed.

(** the sign bit that [binary_normalize_correct] reports for an integer *)
Lemma Rcompare_IZR_sign (z : Z) : match Rcompare (IZR z) 0 with Lt => true | _ => false end = Z.ltb z 0.
Proof.
  destruct (Rcompare_spec (IZR z) 0) as [L|L|L]; symmetry.
  - apply Z.ltb_lt, lt_IZR, L.
  - apply eq_IZR in L. subst z. reflexivity.
  - apply Z.ltb_ge, Z.lt_le_incl, lt_IZR, L.
Qed.

Lemma Prim2B_zero : Flocq.IEEE754.PrimFloat.Prim2B 0%float = B754_zero false.
Proof. change 0%float with zero. rewrite Flocq.IEEE754.PrimFloat.zero_equiv. apply Flocq.IEEE754.PrimFloat.Prim2B_B2Prim. Qed.
