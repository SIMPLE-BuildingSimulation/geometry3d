(** * F32Bridge: the executed binary32 instance [NumF32] IS IEEE binary32 ([NumB32]), operation by operation.

    [NumF32] (Model/NumF32.v) computes on primitive binary64 floats that hold binary32 values: every arithmetic
    operation is the binary64 operation followed by [r32] (rounding to binary32).  Double rounding through binary64 is
    innocuous for + - * / sqrt (53 >= 2*24+2): proved here, special values included
    (NaN, infinities, signed zeros, overflow to infinity, binary32 subnormals, division by zero, sqrt of negatives):

      [to_b32 (x + y) = Bplus mode_NE (to_b32 x) (to_b32 y)]   for binary32-valued x y    (likewise - * / sqrt)

    through Flocq's [Prop/Double_rounding.v] ([round_round_{plus,minus,mult,div,sqrt}_FLT] at (24,-149) inside
    (53,-1074)), the [*_correct] theorems of [BinarySingleNaN] on both formats and Flocq's view of primitive floats.

    - [up : b32 -> b64] (the embedding [P2B o of_b32]) and [dn : b64 -> b32] (the rounding [B32ofSF o B2SF]);
      [dn_up : dn (up a) = a]; shape of [up] on every constructor; [dn_finish]: the common last step
      (a binary64 result that is the binary64 rounding of a real z whose double rounding is innocuous goes down to
      the binary32 result of z, overflow included).
    - [mul_core add_core sub_core div_core sqrt_core : dn (op64 (up a) (up b)) = op32 a b] for ALL a b.
    - [of_b32_hom : NumHom NumB32 NumF32 of_b32] -- a TOTAL homomorphism (every binary32 number, no side condition), so
      every generic lifting lemma of Proofs/Bridge_model.v / Bridge_interval.v applies with [h := of_b32]:
      running a model function on [NumF32] on embedded binary32 inputs = embedding of the Flocq binary32 run.
    - [is32 x := r32 x = x]; [is32_iff : is32 x <-> exists b, x = of_b32 b]; closure of every [NumF32] operation;
      the reading-direction theorems [to_b32_nadd ... to_b32_nsqrt], comparisons, [nofZ], constants.

    Axioms: primitive float / integer specification axioms (through Flocq.IEEE754.PrimFloat), classical reals. *)
From Coq Require Import ZArith Reals Lia Lra Psatz Bool Floats Uint63 Eqdep_dec.
From Flocq Require Import Core BinarySingleNaN Double_rounding.
Require Flocq.IEEE754.PrimFloat.
From G3 Require Import Model.Num Model.NumF Model.NumF32 Run.FastNum32 Run.FastNum32Proof Theory.PrimBase Theory.PrimBridge.
Module FP := Flocq.IEEE754.PrimFloat.
Open Scope R_scope.

Notation prim := Coq.Floats.PrimFloat.float (only parsing).
Notation B64 := (binary_float 53 1024).
Notation B32 := (binary_float 24 128).
Notation rnd32 := (round radix2 f32exp ZnearestE).
Notation rnd64 := (round radix2 f64exp ZnearestE).
#[local] Instance prec_gt_0_24' : Prec_gt_0 24. Proof. reflexivity. Qed.
#[local] Instance prec_gt_0_53' : Prec_gt_0 53. Proof. reflexivity. Qed.

Definition up (a : B32) : B64 := FP.Prim2B (of_b32 a).
Definition dn (c : B64) : B32 := B32ofSF (B2SF c).

Lemma to_b32_dn (x : prim) : to_b32 x = dn (FP.Prim2B x).
Proof. unfold to_b32, dn. rewrite FP.B2SF_Prim2B. reflexivity. Qed.

Lemma dn_zero s : dn (B754_zero s) = B754_zero s. Proof. reflexivity. Qed.
Lemma dn_inf s : dn (B754_infinity s) = B754_infinity s. Proof. reflexivity. Qed.
Lemma dn_nan : dn B754_nan = B754_nan. Proof. reflexivity. Qed.

Lemma B2SF_inf_inv (prec emax : Z) (d : binary_float prec emax) s : B2SF d = S754_infinity s -> d = B754_infinity s.
Proof. destruct d; try discriminate. intros E; injection E as ->. reflexivity. Qed.

Lemma dn_finite (c : B64) : is_finite c = true ->
  (Rabs (B2R c) < T32 -> is_finite (dn c) = true /\ B2R (dn c) = rnd32 (B2R c) /\ Bsign (dn c) = Bsign c) /\
  (T32 <= Rabs (B2R c) -> dn c = B754_infinity (Bsign c)).
Proof.
  destruct c as [s|s| |s m e Hb]; try discriminate; intros _.
  - split.
    + intros _. cbn [B2R]. rewrite round_0 by typeclasses eauto. repeat split.
    + cbn [B2R]. rewrite Rabs_R0. intros H. exfalso. generalize T32_bounds (bpow_gt_0 radix2 127). lra.
  - destruct (ref_side s m e Hb) as [H1 H2]. split.
    + intros H. exact (H1 H).
    + intros H. apply B2SF_inf_inv. exact (H2 H).
Qed.

Lemma up_zero s : up (B754_zero s) = B754_zero s.
Proof.
  unfold up, of_b32. destruct s; cbn [B2SF SF2Prim].
  - rewrite FP.neg_zero_equiv. apply FP.Prim2B_B2Prim.
  - rewrite FP.zero_equiv. apply FP.Prim2B_B2Prim.
Qed.
Lemma up_inf s : up (B754_infinity s) = B754_infinity s.
Proof.
  unfold up, of_b32. destruct s; cbn [B2SF SF2Prim].
  - rewrite FP.neg_infinity_equiv. apply FP.Prim2B_B2Prim.
  - rewrite FP.infinity_equiv. apply FP.Prim2B_B2Prim.
Qed.
Lemma up_nan : up B754_nan = B754_nan.
Proof. unfold up, of_b32. cbn [B2SF SF2Prim]. rewrite FP.nan_equiv. apply FP.Prim2B_B2Prim. Qed.

Lemma up_fin (a : B32) : is_finite a = true ->
  is_finite (up a) = true /\ B2R (up a) = B2R a /\ Bsign (up a) = Bsign a.
Proof. intros Fa. exact (Prim2B_SF2Prim_b32 a Fa). Qed.

Lemma up_finite s m e H : exists m' e' H',
  up (B754_finite s m e H) = B754_finite s m' e' H' /\
  B2R (B754_finite s m' e' H' : B64) = B2R (B754_finite s m e H : B32).
Proof.
  destruct (up_fin (B754_finite s m e H) eq_refl) as (F & R & S).
  destruct (up (B754_finite s m e H)) as [s'|s'| |s' m' e' H'] eqn:E; try discriminate.
  - exfalso. cbn [B2R] in R. symmetry in R. revert R. apply F2R_sign_neq0.
  - cbn [Bsign] in S. subst s'. exists m', e', H'. split; [reflexivity|exact R].
Qed.

Lemma f32_in_f64' x : generic_format radix2 f32exp x -> generic_format radix2 f64exp x.
Proof. exact (f32_in_f64 x). Qed.

Lemma B2R_lt_T32 (a : B32) : is_finite a = true -> Rabs (B2R a) < T32.
Proof.
  intros Fa.
  destruct a as [s|s| |s m e Hb]; try discriminate.
  - cbn [B2R]. rewrite Rabs_R0. generalize T32_bounds (bpow_gt_0 radix2 127). lra.
  - (* |a| <= 2^128 - 2^104 < T32 *)
    destruct (bounded32 m e Hb) as (Hm & He1 & He2).
    cbn [B2R]. rewrite <- F2R_Zabs. rewrite abs_cond_Zopp. cbn [Z.abs].
    unfold F2R; cbn [Fnum Fexp].
    apply Rle_lt_trans with (IZR (2 ^ 24 - 1) * bpow radix2 104).
    + apply Rmult_le_compat; [apply IZR_le; lia|apply bpow_ge_0|apply IZR_le; lia|apply bpow_le; lia].
    + unfold T32. rewrite minus_IZR. change (IZR (2 ^ 24)) with (bpow radix2 24).
      rewrite Rmult_minus_distr_r, <- bpow_plus. change (24 + 104)%Z with 128%Z.
      assert (bpow radix2 103 < bpow radix2 104) by (apply bpow_lt; lia). simpl (IZR 1). lra.
Qed.

Lemma dn_up (a : B32) : dn (up a) = a.
Proof.
  destruct a as [s|s| |s m e Hb] eqn:Ea.
  - rewrite up_zero. reflexivity.
  - rewrite up_inf. reflexivity.
  - rewrite up_nan. reflexivity.
  - rewrite <- Ea. assert (Fa : is_finite a = true) by (rewrite Ea; reflexivity).
    destruct (up_fin a Fa) as (F & R & S).
    destruct (dn_finite (up a) F) as [H1 _].
    rewrite R in H1. destruct (H1 (B2R_lt_T32 a Fa)) as (F1 & R1 & S1).
    apply B2R_Bsign_inj; try assumption.
    + rewrite R1. apply round_generic; [typeclasses eauto|]. apply (generic_format_B2R 24 128).
    + rewrite S1. exact S.
Qed.

Lemma to_b32_of_b32 (b : B32) : to_b32 (of_b32 b) = b.
Proof. rewrite to_b32_dn. apply dn_up. Qed.

Lemma binary_overflow_NE prec emax s : binary_overflow prec emax mode_NE s = S754_infinity s.
Proof. reflexivity. Qed.

Lemma rnd32_0 : rnd32 0 = 0. Proof. apply round_0. typeclasses eauto. Qed.

Lemma dn_finish (z : R) (c : B64) (d : B32) (sg : bool) :
  is_finite c = true -> B2R c = rnd64 z -> Bsign c = sg ->
  rnd32 (rnd64 z) = rnd32 z ->
  (if Rlt_bool (Rabs (rnd32 z)) (bpow radix2 128)
   then is_finite d = true /\ B2R d = rnd32 z /\ Bsign d = sg
   else B2SF d = S754_infinity sg) ->
  dn c = d.
Proof.
  intros Fc Rc Sc DR Hd.
  destruct (dn_finite c Fc) as [H1 H2].
  destruct (Rlt_or_le (Rabs (B2R c)) T32) as [Hlt|Hge].
  - destruct (H1 Hlt) as (F1 & R1 & S1).
    rewrite Rc, DR in R1.
    rewrite Rlt_bool_true in Hd.
    + destruct Hd as (Fd & Rd & Sd).
      apply B2R_Bsign_inj; try assumption; congruence.
    + rewrite <- DR, <- Rc.
      destruct (Req_dec (B2R c) 0) as [E0|N0].
      * rewrite E0, rnd32_0, Rabs_R0. apply bpow_gt_0.
      * apply round32_no_overflow; assumption.
  - rewrite (H2 Hge).
    rewrite Rlt_bool_false in Hd.
    + symmetry. rewrite Sc. apply B2SF_inf_inv. exact Hd.
    + rewrite <- DR, <- Rc. apply round32_overflow. exact Hge.
Qed.

Lemma fmt32 (a : B32) : FLT_format radix2 (-149) 24 (B2R a).
Proof. apply FLT_format_generic; [typeclasses eauto|]. apply (generic_format_B2R 24 128). Qed.

Lemma abs_lt_128 (a : B32) : Rabs (B2R a) < bpow radix2 128.
Proof. apply (abs_B2R_lt_emax 24 128). Qed.

Lemma rnd64_small (z : R) (e : Z) : (0 <= e < 1024)%Z -> Rabs z <= bpow radix2 e -> Rabs (rnd64 z) < bpow radix2 1024.
Proof.
  intros He Hz. rewrite <- round_NE_abs by typeclasses eauto.
  apply Rle_lt_trans with (bpow radix2 e).
  - apply round_le_generic; try typeclasses eauto; [|exact Hz].
    apply generic_format_bpow. unfold FLT_exp. lia.
  - apply bpow_lt. lia.
Qed.

Lemma fin_not_nan (prec emax : Z) (c : binary_float prec emax) : is_finite c = true -> is_nan c = false.
Proof. destruct c; try discriminate; reflexivity. Qed.

Lemma abs_ge_149 (a : B32) : B2R a <> 0 -> bpow radix2 (-149) <= Rabs (B2R a).
Proof.
  intros Na. destruct a as [s|s| |s m e Hb]; cbn [B2R] in *; try (exfalso; apply Na; reflexivity).
  destruct (bounded32 m e Hb) as (Hm & He1 & He2).
  rewrite <- F2R_Zabs, abs_cond_Zopp. cbn [Z.abs]. unfold F2R; cbn [Fnum Fexp].
  replace (bpow radix2 (-149)) with (1 * bpow radix2 (-149)) by ring.
  apply Rmult_le_compat; [lra|apply bpow_ge_0|apply IZR_le; lia|apply bpow_le; lia].
Qed.

Notation mul64 := (@Bmult 53 1024 FP.Hprec FP.Hmax mode_NE).
Notation mul32 := (@Bmult 24 128 Hprec24 Hmax128 mode_NE).
Notation add64 := (@Bplus 53 1024 FP.Hprec FP.Hmax mode_NE).
Notation add32 := (@Bplus 24 128 Hprec24 Hmax128 mode_NE).
Notation sub64 := (@Bminus 53 1024 FP.Hprec FP.Hmax mode_NE).
Notation sub32 := (@Bminus 24 128 Hprec24 Hmax128 mode_NE).
Notation div64 := (@Bdiv 53 1024 FP.Hprec FP.Hmax mode_NE).
Notation div32 := (@Bdiv 24 128 Hprec24 Hmax128 mode_NE).
Notation sqrt64 := (@Bsqrt 53 1024 FP.Hprec FP.Hmax mode_NE).
Notation sqrt32 := (@Bsqrt 24 128 Hprec24 Hmax128 mode_NE).

Ltac up_shape :=
  repeat match goal with
  | |- context [up (B754_zero ?s)] => rewrite (up_zero s)
  | |- context [up (B754_infinity ?s)] => rewrite (up_inf s)
  | |- context [up B754_nan] => rewrite up_nan
  | |- context [up (B754_finite ?s ?m ?e ?H)] =>
      let m' := fresh "m'" in let e' := fresh "e'" in let H' := fresh "H'" in let E := fresh "E" in
      destruct (up_finite s m e H) as (m' & e' & H' & E & _); rewrite E; clear E
  end.
(** a binary operation on [up a], [up b] with a non-finite operand (a hypothesis [is_finite _ = false] in the context):
    by computation on the shapes *)
Ltac nonfin a b := destruct a; try discriminate; destruct b; try discriminate; up_shape; try reflexivity.

Lemma up_unique (a : B32) (c : B64) : is_finite a = true -> is_finite c = true -> B2R c = B2R a -> Bsign c = Bsign a -> up a = c.
Proof.
  intros Fa Fc R S. destruct (up_fin a Fa) as (F1 & R1 & S1).
  apply B2R_Bsign_inj; [exact F1|exact Fc|rewrite R1, R; reflexivity|rewrite S1, S; reflexivity].
Qed.
Lemma up_opp (a : B32) : up (Bopp a) = Bopp (up a).
Proof.
  destruct (is_finite a) eqn:Fa; [|destruct a; try discriminate; cbn [Bopp]; up_shape; reflexivity].
  destruct (up_fin a Fa) as (F1 & R1 & S1). apply up_unique.
  - rewrite is_finite_Bopp. exact Fa.
  - rewrite is_finite_Bopp. exact F1.
  - rewrite !B2R_Bopp, R1. reflexivity.
  - rewrite !Bsign_Bopp, S1 by (apply fin_not_nan; assumption). reflexivity.
Qed.
Lemma up_abs (a : B32) : up (Babs a) = Babs (up a).
Proof.
  destruct (is_finite a) eqn:Fa; [|destruct a; try discriminate; cbn [Babs]; up_shape; reflexivity].
  destruct (up_fin a Fa) as (F1 & R1 & S1). apply up_unique.
  - rewrite is_finite_Babs. exact Fa.
  - rewrite is_finite_Babs. exact F1.
  - rewrite !B2R_Babs, R1. reflexivity.
  - rewrite !Bsign_Babs. reflexivity.
Qed.

Lemma mul_double (a b : B32) : rnd32 (rnd64 (B2R a * B2R b)) = rnd32 (B2R a * B2R b).
Proof. apply round_round_mult_FLT; try lia; try typeclasses eauto; apply fmt32. Qed.

Lemma mul_fin (a b : B32) : is_finite a = true -> is_finite b = true -> dn (mul64 (up a) (up b)) = mul32 a b.
Proof.
  intros Fa Fb.
  destruct (up_fin a Fa) as (FA & RA & SA). destruct (up_fin b Fb) as (FB & RB & SB).
  set (sg := xorb (Bsign a) (Bsign b)).
  assert (H64 : B2R (mul64 (up a) (up b)) = rnd64 (B2R a * B2R b) /\ is_finite (mul64 (up a) (up b)) = true /\
                Bsign (mul64 (up a) (up b)) = sg).
  { generalize (Bmult_correct 53 1024 FP.Hprec FP.Hmax mode_NE (up a) (up b)). norm3264. rewrite RA, RB, SA, SB, FA, FB.
    rewrite Rlt_bool_true.
    - intros (R & F & S). split; [exact R|split; [exact F|]]. apply S. apply fin_not_nan. exact F.
    - apply (rnd64_small _ 256); [lia|]. rewrite Rabs_mult. change 256%Z with (128 + 128)%Z. rewrite bpow_plus.
      apply Rmult_le_compat; try apply Rabs_pos; apply Rlt_le, abs_lt_128. }
  destruct H64 as (R64 & F64 & S64).
  apply dn_finish with (z := B2R a * B2R b) (sg := sg); try assumption.
  - apply mul_double.
  - generalize (Bmult_correct 24 128 Hprec24 Hmax128 mode_NE a b). norm3264. rewrite Fa, Fb.
    destruct (Rlt_bool _ _).
    + intros (R & F & S). split; [exact F|split; [exact R|]]. apply S. apply fin_not_nan. exact F.
    + intros H; exact H.
Qed.

Theorem mul_core (a b : B32) : dn (mul64 (up a) (up b)) = mul32 a b.
Proof.
  destruct a as [sa|sa| |sa ma ea Ha] eqn:Ea; destruct b as [sb|sb| |sb mb eb Hb] eqn:Eb; try (up_shape; reflexivity).
  rewrite <- Ea, <- Eb. apply mul_fin; subst; reflexivity.
Qed.

Lemma Bsign_le (prec emax : Z) (a : binary_float prec emax) : is_finite a = true ->
  if Bsign a then B2R a <= 0 else 0 <= B2R a.
Proof.
  destruct a as [s|s| |s m e H]; try discriminate; intros _; cbn [Bsign B2R].
  - destruct s; lra.
  - destruct s; cbn [cond_Zopp].
    + apply Rlt_le, F2R_lt_0. reflexivity.
    + apply Rlt_le, F2R_gt_0. reflexivity.
Qed.

Lemma add_double (a b : B32) : rnd32 (rnd64 (B2R a + B2R b)) = rnd32 (B2R a + B2R b).
Proof. apply round_round_plus_FLT; try lia; try typeclasses eauto; apply fmt32. Qed.
Lemma sub_double (a b : B32) : rnd32 (rnd64 (B2R a - B2R b)) = rnd32 (B2R a - B2R b).
Proof. apply round_round_minus_FLT; try lia; try typeclasses eauto; apply fmt32. Qed.

Lemma abs_add_le (a b : B32) : Rabs (B2R a + B2R b) <= bpow radix2 129.
Proof.
  apply Rle_trans with (1 := Rabs_triang _ _). change 129%Z with (128 + 1)%Z. rewrite bpow_S.
  generalize (abs_lt_128 a) (abs_lt_128 b). lra.
Qed.
Lemma rnd32_big_nonzero z : bpow radix2 128 <= Rabs (rnd32 z) -> z <> 0.
Proof.
  intros H E. rewrite E, rnd32_0, Rabs_R0 in H. generalize (bpow_gt_0 radix2 128). lra.
Qed.

Lemma add_fin (a b : B32) : is_finite a = true -> is_finite b = true -> dn (add64 (up a) (up b)) = add32 a b.
Proof.
  intros Fa Fb.
  destruct (up_fin a Fa) as (FA & RA & SA). destruct (up_fin b Fb) as (FB & RB & SB).
  set (sg := match Rcompare (B2R a + B2R b) 0 with Eq => andb (Bsign a) (Bsign b) | Lt => true | Gt => false end).
  assert (H64 : B2R (add64 (up a) (up b)) = rnd64 (B2R a + B2R b) /\ is_finite (add64 (up a) (up b)) = true /\
                Bsign (add64 (up a) (up b)) = sg).
  { generalize (Bplus_correct 53 1024 FP.Hprec FP.Hmax mode_NE (up a) (up b) FA FB). norm3264. rewrite RA, RB, SA, SB.
    rewrite Rlt_bool_true; [intros H; exact H|].
    apply (rnd64_small _ 129); [lia|]. apply abs_add_le. }
  destruct H64 as (R64 & F64 & S64).
  apply dn_finish with (z := B2R a + B2R b) (sg := sg); try assumption.
  - apply add_double.
  - generalize (Bplus_correct 24 128 Hprec24 Hmax128 mode_NE a b Fa Fb). norm3264.
    destruct (Rlt_bool_spec (Rabs (rnd32 (B2R a + B2R b))) (bpow radix2 128)) as [Hlt|Hge].
    + intros (R & F & S). split; [exact F|split; [exact R|exact S]].
    + intros (H & Es). rewrite H, binary_overflow_NE. f_equal.
      apply rnd32_big_nonzero in Hge.
      generalize (Bsign_le 24 128 a Fa) (Bsign_le 24 128 b Fb). rewrite <- Es. unfold sg.
      destruct (Bsign a); intros La Lb.
      * rewrite Rcompare_Lt; [reflexivity|lra].
      * rewrite Rcompare_Gt; [reflexivity|lra].
Qed.

Theorem add_core (a b : B32) : dn (add64 (up a) (up b)) = add32 a b.
Proof.
  destruct (is_finite a) eqn:Fa; [destruct (is_finite b) eqn:Fb; [apply add_fin; assumption|]|].
  - nonfin a b.
  - nonfin a b. cbn. destruct (Bool.eqb _ _); reflexivity.
Qed.

Lemma Bminus_plus_opp (prec emax : Z) Hp Hm (x y : binary_float prec emax) :
  @Bminus prec emax Hp Hm mode_NE x y = @Bplus prec emax Hp Hm mode_NE x (Bopp y).
Proof. destruct x, y; reflexivity. Qed.
Theorem sub_core (a b : B32) : dn (sub64 (up a) (up b)) = sub32 a b.
Proof. rewrite !Bminus_plus_opp, <- up_opp. apply add_core. Qed.

Lemma div_double (a b : B32) : B2R b <> 0 -> rnd32 (rnd64 (B2R a / B2R b)) = rnd32 (B2R a / B2R b).
Proof.
  intros Nb. apply round_round_div_FLT; try lia; try typeclasses eauto; try apply fmt32; try exact Nb.
  exists 1%Z. reflexivity.
Qed.

Lemma abs_div_le (a b : B32) : B2R b <> 0 -> Rabs (B2R a / B2R b) <= bpow radix2 277.
Proof.
  intros Nb. unfold Rdiv. rewrite Rabs_mult, Rabs_inv.
  change 277%Z with (128 + 149)%Z. rewrite bpow_plus.
  assert (Hb := abs_ge_149 b Nb).
  assert (P149 : 0 < bpow radix2 (-149)) by apply bpow_gt_0.
  apply Rmult_le_compat; [apply Rabs_pos| |apply Rlt_le, abs_lt_128|].
  - apply Rlt_le, Rinv_0_lt_compat. lra.
  - replace (bpow radix2 149) with (/ bpow radix2 (-149)).
    + apply Rinv_le_contravar; assumption.
    + rewrite <- bpow_opp. reflexivity.
Qed.

Lemma div_fin (a b : B32) : is_finite a = true -> is_finite b = true -> B2R b <> 0 -> dn (div64 (up a) (up b)) = div32 a b.
Proof.
  intros Fa Fb Nb.
  destruct (up_fin a Fa) as (FA & RA & SA). destruct (up_fin b Fb) as (FB & RB & SB).
  assert (NB : B2R (up b) <> 0) by (rewrite RB; exact Nb).
  set (sg := xorb (Bsign a) (Bsign b)).
  assert (H64 : B2R (div64 (up a) (up b)) = rnd64 (B2R a / B2R b) /\ is_finite (div64 (up a) (up b)) = true /\
                Bsign (div64 (up a) (up b)) = sg).
  { generalize (Bdiv_correct 53 1024 FP.Hprec FP.Hmax mode_NE (up a) (up b) NB). norm3264. rewrite RA, RB, SA, SB, FA.
    rewrite Rlt_bool_true.
    - intros (R & F & S). split; [exact R|split; [exact F|]]. apply S. apply fin_not_nan. exact F.
    - apply (rnd64_small _ 277); [lia|]. apply abs_div_le. exact Nb. }
  destruct H64 as (R64 & F64 & S64).
  apply dn_finish with (z := B2R a / B2R b) (sg := sg); try assumption.
  - apply div_double. exact Nb.
  - generalize (Bdiv_correct 24 128 Hprec24 Hmax128 mode_NE a b Nb). norm3264. rewrite Fa.
    destruct (Rlt_bool _ _).
    + intros (R & F & S). split; [exact F|split; [exact R|]]. apply S. apply fin_not_nan. exact F.
    + intros H; exact H.
Qed.

Theorem div_core (a b : B32) : dn (div64 (up a) (up b)) = div32 a b.
Proof.
  destruct a as [sa|sa| |sa ma ea Ha] eqn:Ea; destruct b as [sb|sb| |sb mb eb Hb] eqn:Eb;
    try (up_shape; reflexivity).
    rewrite <- Ea, <- Eb. apply div_fin; subst; try reflexivity. cbn [B2R]. apply F2R_sign_neq0.
Qed.

Lemma sqrt_double (a : B32) : rnd32 (rnd64 (R_sqrt.sqrt (B2R a))) = rnd32 (R_sqrt.sqrt (B2R a)).
Proof. apply round_round_sqrt_FLT; try lia; try typeclasses eauto; apply fmt32. Qed.

Theorem sqrt_core (a : B32) : dn (sqrt64 (up a)) = sqrt32 a.
Proof.
  destruct a as [sa|sa| |sa ma ea Ha] eqn:Ea; try (up_shape; destruct sa; reflexivity); try (up_shape; reflexivity).
  destruct sa; [up_shape; reflexivity|].
  rewrite <- Ea.
  destruct (up_finite false ma ea Ha) as (m' & e' & H' & E & R). rewrite <- Ea in E, R.
  assert (RA : B2R (up a) = B2R a) by (rewrite E; exact R).
  assert (SA : Bsign (up a) = false) by (rewrite E; reflexivity).
  destruct (Bsqrt_correct 53 1024 FP.Hprec FP.Hmax mode_NE (up a)) as (R64 & F64 & S64). norm3264.
  rewrite RA in R64. rewrite E in F64 at 2. rewrite SA in S64.
  destruct (Bsqrt_correct 24 128 Hprec24 Hmax128 mode_NE a) as (R32 & F32 & S32). norm3264.
  rewrite Ea in F32 at 2. cbn [Bsign] in S32. rewrite Ea in S32 at 3. cbn [Bsign] in S32.
  apply dn_finish with (z := R_sqrt.sqrt (B2R a)) (sg := false); try assumption.
  - apply S64. apply fin_not_nan. exact F64.
  - apply sqrt_double.
  - rewrite Rlt_bool_true.
    + split; [exact F32|split; [exact R32|]]. apply S32. apply fin_not_nan. exact F32.
    + rewrite <- R32. apply abs_lt_128.
Qed.

Lemma up_cmp (a b : B32) : Bcompare (up a) (up b) = Bcompare a b.
Proof.
  destruct (is_finite a) eqn:Fa; [destruct (is_finite b) eqn:Fb|].
  - destruct (up_fin a Fa) as (FA & RA & SA). destruct (up_fin b Fb) as (FB & RB & SB).
    rewrite !Bcompare_correct by assumption. rewrite RA, RB. reflexivity.
  - nonfin a b.
  - nonfin a b.
Qed.
Lemma up_ltb (a b : B32) : Bltb (up a) (up b) = Bltb a b.
Proof. generalize (up_cmp a b). unfold Bltb, SFltb, Bcompare. intros ->. reflexivity. Qed.
Lemma up_leb (a b : B32) : Bleb (up a) (up b) = Bleb a b.
Proof. generalize (up_cmp a b). unfold Bleb, SFleb, Bcompare. intros ->. reflexivity. Qed.
Lemma up_eqb (a b : B32) : Beqb (up a) (up b) = Beqb a b.
Proof. generalize (up_cmp a b). unfold Beqb, SFeqb, Bcompare. intros ->. reflexivity. Qed.
Lemma up_is_nan (a : B32) : is_nan (up a) = is_nan a.
Proof. destruct a; up_shape; reflexivity. Qed.

(** ** integer literals: [r32 (FofZ z)] is the binary32 literal, for every [|z| < 2^53] (one rounding) *)
Lemma IZR_format64 (z : Z) : smallZ z = true -> generic_format radix2 f64exp (IZR z).
Proof.
  intros Hz. destruct (Bofz_exact FP.Hprec FP.Hmax z Hz) as (_ & R & _). rewrite <- R.
  apply (generic_format_B2R 53 1024).
Qed.

Lemma ofZ_core (z : Z) : smallZ z = true -> dn (Bofz 53 1024 FP.Hprec FP.Hmax z) = Bofz 24 128 Hprec24 Hmax128 z.
Proof.
  intros Hz. destruct (Bofz_exact FP.Hprec FP.Hmax z Hz) as (F & R & S).
  assert (G : rnd64 (IZR z) = IZR z) by (apply round_generic; [typeclasses eauto|apply IZR_format64; exact Hz]).
  apply dn_finish with (z := IZR z) (sg := Z.ltb z 0); try assumption.
  - rewrite G. exact R.
  - rewrite G. reflexivity.
  - generalize (binary_normalize_correct 24 128 Hprec24 Hmax128 mode_NE z 0 false).
    fold (Bofz 24 128 Hprec24 Hmax128 z). cbv zeta. norm3264.
    rewrite F2R_exp0. pose proof (Rcompare_IZR_sign z) as Sg.
    destruct (Rlt_bool _ _).
    + intros (R' & F' & S'). rewrite S', Sg. repeat split; assumption.
    + intros H. rewrite H, binary_overflow_NE. f_equal.
      unfold Rlt_bool. rewrite <- Sg. destruct (Rcompare (IZR z) 0); reflexivity.
Qed.

(** ** the homomorphism: every binary32 number, no side condition *)
Lemma r32_to (x : prim) (b : B32) : to_b32 x = b -> r32 x = of_b32 b.
Proof. intros <-. reflexivity. Qed.

Lemma of_b32_const (c : prim) (b : B32) : Prim2SF c = Prim2SF (of_b32 b) -> c = of_b32 b.
Proof. apply Prim2SF_inj. Qed.

Global Instance of_b32_hom : NumHom NumB32 NumF32 of_b32.
Proof.
  constructor; intros; cbn [nadd nsub nmul ndiv nneg nabs nsqrt nltb nleb neqb nis_nan
    nnext_up nnext_dn nofZ neps nmaxf ninf NumB NumB32 NumF32].
  - apply r32_to. rewrite to_b32_dn, FP.add_equiv. apply add_core.
  - apply r32_to. rewrite to_b32_dn, FP.sub_equiv. apply sub_core.
  - apply r32_to. rewrite to_b32_dn, FP.mul_equiv. apply mul_core.
  - apply r32_to. rewrite to_b32_dn, FP.div_equiv. apply div_core.
  - apply FP.Prim2B_inj. rewrite FP.opp_equiv. symmetry. apply up_opp.
  - apply FP.Prim2B_inj. rewrite FP.abs_equiv. symmetry. apply up_abs.
  - apply r32_to. rewrite to_b32_dn, FP.sqrt_equiv. apply sqrt_core.
  - rewrite FP.ltb_equiv. apply up_ltb.
  - rewrite FP.leb_equiv. apply up_leb.
  - rewrite FP.eqb_equiv. apply up_eqb.
  - rewrite FP.is_nan_equiv. apply up_is_nan.
  - unfold next_up32. rewrite to_b32_of_b32. reflexivity.
  - unfold next_dn32. rewrite to_b32_of_b32. reflexivity.
  - apply r32_to. rewrite to_b32_dn. change (FP.Prim2B (FofZ z)) with (P2B (FofZ z)). rewrite P2B_FofZ by assumption.
    apply ofZ_core. assumption.
  - apply of_b32_const. vm_compute. reflexivity.
  - apply of_b32_const. vm_compute. reflexivity.
  - apply of_b32_const. vm_compute. reflexivity.
Qed.

(** ** binary32-valued primitive floats *)
Definition is32 (x : prim) : Prop := r32 x = x.

Lemma r32_of_b32 (b : B32) : r32 (of_b32 b) = of_b32 b.
Proof. unfold r32. rewrite to_b32_of_b32. reflexivity. Qed.
Lemma is32_of_b32 (b : B32) : is32 (of_b32 b). Proof. exact (r32_of_b32 b). Qed.
Lemma is32_by_bits (c : prim) : Prim2SF (r32 c) = Prim2SF c -> is32 c.
Proof. apply Prim2SF_inj. Qed.
Lemma is32_r32 (x : prim) : is32 (r32 x). Proof. unfold r32. apply is32_of_b32. Qed.
Lemma is32_iff (x : prim) : is32 x <-> exists b : B32, x = of_b32 b.
Proof. split; [intros H; exists (to_b32 x); symmetry; exact H|intros (b & ->); apply is32_of_b32]. Qed.
Lemma is32_back (x : prim) : is32 x -> of_b32 (to_b32 x) = x. Proof. exact (fun H => H). Qed.
Lemma to_b32_r32 (x : prim) : to_b32 (r32 x) = to_b32 x.
Proof. unfold r32. apply to_b32_of_b32. Qed.
Lemma to_b32_inj (x y : prim) : is32 x -> is32 y -> to_b32 x = to_b32 y -> x = y.
Proof. intros Hx Hy E. rewrite <- Hx, <- Hy. unfold r32. rewrite E. reflexivity. Qed.

(** every operation of [NumF32] returns a binary32-valued float (the rounding ones on ANY arguments) *)
Section Closure.
  Local Notation N := NumF32.
  Lemma is32_nadd (x y : prim) : is32 (@nadd _ N x y). Proof. apply is32_r32. Qed.
  Lemma is32_nsub (x y : prim) : is32 (@nsub _ N x y). Proof. apply is32_r32. Qed.
  Lemma is32_nmul (x y : prim) : is32 (@nmul _ N x y). Proof. apply is32_r32. Qed.
  Lemma is32_ndiv (x y : prim) : is32 (@ndiv _ N x y). Proof. apply is32_r32. Qed.
  Lemma is32_nsqrt (x : prim) : is32 (@nsqrt _ N x). Proof. apply is32_r32. Qed.
  Lemma is32_nneg (x : prim) : is32 x -> is32 (@nneg _ N x).
  Proof. intros H. rewrite <- H. unfold r32. rewrite (hom_neg (h:=of_b32)). apply is32_of_b32. Qed.
  Lemma is32_nabs (x : prim) : is32 x -> is32 (@nabs _ N x).
  Proof. intros H. rewrite <- H. unfold r32. rewrite (hom_abs (h:=of_b32)). apply is32_of_b32. Qed.
  Lemma is32_nofZ (z : Z) : is32 (@nofZ _ N z). Proof. apply is32_r32. Qed.
  Lemma is32_neps : is32 (@neps _ N). Proof. rewrite (hom_eps (h:=of_b32)). apply is32_of_b32. Qed.
  Lemma is32_nmaxf : is32 (@nmaxf _ N). Proof. rewrite (hom_maxf (h:=of_b32)). apply is32_of_b32. Qed.
  Lemma is32_ninf : is32 (@ninf _ N). Proof. rewrite (hom_inf (h:=of_b32)). apply is32_of_b32. Qed.
  Lemma is32_nnext_up (x : prim) : is32 (@nnext_up _ N x). Proof. apply is32_of_b32. Qed.
  Lemma is32_nnext_dn (x : prim) : is32 (@nnext_dn _ N x). Proof. apply is32_of_b32. Qed.
  Lemma is32_nsin (x : prim) : is32 (@nsin _ N x). Proof. apply is32_r32. Qed.
  Lemma is32_ncos (x : prim) : is32 (@ncos _ N x). Proof. apply is32_r32. Qed.
  Lemma is32_ntan (x : prim) : is32 (@ntan _ N x). Proof. apply is32_r32. Qed.
  Lemma is32_nacos (x : prim) : is32 (@nacos _ N x). Proof. apply is32_r32. Qed.
  Lemma is32_natan2 (y x : prim) : is32 (@natan2 _ N y x). Proof. apply is32_r32. Qed.
  Lemma is32_npi : is32 (@npi _ N). Proof. apply is32_r32. Qed.
End Closure.

(** ** the reading direction: [to_b32] commutes with every non-libm member of [NumF32] on binary32-valued floats *)
Section Reading.
  Local Notation N := NumF32.
  Local Notation t := to_b32.
  (** a statement about embedded numbers, read on binary32-valued floats: [x = of_b32 (t x)] there *)
  Lemma read1 {A} (f : prim -> A) (g : B32 -> A) : (forall a, f (of_b32 a) = g a) -> forall x, is32 x -> f x = g (t x).
  Proof. intros E x Hx. rewrite <- E, (is32_back x Hx). reflexivity. Qed.
  Lemma read2 {A} (f : prim -> prim -> A) (g : B32 -> B32 -> A) :
    (forall a b, f (of_b32 a) (of_b32 b) = g a b) -> forall x y, is32 x -> is32 y -> f x y = g (t x) (t y).
  Proof. intros E x y Hx Hy. rewrite <- E, (is32_back x Hx), (is32_back y Hy). reflexivity. Qed.
  Lemma read_op1 (f : prim -> prim) (g : B32 -> B32) :
    (forall a, f (of_b32 a) = of_b32 (g a)) -> forall x, is32 x -> t (f x) = g (t x).
  Proof. intros E. apply (read1 (fun x => t (f x))). intros a. rewrite E. apply to_b32_of_b32. Qed.
  Lemma read_op2 (f : prim -> prim -> prim) (g : B32 -> B32 -> B32) :
    (forall a b, f (of_b32 a) (of_b32 b) = of_b32 (g a b)) -> forall x y, is32 x -> is32 y -> t (f x y) = g (t x) (t y).
  Proof. intros E. apply (read2 (fun x y => t (f x y))). intros a b. rewrite E. apply to_b32_of_b32. Qed.

  Theorem to_b32_nadd (x y : prim) : is32 x -> is32 y -> t (@nadd _ N x y) = add32 (t x) (t y).
  Proof. exact (read_op2 _ _ (hom_add (NumHom:=of_b32_hom)) x y). Qed.
  Theorem to_b32_nsub (x y : prim) : is32 x -> is32 y -> t (@nsub _ N x y) = sub32 (t x) (t y).
  Proof. exact (read_op2 _ _ (hom_sub (NumHom:=of_b32_hom)) x y). Qed.
  Theorem to_b32_nmul (x y : prim) : is32 x -> is32 y -> t (@nmul _ N x y) = mul32 (t x) (t y).
  Proof. exact (read_op2 _ _ (hom_mul (NumHom:=of_b32_hom)) x y). Qed.
  Theorem to_b32_ndiv (x y : prim) : is32 x -> is32 y -> t (@ndiv _ N x y) = div32 (t x) (t y).
  Proof. exact (read_op2 _ _ (hom_div (NumHom:=of_b32_hom)) x y). Qed.
  Theorem to_b32_nsqrt (x : prim) : is32 x -> t (@nsqrt _ N x) = sqrt32 (t x).
  Proof. exact (read_op1 _ _ (hom_sqrt (NumHom:=of_b32_hom)) x). Qed.
  Theorem to_b32_nneg (x : prim) : is32 x -> t (@nneg _ N x) = Bopp (t x).
  Proof. exact (read_op1 _ _ (hom_neg (NumHom:=of_b32_hom)) x). Qed.
  Theorem to_b32_nabs (x : prim) : is32 x -> t (@nabs _ N x) = Babs (t x).
  Proof. exact (read_op1 _ _ (hom_abs (NumHom:=of_b32_hom)) x). Qed.
  Theorem to_b32_nltb (x y : prim) : is32 x -> is32 y -> @nltb _ N x y = Bltb (t x) (t y).
  Proof. exact (read2 _ _ (hom_ltb (NumHom:=of_b32_hom)) x y). Qed.
  Theorem to_b32_nleb (x y : prim) : is32 x -> is32 y -> @nleb _ N x y = Bleb (t x) (t y).
  Proof. exact (read2 _ _ (hom_leb (NumHom:=of_b32_hom)) x y). Qed.
  Theorem to_b32_neqb (x y : prim) : is32 x -> is32 y -> @neqb _ N x y = Beqb (t x) (t y).
  Proof. exact (read2 _ _ (hom_eqb (NumHom:=of_b32_hom)) x y). Qed.
  Theorem to_b32_nis_nan (x : prim) : is32 x -> @nis_nan _ N x = is_nan (t x).
  Proof. exact (read1 _ _ (hom_is_nan (NumHom:=of_b32_hom)) x). Qed.
  (** no hypothesis: [nnext_up] / [nnext_dn] of [NumF32] read their argument through [to_b32] themselves *)
  Theorem to_b32_nnext_up (x : prim) : t (@nnext_up _ N x) = @nnext_up _ NumB32 (t x).
  Proof. apply to_b32_of_b32. Qed.
  Theorem to_b32_nnext_dn (x : prim) : t (@nnext_dn _ N x) = @nnext_dn _ NumB32 (t x).
  Proof. apply to_b32_of_b32. Qed.
  Theorem to_b32_nofZ (z : Z) : (Z.abs z < 2 ^ 53)%Z -> t (@nofZ _ N z) = @nofZ _ NumB32 z.
  Proof. intros Hz. rewrite (hom_ofZ (h:=of_b32)) by (apply Z.ltb_lt; exact Hz). apply to_b32_of_b32. Qed.
  Theorem to_b32_nofQ (p q : Z) : (Z.abs p < 2 ^ 53)%Z -> (Z.abs q < 2 ^ 53)%Z -> t (@nofQ _ N p q) = @nofQ _ NumB32 p q.
  Proof. intros Hp Hq. rewrite (hom_nofQ of_b32) by (apply Z.ltb_lt; assumption). apply to_b32_of_b32. Qed.
  Theorem to_b32_neps : t (@neps _ N) = @neps _ NumB32.
  Proof. rewrite (hom_eps (h:=of_b32)). apply to_b32_of_b32. Qed.
  Theorem to_b32_nmaxf : t (@nmaxf _ N) = @nmaxf _ NumB32.
  Proof. rewrite (hom_maxf (h:=of_b32)). apply to_b32_of_b32. Qed.
  Theorem to_b32_ninf : t (@ninf _ N) = @ninf _ NumB32.
  Proof. rewrite (hom_inf (h:=of_b32)). apply to_b32_of_b32. Qed.
  Theorem to_b32_ctiny : t (@ctiny _ N) = @ctiny _ NumB32.
  Proof. rewrite (hom_ctiny of_b32). apply to_b32_of_b32. Qed.
  Theorem to_b32_ngamma (k : Z) : (Z.abs k < 2 ^ 53)%Z -> t (@ngamma _ N k) = @ngamma _ NumB32 k.
  Proof. intros Hk. rewrite (hom_ngamma of_b32) by (apply Z.ltb_lt; exact Hk). apply to_b32_of_b32. Qed.
End Reading.

(** double rounding through binary64 is innocuous for + - * / sqrt: rounding the binary64 result to binary32 IS the
    binary32 operation *)
Theorem double_rounding_innocuous (x y : prim) : is32 x -> is32 y ->
  to_b32 (r32 (x + y)%float) = add32 (to_b32 x) (to_b32 y) /\
  to_b32 (r32 (x - y)%float) = sub32 (to_b32 x) (to_b32 y) /\
  to_b32 (r32 (x * y)%float) = mul32 (to_b32 x) (to_b32 y) /\
  to_b32 (r32 (x / y)%float) = div32 (to_b32 x) (to_b32 y) /\
  to_b32 (r32 (PrimFloat.sqrt x)) = sqrt32 (to_b32 x).
Proof.
  intros Hx Hy. repeat split.
  - exact (to_b32_nadd x y Hx Hy). - exact (to_b32_nsub x y Hx Hy). - exact (to_b32_nmul x y Hx Hy).
  - exact (to_b32_ndiv x y Hx Hy). - exact (to_b32_nsqrt x Hx).
Qed.

(** the real-number content: the two roundings in a row are the single rounding, for every pair of binary32 numbers
    (Flocq's [Double_rounding] at (24,-149) inside (53,-1074)) *)
Theorem double_rounding_real (a b : B32) :
  rnd32 (rnd64 (B2R a + B2R b)) = rnd32 (B2R a + B2R b) /\
  rnd32 (rnd64 (B2R a - B2R b)) = rnd32 (B2R a - B2R b) /\
  rnd32 (rnd64 (B2R a * B2R b)) = rnd32 (B2R a * B2R b) /\
  (B2R b <> 0 -> rnd32 (rnd64 (B2R a / B2R b)) = rnd32 (B2R a / B2R b)) /\
  rnd32 (rnd64 (R_sqrt.sqrt (B2R a))) = rnd32 (R_sqrt.sqrt (B2R a)).
Proof.
  split; [apply add_double|]. split; [apply sub_double|]. split; [apply mul_double|]. split; [apply div_double|apply sqrt_double].
Qed.

(** the executed instance is [NumF32fast] (= [NumF32], Run/FastNum32Proof.v [NumF32fast_eq]): the same homomorphism *)
Lemma of_b32_hom_fast : NumHom NumB32 NumF32fast of_b32.
Proof. rewrite NumF32fast_eq. exact of_b32_hom. Qed.

(** the real value / finiteness of an embedded binary32 number, in the binary64 reading of Theory/PrimBridge.v *)
Lemma up_B2R (a : B32) : B2R (up a) = B2R a.
Proof. destruct a as [s|s| |s m e H] eqn:E; try (up_shape; reflexivity). rewrite <- E. apply up_fin. rewrite E. reflexivity. Qed.
Lemma up_is_finite (a : B32) : is_finite (up a) = is_finite a.
Proof. destruct a; up_shape; reflexivity. Qed.
Lemma FR_of_b32 (a : B32) : FR (of_b32 a) = B2R a. Proof. exact (up_B2R a). Qed.
Lemma Ffin_of_b32 (a : B32) : Ffin (of_b32 a) <-> is_finite a = true.
Proof. unfold Ffin. change (P2B (of_b32 a)) with (up a). rewrite up_is_finite. reflexivity. Qed.
