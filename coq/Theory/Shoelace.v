(* Theory/Shoelace.v — the Newell vector  Σ v_i x v_(i+1)  of a closed chain in R^3 and the
   signed (shoelace) area of a closed chain in the plane.  Depends on the Coq standard
   library, Theory/Cyclic.v (list combinatorics) and Theory/Winding.v (only for P2, orient,
   lerp).  No geometry model.

   Conventions:  T3 = R * R * R  with the usual cross3 / dot3;
     newell L = Σ_{(a,b) edge of the closed chain L} a x b          (a vector; for a planar
                chain with unit normal n,  n . newell L = 2 * signed area)
     area2 L  = 1/2 Σ (ax*by - bx*ay)                               (> 0 counter-clockwise)
   The additive group of T3 is presented to the tactic [ring] as the commutative ring
   R^3 with the componentwise product ([mul3]); the product itself is never used. *)
From Coq Require Import Reals Lra Lia Psatz Nsatz List Ring.
From G3 Require Import Theory.Cyclic Theory.Winding.
Import ListNotations.
Local Open Scope R_scope.

(** * Vectors of R^3 *)

Definition T3 : Type := (R * R * R)%type.
Definition x3 (v : T3) : R := fst (fst v).
Definition y3 (v : T3) : R := snd (fst v).
Definition z3 (v : T3) : R := snd v.
Definition zero3 : T3 := (0, 0, 0).
Definition one3 : T3 := (1, 1, 1).
Definition add3 (a b : T3) : T3 := (x3 a + x3 b, y3 a + y3 b, z3 a + z3 b).
Definition sub3 (a b : T3) : T3 := (x3 a - x3 b, y3 a - y3 b, z3 a - z3 b).
Definition opp3 (a : T3) : T3 := (- x3 a, - y3 a, - z3 a).
Definition mul3 (a b : T3) : T3 := (x3 a * x3 b, y3 a * y3 b, z3 a * z3 b).
Definition scale3 (k : R) (a : T3) : T3 := (k * x3 a, k * y3 a, k * z3 a).
Definition dot3 (a b : T3) : R := x3 a * x3 b + y3 a * y3 b + z3 a * z3 b.
Definition cross3 (a b : T3) : T3 :=
  (y3 a * z3 b - z3 a * y3 b, z3 a * x3 b - x3 a * z3 b, x3 a * y3 b - y3 a * x3 b).
Definition norm3 (a : T3) : R := sqrt (dot3 a a).
(* the point a + s (b - a) *)
Definition lerp3 (a b : T3) (s : R) : T3 := add3 a (scale3 s (sub3 b a)).

Lemma t3_ext : forall u v : T3, x3 u = x3 v -> y3 u = y3 v -> z3 u = z3 v -> u = v.
Proof. intros [[a b] c] [[a' b'] c']; unfold x3, y3, z3; simpl; intros; subst; reflexivity. Qed.

Ltac t3_red :=
  cbv beta delta [lerp3 cross3 dot3 add3 sub3 opp3 mul3 scale3 zero3 one3 x3 y3 z3]; cbn [fst snd].

(* an equation between explicit triples is split by congruence: through [t3_ext] the kernel
   has to find the components again by conversion at [Qed], which is slow *)
Ltac t3 :=
  intros;
  repeat match goal with v : T3 |- _ => destruct v as [[? ?] ?] end;
  t3_red;
  try first [apply (f_equal2 pair); [apply (f_equal2 pair)|] | apply t3_ext; t3_red];
  try ring.

Lemma T3_ring : ring_theory zero3 one3 add3 mul3 sub3 opp3 (@eq T3).
Proof. constructor; t3. Qed.

Lemma cross3_anti : forall a b : T3, cross3 a b = opp3 (cross3 b a).
Proof. t3. Qed.
Lemma cross3_self : forall a : T3, cross3 a a = zero3.
Proof. t3. Qed.

(** * The Newell vector of a closed chain *)

Definition newell (L : list T3) : T3 := csum zero3 add3 cross3 L.

(* the Newell vector of a triangle is the cross product of two edge vectors *)
Lemma newell_tri : forall a b c : T3,
    newell [a; b; c] = cross3 (sub3 b a) (sub3 c a).
Proof. intros; unfold newell. change (csum zero3 add3 cross3 [a; b; c]) with (tri zero3 add3 cross3 a b c). rewrite tri_unfold. t3. Qed.

Lemma newell_rotate : forall L : list T3, newell (rotl L) = newell L.
Proof. intros; apply (csum_rotl T3_ring). Qed.
Lemma newell_rot_app : forall l1 l2 : list T3, newell (l1 ++ l2) = newell (l2 ++ l1).
Proof. intros; apply (csum_rot_app T3_ring). Qed.

Lemma newell_rev : forall L : list T3, newell (rev L) = opp3 (newell L).
Proof. intros; apply (csum_rev T3_ring _ cross3_anti). Qed.

Lemma newell_translate : forall (t : T3) (L : list T3), newell (map (add3 t) L) = newell L.
Proof.
  intros t L. unfold newell. rewrite csum_map.
  rewrite (csum_ext zero3 add3 _
             (fun a b => add3 (cross3 a b) (sub3 (cross3 t b) (cross3 t a))) L) by t3.
  rewrite (csum_plus_fun T3_ring), (csum_telescope T3_ring (cross3 t)). t3.
Qed.

Lemma newell_ear : forall (v0 v1 v2 : T3) (rest : list T3),
    newell (v0 :: v1 :: v2 :: rest)
    = add3 (newell (v0 :: v2 :: rest)) (cross3 (sub3 v1 v0) (sub3 v2 v0)).
Proof.
  intros. rewrite <- newell_tri. apply (csum_ear T3_ring _ cross3_anti).
Qed.

(* removing the vertex at the split point (cyclic neighbours p, n): subtracts (v-p) x (n-p) *)
Lemma newell_remove : forall (pre post : list T3) (v : T3),
    newell (pre ++ v :: post)
    = add3 (newell (pre ++ post))
           (newell [last (post ++ pre) v; v; hd v (post ++ pre)]).
Proof. intros; apply (csum_remove T3_ring _ cross3_anti cross3_self). Qed.

Lemma newell_remove_at : forall (dflt : T3) (L : list T3) (i : nat), (i < length L)%nat ->
    newell L = add3 (newell (remove_at i L))
                    (cross3 (sub3 (nth i L dflt) (cprev dflt L i))
                            (sub3 (cnext dflt L i) (cprev dflt L i))).
Proof.
  intros. rewrite <- newell_tri.
  apply (csum_remove_at T3_ring _ cross3_anti cross3_self); assumption.
Qed.

(* along any ear decomposition the Newell vector is the sum of the ears' *)
Lemma newell_sum_triangles : forall (L : list T3) (Ts : list (T3 * T3 * T3)),
    ear_decomp L Ts ->
    newell L = tsum zero3 add3 (fun a b c => cross3 (sub3 b a) (sub3 c a)) Ts.
Proof.
  intros L Ts H. unfold newell.
  rewrite (csum_ear_decomp T3_ring _ cross3_anti cross3_self H).
  apply tsum_ext_in. intros a b c _. apply newell_tri.
Qed.

Lemma cross3_lerp : forall (a b : T3) (s : R),
    add3 (cross3 a (lerp3 a b s)) (cross3 (lerp3 a b s) b) = cross3 a b.
Proof. t3. Qed.

(* a vertex inserted on an edge (anywhere on its line, in fact) does not change the vector *)
Lemma newell_insert_on_edge : forall (pre post : list T3) (a b : T3) (s : R),
    newell (pre ++ a :: lerp3 a b s :: b :: post) = newell (pre ++ a :: b :: post).
Proof.
  intros. apply (csum_insert T3_ring _ cross3_anti cross3_self). apply cross3_lerp.
Qed.

Lemma newell_insert_on_closing_edge : forall (mid : list T3) (a b : T3) (s : R),
    newell (b :: mid ++ [a; lerp3 a b s]) = newell (b :: mid ++ [a]).
Proof.
  intros. apply (csum_insert_closing T3_ring _ cross3_anti cross3_self). apply cross3_lerp.
Qed.

(* merging a hole cycle through a bridge walked once each way: the vectors add *)
Lemma newell_bridge : forall (pre post hs : list T3) (e h0 : T3),
    newell (pre ++ e :: h0 :: hs ++ h0 :: e :: post)
    = add3 (newell (pre ++ e :: post)) (newell (h0 :: hs)).
Proof. intros; apply (csum_bridge T3_ring _ cross3_anti). Qed.

(** * 2-D signed area *)

Definition cross2 (a b : P2) : R := fst a * snd b - fst b * snd a.

(* signed area of the closed chain L (positive when counter-clockwise) *)
Definition area2 (L : list P2) : R := / 2 * csum 0 Rplus cross2 L.

Lemma cross2_anti : forall a b : P2, cross2 a b = - cross2 b a.
Proof. intros; unfold cross2; ring. Qed.
Lemma cross2_self : forall a : P2, cross2 a a = 0.
Proof. intros; unfold cross2; ring. Qed.

Lemma tri_cross2 : forall a b c : P2, tri 0 Rplus cross2 a b c = orient a b c.
Proof. intros; rewrite tri_unfold; unfold cross2, orient; ring. Qed.

Lemma area2_tri : forall a b c : P2, area2 [a; b; c] = / 2 * orient a b c.
Proof. intros; unfold area2. rewrite <- tri_cross2. reflexivity. Qed.

Lemma area2_rotate : forall L : list P2, area2 (rotl L) = area2 L.
Proof. intros; unfold area2. rewrite (csum_rotl RTheory). reflexivity. Qed.
Lemma area2_rot_app : forall l1 l2 : list P2, area2 (l1 ++ l2) = area2 (l2 ++ l1).
Proof. intros; unfold area2. rewrite (csum_rot_app RTheory). reflexivity. Qed.

Lemma area2_rev : forall L : list P2, area2 (rev L) = - area2 L.
Proof. intros; unfold area2. rewrite (csum_rev RTheory _ cross2_anti). ring. Qed.

Lemma area2_translate : forall (t : P2) (L : list P2),
    area2 (map (fun p => (fst t + fst p, snd t + snd p)) L) = area2 L.
Proof.
  intros t L. unfold area2. rewrite csum_map.
  rewrite (csum_ext 0 Rplus _
             (fun a b => cross2 a b + (cross2 t b - cross2 t a)) L)
    by (intros; unfold cross2; simpl; ring).
  rewrite (csum_plus_fun RTheory), (csum_telescope RTheory (cross2 t)). ring.
Qed.

Lemma area2_ear : forall (v0 v1 v2 : P2) (rest : list P2),
    area2 (v0 :: v1 :: v2 :: rest) = area2 (v0 :: v2 :: rest) + / 2 * orient v0 v1 v2.
Proof.
  intros; unfold area2. rewrite (csum_ear RTheory _ cross2_anti), tri_cross2. ring.
Qed.

Lemma area2_remove : forall (pre post : list P2) (v : P2),
    area2 (pre ++ v :: post)
    = area2 (pre ++ post) + / 2 * orient (last (post ++ pre) v) v (hd v (post ++ pre)).
Proof.
  intros; unfold area2.
  rewrite (csum_remove RTheory _ cross2_anti cross2_self), tri_cross2. ring.
Qed.

Lemma area2_remove_at : forall (dflt : P2) (L : list P2) (i : nat), (i < length L)%nat ->
    area2 L = area2 (remove_at i L)
              + / 2 * orient (cprev dflt L i) (nth i L dflt) (cnext dflt L i).
Proof.
  intros dflt L i Hi; unfold area2.
  rewrite (csum_remove_at RTheory _ cross2_anti cross2_self dflt L Hi), tri_cross2. ring.
Qed.

(* the signed area is the sum of the ears' signed areas, for any ear decomposition *)
Lemma area2_sum_triangles : forall (L : list P2) (Ts : list (P2 * P2 * P2)),
    ear_decomp L Ts -> area2 L = tsum 0 Rplus (fun a b c => area2 [a; b; c]) Ts.
Proof.
  intros L Ts H. unfold area2 at 1.
  rewrite (csum_ear_decomp RTheory _ cross2_anti cross2_self H).
  rewrite <- (tsum_hom (A := P2) 0 Rplus 0 Rplus (fun x => / 2 * x)).
  - apply tsum_ext_in. intros a b c _. reflexivity.
  - ring.
  - intros; ring.
Qed.

(* if all ears are counter-clockwise (or degenerate) the area is the sum of their absolute areas *)
Lemma area2_positive_ears : forall (L : list P2) (Ts : list (P2 * P2 * P2)),
    ear_decomp L Ts ->
    (forall a b c : P2, In (a, b, c) Ts -> 0 <= orient a b c) ->
    area2 L = tsum 0 Rplus (fun a b c => Rabs (area2 [a; b; c])) Ts.
Proof.
  intros L Ts H Hpos. rewrite (area2_sum_triangles _ _ H).
  apply tsum_ext_in. intros a b c Hin.
  rewrite Rabs_right; [reflexivity|]. rewrite area2_tri. specialize (Hpos a b c Hin). lra.
Qed.

Lemma tsum_nonneg : forall (g : P2 -> P2 -> P2 -> R) (Ts : list (P2 * P2 * P2)),
    (forall a b c, In (a, b, c) Ts -> 0 <= g a b c) -> 0 <= tsum 0 Rplus g Ts.
Proof.
  intros g Ts; induction Ts as [|[[a b] c] Ts IH]; intros H.
  - rewrite tsum_nil; lra.
  - rewrite tsum_cons. specialize (H a b c (or_introl eq_refl)) as H1.
    assert (0 <= tsum 0 Rplus g Ts) by (apply IH; intros; apply H; now right). lra.
Qed.

(* ... hence the area is non-negative *)
Lemma area2_positive_ears_nonneg : forall (L : list P2) (Ts : list (P2 * P2 * P2)),
    ear_decomp L Ts ->
    (forall a b c : P2, In (a, b, c) Ts -> 0 <= orient a b c) -> 0 <= area2 L.
Proof.
  intros L Ts H Hpos. rewrite (area2_sum_triangles _ _ H). apply tsum_nonneg.
  intros a b c Hin. rewrite area2_tri. specialize (Hpos a b c Hin). lra.
Qed.

Lemma cross2_lerp : forall (a b : P2) (s : R),
    cross2 a (lerp a b s) + cross2 (lerp a b s) b = cross2 a b.
Proof. intros; unfold cross2, lerp; simpl; ring. Qed.

Lemma area2_insert_on_edge : forall (pre post : list P2) (a b : P2) (s : R),
    area2 (pre ++ a :: lerp a b s :: b :: post) = area2 (pre ++ a :: b :: post).
Proof.
  intros; unfold area2. f_equal.
  apply (csum_insert RTheory _ cross2_anti cross2_self). apply cross2_lerp.
Qed.

Lemma area2_insert_on_closing_edge : forall (mid : list P2) (a b : P2) (s : R),
    area2 (b :: mid ++ [a; lerp a b s]) = area2 (b :: mid ++ [a]).
Proof.
  intros; unfold area2. f_equal.
  apply (csum_insert_closing RTheory _ cross2_anti cross2_self). apply cross2_lerp.
Qed.

Lemma area2_bridge : forall (pre post hs : list P2) (e h0 : P2),
    area2 (pre ++ e :: h0 :: hs ++ h0 :: e :: post)
    = area2 (pre ++ e :: post) + area2 (h0 :: hs).
Proof. intros; unfold area2. rewrite (csum_bridge RTheory _ cross2_anti). ring. Qed.

(** * Planar chains in space *)

(* the point of the plane  o + u e1 + v e2  with plane coordinates p = (u,v) *)
Definition embed3 (o e1 e2 : T3) (p : P2) : T3 :=
  add3 o (add3 (scale3 (fst p) e1) (scale3 (snd p) e2)).

(* the Newell vector of an embedded planar chain is  2 * (signed area) * (e1 x e2);
   no assumption on e1, e2 *)
Lemma newell_embed : forall (o e1 e2 : T3) (L : list P2),
    newell (map (embed3 o e1 e2) L) = scale3 (2 * area2 L) (cross3 e1 e2).
Proof.
  intros o e1 e2 L.
  replace (map (embed3 o e1 e2) L)
    with (map (add3 o) (map (fun p => add3 (scale3 (fst p) e1) (scale3 (snd p) e2)) L))
    by (rewrite map_map; reflexivity).
  rewrite newell_translate. unfold newell. rewrite csum_map.
  rewrite (csum_ext zero3 add3 _ (fun a b => scale3 (cross2 a b) (cross3 e1 e2)) L)
    by (intros; unfold cross2; t3).
  rewrite (csum_hom (A := P2) 0 Rplus zero3 add3 (fun k => scale3 k (cross3 e1 e2)))
    by t3.
  unfold area2. f_equal. field.
Qed.

(* with a unit normal n = e1 x e2:  n . newell = 2 * signed area *)
Lemma newell_embed_dot : forall (o e1 e2 : T3) (L : list P2),
    dot3 (cross3 e1 e2) (cross3 e1 e2) = 1 ->
    dot3 (cross3 e1 e2) (newell (map (embed3 o e1 e2) L)) = 2 * area2 L.
Proof.
  intros o e1 e2 L Hn. rewrite newell_embed.
  replace (dot3 (cross3 e1 e2) (scale3 (2 * area2 L) (cross3 e1 e2)))
    with (2 * area2 L * dot3 (cross3 e1 e2) (cross3 e1 e2)) by t3.
  rewrite Hn; ring.
Qed.

(* differences of embedded points are combinations of e1, e2, and the cross product is bilinear *)
Lemma embed3_sub : forall (o e1 e2 : T3) (a b : P2),
    sub3 (embed3 o e1 e2 b) (embed3 o e1 e2 a)
    = add3 (scale3 (fst b - fst a) e1) (scale3 (snd b - snd a) e2).
Proof. intros; unfold embed3; t3. Qed.
Lemma cross3_comb : forall (e1 e2 : T3) (p q r s : R),
    cross3 (add3 (scale3 p e1) (scale3 q e2)) (add3 (scale3 r e1) (scale3 s e2))
    = scale3 (p * s - q * r) (cross3 e1 e2).
Proof. t3. Qed.

(* 3-D <-> 2-D: the triple product of embedded points is the planar orientation *)
Lemma cross3_embed : forall (o e1 e2 : T3) (a b c : P2),
    cross3 (sub3 (embed3 o e1 e2 b) (embed3 o e1 e2 a)) (sub3 (embed3 o e1 e2 c) (embed3 o e1 e2 a))
    = scale3 (orient a b c) (cross3 e1 e2).
Proof. intros. rewrite !embed3_sub, cross3_comb. reflexivity. Qed.

Lemma norm3_scale_unit : forall (k : R) (n : T3), dot3 n n = 1 -> 0 <= k -> norm3 (scale3 k n) = k.
Proof.
  intros k n Hn Hk. unfold norm3.
  replace (dot3 (scale3 k n) (scale3 k n)) with (k * k * dot3 n n) by t3.
  rewrite Hn, Rmult_1_r. apply sqrt_square; exact Hk.
Qed.

(* if the cross product of two edge vectors is a non-negative multiple of the unit normal n
   (triangle counter-clockwise seen from n) then  n . ((b-a) x (c-a)) = |(b-a) x (c-a)| *)
Lemma tri_normal_pos : forall (n a b c : T3) (k : R),
    dot3 n n = 1 -> 0 <= k -> cross3 (sub3 b a) (sub3 c a) = scale3 k n ->
    dot3 n (cross3 (sub3 b a) (sub3 c a)) = norm3 (cross3 (sub3 b a) (sub3 c a)).
Proof.
  intros n a b c k Hn Hk H. rewrite H, norm3_scale_unit by assumption.
  replace (dot3 n (scale3 k n)) with (k * dot3 n n) by t3. rewrite Hn; ring.
Qed.

(* in plane coordinates: a counter-clockwise triangle *)
Lemma tri_normal_pos_embed : forall (o e1 e2 : T3) (a b c : P2),
    dot3 (cross3 e1 e2) (cross3 e1 e2) = 1 -> 0 <= orient a b c ->
    let A := embed3 o e1 e2 a in let B := embed3 o e1 e2 b in let C := embed3 o e1 e2 c in
    dot3 (cross3 e1 e2) (cross3 (sub3 B A) (sub3 C A)) = norm3 (cross3 (sub3 B A) (sub3 C A))
    /\ norm3 (cross3 (sub3 B A) (sub3 C A)) = orient a b c.
Proof.
  intros o e1 e2 a b c Hn Ho A B C. unfold A, B, C. split.
  - eapply tri_normal_pos; [exact Hn| exact Ho| apply cross3_embed].
  - rewrite cross3_embed. apply norm3_scale_unit; assumption.
Qed.

(* coordinate-free: u, w orthogonal to n  ==>  u x w is parallel to n *)
Lemma cross3_in_plane : forall n u w : T3,
    dot3 n u = 0 -> dot3 n w = 0 ->
    scale3 (dot3 n n) (cross3 u w) = scale3 (dot3 n (cross3 u w)) n.
Proof.
  intros n u w Hu Hw.
  assert (H : sub3 (scale3 (dot3 n n) (cross3 u w)) (scale3 (dot3 n (cross3 u w)) n)
              = cross3 n (sub3 (scale3 (dot3 n u) w) (scale3 (dot3 n w) u))) by t3.
  rewrite Hu, Hw in H.
  replace (cross3 n (sub3 (scale3 0 w) (scale3 0 u))) with zero3 in H by t3.
  revert H. generalize (scale3 (dot3 n n) (cross3 u w)) (scale3 (dot3 n (cross3 u w)) n).
  intros [[p1 p2] p3] [[q1 q2] q3]; unfold sub3, zero3, x3, y3, z3; simpl.
  intros H; inversion H. f_equal; [f_equal|]; lra.
Qed.

(* all vertices in the plane { p | n . (p - o) = 0 } with unit normal n: the Newell vector
   is parallel to n, newell L = (n . newell L) n; so |newell L| = |n . newell L| = 2 area *)
Lemma newell_in_plane : forall (n o : T3) (L : list T3),
    dot3 n n = 1 ->
    (forall p : T3, In p L -> dot3 n (sub3 p o) = 0) ->
    newell L = scale3 (dot3 n (newell L)) n.
Proof.
  intros n o L Hn Hpl.
  rewrite <- (newell_translate (opp3 o) L).
  assert (Hpl' : forall p, In p (map (add3 (opp3 o)) L) -> dot3 n p = 0).
  { intros p Hp. apply in_map_iff in Hp. destruct Hp as [p0 [Hp0 Hin]]. subst p.
    rewrite <- (Hpl p0 Hin). t3. }
  generalize dependent (map (add3 (opp3 o)) L). clear L Hpl. intros L Hpl.
  unfold newell, csum.
  assert (HE : forall a b, In (a, b) (edges_closed L) -> dot3 n a = 0 /\ dot3 n b = 0).
  { intros a b Hab. destruct (edges_closed_In _ _ _ Hab). split; apply Hpl; assumption. }
  induction (edges_closed L) as [|[a b] E IH].
  - rewrite esum_nil. t3.
  - rewrite esum_cons.
    destruct (HE a b (or_introl eq_refl)) as [Ha Hb].
    pose proof (cross3_in_plane n a b Ha Hb) as Hc. rewrite Hn in Hc.
    replace (scale3 1 (cross3 a b)) with (cross3 a b) in Hc by t3.
    rewrite IH at 1 by (intros; apply HE; now right).
    rewrite Hc at 1.
    generalize (esum zero3 add3 cross3 E) (cross3 a b). t3.
Qed.

(** * Linear maps *)

(* a 3x3 matrix given by its rows *)
Definition M3 : Type := (T3 * T3 * T3)%type.
Definition row1 (M : M3) : T3 := fst (fst M).
Definition row2 (M : M3) : T3 := snd (fst M).
Definition row3 (M : M3) : T3 := snd M.
Definition mapply (M : M3) (v : T3) : T3 := (dot3 (row1 M) v, dot3 (row2 M) v, dot3 (row3 M) v).
Definition col1 (M : M3) : T3 := (x3 (row1 M), x3 (row2 M), x3 (row3 M)).
Definition col2 (M : M3) : T3 := (y3 (row1 M), y3 (row2 M), y3 (row3 M)).
Definition col3 (M : M3) : T3 := (z3 (row1 M), z3 (row2 M), z3 (row3 M)).
Definition det33 (M : M3) : R := dot3 (row1 M) (cross3 (row2 M) (row3 M)).
(* cofactor matrix *)
Definition cof3 (M : M3) : M3 :=
  (cross3 (row2 M) (row3 M), cross3 (row3 M) (row1 M), cross3 (row1 M) (row2 M)).
(* M^T M = I : the columns are orthonormal *)
Definition orthogonal3 (M : M3) : Prop :=
  dot3 (col1 M) (col1 M) = 1 /\ dot3 (col2 M) (col2 M) = 1 /\ dot3 (col3 M) (col3 M) = 1 /\
  dot3 (col1 M) (col2 M) = 0 /\ dot3 (col1 M) (col3 M) = 0 /\ dot3 (col2 M) (col3 M) = 0.

Ltac m3 :=
  intros;
  repeat match goal with M : M3 |- _ => destruct M as [[[[? ?] ?] [[? ?] ?]] [[? ?] ?]] end;
  repeat match goal with v : T3 |- _ => destruct v as [[? ?] ?] end;
  cbv beta delta [orthogonal3 det33 cof3 mapply col1 col2 col3 row1 row2 row3
       cross3 dot3 add3 sub3 opp3 mul3 scale3 zero3 one3 x3 y3 z3] in *; cbn [fst snd] in *;
  try (apply (f_equal2 pair); [apply (f_equal2 pair)|]).

Lemma mapply_add : forall (M : M3) (u v : T3), mapply M (add3 u v) = add3 (mapply M u) (mapply M v).
Proof. m3; ring. Qed.
Lemma mapply_zero : forall M : M3, mapply M zero3 = zero3.
Proof. m3; ring. Qed.

(* any linear map sends cross products to the cofactor matrix applied to the cross product *)
Lemma cross3_mapply : forall (M : M3) (a b : T3),
    cross3 (mapply M a) (mapply M b) = mapply (cof3 M) (cross3 a b).
Proof. m3; ring. Qed.

(* a rotation (M^T M = I, det M = 1) is its own cofactor matrix: it commutes with cross3 *)
Lemma cross3_rotation : forall (M : M3) (a b : T3),
    orthogonal3 M -> det33 M = 1 ->
    cross3 (mapply M a) (mapply M b) = mapply M (cross3 a b).
Proof.
  m3. all: destruct H as [H1 [H2 [H3 [H4 [H5 H6]]]]]; nsatz.
Qed.

Lemma newell_mapply_cof : forall (M : M3) (L : list T3),
    newell (map (mapply M) L) = mapply (cof3 M) (newell L).
Proof.
  intros M L. unfold newell. rewrite csum_map.
  rewrite (csum_ext zero3 add3 _ (fun a b => mapply (cof3 M) (cross3 a b)) L)
    by (intros; apply cross3_mapply).
  apply (csum_hom (A := T3) zero3 add3 zero3 add3 (mapply (cof3 M))).
  - apply mapply_zero.
  - apply mapply_add.
Qed.

Lemma newell_rotation : forall (M : M3) (L : list T3),
    orthogonal3 M -> det33 M = 1 ->
    newell (map (mapply M) L) = mapply M (newell L).
Proof.
  intros M L Ho Hd. unfold newell. rewrite csum_map.
  rewrite (csum_ext zero3 add3 _ (fun a b => mapply M (cross3 a b)) L)
    by (intros; apply cross3_rotation; assumption).
  apply (csum_hom (A := T3) zero3 add3 zero3 add3 (mapply M)).
  - apply mapply_zero.
  - apply mapply_add.
Qed.

(** * Sanity checks of the sign conventions *)

Example area2_unit_square : area2 [(0, 0); (1, 0); (1, 1); (0, 1)] = 1.
Proof. unfold area2, csum, esum, cross2; simpl. field. Qed.

Example newell_unit_square_xy :
  newell [(0, 0, 0); (1, 0, 0); (1, 1, 0); (0, 1, 0)] = (0, 0, 2).
Proof. unfold newell, csum, esum; simpl. t3. Qed.
