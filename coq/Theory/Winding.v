(* Theory/Winding.v — crossing contributions and winding numbers of closed polygonal chains
   in the plane, by ray casting, without division.  Depends on the Coq standard library and
   on Theory/Cyclic.v only (no geometry model).

   Conventions (all stated for points  P2 = R * R):
   * orient a b c = (b-a) x (c-a);  > 0  iff  c lies to the LEFT of the directed line a -> b
     (a,b,c counter-clockwise).
   * the ray from q with direction d is { q + t d | t > 0 };  hgt d q v = d x (v - q) is the
     signed height of v over the ray's line ( > 0 : v to the left of the ray).
   * the directed edge a -> b meets the ray's line at the point p = q + t d with
           orient a b q = t * (hgt d q b - hgt d q a)            (lemma [orient_ray_param])
     so for an upward edge (hgt a < 0 < hgt b)  t > 0 iff orient a b q > 0  and for a
     downward edge (hgt b < 0 < hgt a)  t > 0 iff orient a b q < 0.  Hence
           crd d a b q = +1  if hgt a < 0 < hgt b  and orient a b q > 0
                         -1  if hgt b < 0 < hgt a  and orient a b q < 0
                          0  otherwise.
     An edge with an endpoint exactly on the ray's line contributes 0: statements that need
     the geometric meaning assume [generic d q L] (no vertex of L on the ray's line).
   * wn d L q = Σ crd over the edges of the closed chain L (last -> first included);
     counter-clockwise simple polygons have wn = 1 inside, 0 outside. *)
From Coq Require Import Reals Lra Lia Psatz List ZArith Bool Ring.
From G3 Require Import Theory.Cyclic.
Import ListNotations.
Local Open Scope R_scope.

Definition P2 : Type := (R * R)%type.

(* twice the signed area of the triangle a b c; > 0 iff c is left of a -> b *)
Definition orient (a b c : P2) : R :=
  (fst b - fst a) * (snd c - snd a) - (snd b - snd a) * (fst c - fst a).

(* signed height of v over the line through q with direction d:  d x (v - q) *)
Definition hgt (d q v : P2) : R :=
  fst d * (snd v - snd q) - snd d * (fst v - fst q).

(* the point a + s (b - a) of the line through a and b *)
Definition lerp (a b : P2) (s : R) : P2 :=
  (fst a + s * (fst b - fst a), snd a + s * (snd b - snd a)).

Definition rlt (x y : R) : bool := if Rlt_dec x y then true else false.

Lemma rlt_true : forall x y : R, x < y -> rlt x y = true.
Proof. intros x y H; unfold rlt; destruct (Rlt_dec x y); [reflexivity|contradiction]. Qed.
Lemma rlt_false : forall x y : R, ~ x < y -> rlt x y = false.
Proof. intros x y H; unfold rlt; destruct (Rlt_dec x y); [contradiction|reflexivity]. Qed.
Lemma rlt_spec : forall x y : R, rlt x y = true <-> x < y.
Proof. intros x y; unfold rlt; destruct (Rlt_dec x y); split; auto; discriminate. Qed.

(* crossing contribution as a function of the two heights and the orientation *)
Definition crdR (ha hb o : R) : Z :=
  if rlt ha 0 && rlt 0 hb && rlt 0 o then 1%Z
  else if rlt hb 0 && rlt 0 ha && rlt o 0 then (-1)%Z
  else 0%Z.

(* crossing contribution of the directed edge a -> b to the ray from q with direction d *)
Definition crd (d a b q : P2) : Z := crdR (hgt d q a) (hgt d q b) (orient a b q).

(* winding number of the closed chain L about q, counted along the ray q + t d *)
Definition wn (d : P2) (L : list P2) (q : P2) : Z :=
  csum 0%Z Z.add (fun a b => crd d a b q) L.

(* number of edges of the closed chain that cross the ray (what a crossing counter computes) *)
Definition xcount (d : P2) (L : list P2) (q : P2) : nat :=
  length (filter (fun e => negb (Z.eqb (crd d (fst e) (snd e) q) 0)) (edges_closed L)).

(* q strictly inside the triangle a b c (either orientation) *)
Definition inside_tri (a b c q : P2) : Prop :=
  (0 < orient a b q /\ 0 < orient b c q /\ 0 < orient c a q) \/
  (orient a b q < 0 /\ orient b c q < 0 /\ orient c a q < 0).

Definition insb (al be ga : R) : bool :=
  (rlt 0 ga && rlt 0 al && rlt 0 be) || (rlt ga 0 && rlt al 0 && rlt be 0).

Definition inside_trib (a b c q : P2) : bool :=
  insb (orient b c q) (orient c a q) (orient a b q).

(* the ray's line misses every vertex of L *)
Definition generic (d q : P2) (L : list P2) : Prop := forall v : P2, In v L -> hgt d q v <> 0.

(* q lies on none of the three edge lines of the triangle *)
Definition off_lines (a b c q : P2) : Prop :=
  orient a b q <> 0 /\ orient b c q <> 0 /\ orient c a q <> 0.

(* a branch whose comparisons already contradict each other is closed where it arises, before
   it is split further *)
Ltac rlt_cases :=
  repeat match goal with
         | |- context [Rlt_dec ?x ?y] => destruct (Rlt_dec x y); cbn [andb orb]; try (exfalso; lra)
         end.

Lemma orient_swap : forall a b c : P2, orient b a c = - orient a b c.
Proof. intros; unfold orient; ring. Qed.

Lemma orient_rot : forall a b c : P2, orient b c a = orient a b c.
Proof. intros; unfold orient; ring. Qed.

Lemma orient_self : forall a c : P2, orient a a c = 0.
Proof. intros; unfold orient; ring. Qed.

(* barycentric identity 1: the three sub-triangle areas add up to the triangle *)
Lemma orient_bary_sum : forall a b c q : P2,
    orient b c q + orient c a q + orient a b q = orient a b c.
Proof. intros; unfold orient; ring. Qed.

(* barycentric identity 2: hgt is affine and vanishes at q *)
Lemma orient_bary_hgt : forall d a b c q : P2,
    orient b c q * hgt d q a + orient c a q * hgt d q b + orient a b q * hgt d q c = 0.
Proof. intros; unfold orient, hgt; ring. Qed.

(* where the edge's line meets the ray's line: if p = q + t d lies on the line a b then
   orient a b q = t (hgt b - hgt a): the sign of orient a b q tells whether t > 0 *)
Lemma orient_ray_param : forall (d a b q : P2) (t : R),
    orient a b (fst q + t * fst d, snd q + t * snd d) = 0 ->
    orient a b q = t * (hgt d q b - hgt d q a).
Proof.
  intros d a b q t H. unfold orient, hgt in *. simpl in H.
  replace ((fst b - fst a) * (snd q - snd a) - (snd b - snd a) * (fst q - fst a))
    with (((fst b - fst a) * (snd q + t * snd d - snd a)
           - (snd b - snd a) * (fst q + t * fst d - fst a))
          + t * (fst d * (snd b - snd q) - snd d * (fst b - fst q)
                 - (fst d * (snd a - snd q) - snd d * (fst a - fst q)))) by ring.
  rewrite H. ring.
Qed.

Lemma hgt_lerp : forall (d q a b : P2) (s : R),
    hgt d q (lerp a b s) = (1 - s) * hgt d q a + s * hgt d q b.
Proof. intros; unfold hgt, lerp; simpl; ring. Qed.

Lemma orient_lerp_l : forall (a b q : P2) (s : R),
    orient a (lerp a b s) q = s * orient a b q.
Proof. intros; unfold orient, lerp; simpl; ring. Qed.

Lemma orient_lerp_r : forall (a b q : P2) (s : R),
    orient (lerp a b s) b q = (1 - s) * orient a b q.
Proof. intros; unfold orient, lerp; simpl; ring. Qed.

Lemma insb_spec : forall al be ga : R, insb al be ga = true <->
    (0 < ga /\ 0 < al /\ 0 < be) \/ (ga < 0 /\ al < 0 /\ be < 0).
Proof. intros. unfold insb. rewrite orb_true_iff, !andb_true_iff, !rlt_spec. tauto. Qed.

Lemma inside_trib_spec : forall a b c q : P2, inside_trib a b c q = true <-> inside_tri a b c q.
Proof. intros. apply insb_spec. Qed.

Lemma inside_trib_false : forall a b c q : P2, inside_trib a b c q = false <-> ~ inside_tri a b c q.
Proof.
  intros. rewrite <- inside_trib_spec. destruct (inside_trib a b c q); split; congruence.
Qed.

(* strict insideness does not depend on the order of the corners *)
Lemma inside_tri_rot : forall a b c q : P2, inside_tri b c a q <-> inside_tri a b c q.
Proof. intros; unfold inside_tri; tauto. Qed.

Lemma inside_tri_swap : forall a b c q : P2, inside_tri a c b q <-> inside_tri a b c q.
Proof.
  intros; unfold inside_tri.
  rewrite (orient_swap c a q), (orient_swap b c q), (orient_swap a b q). split; intros [H|H]; [right|left|right|left]; lra.
Qed.

Lemma inside_tri_nondeg : forall a b c q : P2, inside_tri a b c q -> orient a b c <> 0.
Proof. intros a b c q H. pose proof (orient_bary_sum a b c q). destruct H; lra. Qed.

Lemma generic_incl : forall (d q : P2) (L L' : list P2),
    (forall v, In v L' -> In v L) -> generic d q L -> generic d q L'.
Proof. unfold generic; auto. Qed.

Lemma generic_dir_nonzero : forall (d q v : P2) (L : list P2),
    In v L -> generic d q L -> d <> (0, 0).
Proof.
  intros d q v L Hin Hg Hd. apply (Hg v Hin). subst d. unfold hgt; simpl; ring.
Qed.

Lemma crdR_range : forall ha hb o : R,
    crdR ha hb o = 1%Z \/ crdR ha hb o = (-1)%Z \/ crdR ha hb o = 0%Z.
Proof. intros; unfold crdR. repeat (match goal with |- context [if ?c then _ else _] => destruct c end); auto. Qed.

Lemma crdR_antisym : forall ha hb o : R, crdR ha hb o = (- crdR hb ha (- o))%Z.
Proof. intros. unfold crdR, rlt. rlt_cases; try reflexivity; exfalso; lra. Qed.

Lemma crd_antisym : forall d a b q : P2, crd d a b q = (- crd d b a q)%Z.
Proof. intros; unfold crd. rewrite (orient_swap a b q). apply crdR_antisym. Qed.

Lemma crd_self : forall d a q : P2, crd d a a q = 0%Z.
Proof. intros; unfold crd, crdR, rlt. rlt_cases; try reflexivity; exfalso; lra. Qed.

Lemma crd_range : forall d a b q : P2,
    crd d a b q = 1%Z \/ crd d a b q = (-1)%Z \/ crd d a b q = 0%Z.
Proof. intros; apply crdR_range. Qed.

(* the value by the signs of the two heights: only an edge that crosses the ray's line
   looks at the orientation *)
Lemma crdR_up : forall ha hb o : R, ha < 0 -> 0 < hb ->
    crdR ha hb o = if rlt 0 o then 1%Z else 0%Z.
Proof.
  intros ha hb o A B. unfold crdR.
  rewrite (rlt_true ha 0 A), (rlt_true 0 hb B), (rlt_false hb 0) by lra.
  destruct (rlt 0 o); reflexivity.
Qed.

Lemma crdR_down : forall ha hb o : R, 0 < ha -> hb < 0 ->
    crdR ha hb o = if rlt o 0 then (-1)%Z else 0%Z.
Proof.
  intros ha hb o A B. unfold crdR.
  rewrite (rlt_true hb 0 B), (rlt_true 0 ha A), (rlt_false ha 0) by lra.
  reflexivity.
Qed.

Lemma crdR_below : forall ha hb o : R, ha < 0 -> hb < 0 -> crdR ha hb o = 0%Z.
Proof.
  intros ha hb o A B. unfold crdR.
  rewrite (rlt_false 0 hb), (rlt_false 0 ha), !andb_false_r by lra. reflexivity.
Qed.

Lemma crdR_above : forall ha hb o : R, 0 < ha -> 0 < hb -> crdR ha hb o = 0%Z.
Proof.
  intros ha hb o A B. unfold crdR.
  rewrite (rlt_false ha 0), (rlt_false hb 0) by lra. reflexivity.
Qed.

(* an edge with an endpoint on the ray's line contributes nothing *)
Lemma crd_on_line_l : forall d a b q : P2, hgt d q a = 0 -> crd d a b q = 0%Z.
Proof. intros d a b q H; unfold crd, crdR, rlt. rewrite H. rlt_cases; try reflexivity; exfalso; lra. Qed.
Lemma crd_on_line_r : forall d a b q : P2, hgt d q b = 0 -> crd d a b q = 0%Z.
Proof. intros d a b q H; unfold crd, crdR, rlt. rewrite H. rlt_cases; try reflexivity; exfalso; lra. Qed.

(** * Subdividing an edge *)

Lemma crdR_scale : forall ha hb o k : R, 0 < k -> crdR ha hb (k * o) = crdR ha hb o.
Proof.
  intros ha hb o k Hk. unfold crdR, rlt.
  destruct (Rlt_dec 0 (k * o)), (Rlt_dec 0 o), (Rlt_dec (k * o) 0), (Rlt_dec o 0);
    try reflexivity; exfalso; nra.
Qed.

Lemma crdR_split : forall ha hb o s : R, 0 < s < 1 -> (1 - s) * ha + s * hb <> 0 ->
    (crdR ha ((1 - s) * ha + s * hb) (s * o) + crdR ((1 - s) * ha + s * hb) hb ((1 - s) * o)
     = crdR ha hb o)%Z.
Proof.
  intros ha hb o s Hs Hm. rewrite !crdR_scale by lra.
  assert (B : ha <= (1 - s) * ha + s * hb <= hb \/ hb <= (1 - s) * ha + s * hb <= ha) by nra.
  revert Hm B. generalize ((1 - s) * ha + s * hb). intros m Hm B.
  unfold crdR, rlt. rlt_cases; reflexivity.
Qed.

(* splitting the edge a -> b at an interior point m (not on the ray's line) preserves the
   total contribution *)
Lemma crd_split : forall (d a b q m : P2) (s : R),
    0 < s < 1 -> m = lerp a b s -> hgt d q m <> 0 ->
    (crd d a m q + crd d m b q = crd d a b q)%Z.
Proof.
  intros d a b q m s Hs Hm Hg. subst m. unfold crd.
  rewrite hgt_lerp in *. rewrite orient_lerp_l, orient_lerp_r.
  apply crdR_split; assumption.
Qed.

Lemma crd_split_l : forall d a b q : P2, (crd d a a q + crd d a b q = crd d a b q)%Z.
Proof. intros; rewrite crd_self; lia. Qed.
Lemma crd_split_r : forall d a b q : P2, (crd d a b q + crd d b b q = crd d a b q)%Z.
Proof. intros; rewrite crd_self; lia. Qed.

Lemma crd_split_closed : forall (d a b q m : P2) (s : R),
    0 <= s <= 1 -> m = lerp a b s -> hgt d q m <> 0 ->
    (crd d a m q + crd d m b q = crd d a b q)%Z.
Proof.
  intros d a b q m s [[H0|H0] [H1|H1]] Hm Hg.
  - eapply crd_split; eauto.
  - assert (m = b) by (subst m s; unfold lerp; destruct b; simpl; f_equal; ring).
    subst m. rewrite H. apply crd_split_r.
  - assert (m = a) by (subst m; rewrite <- H0; unfold lerp; destruct a; simpl; f_equal; ring).
    rewrite H. apply crd_split_l.
  - lra.
Qed.

Lemma wn_nil : forall d q : P2, wn d [] q = 0%Z.
Proof. reflexivity. Qed.

Lemma wn_tri_unfold : forall d a b c q : P2,
    wn d [a; b; c] q = (crd d a b q + (crd d b c q + (crd d c a q + 0)))%Z.
Proof. reflexivity. Qed.

Lemma wn_single : forall d a q : P2, wn d [a] q = 0%Z.
Proof. intros; unfold wn, csum; simpl. rewrite crd_self; reflexivity. Qed.

Lemma wn_pair : forall d a b q : P2, wn d [a; b] q = 0%Z.
Proof. intros; unfold wn, csum; simpl. rewrite (crd_antisym d a b q); lia. Qed.

Local Notation crdf d q := (fun a b : P2 => crd d a b q).

Lemma crdf_anti : forall (d q : P2) (a b : P2), crdf d q a b = Z.opp (crdf d q b a).
Proof. intros; apply crd_antisym. Qed.
Lemma crdf_self : forall (d q : P2) (a : P2), crdf d q a a = 0%Z.
Proof. intros; apply crd_self. Qed.

(* (a - q) . (b - q) *)
Definition dot2d (a b q : P2) : R :=
  (fst a - fst q) * (fst b - fst q) + (snd a - snd q) * (snd b - snd q).

(* q is not on the closed segment [a,b]: if it is on the line, a and b are strictly on the
   same side of it (division-free; for a = b it says q <> a) *)
Definition off_seg (a b q : P2) : Prop := orient a b q = 0 -> 0 < dot2d a b q.

Definition off_segs (a b c q : P2) : Prop := off_seg a b q /\ off_seg b c q /\ off_seg c a q.

(* q lies on no edge of the closed chain L *)
Definition off_edges (L : list P2) (q : P2) : Prop :=
  forall a b : P2, In (a, b) (edges_closed L) -> off_seg a b q.

Lemma off_lines_off_segs : forall a b c q : P2, off_lines a b c q -> off_segs a b c q.
Proof. intros a b c q [H1 [H2 H3]]; repeat split; intros H; contradiction. Qed.

(* soundness of the predicate: the points of the closed segment are not off it *)
Lemma lerp_not_off_seg : forall (a b : P2) (s : R), 0 <= s <= 1 -> ~ off_seg a b (lerp a b s).
Proof.
  intros a b s Hs H.
  assert (Ho : orient a b (lerp a b s) = 0) by (unfold orient, lerp; simpl; ring).
  specialize (H Ho).
  assert (Hd : dot2d a b (lerp a b s)
               = - (s * (1 - s)) * ((fst b - fst a) * (fst b - fst a) + (snd b - snd a) * (snd b - snd a)))
    by (unfold dot2d, lerp; simpl; ring).
  rewrite Hd in H.
  set (N := (fst b - fst a) * (fst b - fst a) + (snd b - snd a) * (snd b - snd a)) in *.
  assert (H1 : 0 <= s * (1 - s)) by (apply Rmult_le_pos; lra).
  assert (H2 : 0 <= N).
  { pose proof (Rle_0_sqr (fst b - fst a)). pose proof (Rle_0_sqr (snd b - snd a)).
    unfold Rsqr in *. unfold N. lra. }
  assert (H3 : 0 <= s * (1 - s) * N) by (apply Rmult_le_pos; assumption).
  replace (- (s * (1 - s)) * N) with (- (s * (1 - s) * N)) in H by ring.
  lra.
Qed.

(* completeness: a point that is not on the closed segment is off it *)
Lemma off_seg_of_not_lerp : forall a b q : P2,
    (forall s : R, 0 <= s <= 1 -> q <> lerp a b s) -> off_seg a b q.
Proof.
  intros a b q H Ho.
  destruct (Rlt_dec 0 (dot2d a b q)) as [|Hn]; [assumption|exfalso].
  remember (fst b - fst a) as ux. remember (snd b - snd a) as uy.
  remember (fst q - fst a) as rx. remember (snd q - snd a) as ry.
  assert (Hg : ux * ry - uy * rx = 0) by (subst; unfold orient in Ho; lra).
  assert (Hd : dot2d a b q = rx * rx + ry * ry - (rx * ux + ry * uy))
    by (subst; unfold dot2d; ring).
  rewrite Hd in Hn.
  set (N := ux * ux + uy * uy).
  assert (HN0 : 0 <= N) by (unfold N; nra).
  destruct (Req_dec N 0) as [HN|HN].
  - assert (Hx : ux = 0) by (unfold N in HN; nra).
    assert (Hy : uy = 0) by (unfold N in HN; nra).
    rewrite Hx, Hy in Hn.
    assert (Hrx : rx = 0) by nra. assert (Hry : ry = 0) by nra.
    apply (H 0); [lra|]. unfold lerp. destruct q as [qx qy]; simpl in *. f_equal; lra.
  - set (ru := rx * ux + ry * uy) in *.
    set (s := ru / N).
    assert (E1 : rx = s * ux).
    { assert (E : rx * N - ru * ux = - uy * (ux * ry - uy * rx)) by (unfold N, ru; ring).
      rewrite Hg in E. unfold s. field_simplify_eq; [lra|exact HN]. }
    assert (E2 : ry = s * uy).
    { assert (E : ry * N - ru * uy = ux * (ux * ry - uy * rx)) by (unfold N, ru; ring).
      rewrite Hg in E. unfold s. field_simplify_eq; [lra|exact HN]. }
    assert (Hs : ru = s * N) by (unfold s; field; exact HN).
    assert (Hq : rx * rx + ry * ry - ru = - (s * (1 - s) * N)).
    { rewrite Hs, E1, E2. unfold N. ring. }
    rewrite Hq in Hn.
    assert (HNp : 0 < N) by lra.
    assert (Hs01 : 0 <= s * (1 - s)).
    { destruct (Rle_dec 0 (s * (1 - s))) as [|Hneg]; [assumption|exfalso].
      assert (s * (1 - s) < 0) by lra.
      assert (Hp : 0 < (- (s * (1 - s))) * N) by (apply Rmult_lt_0_compat; lra).
      replace (- (s * (1 - s)) * N) with (- (s * (1 - s) * N)) in Hp by ring.
      lra. }
    apply (H s); [nra|].
    unfold lerp. destruct q as [qx qy]; simpl in *. rewrite <- Hequx, <- Hequy. f_equal; lra.
Qed.

Lemma off_seg_sym : forall a b q : P2, off_seg a b q -> off_seg b a q.
Proof.
  intros a b q H Ho. rewrite orient_swap in Ho.
  replace (dot2d b a q) with (dot2d a b q) by (unfold dot2d; ring). apply H; lra.
Qed.

Lemma off_seg_vertex : forall a b : P2, ~ off_seg a b a.
Proof.
  intros a b H. assert (Ho : orient a b a = 0) by (unfold orient; ring).
  specialize (H Ho). unfold dot2d in H. nra.
Qed.

Lemma seg_identity : forall a b c q : P2,
  let ux := fst b - fst a in let uy := snd b - snd a in
  let wx := fst c - fst a in let wy := snd c - snd a in
  let rx := fst q - fst a in let ry := snd q - snd a in
  let N := ux * ux + uy * uy in let ru := rx * ux + ry * uy in let uw := ux * wx + uy * wy in
  let De := orient a b c in let ga := orient a b q in
  N * (orient b c q * orient c a q * N + De * De * dot2d a b q)
  = ga * (- N * De * uw + 2 * ru * uw * De - N * ru * De - ga * uw * uw + ga * N * uw + De * De * ga).
Proof.
  intros. unfold N, ru, uw, De, ga, ux, uy, wx, wy, rx, ry, orient, dot2d. ring.
Qed.

(* q on the line of the edge a b of a proper triangle but outside the closed edge: the
   other two barycentric coordinates have opposite signs *)
Lemma off_seg_sign : forall a b c q : P2,
    orient a b c <> 0 -> orient a b q = 0 -> 0 < dot2d a b q ->
    orient b c q * orient c a q < 0.
Proof.
  intros a b c q Hd Hg HD.
  pose proof (seg_identity a b c q) as Hid. cbv zeta in Hid. rewrite Hg in Hid.
  set (N := (fst b - fst a) * (fst b - fst a) + (snd b - snd a) * (snd b - snd a)) in *.
  assert (HN : 0 < N).
  { destruct (Req_dec (fst b - fst a) 0) as [Hx|Hx]; destruct (Req_dec (snd b - snd a) 0) as [Hy|Hy];
      unfold N; try nra.
    exfalso; apply Hd. unfold orient. rewrite Hx, Hy. ring. }
  set (De := orient a b c) in *. set (D := dot2d a b q) in *.
  set (al := orient b c q) in *. set (be := orient c a q) in *.
  assert (H0 : al * be * N + De * De * D = 0).
  { apply (Rmult_eq_reg_l N); [|lra]. rewrite Hid. ring. }
  assert (H1 : 0 < De * De) by nra.
  assert (H2 : 0 < De * De * D) by (apply Rmult_lt_0_compat; assumption).
  assert (H3 : al * be * N < 0) by lra.
  destruct (Rlt_dec (al * be) 0) as [|Hn]; [assumption|].
  exfalso. assert (0 <= al * be * N) by (apply Rmult_le_pos; lra). lra.
Qed.

Ltac crdR_by_heights :=
  repeat first [rewrite crdR_up by assumption | rewrite crdR_down by assumption
               | rewrite crdR_below by assumption | rewrite crdR_above by assumption].

(* al, be, ga are the barycentric coordinates of q (times the area), ha, hb, hc the heights
   of the corners.  Once the signs of the heights are fixed each contribution is a test on
   one coordinate, and the linear relation decides the few cases that remain. *)
Lemma crdR_tri_nz : forall ha hb hc al be ga : R,
    ha <> 0 -> hb <> 0 -> hc <> 0 -> al <> 0 -> be <> 0 -> ga <> 0 ->
    al * ha + be * hb + ga * hc = 0 ->
    (crdR ha hb ga + (crdR hb hc al + (crdR hc ha be + 0))
     = if insb al be ga then (if rlt 0 (al + be + ga) then 1 else -1) else 0)%Z.
Proof.
  intros ha hb hc al be ga Ha Hb Hc Hal Hbe Hga Hh.
  destruct (insb al be ga) eqn:E;
    [apply insb_spec in E | rewrite <- not_true_iff_false, insb_spec in E].
  all: destruct (Rdichotomy _ _ Ha) as [A|A], (Rdichotomy _ _ Hb) as [B|B],
           (Rdichotomy _ _ Hc) as [C|C]; crdR_by_heights; unfold rlt; clear Ha Hb Hc.
  all: rlt_cases; try reflexivity; exfalso; nra.
Qed.

(* q on the line of the edge a b, outside the edge: a and b lie on the same side of the ray's
   line, and c either with them or across, where the two crossings cancel *)
Lemma crdR_tri_edge : forall ha hb hc al be : R,
    ha <> 0 -> hb <> 0 -> hc <> 0 -> al * be < 0 -> al * ha + be * hb = 0 ->
    (crdR ha hb 0 + (crdR hb hc al + (crdR hc ha be + 0)) = 0)%Z.
Proof.
  intros ha hb hc al be Ha Hb Hc Hab Hh.
  destruct (Rdichotomy _ _ Ha) as [A|A], (Rdichotomy _ _ Hb) as [B|B],
           (Rdichotomy _ _ Hc) as [C|C]; crdR_by_heights; unfold rlt; clear Ha Hb Hc.
  all: rlt_cases; try reflexivity; exfalso; nra.
Qed.

Lemma insb_zero : forall al be ga : R, al = 0 \/ be = 0 \/ ga = 0 -> insb al be ga = false.
Proof.
  intros al be ga H. unfold insb.
  destruct H as [-> | [-> | ->]]; rewrite !(rlt_false 0 0), ?andb_false_r by lra; reflexivity.
Qed.

(* the hypotheses on a vanishing coordinate come with the conditions to [crdR_tri_edge] for the
   corresponding edge, the other two by rotation *)
Lemma crdR_tri_gen : forall ha hb hc al be ga : R,
    ha <> 0 -> hb <> 0 -> hc <> 0 ->
    al + be + ga <> 0 -> al * ha + be * hb + ga * hc = 0 ->
    (ga = 0 -> al * be < 0) -> (al = 0 -> be * ga < 0) -> (be = 0 -> ga * al < 0) ->
    (crdR ha hb ga + (crdR hb hc al + (crdR hc ha be + 0))
     = if insb al be ga then (if rlt 0 (al + be + ga) then 1 else -1) else 0)%Z.
Proof.
  intros ha hb hc al be ga Ha Hb Hc _ Hh Hga Hal Hbe.
  destruct (Req_dec ga 0) as [Zg|Zg]; [|destruct (Req_dec al 0) as [Za|Za];
                                         [|destruct (Req_dec be 0) as [Zb|Zb]]].
  - rewrite insb_zero by tauto. subst ga. apply crdR_tri_edge; auto; lra.
  - rewrite insb_zero by tauto. subst al.
    pose proof (crdR_tri_edge hb hc ha be ga Hb Hc Ha (Hal eq_refl) ltac:(lra)). lia.
  - rewrite insb_zero by tauto. subst be.
    pose proof (crdR_tri_edge hc ha hb ga al Hc Ha Hb (Hbe eq_refl) ltac:(lra)). lia.
  - apply crdR_tri_nz; assumption.
Qed.

Lemma crdR_tri_pos : forall ha hb hc al be ga : R,
    ha <> 0 -> hb <> 0 -> hc <> 0 -> al <> 0 -> be <> 0 -> ga <> 0 ->
    0 < al + be + ga -> al * ha + be * hb + ga * hc = 0 ->
    (crdR ha hb ga + (crdR hb hc al + (crdR hc ha be + 0)) = if insb al be ga then 1 else 0)%Z.
Proof.
  intros. rewrite crdR_tri_nz, rlt_true by assumption. reflexivity.
Qed.

Lemma crdR_tri_neg : forall ha hb hc al be ga : R,
    ha <> 0 -> hb <> 0 -> hc <> 0 -> al <> 0 -> be <> 0 -> ga <> 0 ->
    al + be + ga < 0 -> al * ha + be * hb + ga * hc = 0 ->
    (crdR ha hb ga + (crdR hb hc al + (crdR hc ha be + 0)) = if insb al be ga then -1 else 0)%Z.
Proof.
  intros. rewrite crdR_tri_nz, rlt_false by (assumption || lra). reflexivity.
Qed.

Lemma crdR_tri_zero : forall ha hb hc al be ga : R,
    ha <> 0 -> hb <> 0 -> hc <> 0 ->
    al + be + ga = 0 -> al * ha + be * hb + ga * hc = 0 ->
    (crdR ha hb ga + (crdR hb hc al + (crdR hc ha be + 0)) = 0)%Z.
Proof.
  intros ha hb hc al be ga Ha Hb Hc Hd Hh.
  destruct (Rdichotomy _ _ Ha) as [A|A], (Rdichotomy _ _ Hb) as [B|B],
           (Rdichotomy _ _ Hc) as [C|C]; crdR_by_heights; unfold rlt.
  all: rlt_cases; try reflexivity; exfalso; nra.
Qed.

(* counter-clockwise triangle, generic ray, q off the three edge lines:
   the winding number is 1 if q is strictly inside and 0 otherwise — for EVERY direction d *)
Lemma wn_triangle : forall d a b c q : P2,
    0 < orient a b c -> generic d q [a; b; c] -> off_lines a b c q ->
    wn d [a; b; c] q = if inside_trib a b c q then 1%Z else 0%Z.
Proof.
  intros d a b c q Ho Hg [H1 [H2 H3]]. rewrite wn_tri_unfold. unfold crd, inside_trib.
  apply crdR_tri_pos; try assumption; try (apply Hg; simpl; tauto).
  - rewrite orient_bary_sum; exact Ho.
  - apply orient_bary_hgt.
Qed.

Lemma wn_triangle_neg : forall d a b c q : P2,
    orient a b c < 0 -> generic d q [a; b; c] -> off_lines a b c q ->
    wn d [a; b; c] q = if inside_trib a b c q then (-1)%Z else 0%Z.
Proof.
  intros d a b c q Ho Hg [H1 [H2 H3]]. rewrite wn_tri_unfold. unfold crd, inside_trib.
  apply crdR_tri_neg; try assumption; try (apply Hg; simpl; tauto).
  - rewrite orient_bary_sum; exact Ho.
  - apply orient_bary_hgt.
Qed.

Lemma wn_triangle_degenerate : forall d a b c q : P2,
    orient a b c = 0 -> generic d q [a; b; c] -> wn d [a; b; c] q = 0%Z.
Proof.
  intros d a b c q Ho Hg. rewrite wn_tri_unfold. unfold crd.
  apply crdR_tri_zero; try (apply Hg; simpl; tauto).
  - rewrite orient_bary_sum; exact Ho.
  - apply orient_bary_hgt.
Qed.

(* closed form, free of the ray: the index of q with respect to the triangle a b c *)
Definition tri_index (a b c q : P2) : Z :=
  if inside_trib a b c q then (if rlt 0 (orient a b c) then 1%Z else (-1)%Z) else 0%Z.

(* the winding number of a triangle is its index for every generic ray, as soon as q is not
   on the boundary of the triangle (it may lie on the extension of an edge) *)
Lemma wn_triangle_index_seg : forall d a b c q : P2,
    generic d q [a; b; c] -> (orient a b c <> 0 -> off_segs a b c q) ->
    wn d [a; b; c] q = tri_index a b c q.
Proof.
  intros d a b c q Hg Hoff.
  destruct (Req_dec (orient a b c) 0) as [Ho|Ho].
  - rewrite wn_triangle_degenerate by assumption. unfold tri_index.
    destruct (inside_trib a b c q) eqn:E; [|reflexivity].
    apply inside_trib_spec, inside_tri_nondeg in E. contradiction.
  - destruct (Hoff Ho) as [S1 [S2 S3]].
    rewrite wn_tri_unfold. unfold crd, tri_index, inside_trib.
    rewrite <- (orient_bary_sum a b c q).
    apply crdR_tri_gen; try (apply Hg; simpl; tauto).
    + rewrite orient_bary_sum; exact Ho.
    + apply orient_bary_hgt.
    + intros H. apply (off_seg_sign a b c q Ho H (S1 H)).
    + intros H. assert (Ho' : orient b c a <> 0) by (rewrite orient_rot; exact Ho).
      apply (off_seg_sign b c a q Ho' H (S2 H)).
    + intros H. assert (Ho' : orient c a b <> 0) by (do 2 rewrite orient_rot; exact Ho).
      apply (off_seg_sign c a b q Ho' H (S3 H)).
Qed.

Lemma wn_triangle_index : forall d a b c q : P2,
    generic d q [a; b; c] -> (orient a b c <> 0 -> off_lines a b c q) ->
    wn d [a; b; c] q = tri_index a b c q.
Proof.
  intros d a b c q Hg Hoff. apply wn_triangle_index_seg; [exact Hg|].
  intros Ho. apply off_lines_off_segs, Hoff, Ho.
Qed.

Lemma wn_tri_ray_independent : forall d d' a b c q : P2,
    generic d q [a; b; c] -> generic d' q [a; b; c] ->
    (orient a b c <> 0 -> off_lines a b c q) ->
    wn d [a; b; c] q = wn d' [a; b; c] q.
Proof. intros. rewrite !wn_triangle_index by assumption. reflexivity. Qed.

Lemma wn_rotate : forall (d q : P2) (L : list P2), wn d (rotl L) q = wn d L q.
Proof. intros; unfold wn. apply (csum_rotl InitialRing.Zth). Qed.

Lemma wn_rot_app : forall (d q : P2) (l1 l2 : list P2), wn d (l1 ++ l2) q = wn d (l2 ++ l1) q.
Proof. intros; unfold wn. apply (csum_rot_app InitialRing.Zth). Qed.

Lemma wn_rev : forall (d q : P2) (L : list P2), wn d (rev L) q = (- wn d L q)%Z.
Proof. intros; unfold wn. apply (csum_rev InitialRing.Zth _ (crdf_anti d q)). Qed.

Lemma wn_ear : forall (d q v0 v1 v2 : P2) (rest : list P2),
    wn d (v0 :: v1 :: v2 :: rest) q = (wn d (v0 :: v2 :: rest) q + wn d [v0; v1; v2] q)%Z.
Proof. intros; unfold wn. apply (csum_ear InitialRing.Zth _ (crdf_anti d q)). Qed.

Lemma wn_remove : forall (d q : P2) (pre post : list P2) (v : P2),
    wn d (pre ++ v :: post) q
    = (wn d (pre ++ post) q + wn d [last (post ++ pre) v; v; hd v (post ++ pre)] q)%Z.
Proof. intros; unfold wn. apply (csum_remove InitialRing.Zth _ (crdf_anti d q) (crdf_self d q)). Qed.

Lemma wn_remove_at : forall (d q dflt : P2) (L : list P2) (i : nat), (i < length L)%nat ->
    wn d L q = (wn d (remove_at i L) q
                + wn d [cprev dflt L i; nth i L dflt; cnext dflt L i] q)%Z.
Proof.
  intros; unfold wn.
  apply (csum_remove_at InitialRing.Zth _ (crdf_anti d q) (crdf_self d q)); assumption.
Qed.

Lemma wn_fan : forall (d q v0 : P2) (vs : list P2),
    wn d (v0 :: vs) q = esum 0%Z Z.add (fun u w => wn d [v0; u; w] q) (edges_open vs).
Proof.
  intros; unfold wn.
  apply (csum_fan InitialRing.Zth _ (crdf_anti d q) (crdf_self d q)).
Qed.

Lemma wn_fan_index : forall (d q v0 : P2) (vs : list P2),
    generic d q (v0 :: vs) ->
    (forall u w : P2, In (u, w) (edges_open vs) -> orient v0 u w <> 0 -> off_lines v0 u w q) ->
    wn d (v0 :: vs) q = esum 0%Z Z.add (fun u w => tri_index v0 u w q) (edges_open vs).
Proof.
  intros d q v0 vs Hg Hoff. rewrite wn_fan.
  apply esum_ext_in. intros u w Hin.
  destruct (edges_open_In _ _ _ Hin) as [Hu Hw].
  apply wn_triangle_index.
  - intros v [Hv|[Hv|[Hv|[]]]]; subst; apply Hg; simpl; auto.
  - apply Hoff; exact Hin.
Qed.

(* two generic rays from q count the same winding number, provided q is off the lines
   carrying the edges of the non-degenerate fan triangles (v0, v_i, v_i+1) *)
Lemma wn_ray_independent : forall (d d' q v0 : P2) (vs : list P2),
    generic d q (v0 :: vs) -> generic d' q (v0 :: vs) ->
    (forall u w : P2, In (u, w) (edges_open vs) -> orient v0 u w <> 0 -> off_lines v0 u w q) ->
    wn d (v0 :: vs) q = wn d' (v0 :: vs) q.
Proof.
  intros d d' q v0 vs Hg Hg' Hoff. rewrite !wn_fan.
  apply esum_ext_in. intros u w Hin.
  destruct (edges_open_In _ _ _ Hin) as [Hu Hw].
  assert (Hsub : forall v, In v [v0; u; w] -> In v (v0 :: vs)).
  { intros v [Hv|[Hv|[Hv|[]]]]; subst; simpl; auto. }
  apply wn_tri_ray_independent.
  - exact (generic_incl _ _ _ _ Hsub Hg).
  - exact (generic_incl _ _ _ _ Hsub Hg').
  - apply Hoff; exact Hin.
Qed.

(* cone decomposition from an arbitrary apex p *)
Lemma wn_cone : forall (d q p : P2) (L : list P2),
    wn d L q = esum 0%Z Z.add (fun a b => wn d [p; a; b] q) (edges_closed L).
Proof.
  intros; unfold wn. apply (csum_cone InitialRing.Zth _ (crdf_anti d q)).
Qed.

Lemma wn_cone_index : forall (d q p : P2) (L : list P2),
    generic d q (p :: L) ->
    (forall a b : P2, In (a, b) (edges_closed L) -> orient p a b <> 0 -> off_segs p a b q) ->
    wn d L q = esum 0%Z Z.add (fun a b => tri_index p a b q) (edges_closed L).
Proof.
  intros d q p L Hg Hoff. rewrite (wn_cone d q p).
  apply esum_ext_in. intros a b Hin.
  destruct (edges_closed_In _ _ _ Hin) as [Ha Hb].
  apply wn_triangle_index_seg.
  - intros v [Hv|[Hv|[Hv|[]]]]; subst; apply Hg; simpl; auto.
  - apply Hoff; exact Hin.
Qed.

(* finitely many non-zero vectors: some direction (1,t) is parallel to none of them *)
Lemma avoid_directions : forall ws : list P2,
    (forall w, In w ws -> w <> (0, 0)) ->
    exists t0 : R, forall t : R, t0 < t -> forall w, In w ws -> snd w - t * fst w <> 0.
Proof.
  induction ws as [|w ws IH]; intros Hnz.
  - exists 0. intros t _ w [].
  - destruct IH as [t0 Ht0]; [intros; apply Hnz; now right|].
    destruct (Req_dec (fst w) 0) as [Hx|Hx].
    + exists t0. intros t Ht w' [Hw|Hw]; [subst w'|apply Ht0; assumption].
      rewrite Hx, Rmult_0_r, Rminus_0_r. intros Hy.
      apply (Hnz w (or_introl eq_refl)). destruct w; simpl in *; subst; reflexivity.
    + exists (Rmax t0 (snd w / fst w)). intros t Ht w' [Hw|Hw].
      * subst w'. intros H.
        assert (Ht' : snd w / fst w < t) by (eapply Rle_lt_trans; [apply Rmax_r|exact Ht]).
        assert (t = snd w / fst w) by (field_simplify_eq; [lra|exact Hx]). lra.
      * apply Ht0; [|assumption]. eapply Rle_lt_trans; [apply Rmax_l|exact Ht].
Qed.

(* MAIN: two generic rays from a point q that lies on no (closed) edge of the chain count
   the same winding number.  No condition on diagonals, no Jordan curve theorem. *)
Lemma wn_ray_independent_strong : forall (d d' q : P2) (L : list P2),
    generic d q L -> generic d' q L -> off_edges L q ->
    wn d L q = wn d' L q.
Proof.
  intros d d' q L Hg Hg' Hoff.
  destruct L as [|v0 L0]; [reflexivity|]. set (L := v0 :: L0) in *.
  assert (Hd : d <> (0, 0)) by (apply (generic_dir_nonzero d q v0 L); [now left|assumption]).
  assert (Hd' : d' <> (0, 0)) by (apply (generic_dir_nonzero d' q v0 L); [now left|assumption]).
  assert (Hvq : forall a, In a L -> (fst a - fst q, snd a - snd q) <> (0, 0)).
  { intros a Ha Heq. destruct (edges_closed_In_src _ _ Ha) as [b Hb].
    apply (off_seg_vertex a b).
    assert (q = a) by (inversion Heq; destruct q, a; simpl in *; f_equal; lra).
    subst q. apply Hoff; exact Hb. }
  destruct (avoid_directions (d :: d' :: map (fun a => (fst a - fst q, snd a - snd q)) L))
    as [t0 Ht0].
  { intros w [Hw|[Hw|Hw]]; [subst; assumption|subst; assumption|].
    apply in_map_iff in Hw. destruct Hw as [a [Ha Hin]]. subst w. apply Hvq; exact Hin. }
  specialize (Ht0 (t0 + 1) ltac:(lra)). set (t := t0 + 1) in *.
  set (p := (fst q + 1, snd q + t)).
  assert (Hp : forall dd, In dd [d; d'] -> hgt dd q p <> 0).
  { intros dd Hdd. assert (Hin : In dd (d :: d' :: map (fun a => (fst a - fst q, snd a - snd q)) L))
      by (destruct Hdd as [H|[H|[]]]; subst; simpl; auto).
    pose proof (Ht0 dd Hin) as H. unfold hgt, p; simpl. intros H'. apply H. lra. }
  assert (Hpa : forall a, In a L -> orient p a q <> 0 /\ orient a p q <> 0).
  { intros a Ha.
    assert (Hin : In (fst a - fst q, snd a - snd q)
                     (d :: d' :: map (fun a => (fst a - fst q, snd a - snd q)) L))
      by (right; right; apply in_map_iff; exists a; auto).
    pose proof (Ht0 _ Hin) as H. simpl in H.
    assert (E : orient p a q = snd a - snd q - t * (fst a - fst q))
      by (unfold orient, p; simpl; ring).
    split; [rewrite E; exact H| rewrite orient_swap, E; lra]. }
  assert (Hcone : forall dd, In dd [d; d'] -> generic dd q L ->
            wn dd L q = esum 0%Z Z.add (fun a b => tri_index p a b q) (edges_closed L)).
  { intros dd Hdd Hgd. apply wn_cone_index.
    - intros v [Hv|Hv]; [subst v; apply Hp; exact Hdd| apply Hgd; exact Hv].
    - intros a b Hin _. destruct (edges_closed_In _ _ _ Hin) as [Ha Hb].
      repeat split.
      + intros H; exfalso; apply (proj1 (Hpa a Ha)); exact H.
      + apply Hoff; exact Hin.
      + intros H; exfalso; apply (proj2 (Hpa b Hb)); exact H. }
  rewrite (Hcone d), (Hcone d'); simpl; auto.
Qed.

Lemma wn_sum_triangles : forall (d q : P2) (L : list P2) (Ts : list (P2 * P2 * P2)),
    ear_decomp L Ts ->
    wn d L q = tsum 0%Z Z.add (fun a b c => wn d [a; b; c] q) Ts.
Proof.
  intros; unfold wn.
  apply (csum_ear_decomp InitialRing.Zth _ (crdf_anti d q) (crdf_self d q)); assumption.
Qed.

(* number of triangles of the list that contain q strictly *)
Definition count_inside (Ts : list (P2 * P2 * P2)) (q : P2) : nat :=
  length (filter (fun t => inside_trib (fst (fst t)) (snd (fst t)) (snd t) q) Ts).

Lemma count_inside_cons : forall (a b c : P2) (Ts : list (P2 * P2 * P2)) (q : P2),
    count_inside ((a, b, c) :: Ts) q
    = ((if inside_trib a b c q then 1 else 0) + count_inside Ts q)%nat.
Proof. intros; unfold count_inside; simpl. destruct (inside_trib a b c q); reflexivity. Qed.

Lemma count_inside_app : forall (T1 T2 : list (P2 * P2 * P2)) (q : P2),
    count_inside (T1 ++ T2) q = (count_inside T1 q + count_inside T2 q)%nat.
Proof. intros; unfold count_inside. rewrite filter_app, app_length; reflexivity. Qed.

(* all ears counter-clockwise, generic ray, q off all their edge lines:
   the winding number counts the ears containing q *)
Lemma tiling_of_positive_ears : forall (d q : P2) (L : list P2) (Ts : list (P2 * P2 * P2)),
    ear_decomp L Ts -> generic d q L ->
    (forall a b c : P2, In (a, b, c) Ts -> 0 < orient a b c /\ off_lines a b c q) ->
    wn d L q = Z.of_nat (count_inside Ts q).
Proof.
  intros d q L Ts Hed Hg Hpos.
  rewrite (wn_sum_triangles d q _ _ Hed).
  pose proof (ear_decomp_In Hed) as Hin. clear Hed.
  induction Ts as [|[[a b] c] Ts IH]; [reflexivity|].
  rewrite tsum_cons, count_inside_cons, Nat2Z.inj_add.
  rewrite IH.
  - f_equal. destruct (Hpos a b c (or_introl eq_refl)) as [Ho Hoff].
    rewrite wn_triangle; auto.
    + destruct (inside_trib a b c q); reflexivity.
    + destruct (Hin a b c (or_introl eq_refl)) as [Ha [Hb Hc]].
      intros v [Hv|[Hv|[Hv|[]]]]; subst; apply Hg; assumption.
  - intros; apply Hpos; now right.
  - intros; apply Hin; now right.
Qed.

(* consequences: where wn = 0 no ear contains q; where wn = 1 exactly one does; where
   wn <= 1 no two ears overlap at q *)
Lemma tiling_outside : forall (d q : P2) (L : list P2) (Ts : list (P2 * P2 * P2)),
    ear_decomp L Ts -> generic d q L ->
    (forall a b c : P2, In (a, b, c) Ts -> 0 < orient a b c /\ off_lines a b c q) ->
    wn d L q = 0%Z ->
    forall a b c : P2, In (a, b, c) Ts -> ~ inside_tri a b c q.
Proof.
  intros d q L Ts Hed Hg Hpos Hwn a b c Hin Hins.
  rewrite (tiling_of_positive_ears _ _ _ _ Hed Hg Hpos) in Hwn.
  apply in_split in Hin. destruct Hin as [l1 [l2 Hs]]. subst Ts.
  rewrite count_inside_app, count_inside_cons in Hwn.
  apply inside_trib_spec in Hins. rewrite Hins in Hwn. lia.
Qed.

Lemma tiling_no_overlap : forall (d q : P2) (L : list P2) (Ts : list (P2 * P2 * P2)),
    ear_decomp L Ts -> generic d q L ->
    (forall a b c : P2, In (a, b, c) Ts -> 0 < orient a b c /\ off_lines a b c q) ->
    (wn d L q <= 1)%Z ->
    forall (l1 l2 l3 : list (P2 * P2 * P2)) (a b c a' b' c' : P2),
      Ts = l1 ++ (a, b, c) :: l2 ++ (a', b', c') :: l3 ->
      inside_tri a b c q -> inside_tri a' b' c' q -> False.
Proof.
  intros d q L Ts Hed Hg Hpos Hwn l1 l2 l3 a b c a' b' c' Hs H1 H2.
  rewrite (tiling_of_positive_ears _ _ _ _ Hed Hg Hpos) in Hwn. subst Ts.
  rewrite count_inside_app, count_inside_cons, count_inside_app, count_inside_cons in Hwn.
  apply inside_trib_spec in H1. apply inside_trib_spec in H2. rewrite H1, H2 in Hwn. lia.
Qed.

Lemma tiling_cover : forall (d q : P2) (L : list P2) (Ts : list (P2 * P2 * P2)),
    ear_decomp L Ts -> generic d q L ->
    (forall a b c : P2, In (a, b, c) Ts -> 0 < orient a b c /\ off_lines a b c q) ->
    (0 < wn d L q)%Z ->
    exists a b c : P2, In (a, b, c) Ts /\ inside_tri a b c q.
Proof.
  intros d q L Ts Hed Hg Hpos Hwn.
  rewrite (tiling_of_positive_ears _ _ _ _ Hed Hg Hpos) in Hwn. clear Hed Hpos.
  induction Ts as [|[[a b] c] Ts IH]; [simpl in Hwn; lia|].
  rewrite count_inside_cons in Hwn.
  destruct (inside_trib a b c q) eqn:E.
  - exists a, b, c. split; [now left| apply inside_trib_spec; exact E].
  - destruct IH as [a' [b' [c' [Hin Hins]]]]; [simpl in Hwn; lia|].
    exists a', b', c'. split; [now right| exact Hins].
Qed.

(* the bridge e -> h0 and h0 -> e cancel: pure algebra, any q, any d *)
Lemma wn_bridge : forall (d q : P2) (pre post hs : list P2) (e h0 : P2),
    wn d (pre ++ e :: h0 :: hs ++ h0 :: e :: post) q
    = (wn d (pre ++ e :: post) q + wn d (h0 :: hs) q)%Z.
Proof. intros; unfold wn. apply (csum_bridge InitialRing.Zth _ (crdf_anti d q)). Qed.

Lemma wn_parity_xcount : forall (d q : P2) (L : list P2),
    Z.even (wn d L q) = Nat.even (xcount d L q).
Proof.
  intros d q L. unfold wn, xcount, csum.
  induction (edges_closed L) as [|[a b] E IH]; [reflexivity|].
  rewrite esum_cons. simpl filter. simpl fst; simpl snd.
  rewrite Z.even_add, IH.
  destruct (crd_range d a b q) as [H|[H|H]]; rewrite H; simpl negb; cbv iota.
  - simpl length. rewrite Nat.even_succ, <- Nat.negb_even.
    destruct (Nat.even _); reflexivity.
  - simpl length. rewrite Nat.even_succ, <- Nat.negb_even.
    destruct (Nat.even _); reflexivity.
  - destruct (Nat.even _); reflexivity.
Qed.

Lemma xcount_odd_wn : forall (d q : P2) (L : list P2),
    (0 <= wn d L q <= 1)%Z -> (Nat.odd (xcount d L q) = true <-> wn d L q = 1%Z).
Proof.
  intros d q L Hr. rewrite <- Nat.negb_even, <- wn_parity_xcount.
  assert (H : wn d L q = 0%Z \/ wn d L q = 1%Z) by lia.
  destruct H as [H|H]; rewrite H; simpl; split; intros; try discriminate; try lia; reflexivity.
Qed.

Lemma wn_insert_on_edge : forall (d q : P2) (pre post : list P2) (a b : P2) (s : R),
    0 < s < 1 -> hgt d q (lerp a b s) <> 0 ->
    wn d (pre ++ a :: lerp a b s :: b :: post) q = wn d (pre ++ a :: b :: post) q.
Proof.
  intros d q pre post a b s Hs Hg. unfold wn.
  apply (csum_insert InitialRing.Zth _ (crdf_anti d q) (crdf_self d q)).
  eapply crd_split; eauto.
Qed.

(* the same on the closing edge last -> first *)
Lemma wn_insert_on_closing_edge : forall (d q : P2) (mid : list P2) (a b : P2) (s : R),
    0 < s < 1 -> hgt d q (lerp a b s) <> 0 ->
    wn d (b :: mid ++ [a; lerp a b s]) q = wn d (b :: mid ++ [a]) q.
Proof.
  intros d q mid a b s Hs Hg. unfold wn.
  apply (csum_insert_closing InitialRing.Zth _ (crdf_anti d q) (crdf_self d q)).
  eapply crd_split; eauto.
Qed.

(* closed instances: every comparison is between numerals and falls to lra *)
Ltac rlt_eval :=
  repeat match goal with
         | |- context [rlt ?x ?y] =>
           first [rewrite (rlt_true x y) by lra | rewrite (rlt_false x y) by lra]
         end.
Ltac wn_eval :=
  unfold wn, xcount, csum, esum, edges_closed, edges_to, crd, crdR, hgt, orient;
  cbn [fold_right fst snd hd filter];
  rlt_eval; reflexivity.

(* the counter-clockwise unit square has winding number 1 about an interior point ... *)
Example wn_unit_square_inside : wn (1, 0) [(0, 0); (1, 0); (1, 1); (0, 1)] (/ 2, / 3) = 1%Z.
Proof. wn_eval. Qed.
(* ... 0 about an exterior point, also when the ray crosses the square twice ... *)
Example wn_unit_square_outside : wn (1, 0) [(0, 0); (1, 0); (1, 1); (0, 1)] (-1, / 3) = 0%Z.
Proof. wn_eval. Qed.
(* ... where a crossing counter sees two crossings *)
Example xcount_unit_square_outside :
  xcount (1, 0) [(0, 0); (1, 0); (1, 1); (0, 1)] (-1, / 3) = 2%nat.
Proof. wn_eval. Qed.
(* and the clockwise square has winding number -1 *)
Example wn_unit_square_cw : wn (1, 0) [(0, 1); (1, 1); (1, 0); (0, 0)] (/ 2, / 3) = (-1)%Z.
Proof. wn_eval. Qed.
