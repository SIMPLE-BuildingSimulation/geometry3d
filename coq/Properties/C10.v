(** * C10 -- loop area, perimeter, normal and centroid are geometrically correct.
    Exact tier: the model of loop3d.rs read on the real numbers.  [newell l] is the vector
    S = sum v_i x v_{i+1} over the closed outline (twice the vector area), [perimeter_of l] the sum of
    the edge lengths, [vsum l] the vertex sum (Theory/LoopGeom.v).  The float build is tied to the same
    model text bit for bit (Run/C10.v); float-vs-exact is sampled by lib/pC10.py. *)
From Coq Require Import ZArith Reals Bool List Arith.
From G3 Require Import Model.Num Model.Base Model.Vec Model.Segment Model.Loop Model.Polygon Theory.RInst Theory.LoopGeom
  Proofs.C10_measures Proofs.C10_pipeline.
Import ListNotations.
Local Open Scope R_scope.

(** ** what [set_area] / [close] report *)

(** the accumulation loop of [set_area] computes the Newell vector of the stored vertex list *)
Theorem C10_sum_cross_is_newell : forall vs : list (V3 R), sum_cross vs (vnth vs O) vzero = newell vs.
Proof. exact sum_cross_newell. Qed.

(** area = |n . S| / 2, whatever the normal held before; vertices, closed flag, perimeter untouched *)
Theorem C10_area_is_half_abs_n_dot_S : forall L : Loop R,
  lclosed L = true -> vis_zero (lnormal L) = false -> (3 <= llen L)%nat ->
  exists L', loop_set_area L = Ok L' /\ verts L' = verts L /\ lclosed L' = true /\ lperim L' = lperim L
    /\ larea L' = Rabs (vdot (lnormal L) (newell (verts L))) / 2
    /\ (lnormal L' = lnormal L \/ lnormal L' = vneg (lnormal L))
    /\ 0 <= vdot (lnormal L') (newell (verts L)).
Proof. exact set_area_spec. Qed.

(** right-hand rule w.r.t. the STORED vertex order, whatever the first corner: after a successful [close]
    the normal n' satisfies n' . S >= 0 (the flip branch of [set_area] included), it is the normal of the first
    corner or its opposite, the area is |n . S| / 2 and the perimeter the sum of the edge lengths *)
Theorem C10_normal_right_hand : forall L : Loop R,
  snd (loop_close L) = Ok tt ->
  let L' := fst (loop_close L) in
  lclosed L' = true /\ (3 <= llen L')%nat
  /\ larea L' = Rabs (vdot (lnormal L) (newell (verts L'))) / 2
  /\ (lnormal L' = lnormal L \/ lnormal L' = vneg (lnormal L))
  /\ 0 <= vdot (lnormal L') (newell (verts L'))
  /\ lperim L' = perimeter_of (verts L').
Proof. exact close_measures. Qed.

(** for an exactly planar outline and a unit normal of its plane, |n . S| / 2 is |S| / 2: area^2 = |S|^2 / 4 *)
Theorem C10_area_is_true_area : forall (L L' : Loop R) (v0 : V3 R),
  loop_set_area L = Ok L' -> hd vzero (verts L) = v0 ->
  vdot (lnormal L) (lnormal L) = 1 -> (forall v, In v (verts L) -> vdot (lnormal L) (vsub v v0) = 0) ->
  (larea L' * larea L' = vdot (newell (verts L)) (newell (verts L)) / 4)%R /\ 0 <= larea L'.
Proof. exact set_area_true_area. Qed.

(** ** shoelace algebra (device D3): the Newell vector, hence the area and the orientation *)
Theorem C10_S_shift : forall l1 l2 : list (V3 R), newell (l1 ++ l2) = newell (l2 ++ l1).
Proof. exact newell_rot. Qed.
Theorem C10_S_reverse : forall l : list (V3 R), newell (rev l) = vneg (newell l).
Proof. exact newell_rev. Qed.
Theorem C10_S_translate : forall (t : V3 R) (l : list (V3 R)), newell (map (vadd t) l) = newell l.
Proof. exact newell_translate. Qed.
(** a point exactly on an edge (any position in the list, closing edge included) changes nothing *)
Theorem C10_S_insert_on_edge : forall (l1 l2 : list (V3 R)) (a b : V3 R) (s : R),
  newell (l1 ++ a :: vadd a (vscale (vsub b a) s) :: b :: l2) = newell (l1 ++ a :: b :: l2).
Proof. exact newell_insert_on_edge. Qed.
Theorem C10_S_insert_on_closing_edge : forall (v : V3 R) (l : list (V3 R)) (s : R),
  let a := last (v :: l) vzero in
  newell ((v :: l) ++ [vadd a (vscale (vsub v a) s)]) = newell (v :: l).
Proof. exact newell_insert_on_closing_edge. Qed.
(** removing the ear (v0,v1,v2) removes exactly that triangle's contribution: the signed area is the sum of the
    signed ear areas for ANY ear sequence (this ties "area" to triangle areas rather than restating the formula) *)
Theorem C10_S_ear : forall (v0 v1 v2 : V3 R) (l : list (V3 R)),
  newell (v0 :: v1 :: v2 :: l) = vadd (newell (v0 :: v2 :: l)) (vcross (vsub v1 v0) (vsub v2 v0)).
Proof. exact newell_ear. Qed.
Theorem C10_signed_area_ear : forall (n v0 v1 v2 : V3 R) (l : list (V3 R)),
  (vdot n (newell (v0 :: v1 :: v2 :: l)) / 2 =
   vdot n (newell (v0 :: v2 :: l)) / 2 + vdot n (vcross (vsub v1 v0) (vsub v2 v0)) / 2)%R.
Proof. exact signed_area_ear. Qed.
(** rigid motions p |-> f p + t (f respecting sums and cross products, as rotations do) carry S along: f S.
    With f preserving dot products, n . S -- hence the area and the orientation sign -- is unchanged when the
    normal is carried along as well. *)
Theorem C10_S_rigid_motion : forall (f : V3 R -> V3 R) (t : V3 R),
  (forall a b, f (vadd a b) = vadd (f a) (f b)) -> f vzero = vzero -> (forall a b, f (vcross a b) = vcross (f a) (f b)) ->
  forall l, newell (map (fun p => vadd t (f p)) l) = f (newell l).
Proof. exact newell_rigid. Qed.
(** for a planar outline S is parallel to the plane normal *)
Theorem C10_S_parallel_to_normal : forall (n : V3 R) (l : list (V3 R)) (v0 : V3 R),
  hd vzero l = v0 -> (forall v, In v l -> vdot n (vsub v v0) = 0) -> vcross n (newell l) = vzero.
Proof. exact newell_parallel_normal. Qed.

(** ** perimeter *)
Theorem C10_perimeter_is_sum_of_edges : forall L L' : Loop R,
  loop_set_perimeter L = Ok L' ->
  lperim L' = perimeter_of (verts L) /\ verts L' = verts L /\ lnormal L' = lnormal L /\ larea L' = larea L /\ lclosed L' = lclosed L.
Proof. exact set_perimeter_spec. Qed.
Theorem C10_perimeter_shift : forall l1 l2 : list (V3 R), perimeter_of (l1 ++ l2) = perimeter_of (l2 ++ l1).
Proof. exact perimeter_rot. Qed.
Theorem C10_perimeter_reverse : forall l : list (V3 R), perimeter_of (rev l) = perimeter_of l.
Proof. exact perimeter_rev. Qed.

(** ** centroid *)
Theorem C10_centroid_is_mean : forall L : Loop R,
  lclosed L = true -> loop_centroid L = Ok (vdivs (vsum (verts L)) (INR (llen L))).
Proof. exact centroid_spec. Qed.
Theorem C10_centroid_shift : forall l1 l2 : list (V3 R), vsum (l1 ++ l2) = vsum (l2 ++ l1) /\ length (l1 ++ l2) = length (l2 ++ l1).
Proof. intros l1 l2. split; [apply vsum_rot | rewrite !app_length; apply Nat.add_comm]. Qed.
Theorem C10_centroid_reverse : forall l : list (V3 R), vsum (rev l) = vsum l /\ length (rev l) = length l.
Proof. intros l. split; [apply vsum_rev | apply rev_length]. Qed.

(** ** polygon without holes: area and normal are the outer loop's, outer_centroid is the vertex mean
    (area = outer - sum of holes after cut_hole is C11's concern) *)
Theorem C10_polygon_area_normal : forall (L : Loop R) (P : Poly R),
  poly_new L = Ok P -> pouter P = L /\ pinner P = [] /\ parea P = larea L /\ pnormal P = lnormal L.
Proof. exact poly_new_spec. Qed.
Theorem C10_polygon_outer_centroid_is_mean : forall P : Poly R,
  poly_outer_centroid P = vdivs (vsum (verts (pouter P))) (INR (llen (pouter P))).
Proof. exact poly_outer_centroid_spec. Qed.

(** ** the normal computed from the first three vertices: unit, perpendicular to the first two edges, and
    pointing along (b - a) x (c - b), whenever these edges are not parallel *)
Theorem C10_set_normal_unit_perp : forall (L : Loop R) (a b c : V3 R) (rest : list (V3 R)),
  verts L = a :: b :: c :: rest -> vcross (vsub b a) (vsub c b) <> vzero ->
  exists L', loop_set_normal L = Ok L' /\ verts L' = verts L /\
    vdot (lnormal L') (lnormal L') = 1 /\ vdot (lnormal L') (vsub b a) = 0 /\ vdot (lnormal L') (vsub c b) = 0
    /\ 0 < vdot (lnormal L') (vcross (vsub b a) (vsub c b)).
Proof. exact set_normal_spec. Qed.

(** ** through the pipeline push* / close *)

(** an outline whose corners are all genuine for the library's collinearity test (cyclically) is stored as it
    is given: hence a cyclically shifted input yields the cyclically shifted vertex list -- and by the theorems
    above the same area and perimeter, the same centroid, and a normal fixed by the right-hand rule.
    PARTIAL.  The full statement of DESIGN section 4 ("close (push* pts) and close (push* pts') for pts' a cyclic
    shift or a collinear enrichment of pts yield cyclically equal vertex lists") additionally needs
      (1) MISSING: that ACCEPTANCE is invariant: [valid_to_add] succeeds for the shifted / enriched sequence whenever it
          does for the original one (the crossing test of every prefix: the pairwise non-crossing clause of C04) --
          here both constructions are assumed to succeed;
      (2) general enrichment (several inserted points per edge, on the first and on the closing edge, start at an
          inserted point): Properties/C10_pipeline.v; [C10_pipeline_point_on_edge] below is its one-point case;
      (3) FORCED: the hypothesis that genuine corners have |cross| >= 1e-5 also towards every inserted point: it is forced --
          a point m at distance t from a on the edge a -> b with t * |x a| * sin(angle) < 1e-5 REPLACES the vertex a. *)
Theorem C10_pipeline_shift_partial : forall (l1 l2 : list (V3 R)) (L L' : Loop R),
  genuine_cycle (l1 ++ l2) -> genuine_cycle (l2 ++ l1) ->
  push_list loop_new (l1 ++ l2) = Ok L -> snd (loop_close L) = Ok tt ->
  push_list loop_new (l2 ++ l1) = Ok L' -> snd (loop_close L') = Ok tt ->
  verts (fst (loop_close L)) = l1 ++ l2 /\ verts (fst (loop_close L')) = l2 ++ l1.
Proof. intros l1 l2 L L' G1 G2 P1 C1 P2 C2. split; apply build_genuine; assumption. Qed.

(** a redundant point exactly on the edge a -> b being drawn: pushing it and then b gives the vertex list that
    pushing b alone gives *)
Theorem C10_pipeline_point_on_edge : forall (L L1 L2 L2' : Loop R) (l : list (V3 R)) (x a b : V3 R) (s : R),
  let m := vadd a (vscale (vsub b a) s) in
  verts L = l ++ [x; a] ->
  is_collinear x a m = Ok false -> is_collinear x a b = Ok false ->
  vcompare a m && vcompare a b = false ->
  loop_push L m = Ok L1 -> loop_push L1 b = Ok L2 -> loop_push L b = Ok L2' ->
  verts L2 = l ++ [x; a; b] /\ verts L2' = verts L2.
Proof. exact push_via_edge_point. Qed.

(** the hypotheses of [C10_S_rigid_motion] are satisfiable by a genuine rotation (quarter turn about z) *)
Example C10_rigid_motion_nonvacuous :
  (forall a b, quarter_turn_z (vadd a b) = vadd (quarter_turn_z a) (quarter_turn_z b)) /\ quarter_turn_z vzero = vzero /\
  (forall a b, quarter_turn_z (vcross a b) = vcross (quarter_turn_z a) (quarter_turn_z b)) /\
  (forall a b, vdot (quarter_turn_z a) (quarter_turn_z b) = vdot a b).
Proof. exact quarter_turn_z_ok. Qed.

(** ** non-vacuity, on rational data: a convex first corner (unit square: normal kept) and a reflex first corner
    (L-shape started at its reflex vertex: the normal of the first three vertices points down and is flipped) *)
Example C10_convex_first_corner :
  let L := mkLoop square_pts (mkV3 0 0 1) true (-1) (-1) in
  exists L', loop_set_area L = Ok L' /\ lnormal L' = mkV3 0 0 1 /\ larea L' = 1.
Proof. exact convex_first_corner. Qed.
Example C10_reflex_first_corner :
  let L := mkLoop ell_pts (mkV3 0 0 (-1)) true (-1) (-1) in
  vcross (vsub (mkV3 1 1 0) (mkV3 2 1 0)) (vsub (mkV3 1 2 0) (mkV3 1 1 0)) = (mkV3 0 0 (-1) : V3 R) /\
  exists L', loop_set_area L = Ok L' /\ lnormal L' = mkV3 0 0 1 /\ larea L' = 3.
Proof. exact reflex_first_corner. Qed.
