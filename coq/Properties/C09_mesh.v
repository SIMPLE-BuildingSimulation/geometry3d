(** * C09 (triangulation part) -- triangulation is total.
    Statements only; proofs in Proofs/Mesh_fp.v, Mesh_sites.v, Mesh_wf.v, Mesh_conf.v.  Every number instance.

    (a) Termination.  The model is a total Gallina function: every single step terminates by construction.
        [from_polygon] runs on the code's own counter (fuel [MAX_ITER] = 1000; running out IS the code's
        "Excessive number of iteration" error), [restore_delaunay] on [MAX_LOOPS] = 30 sweeps.  Only [refine]
        carries model fuel; its exhaustion is the distinguished outcome [ROutOfFuel], reported by the runner under
        its own tag, and excluded by the C18 theorem.  Wall-clock time is observed by the harness.
    (b) Panic sites.  [C09_panic_sites_*] are certified enumerations: an operation can only end in a panic site of
        its list.  Site 60 (Edge::from_i out of range), site 10 (unwrap in Triangle3D::new), sites 88/89 (the
        impossible locations in add_point_to_triangle, from add_point and refine) are in none: unreachable.
        Under [WF] (preserved by everything, see C08) the neighbour look-ups 67, 73 are unreachable; under [CNT]
        the usize underflow 61 is unreachable in split_triangle / flip_diagonal / restore_delaunay.
        Data-dependent sites stay in the lists.  The input that reached site 64 from mesh_polygon (a plain triangle)
        before fix 361bbb9 returns Ok since: [C09_mesh_polygon_w3_now_ok]; 87 and 91 were reached likewise
        (/verif/notes/mesh_NOTES.md).
    (c) Success for well-conditioned polygons: needs the two-ears theorem -- not proved; validated on the generated
        stream by the oracle.  Regression witness of fix df28df6: [C09_wellcond_w5_now_ok]. *)
From Coq Require Import ZArith List Bool Floats.
Set Warnings "-inexact-float".
From G3 Require Import Model.Num Model.NumF Model.Base Model.Vec Model.Segment Model.Triangle Model.Loop Model.Polygon Model.Triangulation
  Proofs.Mesh_base Proofs.Mesh_fp Proofs.Mesh_wf Proofs.Mesh_sites Proofs.Mesh_conf Proofs.Mesh_witness.
Import ListNotations.

Definition inb (l : list N) (s : N) : bool := existsb (N.eqb s) l.
Definition sites_mark : list N := [62; 63; 64]%N.
Definition sites_flip : list N := [70; 71; 72; 73; 74; 75; 76; 77; 78; 79; 61]%N ++ sites_mark.
Definition sites_split_edge : list N := [80; 81; 82; 61]%N ++ sites_mark.
Definition sites_split_triangle : list N := [83; 84; 61]%N ++ sites_mark.
Definition sites_restore : list N := [85; 65; 66; 67; 68; 69]%N ++ sites_flip.
Definition sites_add_point : list N := [86; 87; 80; 81; 82; 83; 84; 61]%N ++ sites_mark.
Definition sites_refine : list N := [90; 91]%N ++ sites_restore ++ sites_add_point.

(** (a) *)
Theorem C09_from_polygon_bounded : forall (K : Type) (NK : Num K) (P : Poly K) (M : Mesh K),
  from_polygon P = Ok M -> length (tris M) <= 1000.
Proof. intros K NK P M H. destruct (from_polygon_structure P M H) as (Lm & _ & _ & _ & _ & B). exact B. Qed.
Theorem C09_restore_delaunay_bounded : forall (K : Type) (NK : Num K) (m : K) (M : Mesh K),
  restore_delaunay m M = rd_loops m (length (tris M)) 30 M.
Proof. reflexivity. Qed.

(** (b) Edge::from_i is only ever applied to 0, 1, 2 *)
Theorem C09_edge_add_no_panic : forall (e : Edge) (k : N), exists e', edge_add e k = Ok e'.
Proof. exact edge_add_ok. Qed.

(** (b) the panic sites of each operation *)
Theorem C09_panic_sites_flip_diagonal : forall (K : Type) (NK : Num K) (i : nat) (e : Edge) (M M' : Mesh K) (s : N),
  flip_diagonal i e M = (M', Panic s) -> inb sites_flip s = true.
Proof. intros K NK i e. apply np_flip; reflexivity. Qed.
Theorem C09_panic_sites_split_edge : forall (K : Type) (NK : Num K) (i : nat) (e : Edge) (p : V3 K) (M M' : Mesh K) (s : N),
  split_edge i e p M = (M', Panic s) -> inb sites_split_edge s = true.
Proof. intros K NK i e p. apply np_split_edge; reflexivity. Qed.
Theorem C09_panic_sites_split_triangle : forall (K : Type) (NK : Num K) (i : nat) (p : V3 K) (M M' : Mesh K) (s : N),
  split_triangle i p M = (M', Panic s) -> inb sites_split_triangle s = true.
Proof. intros K NK i p. apply np_split_triangle; reflexivity. Qed.
Theorem C09_panic_sites_restore_delaunay : forall (K : Type) (NK : Num K) (m : K) (M M' : Mesh K) (s : N),
  restore_delaunay m M = (M', Panic s) -> inb sites_restore s = true.
Proof. intros K NK m. apply np_restore; reflexivity. Qed.
Theorem C09_panic_sites_add_point : forall (K : Type) (NK : Num K) (p : V3 K) (M M' : Mesh K) (s : N),
  add_point p M = (M', Panic s) -> inb sites_add_point s = true.
Proof. intros K NK p. apply np_add_point; reflexivity. Qed.
Theorem C09_panic_sites_refine : forall (K : Type) (NK : Num K) (fuel : nat) (a m : K) (M M' : Mesh K) (s : N),
  refine fuel a m M = (M', Panic s) -> inb sites_refine s = true.
Proof. intros K NK fuel a m. apply np_refine; reflexivity. Qed.

(** (b) well-formedness is preserved by each operation, whatever it returns (in particular when it returns Ok) *)
Theorem C09_wf_push : forall (K : Type) (NK : Num K) (a b c : V3 K) (la : nat) (M M' : Mesh K) (r : res nat),
  WF M -> mesh_push a b c la M = (M', r) -> WF M'.
Proof. intros K NK a b c la M M' r W H. exact (proj2 (wf_push a b c la M M' r H) W). Qed.
Theorem C09_wf_invalidate : forall (K : Type) (NK : Num K) (i : nat) (M M' : Mesh K) (r : res unit),
  WF M -> mesh_invalidate i M = (M', r) -> WF M'.
Proof. intros K NK i M M' r W H. exact (proj2 (wf_invalidate i M M' r H) W). Qed.
Theorem C09_wf_mark_as_neighbours : forall (K : Type) (NK : Num K) (i1 : nat) (e : Edge) (i2 : nat) (M M' : Mesh K) (r : res unit),
  WF M -> mark_as_neighbours i1 e i2 M = (M', r) -> WF M'.
Proof. intros K NK i1 e i2 M M' r W H. exact (proj2 (wf_mark i1 e i2 M M' r H) W). Qed.
Theorem C09_wf_flip_diagonal : forall (K : Type) (NK : Num K) (i : nat) (e : Edge) (M M' : Mesh K) (r : res unit),
  WF M -> flip_diagonal i e M = (M', r) -> WF M'.
Proof. intros K NK i e M M' r W H. exact (proj2 (wf_flip i e M M' r H) W). Qed.
Theorem C09_wf_split_edge : forall (K : Type) (NK : Num K) (i : nat) (e : Edge) (p : V3 K) (M M' : Mesh K) (r : res unit),
  WF M -> split_edge i e p M = (M', r) -> WF M'.
Proof. intros K NK i e p M M' r W H. exact (proj2 (wf_split_edge i e p M M' r H) W). Qed.
Theorem C09_wf_split_triangle : forall (K : Type) (NK : Num K) (i : nat) (p : V3 K) (M M' : Mesh K) (r : res unit),
  WF M -> split_triangle i p M = (M', r) -> WF M'.
Proof. intros K NK i p M M' r W H. exact (proj2 (wf_split_triangle i p M M' r H) W). Qed.
Theorem C09_wf_refine : forall (K : Type) (NK : Num K) (fuel : nat) (a m : K) (M M' : Mesh K) (r : res rres),
  WF M -> refine fuel a m M = (M', r) -> WF M'.
Proof. intros K NK fuel a m M M' r W H. exact (proj2 (wf_refine a m fuel M M' r H) W). Qed.

(** (b) under the invariants: the neighbour look-ups are in range, the counter cannot underflow *)
Theorem C09_neighbour_lookup_in_range : forall (K : Type) (NK : Num K) (M : Mesh K) (i : nat) (e : Edge),
  WF M -> get_flipped_aspect_ratio M i e <> Panic 67%N.
Proof. exact (fun K NK => @gfar_wf K NK). Qed.
Theorem C09_restore_delaunay_structural_sites : forall (K : Type) (NK : Num K) (m : K) (M M' : Mesh K) (s : N),
  WF M -> CNT M -> restore_delaunay m M = (M', Panic s) -> s <> 61%N /\ s <> 67%N /\ s <> 73%N /\ s <> 85%N.
Proof.
  intros K NK m M M' s W C H. destruct (cnt_restore m M M' _ W C H) as (_ & _ & G). specialize (G s eq_refl). unfold okrd in G.
  repeat split; intros ->; discriminate.
Qed.

(** (b) regression witness: mesh_polygon on the triangle (0,0) (1,0) (0.3,0.8) with max_area = 0.4/50,
    max_aspect_ratio = 3 panicked with "... don't share a segment" (site 64) before fix 361bbb9 (refinement steps
    mutated the mesh before failing); it now returns Ok with every slot live *)
Theorem C09_mesh_polygon_w3_now_ok :
  exists (P : Poly float) (max_area max_ar : float) (fuel : nat) (M : Mesh float),
    mesh_polygon fuel P max_area max_ar = Ok (M, RDone) /\ forallb tp_valid (tris M) = true.
Proof. destruct w3_mesh_polygon_now_ok as (M & H). exists w3_poly, (0.4 / 50)%float, 3%float, 4000, M. exact H. Qed.

(** (c) regression witness: the unit square with a small pentagonal hole (edges > 0.1, clearance > 0.2) made
    from_polygon return Err "non-coplanar" before fix df28df6 (Loop3D::push duplicated a vertex when the outline went
    straight back, NaN normal); it is Ok now (what it returns is C01's business: see C01's known finding) *)
Theorem C09_wellcond_w5_now_ok :
  exists (P : Poly float) M, from_polygon P = Ok M /\ length (pinner P) = 1.
Proof. destruct w5_from_polygon_ok as (M & H1 & _ & H3). exists w5_poly, M. split; assumption. Qed.

(** non-vacuity *)
Example C09_nonvacuous : exists M, from_polygon w4_poly = Ok M /\ length (tris M) = 2 /\ nvalid M = 2.
Proof. exact w_square_ok. Qed.
