(** * C01 (geometric part) -- "triangulation tiles the polygon exactly".  Statements only; proofs in Proofs/C01_tiling.v.

    Property text: "Whenever triangulating a valid planar polygon (with or without holes, with or without refinement)
    succeeds, every returned triangle lies in the polygon's plane and inside the polygon (never in a hole, never
    outside the outline), has the polygon's normal orientation, no two triangles overlap, and the triangle areas sum
    to the polygon's area.  Together: the triangles tile exactly the polygon's region."

    What is proved here, for [from_polygon] (ear clipping; the refinement steps are NOT covered by this file):
    - (every number instance) the instrumented loop [from_polygon_tr] erases to [from_polygon]; a successful run none
      of whose periodic [sanitize] calls changed the vertex list ([stable_run]) is an EAR DECOMPOSITION of the closed
      merged outline L: the triangles are exactly the clipped ears (v[anchor], v[anchor+1], v[anchor+2]) in push order,
      there are |L| - 2 of them, their corners are vertices of L;
    - (the reals) in the plane coordinates of ANY frame (o, e1, e2): the shoelace area of L is the sum of the
      triangles' signed areas, the winding number of L about any point along any ray is the sum of the triangles'
      winding numbers = the sum of sign(T) * [q strictly inside T] for generic q;
    - (the ear test, fix 4bb2ed8 of the crate; every number instance) every clipped ear -- every returned triangle --
      passed [ear_convex] (((v1 - v0) x (v2 - v1)) . normal > 0), is non-collinear, its chord was a diagonal of the loop
      at that moment and no other vertex of that loop lies in it ([C01_ears_checked], [C01_ears_convex]); over the reals,
      when the polygon's normal is a positive multiple of e1 x e2, every returned triangle is counter-clockwise in the
      plane coordinates ([C01_ears_positive]): "has the polygon's normal orientation" is PROVED;
    - (the reduction) the winding number of L about q is then the NUMBER of triangles that contain q
      ([C01_tiling_count_proved]); hence, for a valid input (winding number of the merged outline in {0, 1} off the
      outline -- the Jordan hypothesis, on the input): no triangle covers a point outside the outline or in a hole, no
      two triangles overlap, every interior point is covered ([C01_tile_exactly_proved]), and the absolute triangle
      areas sum to the polygon's area ([C01_area_sum_proved]): the tiling statement.  Also stated with the orientation
      as a hypothesis on the projected triangles or on the stored normals, any frame;
    - ([C01_negative_ear_breaks_count], pure geometry) the reduction does need the orientation: one clockwise ear breaks
      the count, a point outside the polygon is covered by two triangles.

    NOT proved (and why):
    - the Jordan property of the merged outline (winding numbers 0 or 1) is a hypothesis on the input;
    - runs in which a periodic [sanitize] drops a vertex ([C01_sanitize_can_change]) are excluded from the tiling
      statement by [stable_run]: the dropped vertex is collinear only up to the code's tolerance, the area identity
      then holds up to that tolerance only (finding C01:area-sum:collinear-tolerance).  For such runs only
      [C01_clip_run_general] and [C01_identities_general] (identities with an explicit defect term per sanitize call)
      are proved; no bound on the defect terms is proved;
    - the identities are about the exact tier ([K = R]); the floating-point evaluation of the predicates is not covered
      (the ear decomposition does hold for the floats, being combinatorial);
    - the real instance cannot be executed, so [stable_run] is witnessed on the binary64 instance (the two Examples:
      a cross-shaped dodecagon, and the unit square with a triangular hole), whose outlines and ears are then shown to
      meet every hypothesis of the reduction over the reals. *)
From Coq Require Import ZArith Reals List Floats.
From G3 Require Import Model.Num Model.NumF Model.Base Model.Vec Model.Segment Model.Triangle Model.Loop Model.Polygon Model.Triangulation
  Theory.RInst Theory.LoopGeom Proofs.C05_pointtest Proofs.C01_tiling.
From G3 Require Proofs.Mesh_witness.
From G3 Require Import Model.PolyAux Proofs.C12_region Proofs.C01_polygon.
From G3 Require Theory.Cyclic Theory.Winding Theory.Shoelace.
Import ListNotations.

(** ** the vocabulary (definitions of Proofs/C01_tiling.v, spelled out) *)
Theorem C01_def_sanitize_unchanged : forall (K : Type) (tr : Trace (K := K)),
  sanitize_unchanged tr <-> Forall (fun p : list (V3 K) * list (V3 K) => fst p = snd p) (snd tr).
Proof. intros. apply iff_refl. Qed.
Theorem C01_def_stable_run : forall (K : Type) (NK : Num K) (P : Poly K) (M : Mesh K),
  stable_run P M <-> exists tr : Trace, from_polygon_tr P = Ok (M, tr) /\ sanitize_unchanged tr.
Proof. intros. apply iff_refl. Qed.
Theorem C01_def_outline_of : forall (K : Type) (NK : Num K) (P : Poly K) (L : Loop K),
  outline_of P L <-> exists Lm : Loop K, poly_get_closed_loop P = Ok Lm /\ snd (loop_close Lm) = Ok tt /\ L = fst (loop_close Lm).
Proof. intros. apply iff_refl. Qed.
Theorem C01_def_projections : forall (o e1 e2 : V3 R) (L : Loop R) (M : Mesh R),
  proj_outline o e1 e2 L = map (plane2 o e1 e2) (verts L) /\
  proj_tris o e1 e2 M = map (fun t => (plane2 o e1 e2 (ta (tp_tri t)), plane2 o e1 e2 (tb (tp_tri t)), plane2 o e1 e2 (tc (tp_tri t)))) (tris M).
Proof. intros. split; reflexivity. Qed.

(** ** every number instance *)
(** (i) erasure: the instrumented function computes [from_polygon] (same outcome, same mesh) *)
Theorem C01_trace_erasure : forall (K : Type) (NK : Num K) (P : Poly K),
  from_polygon P = rmap fst (from_polygon_tr P).
Proof. exact @from_polygon_erase. Qed.
Theorem C01_trace_exists : forall (K : Type) (NK : Num K) (P : Poly K) (M : Mesh K),
  from_polygon P = Ok M <-> exists tr : Trace, from_polygon_tr P = Ok (M, tr).
Proof. exact @from_polygon_has_trace. Qed.
(** (ii) a successful sanitize-stable run is an ear decomposition of the closed merged outline; the triangles are the
    ears, in push order; there are |L| - 2; in the theory's form ([Cyclic.ear_decomp], which stops at a triangle) the
    same ears up to a rotation of the corners (of the last one) *)
Theorem C01_ear_decomposition : forall (K : Type) (NK : Num K) (P : Poly K) (M : Mesh K) (tr : Trace),
  from_polygon_tr P = Ok (M, tr) -> sanitize_unchanged tr ->
  exists Lm : Loop K, poly_get_closed_loop P = Ok Lm /\ snd (loop_close Lm) = Ok tt /\
    let L := fst (loop_close Lm) in
    ear_decomp2 (verts L) (fst tr) /\
    map (fun t => (ta (tp_tri t), tb (tp_tri t), tc (tp_tri t))) (tris M) = fst tr /\
    length (tris M) + 2 = llen L /\
    (3 <= llen L -> exists Ts', Cyclic.ear_decomp (verts L) Ts' /\ Forall2 trot (fst tr) Ts').
Proof. exact @from_polygon_ears. Qed.
Theorem C01_ntriangles_stable : forall (K : Type) (NK : Num K) (P : Poly K) (M : Mesh K) (L : Loop K),
  stable_run P M -> outline_of P L ->
  ear_decomp2 (verts L) (map (fun t => (ta (tp_tri t), tb (tp_tri t), tc (tp_tri t))) (tris M)) /\ length (tris M) + 2 = llen L.
Proof. exact @stable_run_ears. Qed.
(** the general form, whatever [sanitize] does: the run is a sequence of ear steps and of recorded replacements
    (loop before, loop after) of the outline ([clip_run]); the triangles are exactly the ears; when every replacement
    is the identity this is an ear decomposition *)
Theorem C01_clip_run_general : forall (K : Type) (NK : Num K) (P : Poly K) (M : Mesh K) (tr : Trace),
  from_polygon_tr P = Ok (M, tr) ->
  exists Lm : Loop K, poly_get_closed_loop P = Ok Lm /\ snd (loop_close Lm) = Ok tt /\
    clip_run (verts (fst (loop_close Lm))) (fst tr) (snd tr) /\
    map (fun t => (ta (tp_tri t), tb (tp_tri t), tc (tp_tri t))) (tris M) = fst tr.
Proof. exact @from_polygon_clip_run. Qed.
Theorem C01_clip_run_unchanged : forall (A : Type) (L : list A) (Ts : list (A * A * A)) (S : list (list A * list A)),
  clip_run L Ts S -> Forall (fun p => fst p = snd p) S -> ear_decomp2 L Ts.
Proof. exact clip_run_unchanged. Qed.
(** what [ear_decomp2] is: the recursion of [Cyclic.ear_decomp], stopped at two vertices *)
Theorem C01_ear_decomp2_to_theory : forall (A : Type) (L : list A) (Ts : list (A * A * A)),
  ear_decomp2 L Ts -> 3 <= length L -> exists Ts', Cyclic.ear_decomp L Ts' /\ Forall2 trot Ts Ts'.
Proof. exact ear_decomp2_to_ear_decomp. Qed.
(** the stored normal of every triangle is the normalized cross product of its corners, as [Triangle3D::new] computes it *)
Theorem C01_triangle_normals : forall (K : Type) (NK : Num K) (P : Poly K) (M : Mesh K),
  from_polygon P = Ok M ->
  Forall (fun t => tnormal (tp_tri t) = tri_normal_of (ta (tp_tri t)) (tb (tp_tri t)) (tc (tp_tri t))) (tris M).
Proof. exact @from_polygon_normals. Qed.

(** ** the ear test (fix 4bb2ed8): what every clipped ear has passed, on every number instance *)
Theorem C01_def_ear_ok : forall (K : Type) (NK : Num K) (P : Poly K) (l : list (V3 K)) (v0 v1 v2 : V3 K),
  ear_ok P l (v0, v1, v2) <->
  (is_collinear v0 v1 v2 = Ok false /\
   (exists Lp : Loop K, verts Lp = l /\ loop_is_diagonal Lp (seg_new v0 v2) = Ok true) /\
   ear_convex P v0 v1 v2 = true /\
   (exists ear : Tri K, tri_new v0 v1 v2 = Ok ear /\ ear_blocked ear v0 v1 v2 l = false)).
Proof. intros. apply iff_refl. Qed.
(** every ear of the trace of a successful run (stable or not) passed the four tests, for the loop at that moment *)
Theorem C01_ears_checked : forall (K : Type) (NK : Num K) (P : Poly K) (M : Mesh K) (tr : Trace),
  from_polygon_tr P = Ok (M, tr) -> Forall (fun e => exists l : list (V3 K), ear_ok P l e) (fst tr).
Proof. exact @from_polygon_ears_checked. Qed.
(** ... in the order of the run: ear steps carrying [ear_ok (loop at that moment) ear], and recorded sanitize replacements *)
Theorem C01_clip_run_checked : forall (K : Type) (NK : Num K) (P : Poly K) (M : Mesh K) (tr : Trace),
  from_polygon_tr P = Ok (M, tr) ->
  exists Lm : Loop K, poly_get_closed_loop P = Ok Lm /\ snd (loop_close Lm) = Ok tt /\
    clip_runP (ear_ok P) (verts (fst (loop_close Lm))) (fst tr) (snd tr) /\
    map (fun t => (ta (tp_tri t), tb (tp_tri t), tc (tp_tri t))) (tris M) = fst tr.
Proof. exact @from_polygon_clip_runP. Qed.
(** every returned triangle is convex for the polygon's normal *)
Theorem C01_ears_convex : forall (K : Type) (NK : Num K) (P : Poly K) (M : Mesh K),
  from_polygon P = Ok M ->
  Forall (fun t => ear_convex P (ta (tp_tri t)) (tb (tp_tri t)) (tc (tp_tri t)) = true) (tris M).
Proof. exact @from_polygon_ears_convex. Qed.
(** what [ear_blocked] = false says: every vertex of the loop is a corner (for Point3D::compare) or Outside the triangle *)
Theorem C01_ear_blocked_false : forall (K : Type) (NK : Num K) (ear : Tri K) (v0 v1 v2 : V3 K) (l : list (V3 K)),
  ear_blocked ear v0 v1 v2 l = false <->
  forall p, In p l -> (vcompare p v0 || vcompare p v1 || vcompare p v2)%bool = true \/ tri_test_point ear p = Outside.
Proof. exact @ear_blocked_false. Qed.
(** ... and over the reals Outside means: one of the barycentric coordinates the code computes is below -100 EPSILON *)
Theorem C01_tri_test_point_outside : forall (t : Tri R) (p : V3 R),
  tri_test_point t p = Outside <->
  (fst (fst (tri_bary t p)) < - ctiny \/ snd (fst (tri_bary t p)) < - ctiny \/ snd (tri_bary t p) < - ctiny)%R.
Proof. exact tri_test_point_outside. Qed.

(** ** the reals: identities, for any frame *)
(** plane coordinates: doubled signed area of a projected triangle = normal component of its cross product;
    shoelace area of a projected chain = normal component of the Newell vector (what [set_area] sums) *)
Theorem C01_orient_is_normal_component : forall (o e1 e2 a b c : V3 R),
  Winding.orient (plane2 o e1 e2 a) (plane2 o e1 e2 b) (plane2 o e1 e2 c) = vdot (vcross e1 e2) (vcross (vsub b a) (vsub c a)).
Proof. exact orient_plane2. Qed.
Theorem C01_area_is_newell : forall (o e1 e2 : V3 R) (vs : list (V3 R)),
  (2 * Shoelace.area2 (map (plane2 o e1 e2) vs) = vdot (vcross e1 e2) (newell vs))%R.
Proof. exact area2_plane2_newell. Qed.
(** for an orthonormal frame: e1 x e2 is a unit vector, and the coordinates are a bijection of the plane onto R^2 *)
Theorem C01_frame_coordinates : forall (o e1 e2 p : V3 R),
  vdot e1 e1 = 1%R -> vdot e2 e2 = 1%R -> vdot e1 e2 = 0%R ->
  vdot (vcross e1 e2) (vcross e1 e2) = 1%R /\
  (vdot (vcross e1 e2) (vsub p o) = 0%R ->
   p = vadd o (vadd (vscale e1 (fst (plane2 o e1 e2 p))) (vscale e2 (snd (plane2 o e1 e2 p))))).
Proof. intros o e1 e2 p H1 H2 H3. split; [exact (frame_unit_normal e1 e2 H1 H2 H3) | exact (frame_reconstruct o e1 e2 p H1 H2 H3)]. Qed.
(** every triangle lies in the plane of the outline *)
Theorem C01_triangles_in_plane : forall (o : V3 R) (P : Poly R) (M : Mesh R) (L : Loop R) (n : V3 R),
  stable_run P M -> outline_of P L -> (forall v, In v (verts L) -> vdot n (vsub v o) = 0%R) ->
  forall t, In t (tris M) ->
    vdot n (vsub (ta (tp_tri t)) o) = 0%R /\ vdot n (vsub (tb (tp_tri t)) o) = 0%R /\ vdot n (vsub (tc (tp_tri t)) o) = 0%R.
Proof. exact ears_in_plane. Qed.
(** signed area: shoelace of the outline = sum of the triangles' doubled signed areas; also frame-free, in space *)
Theorem C01_area_identity : forall (o e1 e2 : V3 R) (P : Poly R) (M : Mesh R) (L : Loop R),
  stable_run P M -> outline_of P L ->
  (2 * Shoelace.area2 (proj_outline o e1 e2 L))%R = Cyclic.tsum 0%R Rplus Winding.orient (proj_tris o e1 e2 M).
Proof. exact ears_area_identity. Qed.
Theorem C01_area_identity_3d : forall (o e1 e2 : V3 R) (P : Poly R) (M : Mesh R) (L : Loop R),
  stable_run P M -> outline_of P L ->
  vdot (vcross e1 e2) (newell (verts L)) =
  fold_right (fun t acc => (vdot (vcross e1 e2) (vcross (vsub (tb (tp_tri t)) (ta (tp_tri t))) (vsub (tc (tp_tri t)) (ta (tp_tri t)))) + acc)%R) 0%R (tris M).
Proof. exact ears_area_identity_3d. Qed.
(** winding number: every ray d, every point q *)
Theorem C01_winding_identity : forall (o e1 e2 : V3 R) (P : Poly R) (M : Mesh R) (L : Loop R),
  stable_run P M -> outline_of P L ->
  forall d q : Winding.P2,
    Winding.wn d (proj_outline o e1 e2 L) q = Cyclic.tsum 0%Z Z.add (fun a b c => Winding.wn d [a; b; c] q) (proj_tris o e1 e2 M).
Proof. exact ears_winding_identity. Qed.
(** ... = sum of sign(T) * [q strictly inside T], for a generic ray and q on the boundary of no non-degenerate triangle *)
Theorem C01_winding_index : forall (o e1 e2 : V3 R) (P : Poly R) (M : Mesh R) (L : Loop R),
  stable_run P M -> outline_of P L ->
  forall d q : Winding.P2, Winding.generic d q (proj_outline o e1 e2 L) ->
    (forall a b c, In (a, b, c) (proj_tris o e1 e2 M) -> Winding.orient a b c <> 0%R -> Winding.off_segs a b c q) ->
    Winding.wn d (proj_outline o e1 e2 L) q = Cyclic.tsum 0%Z Z.add (fun a b c => Winding.tri_index a b c q) (proj_tris o e1 e2 M).
Proof. exact ears_winding_index. Qed.

(** every successful run, stable or not: the same two identities with one defect term per recorded sanitize call,
    (area before - area after) resp. (winding number before - after) of the loop that [sanitize] replaced *)
Theorem C01_identities_general : forall (o e1 e2 : V3 R) (P : Poly R) (M : Mesh R) (tr : Trace),
  from_polygon_tr P = Ok (M, tr) ->
  exists L : Loop R, outline_of P L /\
    (let S2 := map (fun p => (map (plane2 o e1 e2) (fst p), map (plane2 o e1 e2) (snd p))) (snd tr) in
     (2 * Shoelace.area2 (proj_outline o e1 e2 L) =
      Cyclic.tsum 0 Rplus Winding.orient (proj_tris o e1 e2 M) +
      fold_right (fun p acc => (2 * Shoelace.area2 (fst p) - 2 * Shoelace.area2 (snd p)) + acc) 0 S2)%R /\
     (forall d q : Winding.P2,
        Winding.wn d (proj_outline o e1 e2 L) q =
        (Cyclic.tsum 0 Z.add (fun a b c => Winding.wn d [a; b; c] q) (proj_tris o e1 e2 M) +
         fold_right (fun p acc => (Winding.wn d (fst p) q - Winding.wn d (snd p) q) + acc) 0 S2)%Z)).
Proof. exact run_identities_general. Qed.

(** ** the reduction: all returned triangles counter-clockwise w.r.t. e1 x e2 *)
Theorem C01_tiling_count : forall (o e1 e2 : V3 R) (P : Poly R) (M : Mesh R) (L : Loop R),
  stable_run P M -> outline_of P L ->
  (forall a b c, In (a, b, c) (proj_tris o e1 e2 M) -> (0 < Winding.orient a b c)%R) ->
  forall d q : Winding.P2, Winding.generic d q (proj_outline o e1 e2 L) ->
    (forall a b c, In (a, b, c) (proj_tris o e1 e2 M) -> Winding.off_segs a b c q) ->
    Winding.wn d (proj_outline o e1 e2 L) q = Z.of_nat (Winding.count_inside (proj_tris o e1 e2 M) q).
Proof. exact ears_tiling_count. Qed.
(** nothing outside the outline (or in a hole) is covered *)
Theorem C01_tiling_outside : forall (o e1 e2 : V3 R) (P : Poly R) (M : Mesh R) (L : Loop R),
  stable_run P M -> outline_of P L ->
  (forall a b c, In (a, b, c) (proj_tris o e1 e2 M) -> (0 < Winding.orient a b c)%R) ->
  forall d q : Winding.P2, Winding.generic d q (proj_outline o e1 e2 L) ->
    (forall a b c, In (a, b, c) (proj_tris o e1 e2 M) -> Winding.off_segs a b c q) ->
    Winding.wn d (proj_outline o e1 e2 L) q = 0%Z ->
    forall a b c, In (a, b, c) (proj_tris o e1 e2 M) -> ~ Winding.inside_tri a b c q.
Proof. exact ears_tiling_outside. Qed.
(** no two triangles overlap *)
Theorem C01_tiling_no_overlap : forall (o e1 e2 : V3 R) (P : Poly R) (M : Mesh R) (L : Loop R),
  stable_run P M -> outline_of P L ->
  (forall a b c, In (a, b, c) (proj_tris o e1 e2 M) -> (0 < Winding.orient a b c)%R) ->
  forall d q : Winding.P2, Winding.generic d q (proj_outline o e1 e2 L) ->
    (forall a b c, In (a, b, c) (proj_tris o e1 e2 M) -> Winding.off_segs a b c q) ->
    (Winding.wn d (proj_outline o e1 e2 L) q <= 1)%Z ->
    forall (l1 l2 l3 : list (Winding.P2 * Winding.P2 * Winding.P2)) (a b c a' b' c' : Winding.P2),
      proj_tris o e1 e2 M = l1 ++ (a, b, c) :: l2 ++ (a', b', c') :: l3 ->
      Winding.inside_tri a b c q -> Winding.inside_tri a' b' c' q -> False.
Proof. exact ears_tiling_no_overlap. Qed.
(** every interior point is covered *)
Theorem C01_tiling_cover : forall (o e1 e2 : V3 R) (P : Poly R) (M : Mesh R) (L : Loop R),
  stable_run P M -> outline_of P L ->
  (forall a b c, In (a, b, c) (proj_tris o e1 e2 M) -> (0 < Winding.orient a b c)%R) ->
  forall d q : Winding.P2, Winding.generic d q (proj_outline o e1 e2 L) ->
    (forall a b c, In (a, b, c) (proj_tris o e1 e2 M) -> Winding.off_segs a b c q) ->
    (0 < Winding.wn d (proj_outline o e1 e2 L) q)%Z ->
    exists a b c, In (a, b, c) (proj_tris o e1 e2 M) /\ Winding.inside_tri a b c q.
Proof. exact ears_tiling_cover. Qed.
(** together, for a valid input (0 <= wn <= 1): q is covered iff it is inside, then by exactly one triangle *)
Theorem C01_tile_exactly : forall (o e1 e2 : V3 R) (P : Poly R) (M : Mesh R) (L : Loop R),
  stable_run P M -> outline_of P L ->
  (forall a b c, In (a, b, c) (proj_tris o e1 e2 M) -> (0 < Winding.orient a b c)%R) ->
  forall d q : Winding.P2, Winding.generic d q (proj_outline o e1 e2 L) ->
    (forall a b c, In (a, b, c) (proj_tris o e1 e2 M) -> Winding.off_segs a b c q) ->
    (0 <= Winding.wn d (proj_outline o e1 e2 L) q <= 1)%Z ->
    (Winding.wn d (proj_outline o e1 e2 L) q = 1%Z <-> exists a b c, In (a, b, c) (proj_tris o e1 e2 M) /\ Winding.inside_tri a b c q) /\
    Winding.count_inside (proj_tris o e1 e2 M) q = (if Z.eqb (Winding.wn d (proj_outline o e1 e2 L) q) 1 then 1 else 0) /\
    (forall (l1 l2 l3 : list (Winding.P2 * Winding.P2 * Winding.P2)) (a b c a' b' c' : Winding.P2),
       proj_tris o e1 e2 M = l1 ++ (a, b, c) :: l2 ++ (a', b', c') :: l3 ->
       Winding.inside_tri a b c q -> Winding.inside_tri a' b' c' q -> False).
Proof. exact ears_tile_exactly. Qed.
(** the triangle areas sum to the polygon's area (which is positive) *)
Theorem C01_area_sum : forall (o e1 e2 : V3 R) (P : Poly R) (M : Mesh R) (L : Loop R),
  stable_run P M -> outline_of P L ->
  (forall a b c, In (a, b, c) (proj_tris o e1 e2 M) -> (0 < Winding.orient a b c)%R) ->
  Shoelace.area2 (proj_outline o e1 e2 L) = Cyclic.tsum 0%R Rplus (fun a b c => Rabs (Shoelace.area2 [a; b; c])) (proj_tris o e1 e2 M).
Proof. exact ears_area_sum. Qed.
Theorem C01_area_positive : forall (o e1 e2 : V3 R) (P : Poly R) (M : Mesh R) (L : Loop R),
  stable_run P M -> outline_of P L ->
  (forall a b c, In (a, b, c) (proj_tris o e1 e2 M) -> (0 < Winding.orient a b c)%R) ->
  1 <= length (tris M) -> (0 < Shoelace.area2 (proj_outline o e1 e2 L))%R.
Proof. exact ears_area_positive. Qed.
(** the orientation hypothesis stated on the stored normals (conditional form, any frame) *)
Theorem C01_positive_normals_suffice : forall (o e1 e2 : V3 R) (P : Poly R) (M : Mesh R),
  from_polygon P = Ok M -> (forall t, In t (tris M) -> (0 < vdot (vcross e1 e2) (tnormal (tp_tri t)))%R) ->
  forall a b c, In (a, b, c) (proj_tris o e1 e2 M) -> (0 < Winding.orient a b c)%R.
Proof. exact positive_normals_positive_ears. Qed.
(** ** the orientation is PROVED when the polygon's normal is a positive multiple of the frame normal *)
Theorem C01_def_frame_normal : forall (e1 e2 : V3 R) (P : Poly R),
  frame_normal e1 e2 P <-> exists k : R, (0 < k)%R /\ pnormal P = vscale (vcross e1 e2) k.
Proof. intros. apply iff_refl. Qed.
Theorem C01_frame_normal_eq : forall (e1 e2 : V3 R) (P : Poly R), pnormal P = vcross e1 e2 -> frame_normal e1 e2 P.
Proof. exact frame_normal_eq. Qed.
(** [ear_convex] is 0 < orient of the projected ear *)
Theorem C01_ear_convex_orient : forall (o e1 e2 : V3 R) (P : Poly R) (a b c : V3 R),
  frame_normal e1 e2 P -> ear_convex P a b c = true ->
  (0 < Winding.orient (plane2 o e1 e2 a) (plane2 o e1 e2 b) (plane2 o e1 e2 c))%R.
Proof. exact ear_convex_orient. Qed.
(** every returned triangle of every successful run is counter-clockwise in the plane coordinates *)
Theorem C01_ears_positive : forall (o e1 e2 : V3 R) (P : Poly R) (M : Mesh R),
  from_polygon P = Ok M -> frame_normal e1 e2 P ->
  forall a b c, In (a, b, c) (proj_tris o e1 e2 M) -> (0 < Winding.orient a b c)%R.
Proof. exact ears_positive. Qed.
(** the reduction, the exact tiling and the area sum WITHOUT an orientation hypothesis *)
Theorem C01_tiling_count_proved : forall (o e1 e2 : V3 R) (P : Poly R) (M : Mesh R) (L : Loop R),
  stable_run P M -> outline_of P L -> frame_normal e1 e2 P ->
  forall d q : Winding.P2, Winding.generic d q (proj_outline o e1 e2 L) ->
    (forall a b c, In (a, b, c) (proj_tris o e1 e2 M) -> Winding.off_segs a b c q) ->
    Winding.wn d (proj_outline o e1 e2 L) q = Z.of_nat (Winding.count_inside (proj_tris o e1 e2 M) q).
Proof. exact ears_tiling_count_proved. Qed.
Theorem C01_tile_exactly_proved : forall (o e1 e2 : V3 R) (P : Poly R) (M : Mesh R) (L : Loop R),
  stable_run P M -> outline_of P L -> frame_normal e1 e2 P ->
  forall d q : Winding.P2, Winding.generic d q (proj_outline o e1 e2 L) ->
    (forall a b c, In (a, b, c) (proj_tris o e1 e2 M) -> Winding.off_segs a b c q) ->
    (0 <= Winding.wn d (proj_outline o e1 e2 L) q <= 1)%Z ->
    (Winding.wn d (proj_outline o e1 e2 L) q = 1%Z <-> exists a b c, In (a, b, c) (proj_tris o e1 e2 M) /\ Winding.inside_tri a b c q) /\
    Winding.count_inside (proj_tris o e1 e2 M) q = (if Z.eqb (Winding.wn d (proj_outline o e1 e2 L) q) 1 then 1 else 0) /\
    (forall (l1 l2 l3 : list (Winding.P2 * Winding.P2 * Winding.P2)) (a b c a' b' c' : Winding.P2),
       proj_tris o e1 e2 M = l1 ++ (a, b, c) :: l2 ++ (a', b', c') :: l3 ->
       Winding.inside_tri a b c q -> Winding.inside_tri a' b' c' q -> False).
Proof. exact ears_tile_exactly_proved. Qed.
Theorem C01_area_sum_proved : forall (o e1 e2 : V3 R) (P : Poly R) (M : Mesh R) (L : Loop R),
  stable_run P M -> outline_of P L -> frame_normal e1 e2 P ->
  Shoelace.area2 (proj_outline o e1 e2 L) = Cyclic.tsum 0%R Rplus (fun a b c => Rabs (Shoelace.area2 [a; b; c])) (proj_tris o e1 e2 M).
Proof. exact ears_area_sum_proved. Qed.
Theorem C01_area_positive_proved : forall (o e1 e2 : V3 R) (P : Poly R) (M : Mesh R) (L : Loop R),
  stable_run P M -> outline_of P L -> frame_normal e1 e2 P ->
  1 <= length (tris M) -> (0 < Shoelace.area2 (proj_outline o e1 e2 L))%R.
Proof. exact ears_area_positive_proved. Qed.

(** the reduction in the theory library's own form ([Winding.tiling_of_positive_ears], point off the edge LINES) *)
Theorem C01_tiling_count_via_theory : forall (L : list Winding.P2) (Ts : list (Winding.P2 * Winding.P2 * Winding.P2)) (d q : Winding.P2),
  ear_decomp2 L Ts -> 3 <= length L -> Winding.generic d q L ->
  (forall a b c, In (a, b, c) Ts -> (0 < Winding.orient a b c)%R /\ Winding.off_lines a b c q) ->
  exists Ts', Cyclic.ear_decomp L Ts' /\ Forall2 trot Ts Ts' /\
    Winding.wn d L q = Z.of_nat (Winding.count_inside Ts' q) /\ Winding.count_inside Ts' q = Winding.count_inside Ts q.
Proof. exact ed2_count_via_theory. Qed.

(** ** the reduction needs the orientation (pure geometry): with one clockwise ear a point outside is covered twice *)
Theorem C01_negative_ear_breaks_count :
  exists (L : list Winding.P2) (Ts : list (Winding.P2 * Winding.P2 * Winding.P2)) (d q : Winding.P2),
    ear_decomp2 L Ts /\ Winding.generic d q L /\ (forall a b c, In (a, b, c) Ts -> Winding.off_lines a b c q) /\
    (exists a b c, In (a, b, c) Ts /\ (Winding.orient a b c < 0)%R) /\
    Winding.wn d L q = 0%Z /\ Winding.count_inside Ts q = 2.
Proof. exact negative_ear_breaks_count. Qed.

(** ** non-vacuity: the cross-shaped dodecagon (1,0) (2,0) (2,1) (3,1) (3,2) (2,2) (2,3) (1,3) (1,2) (0,2) (0,1) (1,1).
    On the binary64 instance: success, 10 triangles = the 10 ears [ex_ears], one [sanitize] call (10th pass), vertex
    list unchanged.  Over the reals the same outline and ears: an ear decomposition, every ear counter-clockwise,
    q = (5/4, 8/5) with the ray (1, 0) generic and on no edge line; winding number 1 = one ear contains q; area 5. *)
Example C01_tiling_nonvacuous :
  (exists (M : Mesh float) (tr : Trace) (Lm : Loop float),
     from_polygon_tr ex_poly = Ok (M, tr) /\ sanitize_unchanged tr /\ length (snd tr) = 1 /\
     poly_get_closed_loop ex_poly = Ok Lm /\ snd (loop_close Lm) = Ok tt /\
     verts (fst (loop_close Lm)) = map zp ex_coords /\ fst tr = map (map3 zp) ex_ears /\ length (tris M) = 10) /\
  (let L2 := map zr ex_coords in let Ts := map (map3 zr) ex_ears in
   ear_decomp2 L2 Ts /\ Winding.generic ex_d ex_q L2 /\
   (forall a b c, In (a, b, c) Ts -> (0 < Winding.orient a b c)%R /\ Winding.off_segs a b c ex_q) /\
   Winding.wn ex_d L2 ex_q = 1%Z /\ Winding.count_inside Ts ex_q = 1 /\ Shoelace.area2 L2 = 5%R).
Proof. split; [exact ex_run | exact ex_hypotheses]. Qed.

(** ** non-vacuity with a HOLE: the unit square with the triangular hole (0.3,0.3) (0.45,0.6) (0.6,0.3) ([w1_poly]; before
    fix 4bb2ed8 a reversed ear covered the hole).  Binary64 run: success, merged outline of 9 vertices (read in units of
    1/20 they are [ex2_coords]), 7 = 9 - 2 triangles = [ex2_ears], one [sanitize] call, unchanged, every ear passes
    [ear_convex].  Over the reals (units of 1/20): ear decomposition, every ear counter-clockwise; a point of the region
    has winding number 1 and is covered once; a point IN THE HOLE has winding number 0 and is covered by no triangle;
    area 382 = 400 - 18. *)
Example C01_tiling_nonvacuous_hole :
  (exists (M : Mesh float) (tr : Trace) (Lm : Loop float),
     from_polygon_tr Mesh_witness.w1_poly = Ok (M, tr) /\ sanitize_unchanged tr /\ length (snd tr) = 1 /\
     length (pinner Mesh_witness.w1_poly) = 1 /\
     poly_get_closed_loop Mesh_witness.w1_poly = Ok Lm /\ snd (loop_close Lm) = Ok tt /\
     map fzp20 (verts (fst (loop_close Lm))) = ex2_coords /\ map (map3 fzp20) (fst tr) = ex2_ears /\ length (tris M) = 7 /\
     forallb (fun e => ear_convex Mesh_witness.w1_poly (fst (fst e)) (snd (fst e)) (snd e)) (fst tr) = true) /\
  (let L2 := map zr ex2_coords in let Ts := map (map3 zr) ex2_ears in
   ear_decomp2 L2 Ts /\ (forall a b c, In (a, b, c) Ts -> (0 < Winding.orient a b c)%R) /\
   Winding.generic ex_d ex2_q L2 /\ (forall a b c, In (a, b, c) Ts -> Winding.off_segs a b c ex2_q) /\
   Winding.wn ex_d L2 ex2_q = 1%Z /\ Winding.count_inside Ts ex2_q = 1 /\
   Winding.generic ex_d ex2_qhole L2 /\ (forall a b c, In (a, b, c) Ts -> Winding.off_segs a b c ex2_qhole) /\
   Winding.wn ex_d L2 ex2_qhole = 0%Z /\ (forall a b c, In (a, b, c) Ts -> ~ Winding.inside_tri a b c ex2_qhole) /\
   Shoelace.area2 L2 = 382%R).
Proof. split; [exact ex2_run | exact ex2_hypotheses]. Qed.

(** ** [stable_run] is a genuine restriction: on this 16-vertex comb the 10th pass's [sanitize] drops a vertex that has become
    collinear (the recorded vertex lists differ); the run succeeds with 13 = |L| - 3 triangles, so |triangles| = |L| - 2
    is false in general (it is [C01_ntriangles_stable] for stable runs) *)
Theorem C01_sanitize_can_change :
  exists (P : Poly float) (M : Mesh float) (tr : Trace) (Lm : Loop float),
    from_polygon_tr P = Ok (M, tr) /\ ~ sanitize_unchanged tr /\
    poly_get_closed_loop P = Ok Lm /\ snd (loop_close Lm) = Ok tt /\
    llen (fst (loop_close Lm)) = 16 /\ length (tris M) = 13.
Proof. exists ex3_poly. exact ex3_sanitize_changes. Qed.

(** * The tiling statement in terms of the POLYGON: outer outline and holes (proofs in Proofs/C01_polygon.v).
    Composition of the theorems above (about the closed merged outline) with the region theorems of
    Properties/C12_region.v (merged outline = outer outline minus the holes, each hole "oriented like the outer":
    [oriented n h] = the stored list when the stored normals have the same direction, its reverse otherwise).
    Hypotheses: the two decidable side conditions of C12 ([closed_loop_clean false P], [closed_loop_wf P]; the second
    follows from bounded coordinates, [C12_region_bounded_coords_wf]); [stable_run P M]; [loop_close] keeps the vertex
    list of the merged loop ([close_keeps]); the frame normal e1 x e2 is a positive multiple of the polygon's normal; the
    ray is generic for the polygon's own vertices; q lies on no triangle edge; the Jordan hypotheses on the INPUT loops,
    pointwise at q.  Exact tier. *)
Theorem C01_polygon_def : forall (o e1 e2 : V3 R) (P : Poly R) (d q : Winding.P2) (hs : list (list Winding.P2)),
  poly_outer2 o e1 e2 P = map (plane2 o e1 e2) (verts (pouter P)) /\
  poly_holes2 o e1 e2 P = map (fun h => map (plane2 o e1 e2) (oriented (lnormal (pouter P)) h)) (pinner P) /\
  holes_wn d q hs = fold_right Z.add 0%Z (map (fun l => Winding.wn d l q) hs) /\
  holes_area2 hs = fold_right Rplus 0%R (map Shoelace.area2 hs) /\
  (poly_generic o e1 e2 P d q <->
   forall v, In v (verts (pouter P) ++ flat_map (@verts R) (pinner P)) -> Winding.hgt d q (plane2 o e1 e2 v) <> 0%R) /\
  (close_keeps P <-> forall Lm : Loop R, poly_get_closed_loop P = Ok Lm -> verts (fst (loop_close Lm)) = verts Lm).
Proof. intros. repeat split; intros H; exact H. Qed.

(** the number of triangles containing q = winding number of the outer outline - sum over the holes *)
Theorem C01_polygon_count : forall (o e1 e2 : V3 R) (P : Poly R) (M : Mesh R),
  closed_loop_clean false P = true -> closed_loop_wf P = true -> stable_run P M -> close_keeps P -> frame_normal e1 e2 P ->
  forall d q : Winding.P2, poly_generic o e1 e2 P d q ->
    (forall a b c, In (a, b, c) (proj_tris o e1 e2 M) -> Winding.off_segs a b c q) ->
    Z.of_nat (Winding.count_inside (proj_tris o e1 e2 M) q) =
    (Winding.wn d (poly_outer2 o e1 e2 P) q - holes_wn d q (poly_holes2 o e1 e2 P))%Z.
Proof. exact polygon_count. Qed.
(** the exact tiling.  Jordan hypotheses on the input at q: the outer outline winds 0 or 1 times, every hole (oriented like
    the outer) winds >= 0 times, the holes together at most as often as the outer (holes inside the outer, pairwise
    disjoint).  Then: a point of the region (inside the outer, in no hole) lies in exactly one triangle; a point outside
    the outer outline or in a hole lies in none; no two triangles overlap; in general the count is wn outer - sum holes *)
Theorem C01_polygon_tile_exactly : forall (o e1 e2 : V3 R) (P : Poly R) (M : Mesh R),
  closed_loop_clean false P = true -> closed_loop_wf P = true -> stable_run P M -> close_keeps P -> frame_normal e1 e2 P ->
  forall d q : Winding.P2, poly_generic o e1 e2 P d q ->
    (forall a b c, In (a, b, c) (proj_tris o e1 e2 M) -> Winding.off_segs a b c q) ->
    (0 <= Winding.wn d (poly_outer2 o e1 e2 P) q <= 1)%Z ->
    (forall l, In l (poly_holes2 o e1 e2 P) -> (0 <= Winding.wn d l q)%Z) ->
    (holes_wn d q (poly_holes2 o e1 e2 P) <= Winding.wn d (poly_outer2 o e1 e2 P) q)%Z ->
    (Winding.wn d (poly_outer2 o e1 e2 P) q = 1%Z -> (forall l, In l (poly_holes2 o e1 e2 P) -> Winding.wn d l q = 0%Z) ->
       Winding.count_inside (proj_tris o e1 e2 M) q = 1 /\
       exists a b c, In (a, b, c) (proj_tris o e1 e2 M) /\ Winding.inside_tri a b c q) /\
    (Winding.wn d (poly_outer2 o e1 e2 P) q = 0%Z \/ (exists l, In l (poly_holes2 o e1 e2 P) /\ (0 < Winding.wn d l q)%Z) ->
       Winding.count_inside (proj_tris o e1 e2 M) q = 0 /\
       forall a b c, In (a, b, c) (proj_tris o e1 e2 M) -> ~ Winding.inside_tri a b c q) /\
    (forall (l1 l2 l3 : list (Winding.P2 * Winding.P2 * Winding.P2)) (a b c a' b' c' : Winding.P2),
       proj_tris o e1 e2 M = l1 ++ (a, b, c) :: l2 ++ (a', b', c') :: l3 ->
       Winding.inside_tri a b c q -> Winding.inside_tri a' b' c' q -> False) /\
    Winding.count_inside (proj_tris o e1 e2 M) q =
    Z.to_nat (Winding.wn d (poly_outer2 o e1 e2 P) q - holes_wn d q (poly_holes2 o e1 e2 P)).
Proof. exact polygon_tile_exactly. Qed.
(** the areas: sum of the absolute triangle areas = area of the outer outline - areas of the holes (plane coordinates) ... *)
Theorem C01_polygon_area_sum : forall (o e1 e2 : V3 R) (P : Poly R) (M : Mesh R),
  closed_loop_clean false P = true -> closed_loop_wf P = true -> stable_run P M -> close_keeps P -> frame_normal e1 e2 P ->
  Cyclic.tsum 0%R Rplus (fun a b c => Rabs (Shoelace.area2 [a; b; c])) (proj_tris o e1 e2 M) =
  (Shoelace.area2 (poly_outer2 o e1 e2 P) - holes_area2 (poly_holes2 o e1 e2 P))%R.
Proof. exact polygon_area_sum. Qed.
(** ... = the polygon's stored area, under the hypotheses of [C12_region_net_area] (loops in one plane with the unit normal
    e1 x e2 = the outer loop's stored normal; stored loop areas signed -- true of every loop closed by Loop3D::close,
    [C12_region_closed_loops_have_signed_area]) and the polygon's own accounting ([C12_region_polygon_accounting]) *)
Theorem C01_polygon_area_parea : forall (o e1 e2 : V3 R) (P : Poly R) (M : Mesh R),
  closed_loop_clean false P = true -> closed_loop_wf P = true -> stable_run P M -> close_keeps P -> frame_normal e1 e2 P ->
  lnormal (pouter P) = vcross e1 e2 -> vdot (vcross e1 e2) (vcross e1 e2) = 1%R -> planar_normals P -> signed_areas P ->
  (parea P = larea (pouter P) - rsum (map larea (pinner P)))%R ->
  Cyclic.tsum 0%R Rplus (fun a b c => Rabs (Shoelace.area2 [a; b; c])) (proj_tris o e1 e2 M) = parea P.
Proof. exact polygon_area_parea. Qed.

(** ** non-vacuity: the unit square with the triangular hole ([w1_poly]).  Binary64: the side conditions hold, [close] keeps the 9
    vertices of the merged loop, the polygon's normal is the outer loop's normal (0,0,1), the run is sanitize-stable with 7
    triangles; outer outline and oriented hole read in units of 1/20.  Over the reals, same data: Jordan hypotheses at both
    sample points; region point: 1 - 0 = 1 triangle; point in the hole: 1 - 1 = 0 triangles; 400 - 18 = sum of triangle areas *)
Example C01_polygon_nonvacuous :
  (closed_loop_clean false Mesh_witness.w1_poly = true /\ closed_loop_wf Mesh_witness.w1_poly = true /\
   closed_loop_hits Mesh_witness.w1_poly = true /\
   pnormal Mesh_witness.w1_poly = lnormal (pouter Mesh_witness.w1_poly) /\
   map fzp20 [pnormal Mesh_witness.w1_poly] = [(0, 0)%Z] /\ fz20 (vz (pnormal Mesh_witness.w1_poly)) = 20%Z /\
   map fzp20 (verts (pouter Mesh_witness.w1_poly)) = ex2_outer /\
   map (fun h => map fzp20 (oriented (lnormal (pouter Mesh_witness.w1_poly)) h)) (pinner Mesh_witness.w1_poly) = [ex2_hole] /\
   (exists Lm : Loop float, poly_get_closed_loop Mesh_witness.w1_poly = Ok Lm /\ snd (loop_close Lm) = Ok tt /\
      verts (fst (loop_close Lm)) = verts Lm /\ llen Lm = 9) /\
   (exists M : Mesh float, stable_run Mesh_witness.w1_poly M /\ length (tris M) = 7)) /\
  (let O2 := map zr ex2_outer in let H2 := [map zr ex2_hole] in let Ts := map (map3 zr) ex2_ears in
   Winding.wn ex_d O2 ex2_q = 1%Z /\ holes_wn ex_d ex2_q H2 = 0%Z /\
   Winding.wn ex_d O2 ex2_qhole = 1%Z /\ holes_wn ex_d ex2_qhole H2 = 1%Z /\
   Z.of_nat (Winding.count_inside Ts ex2_q) = (Winding.wn ex_d O2 ex2_q - holes_wn ex_d ex2_q H2)%Z /\
   Z.of_nat (Winding.count_inside Ts ex2_qhole) = (Winding.wn ex_d O2 ex2_qhole - holes_wn ex_d ex2_qhole H2)%Z /\
   Shoelace.area2 O2 = 400%R /\ holes_area2 H2 = 18%R /\
   Cyclic.tsum 0%R Rplus (fun a b c => Rabs (Shoelace.area2 [a; b; c])) Ts = (Shoelace.area2 O2 - holes_area2 H2)%R).
Proof. split; [exact ex2_polygon_float | exact ex2_polygon_real]. Qed.
