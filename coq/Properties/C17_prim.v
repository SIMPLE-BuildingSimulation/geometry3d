(** * C17 on primitive floats.  The C17 runner executes Flocq binary64 itself, so C17's own correspondence needs no
    bridge; but the sphere / cylinder runners (C02, C03, C13) execute [af_solve_quadratic] on [NumF].  This file states
    that that run is the Flocq binary64 run ([C17_prim_run_is_flocq_run]: same decision None / Some, same order, the
    [P2B]-images of both enclosures) and reads the two enclosure theorems of Properties/C17.v through it.
    [pI] = [P2B] on both bounds of an interval; [wf], [contains], [no_zero], [inter_ok], ... as in Properties/C17.v.
    Axioms: the primitive float / integer specifications besides the classical reals.  Statements only. *)
From Coq Require Import ZArith Reals Floats.
From Flocq Require Import Core BinarySingleNaN.
From G3 Require Import Model.Num Model.NumF Model.Base Model.RoundError Model.Quadratic Theory.PrimBridge
  Theory.IntervalSpec Theory.QuadraticSpec Proofs.C07_interval Proofs.C17_quadratic Proofs.Bridge_interval Proofs.Bridge_C17.
Local Open Scope R_scope.

Theorem C17_prim_run_is_flocq_run : forall a b c : AF prim,
  mapOpt (mapP pI pI) (@af_solve_quadratic _ NumF a b c) = @af_solve_quadratic _ NumB64 (pI a) (pI b) (pI c).
Proof. exact (fun a b c => eq_sym (hom_af_solve_quadratic P2B a b c)). Qed.

Theorem C17_prim_roots_enclosed : forall (A B C X1 X2 : AF prim) (a b c : R),
  wf (pI A) -> wf (pI B) -> wf (pI C) -> no_zero (pI A) -> inter_ok 53 1024 Hprec53 Hmax1024 (pI A) (pI B) (pI C) ->
  @af_solve_quadratic _ NumF A B C = Some (X1, X2) ->
  contains (pI A) a -> contains (pI B) b -> contains (pI C) c ->
  0 <= qdisc a b c /\
  contains (pI X1) (root_lo a b c) /\
  (not_nested (pI X1) (pI X2) -> contains (pI X2) (root_hi a b c)) /\
  ext_wf (pI X1) /\ ext_wf (pI X2) /\ ext_le (low (pI X1)) (low (pI X2)).
Proof. exact prim_roots_enclosed. Qed.

Theorem C17_prim_each_root_enclosed : forall (A B C X1 X2 : AF prim) (a b c : R),
  wf (pI A) -> wf (pI B) -> wf (pI C) -> no_zero (pI A) -> inter_ok 53 1024 Hprec53 Hmax1024 (pI A) (pI B) (pI C) ->
  @af_solve_quadratic _ NumF A B C = Some (X1, X2) ->
  contains (pI A) a -> contains (pI B) b -> contains (pI C) c ->
  (contains (pI X1) (root_minus a b c) /\ contains (pI X2) (root_plus a b c)) \/
  (contains (pI X1) (root_plus a b c) /\ contains (pI X2) (root_minus a b c)).
Proof. exact prim_each_root_enclosed. Qed.

Example C17_prim_nonvacuous :
  wf (pI fA) /\ wf (pI fB) /\ wf (pI fC) /\ no_zero (pI fA) /\ inter_ok 53 1024 Hprec53 Hmax1024 (pI fA) (pI fB) (pI fC) /\
  (exists X1 X2 : AF prim, @af_solve_quadratic _ NumF fA fB fC = Some (X1, X2)) /\
  contains (pI fA) 1 /\ contains (pI fB) (- 6755406196455185 / 2251799813685248) /\ contains (pI fC) 2.
Proof. exact prim_C17_nonvacuous. Qed.
