(** * C08 (triangulation part) -- [refine] (recursive refinement) and [mesh_polygon] preserve the region.  Real instance.
    Statements only; proofs in Proofs/Mesh_refine_trace.v (the trace; every number instance) and Proofs/Mesh_refine_region.v.

    [refine_trace fuel a m M] lists, in order, the elementary steps a call of [refine] performs with outcome Ok: split_edge at the
    midpoint of the longest edge, restore_delaunay, add_point at the cached circumcentre, the fall-back split_triangle at the cached
    centroid; and [TSwallowed c] where an Err of add_point was swallowed.  [refine_tr] = ([refine], [refine_trace]) -- the erasure
    lemma is definitional.  [tr_ok side M tr] replays the trace and asks [side M_k op_k] of every step on the mesh it is applied to:
      split_edge (midpoint p)   : SEPp M p  (p separated from the current vertices) [+ the ray avoids p, for coverage];
      add_point p               : SEPp M p, p in the plane, located Inside => strictly inside (plane coordinates), located on an
                                  edge => EXACTLY between its end points (tri_test_point only locates up to 100 eps:
                                  C08_located_on_edge_is_not_exact) [+ ray];
      fall-back split_triangle  : SEPp M p, p in the plane, strictly inside the triangle;   restore_delaunay : nothing.
    That the midpoint is exactly on the edge and in the plane is PROVED, not asked.  A swallowed Err left the mesh unchanged
    (Proofs/Mesh_atomic.v: on WF + CNT + LNK meshes split_edge / split_triangle return Ok, or M' = M, or Panic 64).
    [INV M] := WF M /\ CNT M /\ GEO M /\ every vertex in the plane of the orthonormal frame /\ every live triangle positive.
    PROVED: from INV M, if [refine] returns Ok and the trace meets [side]: INV M' (so GEO and positive orientation), the same
    doubled area, the same coverage; the corollary for mesh_polygon takes [INV M0] of from_polygon's result as a hypothesis, which
    Properties/C08_init.v discharges: [C08_mesh_polygon_region_from_polygon]. *)
From Coq Require Import ZArith Reals List Permutation Floats Lra.
Set Warnings "-inexact-float".
From G3 Require Import Model.Num Model.NumF Model.Base Model.Vec Model.Segment Model.Triangle Model.Loop Model.Polygon Model.Triangulation
  Theory.RInst Theory.Cyclic Theory.Winding
  Proofs.Mesh_base Proofs.Mesh_wf Proofs.Mesh_conf Proofs.Mesh_region Proofs.Mesh_atomic Proofs.Mesh_region_ex
  Proofs.Mesh_links Proofs.Mesh_links_steps Proofs.Mesh_links_region Proofs.Mesh_links_ex
  Proofs.Mesh_refine_trace Proofs.Mesh_refine_region Proofs.Mesh_refine_ex.
From G3 Require Proofs.C05_pointtest.
Import ListNotations.

(** erasure: the instrumented function computes [refine] (any fuel) *)
Theorem C08_refine_trace_erasure : forall (K : Type) (NK : Num K) (fuel : nat) (a m : K) (M : Mesh K),
  fst (refine_tr fuel a m M) = refine fuel a m M /\ snd (refine_tr fuel a m M) = refine_trace fuel a m M.
Proof. intros. split; reflexivity. Qed.
(** a swallowed Err: the mesh is unchanged *)
Theorem C08_add_point_err_unchanged_struct : forall (K : Type) (NK : Num K) (p : V3 K) (M M' : Mesh K) (c : N),
  WF M -> CNT M -> LNK M -> add_point p M = (M', Err c) -> M' = M.
Proof. exact (fun K NK => @add_point_err_struct K NK). Qed.

Theorem C08_refine_region_area : forall (o e1 e2 : V3 R),
  vdot e1 e1 = 1%R -> vdot e2 e2 = 1%R -> vdot e1 e2 = 0%R ->
  forall (fuel : nat) (a m : R) (M M' : Mesh R) (r : rres),
    INV o e1 e2 M -> refine fuel a m M = (M', Ok r) -> tr_ok (side o e1 e2 (fun _ => True)) M (refine_trace fuel a m M) ->
    mesh_area2 o e1 e2 M' = mesh_area2 o e1 e2 M.
Proof. exact refine_area. Qed.
Theorem C08_refine_region_cover : forall (o e1 e2 : V3 R),
  vdot e1 e1 = 1%R -> vdot e2 e2 = 1%R -> vdot e1 e2 = 0%R ->
  forall (d q : P2) (fuel : nat) (a m : R) (M M' : Mesh R) (r : rres),
    INV o e1 e2 M -> refine fuel a m M = (M', Ok r) ->
    tr_ok (side o e1 e2 (fun p => hgt d q (C05_pointtest.plane2 o e1 e2 p) <> 0%R)) M (refine_trace fuel a m M) ->
    mesh_cover o e1 e2 d M' q = mesh_cover o e1 e2 d M q.
Proof. exact refine_cover. Qed.
Theorem C08_refine_orientation : forall (o e1 e2 : V3 R),
  vdot e1 e1 = 1%R -> vdot e2 e2 = 1%R -> vdot e1 e2 = 0%R ->
  forall (fuel : nat) (a m : R) (M M' : Mesh R) (r : rres),
    INV o e1 e2 M -> refine fuel a m M = (M', Ok r) -> tr_ok (side o e1 e2 (fun _ => True)) M (refine_trace fuel a m M) ->
    AllPos o e1 e2 M'.
Proof. intros o e1 e2 A B C fuel a m M M' r HV H Htr. exact (proj2 (proj2 (proj2 (proj2 (refine_INV o e1 e2 A B C fuel a m M M' r HV H Htr))))). Qed.
Theorem C08_refine_geo : forall (o e1 e2 : V3 R),
  vdot e1 e1 = 1%R -> vdot e2 e2 = 1%R -> vdot e1 e2 = 0%R ->
  forall (fuel : nat) (a m : R) (M M' : Mesh R) (r : rres),
    INV o e1 e2 M -> refine fuel a m M = (M', Ok r) -> tr_ok (side o e1 e2 (fun _ => True)) M (refine_trace fuel a m M) ->
    WF M' /\ CNT M' /\ GEO M'.
Proof.
  intros o e1 e2 A B C fuel a m M M' r HV H Htr. destruct (refine_INV o e1 e2 A B C fuel a m M M' r HV H Htr) as (W & Cn & G & _). split; [exact W | split; [exact Cn | exact G]].
Qed.
Theorem C08_mesh_polygon_region : forall (o e1 e2 : V3 R),
  vdot e1 e1 = 1%R -> vdot e2 e2 = 1%R -> vdot e1 e2 = 0%R ->
  forall (fuel : nat) (P : Poly R) (a m : R) (M0 M' : Mesh R) (r : rres),
    from_polygon P = Ok M0 -> INV o e1 e2 M0 -> mesh_polygon fuel P a m = Ok (M', r) ->
    tr_ok (side o e1 e2 (fun _ => True)) M0 (refine_trace fuel a m M0) ->
    INV o e1 e2 M' /\ mesh_area2 o e1 e2 M' = mesh_area2 o e1 e2 M0.
Proof. exact mesh_polygon_region. Qed.

(** non-vacuity: binary64 -- refine of the unit-square mesh returns Ok after a trace of at least 10 elementary steps *)
Example C08_refine_trace_nonvacuous :
  exists M' : Mesh float, refine 50 0.1%float 1.5%float sqM = (M', Ok RDone) /\
    Nat.leb 10 (length (refine_trace 50 0.1%float 1.5%float sqM)) = true /\ Nat.leb 8 (length (live_tris M')) = true.
Proof. exact refine_trace_float_nonvacuous. Qed.
(** reals: a mesh, a frame and parameters for which all the hypotheses hold, with a non-empty trace *)
Example C08_refine_hypotheses_nonvacuous :
  exists (M M' : Mesh R) (o e1 e2 : V3 R) (a m : R) (d q : P2),
    vdot e1 e1 = 1%R /\ vdot e2 e2 = 1%R /\ vdot e1 e2 = 0%R /\ INV o e1 e2 M /\ refine 1 a m M = (M', Ok RDone) /\ refine_trace 1 a m M <> [] /\
    tr_ok (side o e1 e2 (fun p => hgt d q (C05_pointtest.plane2 o e1 e2 p) <> 0%R)) M (refine_trace 1 a m M).
Proof. exact refine_hyp_nonvacuous. Qed.
