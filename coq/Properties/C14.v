(** * C14 -- the ray/box test never loses a ray that enters the box.
    [bbox_intersect b r inv] is the model of [BBox3D::intersect] (Model/BBox.v), [inv] the reciprocal
    direction the caller supplies.  Statements only, each closed by [exact].

    Thm 1 (exact tier, reals, all three direction components non-zero, [inv = 1/d]): the test is
    characterised exactly, is complete for every point of the CLOSED box at a parameter [t > 0]
    (flat boxes and touching rays included), and sound up to the widening factor.
    Thm 2 (float tier, every Flocq binary format): the IEEE special values of axis-parallel rays.
    Thm 3 (float tier, every Flocq binary format, all direction components non-zero, no overflow or
    underflow): a ray whose exact slab parameters clear each other by the relative margin [1 + 2u]
    is accepted (end of the file).
    Two classes of rays are lost: they are genuine defects of the crate, stated as theorems about
    the faithful model and exhibited on binary64 ([..._refuted]). *)
From Coq Require Import ZArith Reals Bool.
From Coq Require Import Floats.SpecFloat.
From Flocq Require Import Core BinarySingleNaN.
From G3 Require Import Model.Num Model.Base Model.Vec Model.BBox Proofs.C14_real Proofs.C14_special Proofs.C14_float Proofs.C14_margin.
Local Open Scope R_scope.

(** ** Thm 1: real instance *)

(** the answer is [true] exactly when the three slab parameter intervals, the far ends widened by
    [wR = 1 + 2 gamma(3)], share a positive parameter *)
Theorem C14_intersect_characterised : forall (b : BBox R) (r : Ray R), generic_dir r ->
  (bbox_intersect b r (inv_dir (rdir r)) = true <->
   exists t, 0 < t /\ forall a, t_near b r a <= t < wR * t_far b r a).
Proof. exact (fun b r _ => intersect_characterised b r). Qed.

(** completeness: a ray with a point [o + t d], [t > 0], in the closed box is never rejected -
    whatever the corner order was, for flat boxes, for origins inside, for any signs of [d] *)
Theorem C14_complete : forall (b : BBox R) (r : Ray R) (t : R),
  generic_dir r -> 0 < t -> In_box b (ray_project r t) -> bbox_intersect b r (inv_dir (rdir r)) = true.
Proof. exact complete. Qed.

(** soundness: an accepted ray passes, ahead of its origin, through the box whose faces are pushed
    outwards by [2 gamma(3) |face - origin|] *)
Theorem C14_sound : forall (b : BBox R) (r : Ray R),
  wellformed b -> generic_dir r -> bbox_intersect b r (inv_dir (rdir r)) = true ->
  exists t, 0 < t /\ In_box (widened b (rorigin r)) (ray_project r t).
Proof. exact sound. Qed.

(** [t > 0] cannot be weakened to [t >= 0]: a ray that meets the box at its origin only is rejected *)
Theorem C14_touching_at_origin_only_is_rejected :
  exists (b : BBox R) (r : Ray R), generic_dir r /\ wellformed b /\ In_box b (ray_project r 0) /\
    bbox_intersect b r (inv_dir (rdir r)) = false.
Proof. exact touching_at_origin_rejected. Qed.

Example C14_nonvacuous :
  let b := mkBBox (mkV3 0 0 0) (mkV3 0 1 1) in let r := mkRay (mkV3 (-1) (/2) (/4)) (mkV3 1 (/8) (/8)) in
  generic_dir r /\ wellformed b /\ 0 < 1 /\ In_box b (ray_project r 1).
Proof. exact nonvacuous. Qed.

(** ** Thm 2: IEEE special values, every binary format [(prec, emax)] *)
Section C14_float.
  Variable prec emax : Z.
  Context (Hprec : FLX.Prec_gt_0 prec) (Hmax : Prec_lt_emax prec emax).
  Notation bf := (binary_float prec emax).
  Local Instance NB : Num bf := NumB prec emax Hprec Hmax.
  Notation finite x := (is_finite x = true).
  Notation ok := (format_ok prec emax Hprec Hmax).   (* 1 and 1 + 2 gamma(3) are positive finite numbers of the format *)
  Notation wok := (widen_ok prec emax Hprec Hmax).

  (** FINDING (recorded, F10): direction.x = +-0 (so [inv.x] = +-inf) and origin.x on the plane of
      either x face: [0 * inf = NaN] in the x slab survives every comparison and the answer is
      [false] - for every box, every other coordinate, every other direction component. *)
  Theorem C14_x_slab_nan_loses_the_ray : forall (b : BBox bf) (r : Ray bf) (i : V3 bf) s,
    vx i = B754_infinity s -> finite (vx (rorigin r)) ->
    (finite (vx (bmin b)) /\ B2R (vx (rorigin r)) = B2R (vx (bmin b))) \/
    (finite (vx (bmax b)) /\ B2R (vx (rorigin r)) = B2R (vx (bmax b))) ->
    bbox_intersect b r i = false.
  Proof. exact (x_face_lost prec emax Hprec Hmax). Qed.

  (** the same class as a decidable predicate on the inputs, with [inv = 1/d] computed by the model *)
  Theorem C14_known_class_is_lost : forall (b : BBox bf) (r : Ray bf), ok ->
    fin3 prec emax (bmin b) -> fin3 prec emax (bmax b) -> fin3 prec emax (rorigin r) ->
    known_x_slab_nan prec emax Hprec Hmax b r = true ->
    bbox_intersect b r (inv_dirB prec emax Hprec Hmax (rdir r)) = false.
  Proof. exact (known_x_slab_nan_lost prec emax Hprec Hmax). Qed.

  (** FINDING (second class, outside the recorded F10): direction.y = -0 or direction.z = -0 ([inv] = -inf) and the origin on a face
      plane of that slab, the slab having positive thickness: the NaN blocks the near/far swap that
      a negative reciprocal needs, and the ray is lost. *)
  Theorem C14_neg_zero_face_loses_the_ray : forall (b : BBox bf) (r : Ray bf), ok ->
    fin3 prec emax (bmin b) -> fin3 prec emax (bmax b) -> fin3 prec emax (rorigin r) ->
    B2R (vy (bmin b)) <= B2R (vy (bmax b)) -> B2R (vz (bmin b)) <= B2R (vz (bmax b)) ->
    known_neg_zero_face prec emax Hprec Hmax b r = true ->
    bbox_intersect b r (inv_dirB prec emax Hprec Hmax (rdir r)) = false.
  Proof. exact (known_neg_zero_face_lost prec emax Hprec Hmax). Qed.

  (** harmless NaNs: a zero direction component in y or z, origin inside that slab or ON its faces
      ([+0]: any position in the closed slab; [-0]: strictly inside, or a flat slab): the slab is
      ignored - the answer is the one computed with (-inf, +inf) in its place *)
  Theorem C14_nan_in_y_or_z_slab_is_ignored : forall (b : BBox bf) (r : Ray bf) (i : V3 bf), wok ->
    (finite (vy (rorigin r)) -> finite (vy (bmin b)) -> finite (vy (bmax b)) -> y_slab_inside prec emax b r i ->
     bbox_intersect b r i =
     fst (slab_core (raw (vx (bmin b)) (vx (rorigin r)) (vx i)) (raw (vx (bmax b)) (vx (rorigin r)) (vx i))
                    (B754_infinity true) (B754_infinity false)
                    (raw (vz (bmin b)) (vz (rorigin r)) (vz i)) (raw (vz (bmax b)) (vz (rorigin r)) (vz i)))) /\
    (finite (vz (rorigin r)) -> finite (vz (bmin b)) -> finite (vz (bmax b)) -> z_slab_inside prec emax b r i ->
     bbox_intersect b r i =
     fst (slab_core (raw (vx (bmin b)) (vx (rorigin r)) (vx i)) (raw (vx (bmax b)) (vx (rorigin r)) (vx i))
                    (raw (vy (bmin b)) (vy (rorigin r)) (vy i)) (raw (vy (bmax b)) (vy (rorigin r)) (vy i))
                    (B754_infinity true) (B754_infinity false))).
  Proof.
    exact (fun b r i W => conj (y_inside_ignored prec emax Hprec Hmax b r i W) (z_inside_ignored prec emax Hprec Hmax b r i W)).
  Qed.
  (** x slab, zero component, origin strictly between the faces: ignored as well *)
  Theorem C14_x_slab_strictly_inside_is_ignored : forall (b : BBox bf) (r : Ray bf) (i : V3 bf) s, wok ->
    vx i = B754_infinity s -> finite (vx (rorigin r)) -> finite (vx (bmin b)) -> finite (vx (bmax b)) ->
    B2R (vx (bmin b)) < B2R (vx (rorigin r)) < B2R (vx (bmax b)) ->
    bbox_intersect b r i =
    fst (slab_core (B754_infinity true) (B754_infinity false)
                   (raw (vy (bmin b)) (vy (rorigin r)) (vy i)) (raw (vy (bmax b)) (vy (rorigin r)) (vy i))
                   (raw (vz (bmin b)) (vz (rorigin r)) (vz i)) (raw (vz (bmax b)) (vz (rorigin r)) (vz i))).
  Proof. exact (x_strictly_inside_ignored prec emax Hprec Hmax). Qed.

  (** a zero direction component with the origin outside that slab: rejected, on every axis *)
  Theorem C14_zero_component_outside_slab_is_rejected : forall (b : BBox bf) (r : Ray bf) (i : V3 bf) s, wok ->
    (vx i = B754_infinity s -> finite (vx (rorigin r)) -> finite (vx (bmin b)) -> finite (vx (bmax b)) ->
     B2R (vx (bmin b)) <= B2R (vx (bmax b)) ->
     B2R (vx (rorigin r)) < B2R (vx (bmin b)) \/ B2R (vx (bmax b)) < B2R (vx (rorigin r)) -> bbox_intersect b r i = false) /\
    (vy i = B754_infinity s -> finite (vy (rorigin r)) -> finite (vy (bmin b)) -> finite (vy (bmax b)) ->
     B2R (vy (bmin b)) <= B2R (vy (bmax b)) ->
     B2R (vy (rorigin r)) < B2R (vy (bmin b)) \/ B2R (vy (bmax b)) < B2R (vy (rorigin r)) -> bbox_intersect b r i = false) /\
    (vz i = B754_infinity s -> finite (vz (rorigin r)) -> finite (vz (bmin b)) -> finite (vz (bmax b)) ->
     B2R (vz (bmin b)) <= B2R (vz (bmax b)) ->
     B2R (vz (rorigin r)) < B2R (vz (bmin b)) \/ B2R (vz (bmax b)) < B2R (vz (rorigin r)) -> bbox_intersect b r i = false).
  Proof.
    exact (fun b r i s W => conj (x_outside_rejected prec emax Hprec Hmax b r i s W)
                           (conj (y_outside_rejected prec emax Hprec Hmax b r i s W) (z_outside_rejected prec emax Hprec Hmax b r i s W))).
  Qed.

  (** ** Thm 3 (float-tier completeness with margin), first half: the COMPUTED parameters.
      The full statement - with [inv = RN(1/d)], finite inputs, no overflow/underflow, if the exact
      parameters satisfy [t_far_j >= t_near_i (1 + 2u)] for [i <> j] and [t_far > 0], the float test
      returns [true] - is proved in Section C14_margin below ([C14_float_complete_margin]); this
      theorem is the step of that proof that involves no rounding analysis.
      Proved here: the same conclusion from the hypothesis on the COMPUTED parameters
      [(face - origin) * inv] (finite, their widened values finite): their sorted intervals share some
      [t > 0] - with NO margin, equality of the two ends of a slab allowed (a flat slab computes both
      ends by the same operations, hence bit-equal: [C14_flat_slab_bit_equal]) - and the three far
      ends are normal numbers.  (The error analysis of the three roundings - reciprocal, subtraction,
      product - that separates exact from computed parameters is [C14_raw_parameter_error] below.) *)
  Theorem C14_float_complete_partial : forall (b : BBox bf) (r : Ray bf) (i : V3 bf),
    widen_big prec emax Hprec Hmax ->
    let o := rorigin r in
    let x1 := raw (vx (bmin b)) (vx o) (vx i) in let x2 := raw (vx (bmax b)) (vx o) (vx i) in
    let y1 := raw (vy (bmin b)) (vy o) (vy i) in let y2 := raw (vy (bmax b)) (vy o) (vy i) in
    let z1 := raw (vz (bmin b)) (vz o) (vz i) in let z2 := raw (vz (bmax b)) (vz o) (vz i) in
    let W := wfB prec emax Hprec Hmax in
    finite x1 -> finite x2 -> finite y1 -> finite y2 -> finite z1 -> finite z2 ->
    finite (W x1) -> finite (W x2) -> finite (W y1) -> finite (W y2) -> finite (W z1) -> finite (W z2) ->
    (exists t, 0 < t /\ Rmin (B2R x1) (B2R x2) <= t <= Rmax (B2R x1) (B2R x2) /\
                        Rmin (B2R y1) (B2R y2) <= t <= Rmax (B2R y1) (B2R y2) /\
                        Rmin (B2R z1) (B2R z2) <= t <= Rmax (B2R z1) (B2R z2)) ->
    bpow radix2 (3 - emax - prec + prec - 1) <= Rmax (B2R x1) (B2R x2) ->
    bpow radix2 (3 - emax - prec + prec - 1) <= Rmax (B2R y1) (B2R y2) ->
    bpow radix2 (3 - emax - prec + prec - 1) <= Rmax (B2R z1) (B2R z2) ->
    bbox_intersect b r i = true.
  Proof. exact (intersect_complete_on_computed_parameters prec emax Hprec Hmax). Qed.
  Theorem C14_flat_slab_bit_equal : forall lo hi o i : bf, lo = hi -> raw lo o i = raw hi o i.
  Proof. exact (flat_slab_bit_equal prec emax Hprec Hmax). Qed.
End C14_float.

(** binary64 and binary32 meet the format side condition *)
Theorem C14_formats_ok : format_ok 53 1024 Hprec53 Hmax1024 /\ format_ok 24 128 Hprec24 Hmax128 /\
  widen_big 53 1024 Hprec53 Hmax1024 /\ widen_big 24 128 Hprec24 Hmax128.
Proof. exact (conj format_ok_64 (conj format_ok_32 (conj widen_big_64 widen_big_32))). Qed.

(** ** witnesses on the executable binary64 model (vm_compute) *)
(** F10: box {0} x [0,1] x [0,1] and the unit cube, origin (0, 0.5, -1), direction (0, 0, 1): the point
    at t = 1.5 is inside the box, the input is in the recorded class, the answer is [false] *)
Theorem C14_x_slab_nan_refuted :
  (known_x_slab_nan 53 1024 Hprec53 Hmax1024 w_flat w_ray = true /\
   (n0 <? w_t)%num = true /\ bbox_point_inside w_flat (ray_project w_ray w_t) = true /\
   bbox_intersect w_flat w_ray (inv64 (rdir w_ray)) = false) /\
  (known_x_slab_nan 53 1024 Hprec53 Hmax1024 w_cube w_ray = true /\
   bbox_point_inside w_cube (ray_project w_ray w_t) = true /\
   bbox_intersect w_cube w_ray (inv64 (rdir w_ray)) = false).
Proof. exact x_slab_nan_witness. Qed.

(** direction (0, -0, 1) from (0.5, 0, -1), and direction (1, 0, -0) from (-1, 0.5, 1), unit cube:
    outside the recorded class, inside the second one, lost *)
Theorem C14_neg_zero_face_refuted :
  (known_neg_zero_face 53 1024 Hprec53 Hmax1024 w_cube w_ray_y = true /\
   known_x_slab_nan 53 1024 Hprec53 Hmax1024 w_cube w_ray_y = false /\
   bbox_point_inside w_cube (ray_project w_ray_y w_t) = true /\
   bbox_intersect w_cube w_ray_y (inv64 (rdir w_ray_y)) = false) /\
  (known_neg_zero_face 53 1024 Hprec53 Hmax1024 w_cube w_ray_z = true /\
   known_x_slab_nan 53 1024 Hprec53 Hmax1024 w_cube w_ray_z = false /\
   bbox_point_inside w_cube (ray_project w_ray_z w_t) = true /\
   bbox_intersect w_cube w_ray_z (inv64 (rdir w_ray_z)) = false).
Proof. exact neg_zero_face_witness. Qed.

(** the mirror cases of F10 in the y = 0 / y = 1 faces and for boxes flat in y or z are accepted *)
Theorem C14_mirror_cases_accepted :
  bbox_intersect (bbox_new (P zero64 zero64 zero64) (P one64 zero64 one64)) (mkRay (P half64 zero64 mone64) (P zero64 zero64 one64))
                 (inv64 (P zero64 zero64 one64)) = true /\
  bbox_intersect w_cube (mkRay (P half64 zero64 mone64) (P zero64 zero64 one64)) (inv64 (P zero64 zero64 one64)) = true /\
  bbox_intersect w_cube (mkRay (P half64 one64 mone64) (P zero64 zero64 one64)) (inv64 (P zero64 zero64 one64)) = true /\
  bbox_intersect (bbox_new (P zero64 zero64 zero64) (P one64 one64 zero64)) (mkRay (P mone64 half64 zero64) (P one64 zero64 zero64))
                 (inv64 (P one64 zero64 zero64)) = true.
Proof. exact mirror_cases_accepted. Qed.

(** ** Thm 3 (float-tier completeness with a relative margin on the EXACT parameters), every binary format.
    Notation: [u = uR prec = 2^-prec]; [boxR b], [rayR r] = the real values of the float inputs, so
    [t_near], [t_far] are the exact sorted slab parameters [(face - o)/d] of Thm 1; [hi3 u = (1+u)^3],
    [lo3 u = (1-u)^3]; [kmin = 2^(emin+prec-1)] the smallest positive normal number.
    Side conditions ([side b r i], one [axis_side] per axis): the nine input coordinates finite, the
    direction component finite and non-zero, [1/d = i (1 + e)] with [|e| <= u] ([recip_ok]: true of
    [i = 1.0 / d] whenever that quotient is a normal number), both products [(face - o) * i] and their
    widened values finite (no overflow), and no underflow in the product: its result is a normal
    number, or [face = o] (exact zero).  The subtraction needs no condition.  All of it is evaluated
    by the model ([margin_okb], with [i = inv_dirB d = 1.0 / d] computed).
    Format conditions ([margin_format]): [prec >= 5] and the rounded constant [1 + 2 gamma3 >= 1 + 6u]
    (binary32, binary64: equality, [C14_margin_formats_ok]).
    Margin ([clear_by 2]): every far end [t_far a > 0], and for two DIFFERENT axes [a <> a'] with
    [t_near a > 0]: [t_near a * (1 + 2u) <= t_far a'].  Nothing is asked of near and far end of the
    same axis (flat slabs: both ends bit-equal) nor of a near end [<= 0] (origin inside that slab:
    signs survive the roundings).  The constant 2 is the smallest integer the argument supports:
    seven roundings (three per parameter, one in the widening product) against [1 + 6u] leave
    [(1+u)^4 / ((1-u)^3 (1+6u)) = 1 + u + 18u^2 + ...]. *)
Section C14_margin.
  Variable prec emax : Z.
  Context (Hprec : FLX.Prec_gt_0 prec) (Hmax : Prec_lt_emax prec emax).
  Notation bf := (binary_float prec emax).
  Notation finite x := (is_finite x = true).
  Notation u := (uR prec).
  Notation kmin := (bpow radix2 (3 - emax - prec + prec - 1)).
  Notation mfmt := (margin_format prec emax Hprec Hmax).
  Notation sideok := (side prec emax Hprec Hmax).

  (** the error analysis of one plane parameter: three roundings (subtraction, reciprocal, product) *)
  Theorem C14_raw_parameter_error : forall f o d i : bf,
    finite f -> finite o -> recip_ok prec emax d i -> finite (raw f o i) ->
    (kmin <= Rabs (B2R (raw f o i)) \/ B2R f = B2R o) ->
    let T := (B2R f - B2R o) / B2R d in let X := B2R (raw f o i) in
    Rabs (T - X) <= (hi3 u - 1) * Rabs X /\ lo3 u * Rabs X <= Rabs T <= hi3 u * Rabs X.
  Proof. exact (raw_error prec emax Hprec Hmax). Qed.
  Theorem C14_reciprocal_ok : forall d : bf, B2R d <> 0 ->
    finite (Bdiv mode_NE (@n1 bf (NumB prec emax Hprec Hmax)) d) ->
    kmin <= Rabs (B2R (Bdiv mode_NE (@n1 bf (NumB prec emax Hprec Hmax)) d)) ->
    recip_ok prec emax d (Bdiv mode_NE (@n1 bf (NumB prec emax Hprec Hmax)) d).
  Proof. exact (recip_of_div prec emax Hprec Hmax). Qed.

  (** Thm 3 *)
  Theorem C14_float_complete_margin : forall (b : BBox bf) (r : Ray bf) (i : V3 bf),
    mfmt -> sideok b r i -> clear_by prec 2 (boxR prec emax b) (rayR prec emax r) -> bbox_intersect b r i = true.
  Proof. exact (float_complete_margin prec emax Hprec Hmax). Qed.

  (** in terms of [t_enter = max t_near], [t_exit = min t_far] (this form asks the margin of a thin slab's own ends too) *)
  Theorem C14_float_complete_enter_exit : forall (b : BBox bf) (r : Ray bf) (i : V3 bf),
    mfmt -> sideok b r i ->
    let bR := boxR prec emax b in let rR := rayR prec emax r in
    0 < t_exit bR rR -> (0 < t_enter bR rR -> t_enter bR rR * (1 + 2 * u) <= t_exit bR rR) ->
    bbox_intersect b r i = true.
  Proof. exact (float_complete_enter_exit prec emax Hprec Hmax). Qed.

  (** the user-level corollary: a ray with a point [o + t d], [t > 0] (exact arithmetic), inside the box
      whose faces are pulled inwards by [2u |face - o|] is accepted; at most one axis may be flat
      instead, the point lying exactly in that plane *)
  Theorem C14_float_complete_point : forall (b : BBox bf) (r : Ray bf) (i : V3 bf) (t : R),
    mfmt -> sideok b r i -> 0 < t ->
    let p := ray_project (rayR prec emax r) t in let o := rorigin (rayR prec emax r) in
    (forall a, in_margin prec (boxR prec emax b) o p a \/ on_flat (boxR prec emax b) p a) ->
    (forall a a', a <> a' -> in_margin prec (boxR prec emax b) o p a \/ in_margin prec (boxR prec emax b) o p a') ->
    bbox_intersect b r i = true.
  Proof. exact (float_complete_point prec emax Hprec Hmax). Qed.

  (** the side conditions are decided by the model, the reciprocal direction being the computed [1.0 / d] *)
  Theorem C14_margin_side_conditions_checked : forall (b : BBox bf) (r : Ray bf),
    margin_okb prec emax Hprec Hmax b r = true -> sideok b r (inv_dirB prec emax Hprec Hmax (rdir r)).
  Proof. exact (margin_okb_side prec emax Hprec Hmax). Qed.
  Theorem C14_float_complete_checked : forall (b : BBox bf) (r : Ray bf),
    mfmt -> margin_okb prec emax Hprec Hmax b r = true ->
    clear_by prec 2 (boxR prec emax b) (rayR prec emax r) ->
    bbox_intersect b r (inv_dirB prec emax Hprec Hmax (rdir r)) = true.
  Proof. exact (float_complete_okb prec emax Hprec Hmax). Qed.
End C14_margin.

(** binary64 and binary32 meet the format conditions of Thm 3 *)
Theorem C14_margin_formats_ok : margin_format 53 1024 Hprec53 Hmax1024 /\ margin_format 24 128 Hprec24 Hmax128.
Proof. exact (conj margin_format_64 margin_format_32). Qed.

(** Thm 3 on binary64, the format of the crate's default build *)
Theorem C14_float_complete_binary64 : forall (b : BBox b64) (r : Ray b64),
  margin_okb 53 1024 Hprec53 Hmax1024 b r = true -> clear_by 53 2 (boxR 53 1024 b) (rayR 53 1024 r) ->
  bbox_intersect b r (inv64 (rdir r)) = true.
Proof. exact (fun b r => float_complete_okb 53 1024 Hprec53 Hmax1024 b r margin_format_64). Qed.

Theorem C14_float_complete_binary32 : forall (b : BBox b32) (r : Ray b32),
  margin_okb 24 128 Hprec24 Hmax128 b r = true -> clear_by 24 2 (boxR 24 128 b) (rayR 24 128 r) ->
  bbox_intersect b r (inv_dirB 24 128 Hprec24 Hmax128 (rdir r)) = true.
Proof. exact (fun b r => float_complete_okb 24 128 Hprec24 Hmax128 b r margin_format_32). Qed.

(** non-vacuity: unit cube, origin (-1, 1/4, 1/2), direction (3, 1/2, -1/4) in binary64: format and side
    conditions hold (the latter by evaluation), the exact parameters x [1/3, 2/3], y [-1/2, 3/2],
    z [-2, 2] have the margin, and the model answers [true] *)
Example C14_margin_nonvacuous :
  margin_format 53 1024 Hprec53 Hmax1024 /\ margin_okb 53 1024 Hprec53 Hmax1024 m_box m_ray = true /\
  clear_by 53 2 (boxR 53 1024 m_box) (rayR 53 1024 m_ray) /\
  bbox_intersect m_box m_ray (inv64 (rdir m_ray)) = true.
Proof. exact margin_nonvacuous. Qed.
