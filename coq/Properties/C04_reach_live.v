(** * C04, part 3 -- the states that histories of push/close can reach with the LIVE code (after the fix of push/close).
    Every number instance; one induction over operation lists from [loop_new].  Properties/C04_reach.v has the same
    analysis of the code BEFORE the fix ([loop_push_pre] / [loop_close_pre]): the record of the repaired defects. *)
From Coq Require Import ZArith List Floats.
From G3 Require Import Model.Num Model.NumF Model.Base Model.Vec Model.Segment Model.Loop Proofs.C04_loop Proofs.C04_reach Proofs.C04_reach_live.
Import ListNotations.

(** the invariant: a closed flag implies >= 3 vertices and both wrap-around corners tested on the stored list; every
    interior corner of every stored outline passes the collinearity test; open loops have the initial area / perimeter *)
Theorem C04_live_reachable_invariant : forall (K : Type) (NK : Num K) (ops : list (lop K)),
  Live_inv (fst (loop_run (@loop_new K NK) ops)).
Proof. exact (fun K NK => @live_reachable_invariant K NK). Qed.

(** PROPERTY CLAUSE "a closed loop has at least three vertices and no vertex collinear with its two neighbours", in the
    library's own reading of collinear (Point3D::is_collinear = Ok false at every vertex, cyclically), for EVERY reachable
    closed state -- whatever the history, failed closes and repeated closes included *)
Theorem C04_live_closed_no_collinear_vertex : forall (K : Type) (NK : Num K) (ops : list (lop K)),
  let L := fst (loop_run (@loop_new K NK) ops) in let n := llen L in
  lclosed L = true ->
  3 <= n /\
  (forall i, S (S i) < n -> is_collinear (vnth (verts L) i) (vnth (verts L) (S i)) (vnth (verts L) (S (S i))) = Ok false) /\
  is_collinear (vnth (verts L) (n - 2)) (vnth (verts L) (n - 1)) (vnth (verts L) 0) = Ok false /\
  is_collinear (vnth (verts L) (n - 1)) (vnth (verts L) 0) (vnth (verts L) 1) = Ok false.
Proof. exact (fun K NK => @live_closed_no_collinear_vertex K NK). Qed.
(** the interior corners of every reachable state, open loops included (the corner exposed by each drop is re-tested) *)
Theorem C04_live_interior_corners : forall (K : Type) (NK : Num K) (ops : list (lop K)),
  let L := fst (loop_run (@loop_new K NK) ops) in
  forall i, S (S i) < llen L -> is_collinear (vnth (verts L) i) (vnth (verts L) (S i)) (vnth (verts L) (S (S i))) = Ok false.
Proof. exact (fun K NK => @live_interior_corners K NK). Qed.

(** the effect of an accepted push: first points / spike pop / the first [keep] vertices followed by the point, where the
    corner at the last kept vertex passed the test; the normal is the first corner's when exactly three vertices are left,
    ZERO when fewer are left, unchanged otherwise *)
Theorem C04_live_push_effect : forall (K : Type) (NK : Num K) (L L' : Loop K) (p : V3 K), loop_push L p = Ok L' ->
  lclosed L = false /\ push_shape_live (verts L) p (verts L') /\
  L' = mkLoop (verts L') (if Nat.eqb (llen L') 3 then tri_normal (verts L') else if Nat.ltb (llen L') 3 then vzero else lnormal L)
              false (larea L) (lperim L).
Proof. exact (fun K NK => @push_live_effect K NK). Qed.
Theorem C04_live_push_normal : forall (K : Type) (NK : Num K) (L L' : Loop K) (p : V3 K), loop_push L p = Ok L' ->
  lnormal L' = if Nat.eqb (llen L') 3 then tri_normal (verts L') else if Nat.ltb (llen L') 3 then vzero else lnormal L.
Proof. exact (fun K NK => @live_push_normal K NK). Qed.

(** closed states are absorbing, exactly: every operation is refused (class 30) and the loop is unchanged *)
Theorem C04_live_closed_absorbing : forall (K : Type) (NK : Num K) (L : Loop K) (op : lop K), lclosed L = true ->
  fst (loop_step L op) = L /\ snd (loop_step L op) = Err 30%N.
Proof. exact (fun K NK => @live_closed_absorbing K NK). Qed.

(** ** six of the seven witnesses of Properties/C04_reach.v, on the live code (binary64); the seventh, the point pushed
    twice, is stored twice by the live code as well *)
Definition lrun (ops : list (lop float)) := @loop_run float NumF (@loop_new float NumF) ops.
Definition Q2 (x y : float) : lop float := LPush (mkV3 x y 0%float).
(** the sliver is never stored: the replacement drops the second vertex as well; close then fails with an OPEN two-vertex loop *)
Example C04_live_sliver : let r := lrun [Q2 0 0; Q2 1 0; Q2 1 0x1p-16; Q2 1.5 0x1p-18; LClose]%float in
  snd r = [Ok tt; Ok tt; Ok tt; Ok tt; Err 33%N] /\ lclosed (fst r) = false /\ verts (fst r) = [mkV3 0 0 0; mkV3 1.5 0x1p-18 0]%float.
Proof. vm_compute. repeat split; reflexivity. Qed.
(** the exactly straight vertex (1,0) is dropped with the replaced one *)
Example C04_live_replacement : let r := lrun [Q2 (-1) (-1); Q2 0 0; Q2 1 0; Q2 1 0x1p-16; Q2 1.5 0; Q2 1.5 1; Q2 (-1) 1; LClose]%float in
  lclosed (fst r) = true /\ verts (fst r) = [mkV3 (-1) (-1) 0; mkV3 0 0 0; mkV3 1.5 0 0; mkV3 1.5 1 0; mkV3 (-1) 1 0]%float.
Proof. vm_compute. split; reflexivity. Qed.
(** no NaN normal: two vertices and a zero normal are left, the next point is accepted *)
Example C04_live_no_nan_normal : let r := lrun [Q2 0 0; Q2 1 0; Q2 1 0x1p-16; Q2 1.5 0; Q2 2 1]%float in
  snd r = [Ok tt; Ok tt; Ok tt; Ok tt; Ok tt] /\ verts (fst r) = [mkV3 0 0 0; mkV3 1.5 0 0; mkV3 2 1 0]%float.
Proof. vm_compute. split; reflexivity. Qed.
(** no stale normal: after the spike pop the two-vertex loop accepts a point of another plane *)
Example C04_live_no_stale_normal : let r := lrun [Q2 0 0; Q2 1 0; Q2 1 1; Q2 1 0; LPush (mkV3 1 0 1)]%float in
  snd r = [Ok tt; Ok tt; Ok tt; Ok tt; Ok tt] /\ llen (fst r) = 3.
Proof. vm_compute. split; reflexivity. Qed.
(** the outline through its own start vertex followed by a spike closes as the rectangle; a second close changes nothing *)
Example C04_live_start_spike : let r := lrun [Q2 0 0; Q2 1 0; Q2 1 1; Q2 (-1) 1; Q2 (-1) 0; Q2 0 0; Q2 0.5 0.5; LClose; LClose]%float in
  snd r = [Ok tt; Ok tt; Ok tt; Ok tt; Ok tt; Ok tt; Ok tt; Ok tt; Err 30%N] /\
  verts (fst r) = [mkV3 1 0 0; mkV3 1 1 0; mkV3 (-1) 1 0; mkV3 (-1) 0 0]%float /\ larea (fst r) = 2%float.
Proof. vm_compute. repeat split; reflexivity. Qed.
(** the wrap-around corner left straight by the first drop is dropped too *)
Example C04_live_wrap : let r := lrun [Q2 0 0; Q2 1 0; Q2 1 2; Q2 0 2; Q2 0 0.25; Q2 0x1p-15 0.125; LClose; LClose]%float in
  snd r = [Ok tt; Ok tt; Ok tt; Ok tt; Ok tt; Ok tt; Ok tt; Err 30%N] /\
  verts (fst r) = [mkV3 0 0 0; mkV3 1 0 0; mkV3 1 2 0; mkV3 0 2 0]%float.
Proof. vm_compute. split; reflexivity. Qed.
