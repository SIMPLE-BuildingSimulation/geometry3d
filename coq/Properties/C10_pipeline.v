(** * C10, through the pipeline: "These values do not depend on which vertex the outline starts from or on redundant
    collinear points in the input" -- redundant points IN GENERAL (any number per edge, on the first edge, on the closing
    edge, the input starting at a redundant point), for the live code (push / close after fix 1ef6368).
    Exact tier (the model read on the reals).  Proofs: Proofs/C10_enrich.v.

    [enrich l l'] (Proofs/C10_enrich.v): l is an outline all of whose corners are genuine for the library's collinearity
    test (cyclically: [genuine_cycle]); l' is obtained by inserting finitely many points EXACTLY on the open edges of l
    (m = a + s (b - a), 0 < s < 1, increasing s along each edge: [on_edge]) and entering the enriched cycle anywhere -- at
    a vertex ([enrich_at_vertex]) or at an inserted point ([enrich_at_inserted]).  Side conditions, both forced:
      - [corner_kept]: each corner (x, a, b) of l stays genuine whichever points of the enriched edges x -> a and a -> b
        are taken as the neighbours of a (a point m on a -> b with is_collinear x a m = Ok true REPLACES the vertex a --
        comment (3) of Properties/C10.v; the proof uses it for x itself and for the start point);
      - when the input starts at an inserted point p0, p0 is distinguishable by Point3D::compare (1e-5 in some coordinate)
        from the points of its edge that follow it (otherwise push takes the third input point for a spike and pops).
    No other distinctness hypothesis is needed: a genuine corner already separates its vertex from its neighbours.
    Hypotheses of the theorems: every push and the close are accepted for both inputs (acceptance invariance = the crossing
    tests, a separate matter: the non-crossing clause of C04); NOTHING is assumed about which vertices get stored. *)
From Coq Require Import ZArith Reals Bool List Arith Floats.
From G3 Require Import Model.Num Model.NumF Model.Base Model.Vec Model.Segment Model.Loop Theory.RInst Theory.LoopGeom
  Proofs.C10_measures Proofs.C10_pipeline Proofs.C10_enrich.
Import ListNotations.
Local Open Scope R_scope.

(** the stored outline of the enriched input is a cyclic shift of the stored outline of l, which is l itself *)
Theorem C10_pipeline_enrichment : forall (l l' : list (V3 R)) (L L' : Loop R),
  enrich l l' ->
  push_list loop_new l = Ok L -> snd (loop_close L) = Ok tt ->
  push_list loop_new l' = Ok L' -> snd (loop_close L') = Ok tt ->
  verts (fst (loop_close L)) = l /\
  exists r1 r2 : list (V3 R), l = r1 ++ r2 /\ verts (fst (loop_close L')) = r2 ++ r1.
Proof. exact pipeline_enrichment. Qed.

(** same start vertex, any number of redundant points on every edge, the closing edge included: the same vertex list *)
Theorem C10_pipeline_enrichment_same_start : forall (v0 : V3 R) (ms0 : list (V3 R)) (es : list (V3 R * list (V3 R))) (L L' : Loop R),
  genuine_cycle (v0 :: base es) -> (2 <= length es)%nat -> cyc_good (v0, ms0) es ->
  push_list loop_new (v0 :: base es) = Ok L -> snd (loop_close L) = Ok tt ->
  push_list loop_new (flat ((v0, ms0) :: es)) = Ok L' -> snd (loop_close L') = Ok tt ->
  verts (fst (loop_close L')) = v0 :: base es /\ verts (fst (loop_close L')) = verts (fst (loop_close L)).
Proof. exact pipeline_enrichment_same_start. Qed.

(** the two stored outlines by themselves (nothing about l's own construction is needed) *)
Theorem C10_pipeline_enriched_at_vertex : forall (v0 : V3 R) (ms0 : list (V3 R)) (es : list (V3 R * list (V3 R))) (L' : Loop R),
  (2 <= length es)%nat -> cyc_good (v0, ms0) es ->
  push_list loop_new (flat ((v0, ms0) :: es)) = Ok L' -> snd (loop_close L') = Ok tt ->
  verts (fst (loop_close L')) = v0 :: base es.
Proof. exact build_enriched_at_vertex. Qed.
Theorem C10_pipeline_enriched_at_inserted_point :
  forall (v0 : V3 R) (pre : list (V3 R)) (p0 : V3 R) (post : list (V3 R)) (es : list (V3 R * list (V3 R))) (L' : Loop R),
  (2 <= length es)%nat -> cyc_good (v0, pre ++ p0 :: post) es -> Forall (fun q => vcompare p0 q = false) post ->
  push_list loop_new (p0 :: post ++ flat es ++ v0 :: pre) = Ok L' -> snd (loop_close L') = Ok tt ->
  verts (fst (loop_close L')) = base es ++ [v0].
Proof. exact build_enriched_at_inserted. Qed.

(** the side conditions are those of the CYCLE, whichever entry it is read from (so the rotation chosen inside [enrich] is
    immaterial), and the start point only needs to be distinguishable from its SUCCESSOR on its edge (the later points of the
    edge are farther away in the same coordinate, the parameters being increasing) *)
Theorem C10_enrich_conditions_cyclic : forall (e0 e1 : V3 R * list (V3 R)) (tl : list (V3 R * list (V3 R))),
  cyc_good e0 (e1 :: tl) -> cyc_good e1 (tl ++ [e0]).
Proof. exact cyc_good_rot1. Qed.
Theorem C10_enrich_start_distinct_from_successor : forall (l : list (V3 R)) (v0 : V3 R) (pre : list (V3 R)) (p0 : V3 R) (post : list (V3 R))
    (es : list (V3 R * list (V3 R))),
  genuine_cycle l -> (2 <= length es)%nat -> cyc_shift l (v0 :: base es) -> cyc_good (v0, pre ++ p0 :: post) es ->
  match post with [] => True | q :: _ => vcompare p0 q = false end ->
  enrich l (p0 :: post ++ flat es ++ v0 :: pre).
Proof. exact enrich_at_inserted_succ. Qed.

(** the reported values: same perimeter, same centroid (the mean of the stored vertices -- the same vertices), same number
    of vertices, same Newell vector S (twice the vector area); the area is |n . S| / 2 for the normal n held before close, and
    the reported normal obeys the right-hand rule w.r.t. the same S in both cases *)
Theorem C10_enrichment_measures : forall (l l' : list (V3 R)) (L L' : Loop R),
  enrich l l' ->
  push_list loop_new l = Ok L -> snd (loop_close L) = Ok tt ->
  push_list loop_new l' = Ok L' -> snd (loop_close L') = Ok tt ->
  let C := fst (loop_close L) in let C' := fst (loop_close L') in
  loop_perimeter C' = loop_perimeter C /\ loop_centroid C' = loop_centroid C /\ llen C' = llen C /\
  newell (verts C') = newell (verts C) /\
  loop_area C = Ok (Rabs (vdot (lnormal L) (newell l)) / 2) /\ loop_area C' = Ok (Rabs (vdot (lnormal L') (newell l)) / 2) /\
  0 <= vdot (lnormal C) (newell l) /\ 0 <= vdot (lnormal C') (newell l).
Proof. exact enrichment_measures. Qed.

(** the normal field held before close: for every loop built by pushes from the empty loop, once three vertices are stored
    it is the unit normal of the FIRST stored corner (recomputed by the live push whenever exactly three vertices remain) *)
Theorem C10_normal_before_close_is_first_corner : forall (pts : list (V3 R)) (L : Loop R),
  push_list loop_new pts = Ok L -> (3 <= llen L)%nat ->
  lnormal L = match verts L with a :: b :: c :: _ => vnormalize (vcross (vsub b a) (vsub c b)) | _ => vzero end.
Proof. intros pts L P H3. apply (push_list_normal_inv pts loop_new L P); [cbn; intros; exfalso; apply (Nat.nle_succ_0 _ H) | exact H3]. Qed.

(** area and normal, for an EXACTLY planar outline l (unit normal N, every vertex in the plane through o): the normals held
    before close are N or -N for both inputs (for l' the first stored corner is (v0, v1, v2) or (p0, v1, v2)), hence
    the same area |N . S| / 2 and -- when the area is not zero -- the same reported normal after the right-hand-rule flip.
    (Exact planarity is needed for EQUALITY over the reals: the coplanarity test of push has the tolerance 1e-7, and for a
    merely accepted outline the corner normals, hence |n . S| / 2, differ slightly from corner to corner -- that is the
    starting-vertex dependence that lib/pC10.py samples against its tolerance.) *)
Theorem C10_enrichment_area_normal : forall (l l' : list (V3 R)) (L L' : Loop R) (N o : V3 R),
  enrich l l' ->
  vdot N N = 1 /\ (forall v : V3 R, In v l -> vdot N (vsub v o) = 0) ->
  push_list loop_new l = Ok L -> snd (loop_close L) = Ok tt ->
  push_list loop_new l' = Ok L' -> snd (loop_close L') = Ok tt ->
  let C := fst (loop_close L) in let C' := fst (loop_close L') in
  loop_area C' = loop_area C /\ (vdot N (newell l) <> 0 -> lnormal C' = lnormal C).
Proof. exact enrichment_area_normal_planar. Qed.
(** without planarity: as soon as the two normals held before close agree up to sign *)
Theorem C10_enrichment_area_normal_given_normals : forall (l l' : list (V3 R)) (L L' : Loop R),
  enrich l l' ->
  push_list loop_new l = Ok L -> snd (loop_close L) = Ok tt ->
  push_list loop_new l' = Ok L' -> snd (loop_close L') = Ok tt ->
  (lnormal L' = lnormal L \/ lnormal L' = vneg (lnormal L)) ->
  let C := fst (loop_close L) in let C' := fst (loop_close L') in
  loop_area C' = loop_area C /\ (vdot (lnormal L) (newell l) <> 0 -> lnormal C' = lnormal C).
Proof. exact enrichment_area_normal. Qed.

(** non-vacuity of [enrich] over the reals: the unit square with two extra points on its first edge (1/4, 1/2), one on its
    closing edge, the input starting at the inserted point (1/2, 0, 0) *)
Example C10_enrich_nonvacuous :
  enrich [mkV3 0 0 0; mkV3 1 0 0; mkV3 1 1 0; mkV3 0 1 0]
         [mkV3 (1/2) 0 0; mkV3 1 0 0; mkV3 1 1 0; mkV3 0 1 0; mkV3 0 (1/2) 0; mkV3 0 0 0; mkV3 (1/4) 0 0].
Proof. exact enrich_square. Qed.
(** ... which is exactly planar: N = +z through the origin *)
Example C10_enrich_nonvacuous_planar :
  let N : V3 R := mkV3 0 0 1 in
  vdot N N = 1 /\ (forall v : V3 R, In v [mkV3 0 0 0; mkV3 1 0 0; mkV3 1 1 0; mkV3 0 1 0] -> vdot N (vsub v (mkV3 0 0 0)) = 0).
Proof. exact square_planar. Qed.

(** ... and the executable part on the binary64 instance: the same input is accepted point by point, closes, and the
    stored outline is the four corners (a cyclic shift of the square), area 1, perimeter 4, normal +z, centroid (1/2, 1/2, 0) *)
Example C10_enrich_float_run :
  let pts := [mkV3 0.5 0 0; mkV3 1 0 0; mkV3 1 1 0; mkV3 0 1 0; mkV3 0 0.5 0; mkV3 0 0 0; mkV3 0.25 0 0]%float in
  let r := loop_run loop_new (map (@LPush float) pts ++ [LClose]) in
  snd r = [Ok tt; Ok tt; Ok tt; Ok tt; Ok tt; Ok tt; Ok tt; Ok tt] /\
  verts (fst r) = [mkV3 1 0 0; mkV3 1 1 0; mkV3 0 1 0; mkV3 0 0 0]%float /\
  larea (fst r) = 1%float /\ lperim (fst r) = 4%float /\ lnormal (fst r) = (mkV3 0 0 1)%float /\
  loop_centroid (fst r) = Ok (mkV3 0.5 0.5 0)%float.
Proof. vm_compute. repeat split; reflexivity. Qed.
