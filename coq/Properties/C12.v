(** * C12 -- merging a polygon's holes into one outline (Polygon3D::get_closed_loop).
    The index arithmetic and the sequence characterisation hold for EVERY number instance of the model;
    the edge-sum identity is over the reals.  NOT proved for the float build: the passage from the edge-sum
    identity to "area(merged) = area(outer) - sum of hole areas" and "wn(merged) = wn(outer) - sum wn(holes)"
    (over R: Properties/C12_region.v); both are checked on the implementation's outputs by the exact oracle lib/pC12.py (shoelace to 1e-9, exact winding numbers). *)
From Coq Require Import ZArith Reals List Floats.
From G3 Require Import Model.Num Model.NumF Model.Base Model.Vec Model.Segment Model.Loop Model.Polygon Model.Json Model.PolyAux
  Proofs.C12_merge Proofs.C12_edge_sum.
Import ListNotations.
Set Warnings "-inexact-float".

(** (c) a polygon without holes is returned unchanged (same vertices, opened) *)
Theorem C12_no_holes_unchanged : forall (K : Type) (NK : Num K) (P : Poly K),
  pinner P = [] -> poly_get_closed_loop P = Ok (loop_open (pouter P)).
Proof. exact (fun K NK => @no_holes_unchanged K NK). Qed.

(** (b) the repaired index arithmetic: the walk starts at the nearest vertex [id], is back at [id] after
    n steps, moves to the cyclic predecessor at every step when the hole is wound like the outline
    (it is walked backwards) and to the cyclic successor otherwise, and visits every vertex *)
Theorem C12_hole_index_start_and_return : forall (same_dir : bool) (id n : nat), id < n ->
  hole_index false same_dir id 0 n = id /\ hole_index false same_dir id n n = id /\ (forall j, hole_index false same_dir id j n < n).
Proof. intros sd id n H. split; [apply hole_index_start; exact H|]. split; [apply hole_index_return; exact H|]. intros j. apply hole_index_lt. intros E; subst; inversion H. Qed.
Theorem C12_hole_index_steps : forall (id j n : nat), id < n -> j < n ->
  hole_index false true id (S j) n = (hole_index false true id j n + n - 1) mod n /\
  hole_index false false id (S j) n = (hole_index false false id j n + 1) mod n.
Proof. intros id j n Hi Hj. split; [apply hole_index_step_back | apply hole_index_step_fwd]; assumption. Qed.
Theorem C12_hole_index_visits_every_vertex : forall (same_dir : bool) (id n : nat), id < n ->
  (forall r, r < n -> exists j, j < n /\ hole_index false same_dir id j n = r) /\
  (forall j j', j < n -> j' < n -> hole_index false same_dir id j n = hole_index false same_dir id j' n -> j = j').
Proof. intros sd id n H. split; [intros r Hr; apply hole_index_visits; assumption | intros j j' Hj Hj'; apply hole_index_inj; assumption]. Qed.

(** (a) the vertex SEQUENCE.  Hypothesis on the run ([closed_loop_clean], decidable; the runner reports how
    often it holds -- always, on the generated configurations): at every stage every `push` appended a vertex
    (none took the collinear-replacement branch, none was refused).  Then get_closed_loop succeeds and its
    vertices are [closed_loop_spec]: for each hole in turn (nearest vertex pair (e, h) by the code's own scan),
    the current outline with, right after the first occurrence of e, the hole walked from h through all its
    vertices back to h, then e again ([splice] / [walk_list]). *)
Theorem C12_merged_sequence : forall (K : Type) (NK : Num K) (P : Poly K),
  closed_loop_clean false P = true ->
  exists L, poly_get_closed_loop P = Ok L /\ closed_loop_spec false P = Some (verts L).
Proof. exact (fun K NK => @closed_loop_characterised K NK). Qed.
(** ... where the walk is, explicitly: the hole rotated to start at h and h again when the normals have
    opposite directions (forwards), the REVERSED hole rotated to start at h and h again when they have the
    same direction (backwards); and the splice is "insert after position me" *)
Theorem C12_walk_explicit : forall (K : Type) (NK : Num K) (hvs : list (V3 K)) (id : nat), id < length hvs ->
  walk_list false false hvs id = (skipn id hvs ++ firstn id hvs) ++ [vnth hvs id] /\
  walk_list false true hvs id = rev (skipn (S id) hvs ++ firstn (S id) hvs) ++ [vnth hvs id].
Proof. intros K NK hvs id H. split; [apply walk_forward | apply walk_backward]; exact H. Qed.
Theorem C12_splice_explicit : forall (K : Type) (NK : Num K) (w evs : list (V3 K)) (me : nat), me < length evs ->
  splice evs 0 me w = firstn me evs ++ vnth evs me :: w ++ vnth evs me :: skipn (S me) evs.
Proof. exact (fun K NK => @splice_split K NK). Qed.

(** the merged outline in the shape `pre ++ e :: h0 :: hs ++ h0 :: e :: post` of the theory library's bridge
    lemmas (Theory/Cyclic.v csum_bridge, Shoelace.v newell_bridge / area2_bridge, Winding.v wn_bridge) *)
Theorem C12_bridge_shape : forall (K : Type) (NK : Num K) (evs hvs : list (V3 K)) (me id : nat) (same_dir : bool),
  me < length evs -> id < length hvs ->
  exists hs,
    splice evs 0 me (walk_list false same_dir hvs id) =
      firstn me evs ++ vnth evs me :: vnth hvs id :: hs ++ vnth hvs id :: vnth evs me :: skipn (S me) evs /\
    vnth hvs id :: hs = (if same_dir then rev (skipn (S id) hvs ++ firstn (S id) hvs) else skipn id hvs ++ firstn id hvs).
Proof. exact (fun K NK => @bridge_shape K NK). Qed.

(** (d) the bridge cancels in every antisymmetric edge sum (each component of the Newell / shoelace vector,
    the winding angle around a query point): cyclic sum over the merged outline = outer -+ hole *)
Theorem C12_edge_sum_splice : forall (K : Type) (NK : Num K) (phi : V3 K -> V3 K -> R),
  (forall a b, phi a b = (- phi b a)%R) ->
  forall (evs hvs : list (V3 K)) (me id : nat) (same_dir : bool), me < length evs -> id < length hvs ->
  cyc_sum phi (splice evs 0 me (walk_list false same_dir hvs id)) =
  (cyc_sum phi evs + (if same_dir then - cyc_sum phi hvs else cyc_sum phi hvs))%R.
Proof. exact (fun K NK => @edge_sum_splice K NK). Qed.
(** for the Newell sum the model computes in Loop3D::set_area (real instance):
    S(merged) = S(outer) - S(hole) when the hole is wound like the outline, + otherwise *)
Theorem C12_newell_splice : forall (evs hvs : list (V3 R)) (me id : nat) (same_dir : bool), me < length evs -> id < length hvs ->
  let m := newell (splice evs 0 me (walk_list false same_dir hvs id)) in
  let s := (if same_dir then (-1) else 1)%R in
  (vx m = vx (newell evs) + s * vx (newell hvs) /\ vy m = vy (newell evs) + s * vy (newell hvs) /\ vz m = vz (newell evs) + s * vz (newell hvs))%R.
Proof. exact newell_splice. Qed.

(** ** the pinned tree: `(id as i32 - j as i32) as usize % n` is not `(id + n - j) mod n` *)
Theorem C12_pinned_hole_index_refuted : exists id j n, id < n /\ j <= n /\ hole_index true true id j n <> (id + n - j) mod n.
Proof. exact pinned_hole_index_refuted. Qed.

Definition mk (pts : list (V3 float)) : Loop float := fst (loop_run loop_new (map (fun p => LPush p) pts ++ [LClose])).
Definition unit_square := mk [mkV3 0 0 0; mkV3 1 0 0; mkV3 1 1 0; mkV3 0 1 0]%float.
Definition triangle := mk [mkV3 0.3 0.3 0; mkV3 0.6 0.3 0; mkV3 0.45 0.6 0]%float.
(** the unit square with the triangular hole (0.3,0.3),(0.6,0.3),(0.45,0.6) wound like the outline
    (binary64 instance): the polygon's net area is 0.955; with the pinned arithmetic the merged outline
    closes but encloses 0.91 and lacks the return to the hole's first vertex (8 vertices instead of 9);
    with the repaired arithmetic the run is clean, has the specified sequence, and encloses 0.955 *)
Definition witness : res (Poly float) := do P0 <- poly_new unit_square; poly_cut_hole P0 triangle.
Theorem C12_pinned_merge_refuted : exists (P : Poly float) (Lp L : Loop float),
  witness = Ok P /\ poly_get_closed_loop_gen true P = Ok Lp /\ poly_get_closed_loop P = Ok L /\
  snd (loop_close Lp) = Ok tt /\ snd (loop_close L) = Ok tt /\
  PrimFloat.ltb 0.954 (parea P) = true /\
  PrimFloat.ltb (larea (fst (loop_close Lp))) 0.911 = true /\ llen Lp = 8 /\
  PrimFloat.ltb (PrimFloat.abs (larea (fst (loop_close L)) - parea P)) 1e-12 = true /\ llen L = 9.
Proof.
  eexists. eexists. eexists.
  split; [vm_compute; reflexivity|]. split; [vm_compute; reflexivity|]. split; [vm_compute; reflexivity|].
  vm_compute. repeat split; reflexivity.
Qed.

(** non-vacuity of [C12_merged_sequence] (binary64): the same polygon is a clean run, and the specified
    sequence is outer[0], then the hole from its vertex 0 backwards (0, 2, 1, 0), then outer[0..3] *)
Example C12_nonvacuous :
  match poly_new unit_square with
  | Ok P0 => match poly_cut_hole P0 triangle with
             | Ok P => closed_loop_clean false P = true /\
                       option_map (@length _) (closed_loop_spec false P) = Some 9
             | _ => False end
  | _ => False
  end.
Proof. vm_compute. split; reflexivity. Qed.
