(** * C16 on primitive floats -- the float-tier theorems of Properties/C16.v restated for what is EXECUTED.
    Properties/C16.v (S) and (M) are about [NumB prec emax] (Flocq binary floats, every format with at least 8 bits);
    the correspondence check (Run/C06.v, which serves C16) runs the [*_with_error] / [*_propagate_error] / ray functions
    of Model/Transform.v on [NumF] (Coq's primitive binary64 floats) against the f64 build.
    [C16_prim_run_is_flocq_run] / [C16_prim_rays_are_flocq_rays] close the gap: the primitive-float run returns the
    [P2B]-preimage of the Flocq binary64 run on the [P2B]-images -- value and reported error, bit for bit
    ([P2B = Flocq.IEEE754.PrimFloat.Prim2B] is injective and [B2SF (P2B x) = Prim2SF x]).
    The theorems below are the binary64 instances of (S) and (M) read through it: quantified over primitive floats,
    [FR x = B2R (P2B x)] the real value of [x], [FV], [FM] the real vector / matrix, [Ffin3] finiteness of the three
    components ([Ffin x <-> PrimFloat.is_finite x = true]), [Faffine_last m]: bottom row exactly (0,0,0,1);
    [safe_prods], [safe_trans], [within], [inbox], [vle], [first_order], ... as in Properties/C16.v; [uro 53 = 2^-53].
    The (R) statements of Properties/C16.v are over the reals and need no counterpart; what the four ray functions
    return on primitive floats is given in terms of the point / vector functions by [C16_prim_ray_parts].
    Axioms: the primitive float / integer specifications (FloatAxioms, Uint63Axioms) besides the classical reals.
    Statements only, each closed by [exact]. *)
From Coq Require Import ZArith Reals Floats.
From Flocq Require Import Core BinarySingleNaN.
From G3 Require Import Model.Num Model.NumF Model.Base Model.Vec Model.BBox Model.Transform Theory.PrimBridge Proofs.Bridge_model.
From G3 Require Import Proofs.C06_transform Proofs.C16_errbound Proofs.C16_ray Proofs.Bridge_C16.
Local Open Scope R_scope.

(** ** the bridge *)
Theorem C16_prim_run_is_flocq_run : forall (m : M4 prim) (p e : V3 prim),
  mapP pV pV (@pt_with_error _ NumF m p) = @pt_with_error _ NumB64 (pM m) (pV p) /\
  mapP pV pV (@vec_with_error _ NumF m p) = @vec_with_error _ NumB64 (pM m) (pV p) /\
  mapP pV pV (@pt_propagate_error _ NumF m p e) = @pt_propagate_error _ NumB64 (pM m) (pV p) (pV e) /\
  mapP pV pV (@vec_propagate_error _ NumF m p e) = @vec_propagate_error _ NumB64 (pM m) (pV p) (pV e).
Proof.
  exact (fun m p e => conj (prim_pt_with_error m p) (conj (prim_vec_with_error m p)
         (conj (prim_pt_propagate_error m p e) (prim_vec_propagate_error m p e)))).
Qed.

(** the building blocks: matrix-point, matrix-vector, the two absolute-value products, the matrix product, the box *)
Theorem C16_prim_blocks_are_flocq_blocks : forall (m a : M4 prim) (p : V3 prim) (x y z : prim) (b : BBox prim),
  pV (@mul4x4point _ NumF m p) = @mul4x4point _ NumB64 (pM m) (pV p) /\
  pV (@mul4x4vec _ NumF m p) = @mul4x4vec _ NumB64 (pM m) (pV p) /\
  pV (@mul4x4_abs _ NumF m x y z) = @mul4x4_abs _ NumB64 (pM m) (P2B x) (P2B y) (P2B z) /\
  pV (@mul3x3_abs _ NumF m x y z) = @mul3x3_abs _ NumB64 (pM m) (P2B x) (P2B y) (P2B z) /\
  pM (@mul4x4 _ NumF m a) = @mul4x4 _ NumB64 (pM m) (pM a) /\
  pB (@bbox_by _ NumF m b) = @bbox_by _ NumB64 (pM m) (pB b).
Proof.
  exact (fun m a p x y z b => conj (eq_sym (hom_mul4x4point P2B m p)) (conj (eq_sym (hom_mul4x4vec P2B m p))
         (conj (eq_sym (hom_mul4x4_abs P2B m x y z)) (conj (eq_sym (hom_mul3x3_abs P2B m x y z))
         (conj (eq_sym (hom_mul4x4 P2B m a)) (eq_sym (hom_bbox_by P2B m b))))))).
Qed.

(** the four ray functions ([ray_by m] = transform_ray / inv_transform_ray, [ray_propagate_by m] the propagating pair):
    nudged origin, direction and both reported errors *)
Theorem C16_prim_rays_are_flocq_rays : forall (m : M4 prim) (r : Ray prim) (oe de o d e : V3 prim),
  mapRayRes P2B (@ray_by _ NumF m r) = @ray_by _ NumB64 (pM m) (pR r) /\
  mapRayRes P2B (@ray_propagate_by _ NumF m r oe de) = @ray_propagate_by _ NumB64 (pM m) (pR r) (pV oe) (pV de) /\
  pV (@nudge _ NumF o d e) = @nudge _ NumB64 (pV o) (pV d) (pV e).
Proof. exact (fun m r oe de o d e => conj (eq_sym (hom_ray_by P2B m r))
         (conj (eq_sym (hom_ray_propagate_by P2B m r oe de)) (eq_sym (hom_nudge P2B o d e)))). Qed.

Theorem C16_prim_ray_parts : forall (m : M4 prim) (r : Ray prim) (oe de : V3 prim),
  @ray_by _ NumF m r =
    (mkRay (@nudge _ NumF (fst (@pt_with_error _ NumF m (rorigin r))) (fst (@vec_with_error _ NumF m (rdir r)))
                          (snd (@pt_with_error _ NumF m (rorigin r))))
           (fst (@vec_with_error _ NumF m (rdir r))),
     snd (@pt_with_error _ NumF m (rorigin r)), snd (@vec_with_error _ NumF m (rdir r))) /\
  @ray_propagate_by _ NumF m r oe de =
    (mkRay (@nudge _ NumF (fst (@pt_propagate_error _ NumF m (rorigin r) oe)) (fst (@vec_propagate_error _ NumF m (rdir r) de))
                          (snd (@pt_propagate_error _ NumF m (rorigin r) oe)))
           (fst (@vec_propagate_error _ NumF m (rdir r) de)),
     snd (@pt_propagate_error _ NumF m (rorigin r) oe), snd (@vec_propagate_error _ NumF m (rdir r) de)).
Proof. exact (fun m r oe de => conj (prim_ray_by_parts m r) (prim_ray_propagate_by_parts m r oe de)). Qed.

(** ** (S) on primitive floats *)
Theorem C16_prim_S_vec : forall (m : M4 prim) (v : V3 prim),
  let re := @vec_with_error _ NumF m v in
  Ffin3 (snd re) -> safe_prods 53 1024 (FM m) (FV v) ->
  Ffin3 (fst re) /\ within 1 (FV (fst re)) (img_vec (FM m) (FV v)) (FV (snd re)).
Proof. exact (fun m v => read_S_vec 53 1024 Hprec53 Hmax1024 Hp8_53 P2B m v (prim_vec_with_error m v)). Qed.

Theorem C16_prim_S_point : forall (m : M4 prim) (p : V3 prim),
  let re := @pt_with_error _ NumF m p in
  Faffine_last m -> Ffin3 (snd re) -> safe_prods 53 1024 (FM m) (FV p) ->
  Ffin3 (fst re) /\ within 1 (FV (fst re)) (img_pt (FM m) (FV p)) (FV (snd re)).
Proof. exact (fun m p => read_S_pt 53 1024 Hprec53 Hmax1024 Hp8_53 P2B m p (prim_pt_with_error m p)). Qed.

(** with an input error box: the factor (1 + 4u) of [C16_S_vec_box_partial] / [C16_S_point_box_partial] *)
Theorem C16_prim_S_vec_box_partial : forall (m : M4 prim) (v e : V3 prim),
  let re := @vec_propagate_error _ NumF m v e in
  Ffin3 (snd re) -> safe_prods 53 1024 (FM m) (FV v) -> safe_prods 53 1024 (FM m) (FV e) ->
  Ffin3 (fst re) /\
  forall x' : V3 R, inbox (FV v) (FV e) x' -> within (1 + 4 * uro 53) (FV (fst re)) (img_vec (FM m) x') (FV (snd re)).
Proof. exact (fun m v e => read_S_vec_box 53 1024 Hprec53 Hmax1024 Hp8_53 P2B m v e (prim_vec_propagate_error m v e)). Qed.

Theorem C16_prim_S_point_box_partial : forall (m : M4 prim) (p e : V3 prim),
  let re := @pt_propagate_error _ NumF m p e in
  Faffine_last m -> Ffin3 (snd re) -> safe_prods 53 1024 (FM m) (FV p) -> safe_prods 53 1024 (FM m) (FV e) ->
  Ffin3 (fst re) /\
  forall x' : V3 R, inbox (FV p) (FV e) x' -> within (1 + 4 * uro 53) (FV (fst re)) (img_pt (FM m) x') (FV (snd re)).
Proof. exact (fun m p e => read_S_pt_box 53 1024 Hprec53 Hmax1024 Hp8_53 P2B m p e (prim_pt_propagate_error m p e)). Qed.

(** ** (M) on primitive floats *)
Theorem C16_prim_M_with_error : forall (m : M4 prim) (p : V3 prim),
  safe_prods 53 1024 (FM m) (FV p) -> safe_trans 53 1024 (FM m) ->
  Ffin3 (snd (@pt_with_error _ NumF m p)) ->
  vle (FV (snd (@pt_with_error _ NumF m p))) (vscaleR 2 (first_order (gamma3 53) (FM m) (FV p) V0)).
Proof. exact (fun m p => read_M_with_error 53 1024 Hprec53 Hmax1024 Hp8_53 P2B m p (prim_pt_with_error m p)). Qed.

Theorem C16_prim_M_vec_with_error : forall (m : M4 prim) (v : V3 prim),
  safe_prods 53 1024 (FM m) (FV v) -> Ffin3 (snd (@vec_with_error _ NumF m v)) ->
  vle (FV (snd (@vec_with_error _ NumF m v))) (vscaleR 2 (vscaleR (gamma3 53) (abs_img (FM m) (FV v)))).
Proof. exact (fun m v => read_M_vec_with_error 53 1024 Hprec53 Hmax1024 Hp8_53 P2B m v (prim_vec_with_error m v)). Qed.

Theorem C16_prim_M_propagate : forall (m : M4 prim) (p e : V3 prim),
  safe_prods 53 1024 (FM m) (FV p) -> safe_prods 53 1024 (FM m) (FV e) -> safe_trans 53 1024 (FM m) ->
  Ffin3 (snd (@pt_propagate_error _ NumF m p e)) ->
  vle (FV (snd (@pt_propagate_error _ NumF m p e))) (vscaleR 2 (first_order (gamma3 53) (FM m) (FV p) (FV e))).
Proof. exact (fun m p e => read_M_propagate 53 1024 Hprec53 Hmax1024 Hp8_53 P2B m p e (prim_pt_propagate_error m p e)). Qed.

Theorem C16_prim_M_vec_propagate : forall (m : M4 prim) (v e : V3 prim),
  safe_prods 53 1024 (FM m) (FV v) -> safe_prods 53 1024 (FM m) (FV e) ->
  Ffin3 (snd (@vec_propagate_error _ NumF m v e)) ->
  vle (FV (snd (@vec_propagate_error _ NumF m v e))) (vscaleR 2 (first_order_vec (gamma3 53) (FM m) (FV v) (FV e))).
Proof. exact (fun m v e => read_M_vec_propagate 53 1024 Hprec53 Hmax1024 Hp8_53 P2B m v e (prim_vec_propagate_error m v e)). Qed.

(** non-vacuity: the hypotheses all hold on the witness of the former (S) finding
    ([translate(0.1,0,0) . rotate_z(20) . rotate_x(35)], a 1e-9 input box) given as primitive floats *)
Example C16_prim_nonvacuous :
  Faffine_last wF_m /\ Ffin3 (snd (@pt_with_error _ NumF wF_m wF_p)) /\
  Ffin3 (snd (@vec_with_error _ NumF wF_m wF_p)) /\
  Ffin3 (snd (@pt_propagate_error _ NumF wF_m wF_p wF_e)) /\
  Ffin3 (snd (@vec_propagate_error _ NumF wF_m wF_p wF_e)) /\
  safe_prods 53 1024 (FM wF_m) (FV wF_p) /\ safe_prods 53 1024 (FM wF_m) (FV wF_e) /\
  safe_trans 53 1024 (FM wF_m) /\ inbox (FV wF_p) (FV wF_e) (FV wF_p).
Proof. exact prim_C16_nonvacuous. Qed.
