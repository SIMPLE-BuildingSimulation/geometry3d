(** * C16 -- reported transform error bounds are true bounds.
    About the code after fix: 5455df2 -- translation-free [mul3x3_abs] for the propagated input error --,
    fix: 34af114 -- gamma(4) for the four roundings of a point row -- and the fix of the vector functions -- the error of
    a transformed VECTOR is gamma(3) * [mul3x3_abs], without the translation column that a vector's image never
    meets.  The code before these fixes is modelled by the [_pinned] functions of Model/Pinned.v; its refutations stand
    among the binary64 witnesses below.
    Float tier ([NumB prec emax]: EVERY binary format with at least 8 bits of precision; binary64 and binary32 are
    instances) for (S) soundness and (M) meaningfulness; exact tier (reals) for (R), the ray origin.
    Vocabulary (Proofs/C16_errbound.v): [B2M], [B2V] read the stored floats as reals; [img_pt M x], [img_vec M x] are
    the EXACT images under the stored matrix; [within K ret img err] : |ret_i - img_i| <= K * err_i for i = x,y,z;
    [inbox c e x] : |x_i - c_i| <= e_i; [abs_img M x]_i = sum_j |m_ij x_j|; [abs_trans M]_i = |m_i3|;
    [first_order g M x e]_i = g * (sum_j |m_ij x_j| + |m_i3|) + sum_j |m_ij e_j|  (the property's first-order worst case
    for a POINT: rounding of the evaluation, which includes the addition of m_i3, plus the input error carried through
    the linear part);  [first_order_vec g M v e]_i = g * sum_j |m_ij v_j| + sum_j |m_ij e_j|  (the same for a VECTOR,
    whose image is three products and two additions: no translation term);
    [uro] = 2^-prec (unit roundoff), [gamma3] = 3u/(1-3u) as a real number (the property's yardstick; the point
    functions multiply by gamma(4) = 4u/(1-4u) <= 1.35 gamma3).
    Guards: [fin3 err] -- the REPORTED error components are finite floats (this alone forces every input and every
    intermediate result to be finite: no overflow, no NaN); [affine_last m] -- bottom row exactly (0,0,0,1), the
    C06 invariant of every constructed/composed transform; [safe_prods M x] -- no product m_ij * x_j is non-zero and
    below 2^(emin + 2 prec) (binary64: 2^-968 ~ 4e-292), i.e. no underflow: [C16_S_underflow_refuted] shows that this
    guard cannot be dropped (finding F9c, still open); [safe_trans M] -- the same for the entries m_i3 (only for (M) of
    the POINT functions; the vector statements have no hypothesis on the translation at all).
    This file contains only statements closed by [exact]. *)
From Coq Require Import ZArith Reals.
From Flocq Require Import Core BinarySingleNaN.
From G3 Require Import Model.Num Model.Base Model.Vec Model.Transform Model.Pinned.
From G3 Require Import Proofs.C06_transform Proofs.C16_errbound Proofs.C16_ray.
Local Open Scope R_scope.

Section C16_float_tier.
  Variable prec emax : Z.
  Context (Hprec : FLX.Prec_gt_0 prec) (Hmax : Prec_lt_emax prec emax).
  Hypothesis Hp8 : (8 <= prec)%Z.
  Notation bf := (binary_float prec emax).
  Local Instance NB : Num bf := NumB prec emax Hprec Hmax.
  Notation B2M := (B2M prec emax).
  Notation B2V := (B2V prec emax).
  Notation fin3 := (fin3 prec emax).
  Notation affine_last := (affine_last prec emax).
  Notation safe_prods := (safe_prods prec emax).
  Notation safe_trans := (safe_trans prec emax).
  Notation u := (uro prec).
  Notation gamma3 := (gamma3 prec).

  (** (S), vectors: TRUE as stated, no extra factor, for the translation-free bound gamma(3) * sum_j |m_ij v_j|
      (three products, two additions: three roundings per row; nothing else to lean on).  The bound is itself
      computed in floating point; its roundings are accounted for
      (needs (3+3u+u^2)(1+u)^2(1-3u) <= 3, lemma [poly3]). *)
  Theorem C16_S_vec : forall (m : M4 bf) (v : V3 bf),
    let re := vec_with_error m v in
    fin3 (snd re) -> safe_prods (B2M m) (B2V v) ->
    fin3 (fst re) /\ within 1 (B2V (fst re)) (img_vec (B2M m) (B2V v)) (B2V (snd re)).
  Proof. exact (S_vec prec emax Hprec Hmax Hp8). Qed.

  (** (S), points: TRUE as stated, no extra factor, since the bound uses gamma(4) for the four roundings of
      ((m0 x + m1 y) + m2 z) + m3  (needs (4+6u+4u^2+u^3)(1+u)^2(1-4u) <= 4, lemma [poly4_gamma4]) *)
  Theorem C16_S_point : forall (m : M4 bf) (p : V3 bf),
    let re := pt_with_error m p in
    affine_last m -> fin3 (snd re) -> safe_prods (B2M m) (B2V p) ->
    fin3 (fst re) /\ within 1 (B2V (fst re)) (img_pt (B2M m) (B2V p)) (B2V (snd re)).
  Proof. exact (S_pt prec emax Hprec Hmax Hp8). Qed.

  (** (S) with an input error box.  PARTIAL, vectors and points alike: proved with the factor (1+4u).
      Full statement (factor 1):
        forall x', inbox (B2V v) (B2V e) x' -> within 1 (B2V (fst re)) (img (B2M m) x') (B2V (snd re)).
      Missing: the propagated part is sum_j |m_ij e_j| evaluated with up to five downward roundings (product, two sums,
      multiplication by (1+gamma3), final sum with the rounding part) against a gain of (1+gamma3) ~ 1+3u (1+4u after
      rounding): a per-operation worst-case analysis leaves a deficit of at most 4u relative.  The adversarial search
      reaches ratios up to 1 - 3e-16 and finds no violation; a case inside the proved factor but above 1 would be
      reported by the oracle as a VIOLATION (class [within-proved-factor]). *)
  Theorem C16_S_vec_box_partial : forall (m : M4 bf) (v e : V3 bf),
    let re := vec_propagate_error m v e in
    fin3 (snd re) -> safe_prods (B2M m) (B2V v) -> safe_prods (B2M m) (B2V e) ->
    fin3 (fst re) /\
    forall x' : V3 R, inbox (B2V v) (B2V e) x' -> within (1 + 4 * u) (B2V (fst re)) (img_vec (B2M m) x') (B2V (snd re)).
  Proof. exact (S_vec_box prec emax Hprec Hmax Hp8). Qed.
  Theorem C16_S_point_box_partial : forall (m : M4 bf) (p e : V3 bf),
    let re := pt_propagate_error m p e in
    affine_last m -> fin3 (snd re) -> safe_prods (B2M m) (B2V p) -> safe_prods (B2M m) (B2V e) ->
    fin3 (fst re) /\
    forall x' : V3 R, inbox (B2V p) (B2V e) x' -> within (1 + 4 * u) (B2V (fst re)) (img_pt (B2M m) x') (B2V (snd re)).
  Proof. exact (S_pt_box prec emax Hprec Hmax Hp8). Qed.

  (** (M) for the two POINT [*_with_error] functions: within a factor 2 of the first-order worst case
      (gamma(4) = 4/3 gamma(3) is inside the factor; the translation entry is part of a point's evaluation) *)
  Theorem C16_M_with_error : forall (m : M4 bf) (p : V3 bf), safe_prods (B2M m) (B2V p) -> safe_trans (B2M m) ->
    fin3 (snd (pt_with_error m p)) -> vle (B2V (snd (pt_with_error m p))) (vscaleR 2 (first_order gamma3 (B2M m) (B2V p) V0)).
  Proof. exact (M_with_error prec emax Hprec Hmax Hp8). Qed.

  (** (M) for the two VECTOR [*_with_error] functions: within a factor 2 of gamma3 * sum_j |m_ij v_j| --
      no translation term in the yardstick and no hypothesis on the translation: WHATEVER its size *)
  Theorem C16_M_vec_with_error : forall (m : M4 bf) (v : V3 bf), safe_prods (B2M m) (B2V v) ->
    fin3 (snd (vec_with_error m v)) ->
    vle (B2V (snd (vec_with_error m v))) (vscaleR 2 (vscaleR gamma3 (abs_img (B2M m) (B2V v)))).
  Proof. exact (M_vec_with_error prec emax Hprec Hmax Hp8). Qed.

  (** (M) for the two POINT [*_propagate_error] functions, whatever the SIZE of the translation (its entries only stay
      out of the underflow range, [safe_trans]) *)
  Theorem C16_M_propagate : forall (m : M4 bf) (p e : V3 bf),
    safe_prods (B2M m) (B2V p) -> safe_prods (B2M m) (B2V e) -> safe_trans (B2M m) ->
    fin3 (snd (pt_propagate_error m p e)) ->
    vle (B2V (snd (pt_propagate_error m p e))) (vscaleR 2 (first_order gamma3 (B2M m) (B2V p) (B2V e))).
  Proof. exact (M_propagate prec emax Hprec Hmax Hp8). Qed.

  (** (M) for the two VECTOR [*_propagate_error] functions: within a factor 2 of
      gamma3 * sum_j |m_ij v_j| + sum_j |m_ij e_j|; again no translation term, no hypothesis on the translation *)
  Theorem C16_M_vec_propagate : forall (m : M4 bf) (v e : V3 bf),
    safe_prods (B2M m) (B2V v) -> safe_prods (B2M m) (B2V e) ->
    fin3 (snd (vec_propagate_error m v e)) ->
    vle (B2V (snd (vec_propagate_error m v e))) (vscaleR 2 (first_order_vec gamma3 (B2M m) (B2V v) (B2V e))).
  Proof. exact (M_vec_propagate prec emax Hprec Hmax Hp8). Qed.
End C16_float_tier.

(** ** binary64 witnesses (matrices as stored by the real crate for the quoted chains) *)

(** FORMER code (gamma(3) for points, before fix: 34af114): (S) failed.  [translate(0.1,0,0) . rotate_z(20) . rotate_x(35)],
    point (0.5320888862385273, -1.7846530571159382, 5.659924931209981e-16): the exact image is 4.16e-16 from the returned x
    while the returned error was 3.66e-16 (ratio 1.136), all guards holding *)
Theorem C16_S_point_pinned_refuted : exists (m : M4 b64) (p : V3 b64),
  let re := @pt_with_error_pinned _ NumB64 m p in
  affine_last 53 1024 m /\ fin3 53 1024 (snd re) /\ safe_prods 53 1024 (B2M 53 1024 m) (B2V 53 1024 p) /\
  ~ within 1 (B2V 53 1024 (fst re)) (img_pt (B2M 53 1024 m) (B2V 53 1024 p)) (B2V 53 1024 (snd re)).
Proof. exact S_point_pinned_refuted. Qed.

(** FORMER code (translation column added to the propagated error, before fix: 5455df2): (M) failed.
    [translate(1000,0,0)], point (1,2,3), input error 1e-9: the reported x error (1000.000000001) exceeded twice --
    indeed 10^11 times -- the first-order worst case (1.0000003e-9) *)
Theorem C16_M_pinned_refuted : exists (m : M4 b64) (p e : V3 b64),
  let err := snd (@pt_propagate_error_pinned _ NumB64 m p e) in
  affine_last 53 1024 m /\ fin3 53 1024 err /\ safe_prods 53 1024 (B2M 53 1024 m) (B2V 53 1024 p) /\
  safe_prods 53 1024 (B2M 53 1024 m) (B2V 53 1024 e) /\ safe_trans 53 1024 (B2M 53 1024 m) /\
  snd (@vec_propagate_error_pinned _ NumB64 m p e) = err /\
  ~ vle (B2V 53 1024 err) (vscaleR 2 (first_order (gamma3 53) (B2M 53 1024 m) (B2V 53 1024 p) (B2V 53 1024 e))) /\
  100000000000 * vx (first_order (gamma3 53) (B2M 53 1024 m) (B2V 53 1024 p) (B2V 53 1024 e)) < vx (B2V 53 1024 err).
Proof. exact M_pinned_refuted. Qed.

(** FORMER code (the translation column added to the error of a transformed VECTOR, [mul4x4_abs] in
    transform_vec_with_error / inv_transform_vec_with_error): (M) failed for vectors.  [translate(1000,0,0)], vector
    (1e-9,0,0) -- transformed without any rounding error at all: the reported x error was 3.33e-13 = gamma3 * 1000,
    10^11 times the first-order worst case gamma3 * 1e-9 = 3.33e-25, and it grows with the translation, whatever the
    length of the vector: the bound was not meaningful "whatever the size of the translation".  All guards hold,
    [safe_trans] included. *)
Theorem C16_M_vec_pinned_refuted : exists (m : M4 b64) (v : V3 b64),
  let err := snd (@vec_with_error_pinned _ NumB64 m v) in
  let fo := vscaleR (gamma3 53) (abs_img (B2M 53 1024 m) (B2V 53 1024 v)) in
  affine_last 53 1024 m /\ fin3 53 1024 err /\ safe_prods 53 1024 (B2M 53 1024 m) (B2V 53 1024 v) /\
  safe_trans 53 1024 (B2M 53 1024 m) /\
  ~ vle (B2V 53 1024 err) (vscaleR 2 fo) /\
  100000000000 * vx fo < vx (B2V 53 1024 err).
Proof. exact M_vec_pinned_refuted. Qed.

(** CURRENT code, finding F9c (open): without the no-underflow guard (S) fails even for vectors:
    [scale(0.5,1,1)] on (2^-1074,0,0) returns 0 +- 0 *)
Theorem C16_S_underflow_refuted : exists (m : M4 b64) (v : V3 b64),
  let re := @vec_with_error _ NumB64 m v in
  affine_last 53 1024 m /\ fin3 53 1024 (snd re) /\
  ~ within 1 (B2V 53 1024 (fst re)) (img_vec (B2M 53 1024 m) (B2V 53 1024 v)) (B2V 53 1024 (snd re)).
Proof. exact S_underflow_refuted. Qed.

(** non-vacuity of the float-tier hypotheses: they all hold on the witness of the former (S) finding with a 1e-9 input
    box; on it the repaired code is sound, and on the former (M) witness it is meaningful *)
Example C16_nonvacuous :
  affine_last 53 1024 wS_m /\ fin3 53 1024 (snd (@pt_with_error _ NumB64 wS_m wS_p)) /\
  fin3 53 1024 (snd (@vec_with_error _ NumB64 wS_m wS_p)) /\
  fin3 53 1024 (snd (@pt_propagate_error _ NumB64 wS_m wS_p wS_e)) /\
  fin3 53 1024 (snd (@vec_propagate_error _ NumB64 wS_m wS_p wS_e)) /\
  safe_prods 53 1024 (B2M 53 1024 wS_m) (B2V 53 1024 wS_p) /\ safe_prods 53 1024 (B2M 53 1024 wS_m) (B2V 53 1024 wS_e) /\
  safe_trans 53 1024 (B2M 53 1024 wS_m) /\ inbox (B2V 53 1024 wS_p) (B2V 53 1024 wS_e) (B2V 53 1024 wS_p).
Proof. exact C16_nonvacuous_proof. Qed.
Example C16_former_witnesses_now_pass :
  (let re := @pt_with_error _ NumB64 wS_m wS_p in
   within 1 (B2V 53 1024 (fst re)) (img_pt (B2M 53 1024 wS_m) (B2V 53 1024 wS_p)) (B2V 53 1024 (snd re))) /\
  vle (B2V 53 1024 (snd (@pt_propagate_error _ NumB64 wM_m wM_p wS_e)))
      (vscaleR 2 (first_order (gamma3 53) (B2M 53 1024 wM_m) (B2V 53 1024 wM_p) (B2V 53 1024 wS_e))) /\
  vle (B2V 53 1024 (snd (@vec_with_error _ NumB64 wM_m wV_v)))
      (vscaleR 2 (vscaleR (gamma3 53) (abs_img (B2M 53 1024 wM_m) (B2V 53 1024 wV_v)))).
Proof. exact (conj S_point_witness_now_sound (conj M_witness_now_meaningful M_vec_witness_now_meaningful)). Qed.

(** ** (R), exact tier: the nudge of the ray origin ([nudge o d e] is the common tail of the four [*_ray*] functions;
    [e] is the reported origin error, non-negative by construction) *)
Notation V := (V3 R).

(** the origin moves along the direction, forwards *)
Theorem C16_R_nudge_forward : forall o d e : V, nonneg3 e ->
  exists dt, 0 <= dt /\ nudge o d e = vadd o (vscale d dt).
Proof. exact (fun o d e H => nudge_spec o d e (proj1 H) (proj1 (proj2 H)) (proj2 (proj2 H))). Qed.

(** no point of the origin's error box lies ahead of the nudged origin -- and the worst corner is reached exactly *)
Theorem C16_R_no_box_point_ahead : forall o d e : V, nonneg3 e -> 0 < vlen2 d ->
  (forall x : V, in_box o e x -> vdot (vsub x (nudge o d e)) d <= 0) /\
  vdot (vsub (nudge o d e) o) d = vdot (vabs d) e.
Proof. exact (fun o d e He Hd => conj (fun x Hx => no_box_point_ahead o d e x He Hd Hx) (nudge_tight o d e Hd)). Qed.

(** advanced by no more than the bound: Euclidean norms (squared).  Component-wise the claim is false
    (d = (1,1,0), e = (1,0,0) moves the origin by (1/2,1/2,0)). *)
Theorem C16_R_advance_bounded : forall o d e : V, nonneg3 e -> vlen2 (vsub (nudge o d e) o) <= vlen2 e.
Proof. exact advance_bounded. Qed.

(** the four ray functions ([ray_by m] = transform_ray / inv_transform_ray on the matrix / the stored inverse) *)
Theorem C16_R_ray : forall (m : M4 R) (r : Ray R),
  let '(r', oe, de) := ray_by m r in
  let o := fst (pt_with_error m (rorigin r)) in
  oe = snd (pt_with_error m (rorigin r)) /\ rdir r' = mul4x4vec m (rdir r) /\ nonneg3 oe /\
  (exists dt, 0 <= dt /\ rorigin r' = vadd o (vscale (rdir r') dt)) /\
  vlen2 (vsub (rorigin r') o) <= vlen2 oe /\
  (0 < vlen2 (rdir r') -> forall x, in_box o oe x -> vdot (vsub x (rorigin r')) (rdir r') <= 0).
Proof. exact ray_by_R. Qed.
Theorem C16_R_ray_propagate : forall (m : M4 R) (r : Ray R) (oe_in de_in : V),
  let '(r', oe, de) := ray_propagate_by m r oe_in de_in in
  let o := fst (pt_propagate_error m (rorigin r) oe_in) in
  oe = snd (pt_propagate_error m (rorigin r) oe_in) /\ rdir r' = mul4x4vec m (rdir r) /\ nonneg3 oe /\
  (exists dt, 0 <= dt /\ rorigin r' = vadd o (vscale (rdir r') dt)) /\
  vlen2 (vsub (rorigin r') o) <= vlen2 oe /\
  (0 < vlen2 (rdir r') -> forall x, in_box o oe x -> vdot (vsub x (rorigin r')) (rdir r') <= 0).
Proof. exact ray_propagate_by_R. Qed.

Example C16_R_nonvacuous : nonneg3 (mkV3 (1/1000) 0 (1/1000)) /\ 0 < vlen2 (mkV3 1 1 0) /\
  in_box (mkV3 0 0 0) (mkV3 (1/1000) 0 (1/1000)) (mkV3 (1/2000) 0 0).
Proof.
  unfold nonneg3, in_box, vlen2. cbn [vx vy vz]. Theory.RInst.rnum.
  repeat split; try (rewrite Rabs_pos_eq; Lra.lra); Lra.lra.
Qed.
