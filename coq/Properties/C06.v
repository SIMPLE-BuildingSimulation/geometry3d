(** * C06 -- transforms and their inverses stay consistent under composition (exact tier, reals).
    [Inv t]: matrix . stored inverse = stored inverse . matrix = identity and both are affine.
    Statements only, each closed by [exact]. *)
From Coq Require Import ZArith Reals List.
From G3 Require Import Model.Num Model.Base Model.Vec Model.BBox Model.Transform Model.Pinned Proofs.C06_transform.
Import ListNotations.
Local Open Scope R_scope.

(** every chain (any length) of elementary transforms with non-zero scale factors keeps the invariant *)
Theorem C06_chain_invariant : forall l : list elem, Forall elem_ok l -> Inv (chain (map elem_tr l)).
Proof. exact Inv_elem_chain. Qed.
Theorem C06_mul_assign_invariant : forall a b : T, Inv a -> Inv b -> Inv (tr_mul_assign a b).
Proof. exact Inv_mul_assign. Qed.

(** round trips *)
Theorem C06_point_round_trip : forall (t : T) (p : V), Inv t -> tr_inv_pt t (tr_pt t p) = p /\ tr_pt t (tr_inv_pt t p) = p.
Proof. exact (fun t p H => conj (inv_pt_pt t p H) (pt_inv_pt t p H)). Qed.
Theorem C06_vector_round_trip : forall (t : T) (v : V), Inv t -> tr_inv_vec t (tr_vec t v) = v /\ tr_vec t (tr_inv_vec t v) = v.
Proof. exact (fun t p H => conj (inv_vec_vec t p H) (vec_inv_vec t p H)). Qed.
Theorem C06_normal_round_trip : forall (t : T) (n : V), Inv t -> tr_inv_normal t (tr_normal t n) = n /\ tr_normal t (tr_inv_normal t n) = n.
Proof. exact (fun t p H => conj (inv_normal_normal t p H) (normal_inv_normal t p H)). Qed.
(** a ray comes back with the same direction, its origin on the same line, moved forward by the documented nudge *)
Theorem C06_ray_round_trip : forall (t : T) (r : Ray R), Inv t ->
  let '(r1, _, _) := tr_ray t r in
  let '(r2, _, _) := tr_inv_ray t r1 in
  rdir r2 = rdir r /\ exists dt, 0 <= dt /\ rorigin r2 = vadd (rorigin r) (vscale (rdir r) dt).
Proof. exact ray_round_trip. Qed.

(** composing A with B acts as "apply B, then A" -- also for the stored inverse and along whole chains *)
Theorem C06_composition_order : forall (a b : T) (p v : V), Inv a -> Inv b ->
  tr_pt (tr_mul_assign a b) p = tr_pt a (tr_pt b p) /\
  tr_vec (tr_mul_assign a b) v = tr_vec a (tr_vec b v) /\
  tr_inv_pt (tr_mul_assign a b) p = tr_inv_pt b (tr_inv_pt a p).
Proof. exact (fun a b p v Ha Hb => conj (mul_assign_acts_pt a b p Ha Hb) (conj (mul_assign_acts_vec a b v Ha Hb) (mul_assign_acts_inv_pt a b p Ha Hb))). Qed.
Theorem C06_chain_acts : forall (l : list T) (p : V), Forall Inv l -> tr_pt (chain l) p = act l p.
Proof. exact chain_acts. Qed.

(** rotations: rigid (dot products preserved), counter-clockwise for positive angles *)
Theorem C06_rotations_rigid : forall (d : R) (u v : V),
  vdot (tr_vec (tr_rotate_x d) u) (tr_vec (tr_rotate_x d) v) = vdot u v /\
  vdot (tr_vec (tr_rotate_y d) u) (tr_vec (tr_rotate_y d) v) = vdot u v /\
  vdot (tr_vec (tr_rotate_z d) u) (tr_vec (tr_rotate_z d) v) = vdot u v.
Proof. exact rotations_rigid. Qed.
Theorem C06_rotations_ccw : forall d : R, let r := to_radians d in
  tr_vec (tr_rotate_x d) (mkV3 0 1 0) = mkV3 0 (cos r) (sin r) /\
  tr_vec (tr_rotate_y d) (mkV3 0 0 1) = mkV3 (sin r) 0 (cos r) /\
  tr_vec (tr_rotate_z d) (mkV3 1 0 0) = mkV3 (cos r) (sin r) 0.
Proof. exact rotations_ccw. Qed.

(** handedness: reported exactly when the determinant of the linear part is negative;
    it composes like a sign; a scaling mirrors iff the product of its factors is negative *)
Theorem C06_changes_hands_iff_det_negative : forall t : T, tr_changes_hands t = true <-> det3 (elements t) < 0.
Proof. exact changes_hands_spec. Qed.
Theorem C06_changes_hands_composes : forall a b : T, Inv a -> Inv b ->
  tr_changes_hands (tr_mul_assign a b) = xorb (tr_changes_hands a) (tr_changes_hands b).
Proof. exact (fun a b Ha Hb => changes_hands_mul a b Ha Hb (Inv_det_nonzero a Ha) (Inv_det_nonzero b Hb)). Qed.
Theorem C06_scale_mirrors : forall x y z : R, tr_changes_hands (tr_scale x y z) = true <-> x * y * z < 0.
Proof. exact scale_mirrors. Qed.
Theorem C06_rigid_motions_keep_hands : forall (x y z d : R),
  tr_changes_hands (tr_translate x y z) = false /\ tr_changes_hands (tr_rotate_x d) = false /\
  tr_changes_hands (tr_rotate_y d) = false /\ tr_changes_hands (tr_rotate_z d) = false.
Proof. exact rigid_keep_hands. Qed.

(** a normal transformed alongside a surface stays perpendicular to it: (M^-T n).(M v) = n.v *)
Theorem C06_normal_stays_perpendicular : forall (t : T) (n v : V), Inv t -> vdot (tr_normal t n) (tr_vec t v) = vdot n v.
Proof. exact normal_dot_vec. Qed.

(** non-vacuity *)
Example C06_nonvacuous : Forall elem_ok [ETranslate 1 2 3; EScale 2 (-1) (1/2); ERotZ 90].
Proof. exact C06_nonvacuous_proof. Qed.

(** the pinned tree (before fix e164302) broke the invariant at the first composition *)
Theorem C06_pinned_mul_assign_refuted :
  exists a b : T, Inv a /\ Inv b /\ ~ Inv (tr_mul_assign_pinned a b).
Proof. exact pinned_mul_assign_breaks_Inv. Qed.
