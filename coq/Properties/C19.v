(** * C19 -- segment, triangle and vector predicates agree with exact geometry (exact tier, reals).
    Each theorem is the specification of one function of the model WITH ITS TOLERANCE WRITTEN IN;
    statements only, each closed by [exact].  [V] = points and vectors over R, [S] = segments, [T] = triangles.
    Constants: [tinyR] = 100 * 2^-52, [epsR] = 2^-52, [e5] = 1e-5, [e6] = 1e-6, [e8] = 1e-8.
    Finding F5 (skew segments reported as crossing, common start point missed) is repaired in /repo by fix ec384e6:
    the segment theorems of section 2 are about the live code; the code before the fix is modelled by the [_pinned]
    functions of Model/PinnedSegment.v, and its refutations are the [C19_pinned_*] theorems of section 2''.  The other
    [_refuted] theorems say where the live code departs from the property (F11 and the parametrisation of
    [contains_point]). *)
From Coq Require Import ZArith Reals List Bool Floats.
From G3 Require Import Model.Num Model.NumF Model.Base Model.Vec Model.BBox Model.Transform Model.Hit Model.Segment Model.PinnedSegment
  Model.Triangle Model.Areas Proofs.C19_vec Proofs.C19_segment Proofs.C19_triangle Proofs.C19_areas Proofs.C19_examples.
Local Open Scope R_scope.

(** ** 1. points and vectors *)
Theorem C19_is_zero_and_compare_spec : forall a p : V,
  (vis_zero a = true <-> Rabs (vx a) < tinyR /\ Rabs (vy a) < tinyR /\ Rabs (vz a) < tinyR) /\
  (vcompare a p = true <-> Rabs (vx a - vx p) < e5 /\ Rabs (vy a - vy p) < e5 /\ Rabs (vz a - vz p) < e5).
Proof. exact (fun a p => conj (vis_zero_spec a) (vcompare_spec a p)). Qed.
(** cross product: perpendicular to both factors, anti-commutative, |a x b|^2 = |a|^2 |b|^2 - (a.b)^2 (Lagrange) *)
Theorem C19_operator_identities :
  (forall a b : V,
  vdot (vcross a b) a = 0 /\ vdot (vcross a b) b = 0 /\ vcross a b = vneg (vcross b a) /\
  vlen2 (vcross a b) = vlen2 a * vlen2 b - vdot a b * vdot a b) /\
  (forall (a b c : V) (s t : R),
  vadd a b = vadd b a /\ vadd (vadd a b) c = vadd a (vadd b c) /\ vsub a b = vadd a (vneg b) /\
  vadd a (vsub b a) = b /\ vsub (vadd a b) a = b /\
  vscale (vadd a b) s = vadd (vscale a s) (vscale b s) /\ vscale (vscale a s) t = vscale a (s * t) /\
  vdot a b = vdot b a /\ vdot (vadd a b) c = vdot a c + vdot b c /\ vdot (vscale a s) b = s * vdot a b /\
  (s <> 0 -> vdivs (vscale a s) s = a /\ vdivs a s = vscale a (/ s))).
Proof.
  exact (conj ((fun a b => conj (proj1 (vcross_perp a b)) (conj (proj2 (vcross_perp a b)) (conj (vcross_anticomm a b) (eq_sym (lagrange a b))))))
              ((fun a b c s t => conj (vadd_comm a b) (conj (vadd_assoc a b c) (conj (vsub_vadd_neg a b) (conj (vadd_vsub a b) (conj (vsub_vadd a b)
    (conj (vscale_vadd a b s) (conj (vscale_vscale a s t) (conj (vdot_comm a b) (conj (vdot_vadd_l a b c) (conj (vdot_vscale_l a b s) (vdivs_vscale a s))))))))))))).
Qed.
Theorem C19_length_distance_normalize :
  (forall (a p : V) (s : R),
  0 <= vlen a /\ vlen a * vlen a = vlen2 a /\ vlen2 a = vdot a a /\ (vlen2 a = 0 <-> a = mkV3 0 0 0) /\
  vlen (vscale a s) = Rabs s * vlen a /\ vdot a p * vdot a p <= vlen2 a * vlen2 p /\
  psqdist a p = vlen2 (vsub a p) /\ pdist a p = vlen (vsub a p) /\ pdist a p = pdist p a /\ (pdist a p = 0 <-> a = p)) /\
  (forall a : V, vlen2 a <> 0 ->
  vlen (vnormalize a) = 1 /\ vnormalize a = vscale a (/ vlen a) /\ 0 < / vlen a).
Proof.
  exact (conj ((fun a p s => conj (vlen_nonneg a) (conj (vlen_sqr a) (conj (vlen2_vdot a) (conj (vlen2_zero a) (conj (vlen_vscale a s)
    (conj (cauchy_schwarz a p) (conj (psqdist_vsub a p) (conj (pdist_vsub a p) (conj (pdist_sym a p) (pdist_zero a p)))))))))))
              (vnormalize_unit)).
Qed.
(** [tiny a]: every component below 100 eps in absolute value ([is_zero]) *)
Theorem C19_is_parallel_spec : forall a b : V,
  vis_parallel a b = true <-> ~ tiny a /\ ~ tiny b /\ vlen2 (vcross a b) < e5.
Proof. exact vis_parallel_spec. Qed.
Theorem C19_is_same_direction_spec : forall a b : V,
  vis_same_direction a b = true <-> ~ tiny a /\ ~ tiny b /\ vlen2 (vcross a b) < e5 /\ 0 < vdot a b.
Proof. exact vis_same_direction_spec. Qed.
Theorem C19_get_perpendicular_spec :
  (forall v w : V, vget_perpendicular v = Ok w -> vdot w v = 0 /\ vlen w = 1) /\
  (forall v : V,
  (forall s, vget_perpendicular v <> Panic s) /\
  (forall c, vget_perpendicular v = Err c <-> (c = 2%N /\ Rabs (vx v) <= tinyR /\ Rabs (vy v) <= tinyR /\ Rabs (vz v) <= tinyR))).
Proof.
  exact (conj (vget_perpendicular_ok)
              (vget_perpendicular_err)).
Qed.
Theorem C19_is_collinear_spec : forall a b c : V,
  (forall s, is_collinear a b c <> Panic s) /\
  (forall e, is_collinear a b c = Err e <-> e = 1%N /\ vcompare a b = true /\ vcompare a c = true) /\
  (forall r, is_collinear a b c = Ok r <-> ~ (vcompare a b = true /\ vcompare a c = true) /\
     (r = true <-> vcompare a b = true \/ vcompare a c = true \/ vcompare b c = true \/
                   vlen (vcross (vsub b a) (vsub c b)) < e5)).
Proof. exact is_collinear_spec. Qed.
(** the collinearity measure is (length of ab) x (distance of c from the line ab): NOT a distance *)
Theorem C19_collinear_measure_is_distance_times_length : forall a b c : V, vlen2 (vsub b a) <> 0 ->
  vdot (vsub c (foot a b c)) (vsub b a) = 0 /\
  vlen (vcross (vsub b a) (vsub c b)) = vlen (vsub b a) * vlen (vsub c (foot a b c)).
Proof. exact (fun a b c H => conj (proj1 (collinear_measure2 a b c H)) (collinear_measure a b c H)). Qed.

(** ** 2. segments: the live code (after fix ec384e6: the coplanarity test is |delta . n| <= 1e-5 |n|, i.e. the distance
    between the two supporting lines is at most 1e-5; n = a x b, delta = s.start - r.start, [triple s r] = delta . n) *)
(** skew segments are never reported: lines further apart than 1e-5 give [None] (and the F5 witness is rejected) *)
Theorem C19_segment_skew_never_reported :
  (forall s r : S, e5 * vlen (seg_normal s r) < Rabs (triple s r) -> seg_get_intersection_pt s r = None) /\
  (seg_get_intersection_pt f5_s f5_r = None /\ seg_intersect f5_s f5_r = None /\ seg_touches f5_s f5_r = None).
Proof. exact (conj gip_skew_none f5_rejected). Qed.
(** in the projection chosen by the code (first of n.z, n.x, n.y above 1e-5) two coordinates of s(ta) and r(tb)
    coincide, the third differs by (delta . n) / n_k; and the lines are within the tolerance *)
Theorem C19_segment_parameters_solve_projection : forall (s r : S) (ta tb : R),
  seg_get_intersection_pt s r = Some (ta, tb) ->
  (let n := seg_normal s r in let P := seg_at s ta in let Q := seg_at r tb in
   (e5 < Rabs (vz n) /\ vx P = vx Q /\ vy P = vy Q /\ (vz P - vz Q) * vz n = triple s r) \/
   (Rabs (vz n) <= e5 /\ e5 < Rabs (vx n) /\ vy P = vy Q /\ vz P = vz Q /\ (vx P - vx Q) * vx n = triple s r) \/
   (Rabs (vz n) <= e5 /\ Rabs (vx n) <= e5 /\ e5 < Rabs (vy n) /\ vx P = vx Q /\ vz P = vz Q /\ (vy P - vy Q) * vy n = triple s r)) /\
  Rabs (triple s r) <= e5 * vlen (seg_normal s r).
Proof. exact gip_solved. Qed.
(** the reported parameters locate ONE 3-D point exactly when the four end points are coplanar; in general the two
    located points differ along one axis, by |delta . n| / |n_k| *)
Theorem C19_segment_points_coincide_iff_coplanar : forall (s r : S) (ta tb : R),
  seg_get_intersection_pt s r = Some (ta, tb) ->
  (seg_at s ta = seg_at r tb <-> triple s r = 0) /\ (coplanar s r -> seg_at s ta = seg_at r tb) /\
  exists nk, e5 < Rabs nk /\ (nk = vx (seg_normal s r) \/ nk = vy (seg_normal s r) \/ nk = vz (seg_normal s r)) /\
             vlen2 (vsub (seg_at s ta) (seg_at r tb)) * (nk * nk) = triple s r * triple s r.
Proof.
  exact (fun s r ta tb H => conj (solved_coincide_iff s r ta tb (proj1 (gip_solved s r ta tb H)))
          (conj (gip_coplanar_3d s r ta tb H) (solved_gap s r ta tb (proj1 (gip_solved s r ta tb H))))).
Qed.
(** a genuine meeting point of the supporting lines is reported, with its parameters, whenever the directions are not
    "same direction" and some component of n exceeds 1e-5; and nothing else is ever reported for such lines *)
Theorem C19_segment_parameters_complete : forall (s r : S) (ta tb : R) (t : R * R),
  seg_at s ta = seg_at r tb ->
  (seg_get_intersection_pt s r = Some t -> t = (ta, tb)) /\
  (vis_same_direction (seg_as_vec s) (seg_as_vec r) = false ->
   (e5 < Rabs (vz (seg_normal s r)) \/ e5 < Rabs (vx (seg_normal s r)) \/ e5 < Rabs (vy (seg_normal s r))) ->
   seg_get_intersection_pt s r = Some (ta, tb)).
Proof. exact (fun s r ta tb t E => conj (gip_complete s r ta tb t E) (gip_reports s r ta tb E)). Qed.
Theorem C19_segment_reported_iff : forall s r : S,
  (exists t, seg_get_intersection_pt s r = Some t) <->
  vis_same_direction (seg_as_vec s) (seg_as_vec r) = false /\
  Rabs (triple s r) <= e5 * vlen (seg_normal s r) /\
  (e5 < Rabs (vz (seg_normal s r)) \/ e5 < Rabs (vx (seg_normal s r)) \/ e5 < Rabs (vy (seg_normal s r))).
Proof. exact gip_some_iff. Qed.
Theorem C19_segment_intersect_touches_spec : forall (s r : S) (p : V),
  (seg_intersect s r = Some p <->
   exists ta tb, seg_get_intersection_pt s r = Some (ta, tb) /\ (0 <= ta < 1 /\ e8 <= tb < 1 - e8) /\ p = seg_at s ta) /\
  (seg_touches s r = Some p <->
   exists ta tb, seg_get_intersection_pt s r = Some (ta, tb) /\ (0 <= ta <= 1 /\ 0 <= tb <= 1) /\ p = seg_at s ta).
Proof. exact (fun s r p => conj (seg_intersect_spec s r p) (seg_touches_spec s r p)). Qed.
(** crossing excludes, touching includes, contact at the second segment's end points; crossing implies touching *)
Theorem C19_segment_endpoint_contact : forall (s r : S) (ta tb : R) (p : V),
  (seg_get_intersection_pt s r = Some (ta, tb) -> tb = 0 \/ tb = 1 ->
   seg_intersect s r = None /\ (0 <= ta <= 1 -> seg_touches s r = Some (seg_at s ta))) /\
  (seg_intersect s r = Some p -> seg_touches s r = Some p).
Proof. exact (fun s r ta tb p => conj (seg_endpoint_contact s r ta tb) (seg_intersect_touches s r p)). Qed.
(** every reported touch (hence crossing) lies on supporting lines at most 1e-5 apart, and is a genuine common point of
    the two segments when the end points are exactly coplanar *)
Theorem C19_segment_touch_is_common_point : forall (s r : S) (p : V), seg_touches s r = Some p ->
  (Rabs (triple s r) <= e5 * vlen (seg_normal s r) /\
   exists ta tb, 0 <= ta <= 1 /\ 0 <= tb <= 1 /\ p = seg_at s ta /\ solved s r ta tb) /\
  (coplanar s r -> exists ta tb, 0 <= ta <= 1 /\ 0 <= tb <= 1 /\ p = seg_at s ta /\ p = seg_at r tb).
Proof. exact (fun s r p H => conj (seg_touch_lines_close s r p H) (fun C => seg_touch_coplanar_sound s r p C H)). Qed.
(** segments with a common start point touch there (contact at the second segment's end point), and do not cross *)
Theorem C19_segment_common_start_touches : forall s r : S,
  sstart s = sstart r -> vis_same_direction (seg_as_vec s) (seg_as_vec r) = false ->
  (e5 < Rabs (vz (seg_normal s r)) \/ e5 < Rabs (vx (seg_normal s r)) \/ e5 < Rabs (vy (seg_normal s r))) ->
  seg_get_intersection_pt s r = Some (0, 0) /\ seg_touches s r = Some (sstart s) /\ seg_intersect s r = None.
Proof. exact gip_common_start. Qed.
(** contains_point / contains: the parameter is read along the FIRST axis whose extent exceeds EPSILON (resp. 1e-6) *)
Theorem C19_segment_contains_spec :
  (forall (s : S) (p : V),
  seg_contains_point s p =
  match is_collinear p (sstart s) (send s) with
  | Ok true => match first_axis epsR (seg_as_vec s) with
               | Some c => Ok (in01 (c (vsub p (sstart s)) / c (seg_as_vec s)))
               | None => Err 3%N end
  | Ok false => Ok false
  | Err e => Err e
  | Panic q => Panic q
  end) /\
  (forall (a b : V) (al be : R), long_enough a b ->
  let s := seg_new a b in
  seg_contains s (seg_new (seg_at s al) (seg_at s be)) = Ok (in01 al && in01 be) /\
  (in01 al && in01 be = true <-> 0 <= al <= 1 /\ 0 <= be <= 1)).
Proof.
  exact (conj (seg_contains_point_spec)
              (seg_contains_exact)).
Qed.
Theorem C19_segment_contains_point_exact :
  (forall (s : S) (t : R), long_enough (sstart s) (send s) ->
  seg_contains_point s (seg_at s t) = Ok (in01 t) /\ (in01 t = true <-> 0 <= t <= 1)) /\
  (forall s : S, seg_midpoint s = seg_at s (1 / 2)).
Proof.
  exact (conj (seg_contains_point_exact)
              (seg_midpoint_spec)).
Qed.

(** ** 2'. where the live code still violates the property *)
(** F11: two 5 cm edges at 26.6 degrees (sin^2 = 1/5) are "same direction"; their genuine crossing is not reported *)
Theorem C19_segment_short_edges_crossing_missed_refuted :
  vlen2 (vcross f11_a f11_b) = vlen2 f11_a * vlen2 f11_b * (1 / 5) /\
  seg_at f11_s (2/5) = seg_at f11_r (1/2) /\ (0 <= 2/5 < 1 /\ e8 <= 1/2 < 1 - e8) /\
  seg_get_intersection_pt f11_s f11_r = None /\ seg_intersect f11_s f11_r = None /\ seg_touches f11_s f11_r = None.
Proof. exact (conj (proj2 f11_parallel) f11_refuted). Qed.

(** ** 2''. the code BEFORE fix ec384e6 (Model/PinnedSegment.v, names [_pinned]): finding F5.
    Its "coplanarity" test was (delta x n).is_zero() *)
(** what the pinned code guaranteed, and when it answered: the scalar triple product (coplanarity) did not enter *)
Theorem C19_pinned_segment_characterised : forall (s r : S) (ta tb : R),
  (seg_get_intersection_pt_pinned s r = Some (ta, tb) ->
   solved s r ta tb /\ (seg_at s ta = seg_at r tb <-> triple s r = 0)) /\
  ((exists t, seg_get_intersection_pt_pinned s r = Some t) <->
   vis_same_direction (seg_as_vec s) (seg_as_vec r) = false /\
   ~ tiny (vcross (seg_delta s r) (seg_normal s r)) /\
   (e5 < Rabs (vz (seg_normal s r)) \/ e5 < Rabs (vx (seg_normal s r)) \/ e5 < Rabs (vy (seg_normal s r)))).
Proof.
  exact (fun s r ta tb => conj (fun H => conj (gipP_solved s r ta tb H) (solved_coincide_iff s r ta tb (gipP_solved s r ta tb H)))
                               (gipP_some_iff s r)).
Qed.
(** F5, witness: (0,0,0)-(1,0,0) and (1/2,-1,1)-(1/2,1,1) are nowhere closer than 1, yet "crossed" at (1/2,0,0);
    F5, the class [known_skew s r] = (delta . (a x b) <> 0): EVERY member that got an answer got two different points *)
Theorem C19_pinned_segment_skew_reported_as_crossing_refuted :
  (seg_get_intersection_pt_pinned f5_s f5_r = Some (1/2, 1/2) /\
   seg_intersect_pinned f5_s f5_r = Some (mkV3 (1/2) 0 0) /\ seg_touches_pinned f5_s f5_r = Some (mkV3 (1/2) 0 0) /\
   seg_at f5_s (1/2) = mkV3 (1/2) 0 0 /\ seg_at f5_r (1/2) = mkV3 (1/2) 0 1 /\
   ~ coplanar f5_s f5_r /\ (forall ta tb, vlen2 (vsub (seg_at f5_s ta) (seg_at f5_r tb)) >= 1)) /\
  (forall (s r : S) (ta tb : R),
   known_skew s r = true -> seg_get_intersection_pt_pinned s r = Some (ta, tb) -> seg_at s ta <> seg_at r tb).
Proof. exact (conj f5_refuted known_skew_wrong). Qed.
(** F5, second class: segments starting at the same point were never reported (although they touch there) *)
Theorem C19_pinned_segment_common_start_class_refuted :
  (forall s r : S, known_common_start s r = true <-> sstart s = sstart r) /\
  (forall s r : S, known_common_start s r = true -> seg_get_intersection_pt_pinned s r = None) /\
  (exists s r : S, sstart s = sstart r /\ coplanar s r /\ vdot (seg_as_vec s) (seg_as_vec r) = 0 /\
                   seg_at s 0 = seg_at r 0 /\ seg_touches_pinned s r = None).
Proof. exact (conj known_common_start_true (conj known_common_start_none common_start_refuted)). Qed.
(** outside the two classes the fix changes nothing: on coplanar pairs that the pinned code answered, live = pinned;
    and outside the skew class the pinned code's touches were genuine common points *)
Theorem C19_pinned_agrees_outside_known_classes : forall (s r : S) (p : V),
  (known_skew s r = false <-> coplanar s r) /\
  (coplanar s r -> ~ tiny (vcross (seg_delta s r) (seg_normal s r)) ->
   seg_get_intersection_pt s r = seg_get_intersection_pt_pinned s r) /\
  (known_skew s r = false -> seg_touches_pinned s r = Some p ->
   exists ta tb, 0 <= ta <= 1 /\ 0 <= tb <= 1 /\ p = seg_at s ta /\ p = seg_at r tb).
Proof. exact (fun s r p => conj (known_skew_false s r) (conj (gip_agrees_pinned s r) (touches_sound_outside_known_pinned s r p))). Qed.
(** executed on primitive floats (the instance run against the crate): F5 in the pinned code and its absence in the live
    code; the contains_point parametrisation (still present) *)
Theorem C19_float_witnesses_refuted :
  (seg_intersect_pinned (fs 0 0 0 1 0 0) (fs 0.5 (-1) 1 0.5 1 1) = Some (mkV3 0.5 0 0) /\
   seg_touches_pinned (fs 0 0 0 1 0 0) (fs 0.5 (-1) 1 0.5 1 1) = Some (mkV3 0.5 0 0) /\
   seg_get_intersection_pt_pinned (fs 0 0 0 1 0 0) (fs 0.5 (-1) 1 0.5 1 1) = Some (0.5, 0.5) /\
   seg_get_intersection_pt (fs 0 0 0 1 0 0) (fs 0.5 (-1) 1 0.5 1 1) = None /\
   seg_intersect (fs 0 0 0 1 0 0) (fs 0.5 (-1) 1 0.5 1 1) = None /\ seg_touches (fs 0 0 0 1 0 0) (fs 0.5 (-1) 1 0.5 1 1) = None)%float /\
  (seg_get_intersection_pt_pinned (fs 0 0 0 1 0 0) (fs 0 0 0 0 1 0) = None /\ seg_touches_pinned (fs 0 0 0 1 0 0) (fs 0 0 0 0 1 0) = None /\
   seg_touches (fs 0 0 0 1 0 0) (fs 0 0 0 0 1 0) = Some (mkV3 0 0 0) /\ seg_intersect (fs 0 0 0 1 0 0) (fs 0 0 0 0 1 0) = None)%float /\
  (seg_contains_point (fs 0 0 0 0x1.203af9ee75616p-50 1 0) (mkV3 0 2 0) = Ok true /\
   seg_contains_point (fs 0 0 0 0 1 0) (mkV3 0 2 0) = Ok false)%float.
Proof. exact (conj f5_float (conj common_start_float noise_axis_float)). Qed.

(** ** 3. triangles *)
(** (alpha, beta) of [test_point] are THE barycentric coordinates of the orthogonal projection of p on the plane *)
Theorem C19_barycentric_projection : forall (t : T) (p : V) (al be : R), tri_det t <> 0 ->
  (let q := tri_pt t (tri_alpha t p) (tri_beta t p) in
   vdot (vsub p q) (tri_e1 t) = 0 /\ vdot (vsub p q) (tri_e2 t) = 0) /\
  (vdot (vsub p (tri_pt t al be)) (tri_e1 t) = 0 -> vdot (vsub p (tri_pt t al be)) (tri_e2 t) = 0 ->
   al = tri_alpha t p /\ be = tri_beta t p).
Proof. exact (fun t p al be H => conj (tri_bary_projection t p H) (tri_bary_unique t p al be H)). Qed.
(** for a point of the plane they are its coordinates; the determinant is |e1 x e2|^2 = (2 area)^2 *)
Theorem C19_barycentric_in_plane : forall (t : T) (al be : R),
  tri_det t = vlen2 (vcross (tri_e1 t) (tri_e2 t)) /\
  (tri_det t <> 0 ->
   tri_alpha t (tri_pt t al be) = al /\ tri_beta t (tri_pt t al be) = be /\ tri_w t (tri_pt t al be) = 1 - al - be).
Proof. exact (fun t al be => conj (tri_det_cross t) (tri_bary_in_plane t al be)). Qed.
(** the cascade = the sign pattern of (alpha, beta, w = 1 - alpha - beta) at tolerance 100 eps *)
Theorem C19_test_point_spec : forall (t : T) (p : V),
  let al := tri_alpha t p in let be := tri_beta t p in let w := tri_w t p in
  let nn := - tinyR <= al /\ - tinyR <= be /\ - tinyR <= w in
  (tri_test_point t p = Outside <-> (al < - tinyR \/ be < - tinyR \/ w < - tinyR)) /\
  (tri_test_point t p = Inside  <-> (tinyR < al /\ tinyR < be /\ tinyR < w)) /\
  (tri_test_point t p = VertexA <-> (nn /\ al <= tinyR /\ be <= tinyR)) /\
  (tri_test_point t p = VertexC <-> (nn /\ al <= tinyR /\ tinyR < be /\ w <= tinyR)) /\
  (tri_test_point t p = VertexB <-> (nn /\ tinyR < al /\ be <= tinyR /\ w <= tinyR)) /\
  (tri_test_point t p = EdgeAC  <-> (nn /\ al <= tinyR /\ tinyR < be /\ tinyR < w)) /\
  (tri_test_point t p = EdgeBC  <-> (nn /\ tinyR < al /\ tinyR < be /\ w <= tinyR)) /\
  (tri_test_point t p = EdgeAB  <-> (nn /\ tinyR < al /\ be <= tinyR /\ tinyR < w)).
Proof. exact tri_test_point_spec. Qed.
Theorem C19_triangle_new_spec :
  (forall a b c : V,
  (forall s, tri_new a b c <> Panic s) /\
  (tri_new a b c = Err 10%N <-> (vcompare a b = true \/ vcompare a c = true \/ vcompare b c = true)) /\
  (tri_new a b c = Err 11%N <-> (vcompare a b = false /\ vcompare a c = false /\ vcompare b c = false /\
                                 vlen (vcross (vsub b a) (vsub c b)) < e5))) /\
  (forall (a b c : V) (t : T), tri_new a b c = Ok t ->
  ta t = a /\ tb t = b /\ tc t = c /\ tarea t = vlen (vcross (vsub b a) (vsub c a)) / 2 /\ tnormal t = tri_normal_of a b c /\
  vcompare a b = false /\ vcompare a c = false /\ vcompare b c = false /\ e5 <= vlen (vcross (vsub b a) (vsub c b))).
Proof.
  exact (conj (tri_new_total)
              (tri_new_ok)).
Qed.
(** an accepted triangle stores its vertices, Heron's area = |ab x ac| / 2, and the normalised (b-a) x (c-b) *)
Theorem C19_heron_is_half_cross : forall a b c : V,
  heron (pdist a b) (pdist b c) (pdist c a) = vlen (vcross (vsub b a) (vsub c a)) / 2.
Proof. exact tri_area_heron. Qed.
Theorem C19_normal_unit_right_handed : forall a b c : V, vlen2 (vcross (vsub b a) (vsub c a)) <> 0 ->
  let n := vcross (vsub b a) (vsub c a) in
  vlen (tri_normal_of a b c) = 1 /\ tri_normal_of a b c = vscale n (/ vlen n) /\ 0 < / vlen n /\
  vdot (tri_normal_of a b c) (vsub b a) = 0 /\ vdot (tri_normal_of a b c) (vsub c a) = 0.
Proof. exact tri_normal_spec. Qed.
Theorem C19_circumcenter_circumradius_spec :
  (forall t : T, tri_nondeg t ->
  let o := tri_circumcenter t in
  psqdist o (ta t) = psqdist o (tb t) /\ psqdist o (ta t) = psqdist o (tc t) /\
  vdot (vsub o (ta t)) (vcross (tri_e1 t) (tri_e2 t)) = 0) /\
  (forall t : T, tri_nondeg t ->
  tri_circumradius t = pdist (tri_circumcenter t) (ta t) /\
  tri_circumradius t = pdist (tri_circumcenter t) (tb t) /\
  tri_circumradius t = pdist (tri_circumcenter t) (tc t)).
Proof.
  exact (conj (tri_circumcenter_spec)
              (tri_circumradius_spec)).
Qed.
Theorem C19_centroid_aspect_ratio_spec :
  (forall t : T,
  tri_centroid t = vdivs (vadd (vadd (ta t) (tb t)) (tc t)) 3 /\
  vadd (vadd (vsub (ta t) (tri_centroid t)) (vsub (tb t) (tri_centroid t))) (vsub (tc t) (tri_centroid t)) = mkV3 0 0 0) /\
  (forall t : T,
  tri_aspect_ratio t = tri_circumradius t / Rmin (Rmin (Rmin e19 (pdist (ta t) (tb t))) (pdist (tb t) (tc t))) (pdist (tc t) (ta t)) /\
  (pdist (ta t) (tb t) <= e19 ->
   tri_aspect_ratio t = tri_circumradius t / Rmin (Rmin (pdist (ta t) (tb t)) (pdist (tb t) (tc t))) (pdist (tc t) (ta t)))).
Proof.
  exact (conj (tri_centroid_spec)
              ((fun t => conj (tri_aspect_ratio_spec t) (tri_aspect_ratio_shortest t)))).
Qed.
Theorem C19_triangle_lookup_spec : forall (t u : T) (p a b : V) (k : N),
  (tri_has_vertex t p = true <-> (vcompare (ta t) p = true \/ vcompare (tb t) p = true \/ vcompare (tc t) p = true)) /\
  (tri_compare t u = true <-> (tri_has_vertex u (ta t) = true /\ tri_has_vertex u (tb t) = true /\ tri_has_vertex u (tc t) = true)) /\
  (tri_get_edge_index_from_points t a b = Some k ->
   (k = 0%N /\ seg_compare (seg_new a b) (tri_ab t) = true) \/
   (k = 1%N /\ seg_compare (seg_new a b) (tri_ab t) = false /\ seg_compare (seg_new a b) (tri_bc t) = true) \/
   (k = 2%N /\ seg_compare (seg_new a b) (tri_ab t) = false /\ seg_compare (seg_new a b) (tri_bc t) = false /\
    seg_compare (seg_new a b) (tri_ca t) = true)).
Proof. exact (fun t u p a b k => conj (tri_has_vertex_spec t p) (conj (tri_compare_spec t u) (tri_edge_index_spec t a b k))). Qed.

(** ** 4. closed-form areas (DEFINITIONAL: the formulas are read off the code; what is checked is that the
    code computes them -- the correspondence run -- and that they specialise to the textbook values) *)
Theorem C19_sphere_area :
  (forall r zmin zmax phi : R, 0 <= r -> - r <= zmin -> zmin <= zmax -> zmax <= r -> 0 <= phi <= 360 ->
  (exists z, sphere_new_partial r zmin zmax phi = Ok z /\ sphere_area z = rad phi * r * (zmax - zmin)) /\
  (forall z0 z1 z2 p q : R,   (* additive in the z range and in the longitude range *)
     rad (p + q) * r * (z2 - z0) = rad p * r * (z1 - z0) + rad p * r * (z2 - z1) + rad q * r * (z2 - z0))) /\
  (forall r : R, 0 <= r -> exists z, sphere_new r = Ok z /\ sphere_area z = 4 * PI * (r * r)).
Proof.
  exact (conj ((fun r zmin zmax phi H1 H2 H3 H4 H5 => conj (sphere_zone_area r zmin zmax phi H1 H2 H3 H4 H5) (fun z0 z1 z2 p q => sphere_area_additive r z0 z1 z2 p q)))
              (sphere_full_area)).
Qed.
Theorem C19_cylinder_area :
  (forall (dbg : bool) (r zmin zmax phi : R), zmin < zmax -> 0 <= phi <= 360 ->
  exists z, cylinder_new_transformed r zmin zmax phi = Ok z /\ cylinder_area dbg z = Ok ((zmax - zmin) * r * rad phi)) /\
  (forall (dbg : bool) (p0 p1 : V) (r : R), p0 <> p1 ->
  exists z, cylinder_new_partial p0 p1 r 360 = Ok z /\ cylinder_area dbg z = Ok (2 * PI * r * pdist p1 p0)).
Proof.
  exact (conj (cylinder_partial_area)
              (cylinder_full_area)).
Qed.
Theorem C19_disk_area :
  (forall (dbg : bool) (n pz : V) (r ri phi : R) (d : Disk R), 0 <= phi <= 360 ->
  disk_new_detailed dbg n r ri pz phi = Ok d ->
  0 <= ri < r /\ dradius d = r /\ dinner d = ri /\ disk_area d = rad phi / 2 * (r * r - ri * ri)) /\
  (forall (dbg : bool) (n pz : V) (r ri : R) (d : Disk R),
  (disk_new dbg n r = Ok d -> 0 < r /\ disk_area d = PI * (r * r)) /\
  (disk_new_detailed dbg n r ri pz 360 = Ok d -> disk_area d = PI * (r * r) - PI * (ri * ri))).
Proof.
  exact (conj (disk_detailed_area)
              ((fun dbg n pz r ri d => conj (disk_full_area dbg n r d) (disk_annulus_area dbg n pz r ri d)))).
Qed.
Theorem C19_box_area : forall a b : V,
  box_area a b = 2 * (Rabs (vx b - vx a) * Rabs (vy b - vy a) + Rabs (vx b - vx a) * Rabs (vz b - vz a) + Rabs (vy b - vy a) * Rabs (vz b - vz a)).
Proof. exact box_area_spec. Qed.

(** ** non-vacuity: concrete inputs meeting the hypotheses above *)
Example C19_nonvacuous_parallel :
  vis_parallel (mkV3 1 0 0 : V) (mkV3 2 0 0) = true /\ vis_same_direction (mkV3 1 0 0 : V) (mkV3 2 0 0) = true /\
  vis_same_direction (mkV3 1 0 0 : V) (mkV3 (-2) 0 0) = false /\ vis_parallel (mkV3 1 0 0 : V) (mkV3 0 1 0) = false.
Proof. exact ex_parallel. Qed.
Example C19_nonvacuous_perpendicular : exists w, vget_perpendicular (mkV3 3 4 0 : V) = Ok w.
Proof. exact ex_perpendicular. Qed.
Example C19_nonvacuous_crossing :
  seg_get_intersection_pt x_s x_r = Some (1/2, 1/4) /\ coplanar x_s x_r /\ seg_intersect x_s x_r = Some (mkV3 0 0 0).
Proof. exact ex_crossing. Qed.
Example C19_nonvacuous_long : long_enough (mkV3 0 0 0 : V) (mkV3 1 2 3).
Proof. exact ex_long. Qed.
Example C19_nonvacuous_triangle : exists t, tri_new t_a t_b t_c = Ok t /\ tri_nondeg t /\ tri_det t <> 0.
Proof. exact ex_triangle. Qed.
Example C19_nonvacuous_cube : box_area (mkV3 0 0 0 : V) (vadd (mkV3 0 0 0) (mkV3 2 2 2)) = 6 * (2 * 2).
Proof. exact (cube_area (mkV3 0 0 0) 2). Qed.
