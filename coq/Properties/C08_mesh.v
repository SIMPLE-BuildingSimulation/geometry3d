(** * C08 (triangulation part) -- refinement steps keep a conforming mesh: the BOOKKEEPING part.
    Statements only; proofs in Proofs/Mesh_wf.v, Proofs/Mesh_conf.v, Proofs/Mesh_init.v.  Every number instance.

    [Conf_struct M] := [SYM M] /\ [CNT M]
      (i) SYM: every neighbour index of a live slot names a live slot that points back to it;
      (v) CNT: n_valid_triangles = number of live slots.
    This file:
    - [WF] (neighbour indices in range, never the slot itself) holds of [from_polygon]'s result and is preserved by
      EVERY step of EVERY history, whatever the outcomes ([C08_wf_history]);
    - (v) holds of [from_polygon]'s result and is preserved, whatever the outcome, by push, invalidate of a live
      slot, mark_as_neighbours, split_triangle, and -- on well-formed meshes -- flip_diagonal and restore_delaunay;
    - (i), one link: mark_as_neighbours returning Ok leaves two live slots that reference each other.
    Elsewhere:
    - (v) through split_edge / add_point: [split_edge] invalidates the neighbour across the split edge WITHOUT checking
      that it is live, so the counter survives only if that neighbour is live.  Properties/C08_region.v: on WF + CNT + LNK
      meshes (LNK = the liveness half of (i)) split_edge returns Ok with WF + CNT + LNK again, or leaves the mesh unchanged,
      or Panic 64 ([C08_split_edge_struct]); there also the atomicity of the steps, the multiset of live triangles of
      each, and area, coverage and orientation over the reals step by step;
    - (i) through the composed steps: which edge of the second triangle [mark_as_neighbours] links is decided by
      coordinate comparison (Segment3D::compare, tolerance 1e-5), so (i) is an invariant only in its geometric form [LNKG]
      (each link names a live triangle that holds the edge exactly, reversed, and links back) and under the separation
      hypothesis [SEP] of DESIGN.md (no two distinct vertices within the tolerance): Properties/C08_links.v, every number
      instance; with it, over the reals, area, coverage and orientation along histories;
    - LNKG of [from_polygon]'s result: Properties/C08_init.v, under SEP + EM; over R from stable_run + the Jordan hypothesis;
    - [refine] and mesh_polygon (area, coverage, orientation, the invariants, under side conditions on the trace of
      elementary steps): Properties/C08_refine.v.
    Nothing geometric is proved on the float instance.
    All clauses are checked after every step of every generated history by the exact-rational oracle.
    FALSE before crate fix 361bbb9: a step that returned Err could already have
    invalidated a slot ([C08_split_edge_half_update_refuted], about Model/PinnedMesh.v); [refine] swallowed such an Err
    from [add_point].  The live steps test every child with Triangle3D::new before the first mutation. *)
From Coq Require Import ZArith List Floats.
Set Warnings "-inexact-float".
From G3 Require Import Model.Num Model.NumF Model.Base Model.Vec Model.Segment Model.Triangle Model.Loop Model.Polygon Model.Triangulation Model.PinnedMesh
  Proofs.Mesh_base Proofs.Mesh_wf Proofs.Mesh_conf Proofs.Mesh_init Proofs.Mesh_witness.
Import ListNotations.

(** the starting point of every history satisfies WF and (v) *)
Theorem C08_initial_invariants : forall (K : Type) (NK : Num K) (P : Poly K) (M : Mesh K),
  from_polygon P = Ok M -> WF M /\ CNT M.
Proof. exact (fun K NK => @from_polygon_invariants K NK). Qed.

(** every history (split_edge, split_triangle, flip_diagonal, restore_delaunay, add_point, refine in any order and
    number, Ok or not) keeps the neighbour indices well formed *)
Theorem C08_wf_history : forall (K : Type) (NK : Num K) (ops : list (mop K)) (M : Mesh K),
  WF M -> WF (fst (mesh_run M ops)).
Proof. exact (fun K NK => @wf_run K NK). Qed.

(** (v) through the primitives *)
Theorem C08_counter_push : forall (K : Type) (NK : Num K) (a b c : V3 K) (last_added : nat) (M M' : Mesh K) (r : res nat),
  CNT M -> mesh_push a b c last_added M = (M', r) -> CNT M'.
Proof. intros K NK a b c la M M' r C H. exact (cnt_push a b c la M M' r H C). Qed.
Theorem C08_counter_invalidate_live : forall (K : Type) (NK : Num K) (i : nat) (M M' : Mesh K) (r : res unit),
  live M i -> CNT M -> mesh_invalidate i M = (M', r) -> CNT M' /\ r = Ok tt.
Proof. intros K NK i M M' r L C H. destruct (cnt_invalidate_live i M M' r L C H) as (A & B & _). split; assumption. Qed.
Theorem C08_counter_mark_as_neighbours : forall (K : Type) (NK : Num K) (i1 : nat) (e : Edge) (i2 : nat) (M M' : Mesh K) (r : res unit),
  CNT M -> mark_as_neighbours i1 e i2 M = (M', r) -> CNT M'.
Proof. intros K NK i1 e i2 M M' r C H. exact (cnt_mark i1 e i2 M M' r H C). Qed.

(** (v) through the steps, whatever their outcome; the usize underflow of invalidate is then unreachable *)
Theorem C08_counter_split_triangle : forall (K : Type) (NK : Num K) (i : nat) (p : V3 K) (M M' : Mesh K) (r : res unit),
  CNT M -> split_triangle i p M = (M', r) -> CNT M' /\ r <> Panic 61%N.
Proof. exact (fun K NK => @cnt_split_triangle K NK). Qed.
Theorem C08_counter_flip_diagonal : forall (K : Type) (NK : Num K) (i : nat) (e : Edge) (M M' : Mesh K) (r : res unit),
  WF M -> CNT M -> flip_diagonal i e M = (M', r) -> CNT M' /\ r <> Panic 61%N /\ r <> Panic 73%N.
Proof.
  intros K NK i e M M' r W C H. destruct (cnt_flip i e M M' r W C H) as [A B]. split; [exact A|].
  split; intros E; specialize (B _ E); discriminate.
Qed.
Theorem C08_counter_restore_delaunay : forall (K : Type) (NK : Num K) (m : K) (M M' : Mesh K) (r : res unit),
  WF M -> CNT M -> restore_delaunay m M = (M', r) -> CNT M' /\ WF M'.
Proof. intros K NK m M M' r W C H. destruct (cnt_restore m M M' r W C H) as (A & B & _). split; assumption. Qed.

(** (i), one link *)
Theorem C08_mark_reciprocal : forall (K : Type) (NK : Num K) (i1 : nat) (e1 : Edge) (i2 : nat) (M M' : Mesh K),
  mark_as_neighbours i1 e1 i2 M = (M', Ok tt) ->
  i1 <> i2 /\
  (exists t1, nth_error (tris M') i1 = Some t1 /\ tp_valid t1 = true /\ tp_neighbour t1 e1 = Some i2) /\
  (exists t2 e2, nth_error (tris M') i2 = Some t2 /\ tp_valid t2 = true /\ tp_neighbour t2 e2 = Some i1).
Proof. exact (fun K NK => @mark_reciprocal K NK). Qed.

(** BEFORE fix 361bbb9 a step that failed could leave the mesh half updated: the pinned split_edge of the unit-square
    mesh at a point 1e-7 from the end of the edge returns Err after having invalidated the base triangle; the live
    split_edge refuses the same request with the mesh untouched *)
Theorem C08_split_edge_half_update_refuted :
  exists (M M' : Mesh float) (p : V3 float), forallb tp_valid (tris M) = true /\ CNT M /\
    split_edge_pinned 0 Ab p M = (M', Err 10%N) /\ forallb tp_valid (tris M') = false.
Proof.
  destruct w4_split_edge_half_update as (M & M' & H1 & H2 & H3 & H4 & _). exists M, M', (p2 1e-7 0)%float.
  split; [exact H2|]. split; [exact (proj2 (from_polygon_invariants _ _ H1))|]. split; assumption.
Qed.
Theorem C08_split_edge_w4_now_atomic :
  exists (M : Mesh float) (p : V3 float), from_polygon w4_poly = Ok M /\ split_edge 0 Ab p M = (M, Err 10%N).
Proof. destruct w4_split_edge_now_atomic as (M & H1 & H2). exists M, (p2 1e-7 0)%float. split; assumption. Qed.

(** non-vacuity: the unit-square mesh satisfies the invariants *)
Example C08_nonvacuous : exists M : Mesh float, from_polygon w4_poly = Ok M /\ WF M /\ CNT M /\ length (tris M) = 2.
Proof.
  destruct w_square_ok as (M & H1 & H2 & _). exists M. split; [exact H1|]. destruct (from_polygon_invariants _ _ H1) as [A B]. split; [exact A | split; [exact B | exact H2]].
Qed.
