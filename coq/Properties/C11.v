(** * C11 -- cutting a hole is all-or-nothing and accounts for its area (histories of candidate holes).
    All theorems hold for EVERY number instance of the model (reals, Flocq floats, primitive floats):
    they are structural facts about Polygon3D::cut_hole, by induction over candidate lists of any length.
    The geometric reading of the acceptance condition ("inside", "outside every hole", "does not enclose")
    is the one of Loop3D::test_point (property C05) and is checked on the implementation by the exact
    oracle lib/pC11.py with margins >= 1e-3. *)
From Coq Require Import ZArith List Floats.
From G3 Require Import Model.Num Model.NumF Model.Base Model.Vec Model.Segment Model.Loop Model.Polygon Model.PolyAux Proofs.C11_cut_hole.
Import ListNotations.
Local Open Scope num_scope.

(** on refusal (any error class, or a panic) the polygon is unchanged *)
Theorem C11_refused_unchanged : forall (K : Type) (NK : Num K) (P : Poly K) (h : Loop K),
  snd (poly_step P h) <> Ok tt -> fst (poly_step P h) = P.
Proof. exact (fun K NK => @refused_unchanged K NK). Qed.

(** on success the area decreases by exactly the hole's area, the hole is appended, outer loop and
    normal are unchanged (and the hole was a closed loop) *)
Theorem C11_accepted_accounts : forall (K : Type) (NK : Num K) (P P' : Poly K) (h : Loop K),
  poly_cut_hole P h = Ok P' ->
  parea P' = parea P - larea h /\ pinner P' = pinner P ++ [h] /\ pouter P' = pouter P /\ pnormal P' = pnormal P /\ lclosed h = true.
Proof. exact (fun K NK => @accepted_accounts K NK). Qed.

(** after ANY list of candidate holes: area = area before - the accepted holes' areas, subtracted left
    to right (the expression the code computes), holes = holes before ++ the accepted candidates *)
Theorem C11_history_accounting : forall (K : Type) (NK : Num K) (hs : list (Loop K)) (P : Poly K),
  let r := poly_run P hs in
  parea (fst r) = sub_areas (parea P) (accepted_of hs (snd r)) /\
  pinner (fst r) = pinner P ++ accepted_of hs (snd r) /\
  pouter (fst r) = pouter P /\ pnormal (fst r) = pnormal P /\ length (snd r) = length hs.
Proof. exact (fun K NK => @history_accounting K NK). Qed.

(** from Polygon3D::new: area = outer area - accepted areas; number of holes = number of accepted calls *)
Theorem C11_history_from_new : forall (K : Type) (NK : Num K) (outer : Loop K) (P : Poly K) (hs : list (Loop K)),
  poly_new outer = Ok P ->
  let r := poly_run P hs in
  parea (fst r) = sub_areas (larea outer) (accepted_of hs (snd r)) /\
  pinner (fst r) = accepted_of hs (snd r) /\
  length (pinner (fst r)) = length (filter (@is_ok unit) (snd r)) /\
  pouter (fst r) = outer /\ pnormal (fst r) = lnormal outer.
Proof. exact (fun K NK => @history_from_new K NK). Qed.

(** acceptance <-> normals parallel /\ every hole vertex tests inside the polygon /\ no vertex of an
    existing hole tests inside the new hole /\ the hole is closed *)
Theorem C11_acceptance : forall (K : Type) (NK : Num K) (P : Poly K) (h : Loop K),
  (exists P', poly_cut_hole P h = Ok P') <->
  vis_parallel (pnormal P) (lnormal h) = true /\
  (forall v, In v (verts h) -> poly_test_point P v = Ok true) /\
  (forall g, In g (pinner P) -> forall w, In w (verts g) -> loop_test_point h w = Ok false) /\
  lclosed h = true.
Proof. exact (fun K NK => @acceptance K NK). Qed.

(** never a panic: no panic site of the model (unwrap / expect / index / % 0) is reachable from
    Polygon3D::new, cut_hole or any history of cut_hole calls *)
Theorem C11_no_panic : forall (K : Type) (NK : Num K) (hs : list (Loop K)) (P : Poly K) (s : N),
  ~ In (Panic s) (snd (poly_run P hs)).
Proof. exact (fun K NK => @poly_run_no_panic K NK). Qed.
Theorem C11_cut_hole_no_panic : forall (K : Type) (NK : Num K) (P : Poly K) (h : Loop K) (s : N), poly_cut_hole P h <> Panic s.
Proof. exact (fun K NK => @cut_hole_no_panic K NK). Qed.

(** non-vacuity (binary64 instance): the 4x4 square; a 2x2 hole is accepted (area 16 -> 12), a tilted
    triangle is refused for its plane, a hole enclosing the first one is refused, a point-disjoint second
    hole is accepted (area 12 -> 11.75): outcomes and accounting as the theorems say *)
Definition mk (pts : list (V3 float)) : Loop float := fst (loop_run loop_new (map (fun p => LPush p) pts ++ [LClose])).
Example C11_nonvacuous :
  let sq l := [mkV3 (-l) (-l) 0; mkV3 l (-l) 0; mkV3 l l 0; mkV3 (-l) l 0]%float in
  let tilted := mk [mkV3 (-1) (-1) 0; mkV3 1 (-1) 0; mkV3 0 1 2]%float in
  let small := mk [mkV3 1.25 1.25 0; mkV3 1.75 1.25 0; mkV3 1.75 1.75 0; mkV3 1.25 1.75 0]%float in
  match poly_new (mk (sq 2%float)) with
  | Ok P =>
    let r := poly_run P [mk (sq 1%float); tilted; mk (sq 1.5%float); small] in
    snd r = [Ok tt; Err 50%N; Err 52%N; Ok tt] /\ parea P = 16%float /\ parea (fst r) = 11.75%float /\ length (pinner (fst r)) = 2
  | _ => False
  end.
Proof. vm_compute. repeat split; reflexivity. Qed.
