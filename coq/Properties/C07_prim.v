(** * C07 on primitive floats.  The C07 runner executes Flocq binary64 itself; the interval operators are ALSO executed
    on [NumF] by the sphere / cylinder runners.  This file states that every one of the 18 operator forms, [sqrt], the
    constructors and the accessors of [ApproxFloat] on primitive floats is the Flocq binary64 run on the [P2B]-images,
    so that each theorem [C07_op] of Properties/C07.v (binary64 instance) applies verbatim to [pI (op I J)].
    [pI] = [P2B] on both bounds.  Axioms: the primitive float / integer specifications.  Statements only. *)
From Coq Require Import ZArith Reals Floats.
From Flocq Require Import Core BinarySingleNaN.
From G3 Require Import Model.Num Model.NumF Model.Base Model.RoundError Theory.PrimBridge Proofs.Bridge_interval.

Theorem C07_prim_run_is_flocq_run : forall (I J : AF prim) (f e : prim),
  (pI (@af_neg _ NumF I) = @af_neg _ NumB64 (pI I) /\ pI (@af_sqrt _ NumF I) = @af_sqrt _ NumB64 (pI I)) /\
  (pI (@af_add _ NumF I J) = @af_add _ NumB64 (pI I) (pI J) /\ pI (@af_sub _ NumF I J) = @af_sub _ NumB64 (pI I) (pI J) /\
   pI (@af_mul _ NumF I J) = @af_mul _ NumB64 (pI I) (pI J) /\ pI (@af_div _ NumF I J) = @af_div _ NumB64 (pI I) (pI J)) /\
  (pI (@af_add_f _ NumF I f) = @af_add_f _ NumB64 (pI I) (P2B f) /\ pI (@af_sub_f _ NumF I f) = @af_sub_f _ NumB64 (pI I) (P2B f) /\
   pI (@af_mul_f _ NumF I f) = @af_mul_f _ NumB64 (pI I) (P2B f) /\ pI (@af_div_f _ NumF I f) = @af_div_f _ NumB64 (pI I) (P2B f)) /\
  (pI (@af_add_assign _ NumF I J) = @af_add_assign _ NumB64 (pI I) (pI J) /\
   pI (@af_sub_assign _ NumF I J) = @af_sub_assign _ NumB64 (pI I) (pI J) /\
   pI (@af_mul_assign _ NumF I J) = @af_mul_assign _ NumB64 (pI I) (pI J) /\
   pI (@af_div_assign _ NumF I J) = @af_div_assign _ NumB64 (pI I) (pI J)) /\
  (pI (@af_add_assign_f _ NumF I f) = @af_add_assign_f _ NumB64 (pI I) (P2B f) /\
   pI (@af_sub_assign_f _ NumF I f) = @af_sub_assign_f _ NumB64 (pI I) (P2B f) /\
   pI (@af_mul_assign_f _ NumF I f) = @af_mul_assign_f _ NumB64 (pI I) (P2B f) /\
   pI (@af_div_assign_f _ NumF I f) = @af_div_assign_f _ NumB64 (pI I) (P2B f)) /\
  (pI (@af_from _ NumF f) = @af_from _ NumB64 (P2B f) /\
   pI (@af_from_value_and_error _ NumF f e) = @af_from_value_and_error _ NumB64 (P2B f) (P2B e) /\
   P2B (@af_midpoint _ NumF I) = @af_midpoint _ NumB64 (pI I) /\
   P2B (@af_absolute_error _ NumF I) = @af_absolute_error _ NumB64 (pI I)).
Proof.
  exact (fun I J f e =>
    conj (conj (eq_sym (hom_af_neg P2B I)) (eq_sym (hom_af_sqrt P2B I))) (
    conj (conj (eq_sym (hom_af_add P2B I J)) (conj (eq_sym (hom_af_sub P2B I J))
      (conj (eq_sym (hom_af_mul P2B I J)) (eq_sym (hom_af_div P2B I J))))) (
    conj (conj (eq_sym (hom_af_add_f P2B I f)) (conj (eq_sym (hom_af_sub_f P2B I f))
      (conj (eq_sym (hom_af_mul_f P2B I f)) (eq_sym (hom_af_div_f P2B I f))))) (
    conj (conj (eq_sym (hom_af_add_assign P2B I J)) (conj (eq_sym (hom_af_sub_assign P2B I J))
      (conj (eq_sym (hom_af_mul_assign P2B I J)) (eq_sym (hom_af_div_assign P2B I J))))) (
    conj (conj (eq_sym (hom_af_add_assign_f P2B I f)) (conj (eq_sym (hom_af_sub_assign_f P2B I f))
      (conj (eq_sym (hom_af_mul_assign_f P2B I f)) (eq_sym (hom_af_div_assign_f P2B I f))))) (
    (conj (eq_sym (hom_af_from P2B f)) (conj (eq_sym (hom_af_from_value_and_error P2B f e))
      (conj (eq_sym (hom_af_midpoint P2B I)) (eq_sym (hom_af_absolute_error P2B I))))))))))).
Qed.

(** non-vacuity / sanity on the hardware instance: [1,2] + [3,4] = [nextdown 4, nextup 6] *)
Example C07_prim_example :
  @af_add _ NumF (mkAF 1%float 2%float) (mkAF 3%float 4%float) = mkAF (next_down 4%float) (next_up 6%float).
Proof. exact prim_af_example. Qed.
