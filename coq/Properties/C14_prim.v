(** * C14 on primitive floats -- the float-tier theorems of Properties/C14.v restated for what is EXECUTED.
    Properties/C14.v Thm 2 / Thm 3 are about [NumB prec emax] (Flocq binary floats, every format); the correspondence
    check (Run/C14.v) runs [bbox_new] / [bbox_intersect_tag] on [NumF] (Coq's primitive binary64 floats) against the f64
    build.  [C14_prim_run_is_flocq_run] closes the gap: the primitive-float run returns, bit for bit, what the
    Flocq binary64 run returns on the [P2B]-images ([P2B = Flocq.IEEE754.PrimFloat.Prim2B], injective, [B2SF (P2B x) =
    Prim2SF x]) -- answer AND path tag.  The theorems below are the binary64 instances of Thm 2 / Thm 3 read through it:
    quantified over primitive floats, [FR x = B2R (P2B x)] the real value of [x], [Ffin x] its finiteness
    ([= PrimFloat.is_finite x], [C14_prim_finite_is_primitive]), [boxRF b], [rayRF r] the real box and ray,
    [inv_dirN d = 1.0 / d] component-wise (the caller's reciprocal), [pB pR pV] = [P2B] mapped over box, ray, vector.
    Axioms: the primitive float / integer specifications (FloatAxioms, Uint63Axioms; these are what links [float] to
    [spec_float]) besides the classical reals of the Flocq theorems.
    Statements only, each closed by [exact]. *)
From Coq Require Import ZArith Reals Bool Floats.
From Flocq Require Import Core BinarySingleNaN.
From G3 Require Import Model.Num Model.NumF Model.Base Model.Vec Model.BBox Theory.PrimBridge.
From G3 Require Import Proofs.C14_real Proofs.C14_special Proofs.C14_float Proofs.C14_margin Proofs.Bridge_C14.
Local Open Scope R_scope.

(** ** the bridge *)
Theorem C14_prim_run_is_flocq_run : forall (b : BBox prim) (r : Ray prim) (i : V3 prim),
  @bbox_intersect_tag _ NumF b r i = @bbox_intersect_tag _ NumB64 (pB b) (pR r) (pV i) /\
  @bbox_intersect _ NumF b r i = @bbox_intersect _ NumB64 (pB b) (pR r) (pV i).
Proof. exact (fun b r i => conj (eq_sym (Bridge_model.hom_bbox_intersect_tag P2B b r i)) (prim_bbox_intersect b r i)). Qed.

(** the corner normalisation of [BBox3D::new] and the reciprocal direction commute with [P2B] as well *)
Theorem C14_prim_box_and_reciprocal : forall (a c d : V3 prim),
  pB (@bbox_new _ NumF a c) = @bbox_new _ NumB64 (pV a) (pV c) /\ pV (@inv_dirN _ NumF d) = inv64 (pV d).
Proof. exact (fun a c d => conj (eq_sym (Bridge_model.hom_bbox_new P2B a c)) (prim_inv_dir d)). Qed.

Theorem C14_prim_finite_is_primitive : forall x : prim, Ffin x <-> PrimFloat.is_finite x = true.
Proof. exact Ffin_prim. Qed.

(** ** Thm 2 on primitive floats: the two recorded classes of lost rays, and the rejected ones *)
Theorem C14_prim_x_slab_nan_loses_the_ray : forall (b : BBox prim) (r : Ray prim) (i : V3 prim) (s : bool),
  P2B (vx i) = B754_infinity s -> Ffin (vx (rorigin r)) ->
  (Ffin (vx (bmin b)) /\ FR (vx (rorigin r)) = FR (vx (bmin b))) \/
  (Ffin (vx (bmax b)) /\ FR (vx (rorigin r)) = FR (vx (bmax b))) ->
  @bbox_intersect _ NumF b r i = false.
Proof. exact (fun b r i s Hi Fo Hf => eq_trans (prim_bbox_intersect b r i) (x_face_lost 53 1024 Hprec53 Hmax1024 (pB b) (pR r) (pV i) s Hi Fo Hf)). Qed.

(** the class as a predicate evaluated ON PRIMITIVE FLOATS ([known_x_slab_nanN]: the text of [known_x_slab_nan]) *)
Theorem C14_prim_known_class_is_lost : forall (b : BBox prim) (r : Ray prim),
  Ffin3 (bmin b) -> Ffin3 (bmax b) -> Ffin3 (rorigin r) ->
  @known_x_slab_nanN _ NumF b r = true ->
  @bbox_intersect _ NumF b r (inv_dirN (rdir r)) = false.
Proof.
  exact (fun b r F1 F2 Fo Hk => eq_trans (prim_run_recip b r)
    (known_x_slab_nan_lost 53 1024 Hprec53 Hmax1024 (pB b) (pR r) format_ok_64 F1 F2 Fo (eq_trans (hom_known_x_slab_nanN P2B b r) Hk))).
Qed.

Theorem C14_prim_neg_zero_face_loses_the_ray : forall (b : BBox prim) (r : Ray prim),
  Ffin3 (bmin b) -> Ffin3 (bmax b) -> Ffin3 (rorigin r) ->
  FR (vy (bmin b)) <= FR (vy (bmax b)) -> FR (vz (bmin b)) <= FR (vz (bmax b)) ->
  known_neg_zero_face 53 1024 Hprec53 Hmax1024 (pB b) (pR r) = true ->
  @bbox_intersect _ NumF b r (inv_dirN (rdir r)) = false.
Proof.
  exact (fun b r F1 F2 Fo Wy Wz Hk => eq_trans (prim_run_recip b r)
    (known_neg_zero_face_lost 53 1024 Hprec53 Hmax1024 (pB b) (pR r) format_ok_64 F1 F2 Fo Wy Wz Hk)).
Qed.

Theorem C14_prim_zero_component_outside_slab_is_rejected : forall (b : BBox prim) (r : Ray prim) (i : V3 prim) (s : bool),
  (P2B (vx i) = B754_infinity s -> Ffin (vx (rorigin r)) -> Ffin (vx (bmin b)) -> Ffin (vx (bmax b)) ->
   FR (vx (bmin b)) <= FR (vx (bmax b)) ->
   FR (vx (rorigin r)) < FR (vx (bmin b)) \/ FR (vx (bmax b)) < FR (vx (rorigin r)) -> @bbox_intersect _ NumF b r i = false) /\
  (P2B (vy i) = B754_infinity s -> Ffin (vy (rorigin r)) -> Ffin (vy (bmin b)) -> Ffin (vy (bmax b)) ->
   FR (vy (bmin b)) <= FR (vy (bmax b)) ->
   FR (vy (rorigin r)) < FR (vy (bmin b)) \/ FR (vy (bmax b)) < FR (vy (rorigin r)) -> @bbox_intersect _ NumF b r i = false) /\
  (P2B (vz i) = B754_infinity s -> Ffin (vz (rorigin r)) -> Ffin (vz (bmin b)) -> Ffin (vz (bmax b)) ->
   FR (vz (bmin b)) <= FR (vz (bmax b)) ->
   FR (vz (rorigin r)) < FR (vz (bmin b)) \/ FR (vz (bmax b)) < FR (vz (rorigin r)) -> @bbox_intersect _ NumF b r i = false).
Proof.
  exact (fun b r i s => let W := proj1 format_ok_64 in let E := prim_bbox_intersect b r i in
    conj (fun Hi Fo F1 F2 L O => eq_trans E (x_outside_rejected 53 1024 Hprec53 Hmax1024 (pB b) (pR r) (pV i) s W Hi Fo F1 F2 L O))
   (conj (fun Hi Fo F1 F2 L O => eq_trans E (y_outside_rejected 53 1024 Hprec53 Hmax1024 (pB b) (pR r) (pV i) s W Hi Fo F1 F2 L O))
         (fun Hi Fo F1 F2 L O => eq_trans E (z_outside_rejected 53 1024 Hprec53 Hmax1024 (pB b) (pR r) (pV i) s W Hi Fo F1 F2 L O)))).
Qed.

(** the witnesses of both classes, evaluated on the hardware instance: the point at t = 1.5 is inside the box, the
    answer is [false] *)
Theorem C14_prim_x_slab_nan_refuted :
  (@known_x_slab_nanN _ NumF wF_flat wF_ray = true /\ (@nltb _ NumF n0 wF_t) = true /\
   @bbox_point_inside _ NumF wF_flat (ray_project wF_ray wF_t) = true /\
   @bbox_intersect _ NumF wF_flat wF_ray (inv_dirN (rdir wF_ray)) = false) /\
  (@known_x_slab_nanN _ NumF wF_cube wF_ray = true /\
   @bbox_point_inside _ NumF wF_cube (ray_project wF_ray wF_t) = true /\
   @bbox_intersect _ NumF wF_cube wF_ray (inv_dirN (rdir wF_ray)) = false).
Proof. exact prim_x_slab_nan_witness. Qed.

Theorem C14_prim_neg_zero_face_refuted :
  (known_neg_zero_face 53 1024 Hprec53 Hmax1024 (pB wF_cube) (pR wF_ray_y) = true /\
   @known_x_slab_nanN _ NumF wF_cube wF_ray_y = false /\
   @bbox_point_inside _ NumF wF_cube (ray_project wF_ray_y wF_t) = true /\
   @bbox_intersect _ NumF wF_cube wF_ray_y (inv_dirN (rdir wF_ray_y)) = false) /\
  (known_neg_zero_face 53 1024 Hprec53 Hmax1024 (pB wF_cube) (pR wF_ray_z) = true /\
   @known_x_slab_nanN _ NumF wF_cube wF_ray_z = false /\
   @bbox_point_inside _ NumF wF_cube (ray_project wF_ray_z wF_t) = true /\
   @bbox_intersect _ NumF wF_cube wF_ray_z (inv_dirN (rdir wF_ray_z)) = false).
Proof. exact prim_neg_zero_face_witness. Qed.

(** ** Thm 3 on primitive floats: completeness with the relative margin [1 + 2u], [u = 2^-53], on the EXACT slab
    parameters of the real box [boxRF b] and ray [rayRF r].  Side conditions ([side], Properties/C14.v) on the images;
    the format conditions ([margin_format]) are those of binary64 and are discharged. *)
Theorem C14_prim_float_complete_margin : forall (b : BBox prim) (r : Ray prim) (i : V3 prim),
  side 53 1024 Hprec53 Hmax1024 (pB b) (pR r) (pV i) -> clear_by 53 2 (boxRF b) (rayRF r) ->
  @bbox_intersect _ NumF b r i = true.
Proof.
  exact (fun b r i S C => eq_trans (prim_bbox_intersect b r i) (float_complete_margin 53 1024 Hprec53 Hmax1024 (pB b) (pR r) (pV i) margin_format_64 S C)).
Qed.

Theorem C14_prim_float_complete_enter_exit : forall (b : BBox prim) (r : Ray prim) (i : V3 prim),
  side 53 1024 Hprec53 Hmax1024 (pB b) (pR r) (pV i) ->
  0 < t_exit (boxRF b) (rayRF r) ->
  (0 < t_enter (boxRF b) (rayRF r) -> t_enter (boxRF b) (rayRF r) * (1 + 2 * uR 53) <= t_exit (boxRF b) (rayRF r)) ->
  @bbox_intersect _ NumF b r i = true.
Proof.
  exact (fun b r i S H0 HM => eq_trans (prim_bbox_intersect b r i)
    (float_complete_enter_exit 53 1024 Hprec53 Hmax1024 (pB b) (pR r) (pV i) margin_format_64 S H0 HM)).
Qed.

Theorem C14_prim_float_complete_point : forall (b : BBox prim) (r : Ray prim) (i : V3 prim) (t : R),
  side 53 1024 Hprec53 Hmax1024 (pB b) (pR r) (pV i) -> 0 < t ->
  let p := ray_project (rayRF r) t in let o := rorigin (rayRF r) in
  (forall a, in_margin 53 (boxRF b) o p a \/ on_flat (boxRF b) p a) ->
  (forall a a', a <> a' -> in_margin 53 (boxRF b) o p a \/ in_margin 53 (boxRF b) o p a') ->
  @bbox_intersect _ NumF b r i = true.
Proof.
  exact (fun b r i t S Ht H1 H2 => eq_trans (prim_bbox_intersect b r i)
    (float_complete_point 53 1024 Hprec53 Hmax1024 (pB b) (pR r) (pV i) t margin_format_64 S Ht H1 H2)).
Qed.

(** the side conditions are decided by evaluation, the reciprocal direction being the [1.0 / d] computed ON PRIMITIVE
    FLOATS; then Thm 3 as the user reads it (the counterpart of [C14_float_complete_binary64]) *)
Theorem C14_prim_margin_side_conditions_checked : forall (b : BBox prim) (r : Ray prim),
  margin_okb 53 1024 Hprec53 Hmax1024 (pB b) (pR r) = true ->
  side 53 1024 Hprec53 Hmax1024 (pB b) (pR r) (pV (@inv_dirN _ NumF (rdir r))).
Proof.
  exact (fun b r Hk => eq_ind_r (side 53 1024 Hprec53 Hmax1024 (pB b) (pR r)) (margin_okb_side 53 1024 Hprec53 Hmax1024 (pB b) (pR r) Hk) (prim_inv_dir (rdir r))).
Qed.

Theorem C14_prim_float_complete_binary64 : forall (b : BBox prim) (r : Ray prim),
  margin_okb 53 1024 Hprec53 Hmax1024 (pB b) (pR r) = true -> clear_by 53 2 (boxRF b) (rayRF r) ->
  @bbox_intersect _ NumF b r (inv_dirN (rdir r)) = true.
Proof.
  exact (fun b r Hk C => eq_trans (prim_run_recip b r) (float_complete_okb 53 1024 Hprec53 Hmax1024 (pB b) (pR r) margin_format_64 Hk C)).
Qed.

(** non-vacuity: unit cube, origin (-1, 1/4, 1/2), direction (3, 1/2, -1/4) as primitive floats: the side conditions
    hold by evaluation, the exact parameters x [1/3, 2/3], y [-1/2, 3/2], z [-2, 2] have the margin, and the
    primitive-float run answers [true] *)
Example C14_prim_margin_nonvacuous :
  margin_okb 53 1024 Hprec53 Hmax1024 (pB mF_box) (pR mF_ray) = true /\
  clear_by 53 2 (boxRF mF_box) (rayRF mF_ray) /\
  @bbox_intersect _ NumF mF_box mF_ray (inv_dirN (rdir mF_ray)) = true.
Proof. exact prim_margin_nonvacuous. Qed.
