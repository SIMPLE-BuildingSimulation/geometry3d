(** * C04 -- loops admit exactly planar, non-self-crossing outlines (histories of push/close).
    The structural theorems hold for EVERY number instance of the model (reals, Flocq floats and
    primitive floats alike), by induction over operation lists of any length. *)
From Coq Require Import ZArith List Floats.
From G3 Require Import Model.Num Model.NumF Model.Base Model.Vec Model.Segment Model.Loop Proofs.C04_loop.
Import ListNotations.

(** no sequence of push/close operations -- repeated points included -- panics *)
Theorem C04_no_panic : forall (K : Type) (NK : Num K) (ops : list (lop K)) (L : Loop K) (s : N),
  ~ In (Panic s) (snd (loop_run L ops)).
Proof. exact (fun K NK => @C04_loop.run_no_panic K NK). Qed.

(** a refused push leaves the loop unchanged, whatever the outcome other than Ok *)
Theorem C04_refused_push_unchanged : forall (K : Type) (NK : Num K) (L : Loop K) (p : V3 K),
  snd (loop_step L (LPush p)) <> Ok tt -> fst (loop_step L (LPush p)) = L.
Proof. exact (fun K NK => @refused_push_unchanged K NK). Qed.
Theorem C04_push_on_closed_refused : forall (K : Type) (NK : Num K) (L : Loop K) (p : V3 K),
  lclosed L = true -> loop_push L p = Err 30%N.
Proof. exact (fun K NK => @push_on_closed_refused K NK). Qed.

(** a push is accepted exactly when: the loop is open, the point is within 1e-7 of the loop's plane
    (once three vertices fix it), the new edge does not properly cross any earlier non-adjacent edge
    (Segment3D::intersect), and -- unless the point goes straight back to the last-but-one vertex -- none of the
    collinearity tests that count the trailing vertices made redundant by the point answers Err (three coincident
    points; the first of these tests cannot) *)
Theorem C04_push_acceptance : forall (K : Type) (NK : Num K) (L : Loop K) (p : V3 K),
  is_ok (loop_push L p) = accepts L p.
Proof. exact (fun K NK => @push_accepts K NK). Qed.

(** a successful close yields a closed loop with at least three vertices.
    PARTIAL here; the rest of the clause ("no vertex collinear with its two neighbours") is a theorem about every
    reachable closed state, in the library's own reading of collinear: Properties/C04_reach_live.v,
    C04_live_closed_no_collinear_vertex (after the fix of push/close; the defects of the code before it are recorded in
    Properties/C04_reach.v).  The exact-rational oracle checks the geometric reading on every closed state. *)
Theorem C04_closed_invariants_partial : forall (K : Type) (NK : Num K) (L : Loop K),
  snd (loop_close L) = Ok tt -> lclosed (fst (loop_close L)) = true /\ 3 <= llen (fst (loop_close L)).
Proof. exact (fun K NK => @close_ok_invariants K NK). Qed.

(** non-vacuity: the unit square is accepted point by point and closes (binary64 instance) *)
Example C04_nonvacuous :
  let sq := [LPush (mkV3 0 0 0); LPush (mkV3 1 0 0); LPush (mkV3 1 1 0); LPush (mkV3 0 1 0); LClose]%float in
  snd (loop_run loop_new sq) = [Ok tt; Ok tt; Ok tt; Ok tt; Ok tt] /\ llen (fst (loop_run loop_new sq)) = 4.
Proof. vm_compute. split; reflexivity. Qed.

(** the pinned tree (before fix 82fdcad) panicked when the same point was pushed three times *)
Theorem C04_pinned_push_panics :
  exists p : V3 float,
    (do L1 <- loop_push_gen true loop_new p; do L2 <- loop_push_gen true L1 p; loop_push_gen true L2 p) = Panic 20%N.
Proof. exists (mkV3 1 2 3)%float. vm_compute. reflexivity. Qed.
