(** * C09 (progress part) -- "... returns a triangulation or an error value within a time bounded by the amount of
    refinement requested".  Statements only; proofs in Proofs/Mesh_progress.v.  EVERY number instance, and NO hypothesis
    on the mesh (no WF / CNT / LNK): the accounting follows the code's own counter [n_valid_triangles] ([nvalid]).

    No bound in terms of the INPUT alone is provable (flips can lift a triangle back above the 1e-3 area floor), but the
    run time is bounded in terms of the OUTPUT -- the amount of refinement actually delivered:
    (1) steps: flip_diagonal / restore_delaunay keep the counter; split_triangle Ok adds 2; split_edge Ok adds 1 (no
        neighbour across the edge) or 2; add_point(_to_triangle) Ok true adds 1 or 2, Ok false leaves the mesh alone;
        and -- thanks to the pre-checks of fix 361bbb9 -- an Err never lowers the counter (split_triangle: unchanged mesh
        or +2).  (That an Err leaves the mesh UNCHANGED on a sound mesh is C08_add_point_err_unchanged_struct.)
    (2) a pass of [refine] never lowers the counter; [any_changes = true] => strictly higher; [false] => mesh untouched.
        So a pass cannot report changes without progress: that is what excludes a runaway recursion.
    (3) [refine_passes] = number of passes = recursion depth of [if any_changes { self.refine(..) }]:
        passes <= (triangles created) + 1; the model's fuel can only run out after [fuel] triangles were created; the
        outcome does not depend on the fuel once it is not ROutOfFuel.
    (4) a pass visits the slots read at loop entry; per slot at most 3 trace events (Proofs/Mesh_refine_trace.v), at most
        one of them a restore_delaunay (<= 30 sweeps, C09_restore_delaunay_bounded); the slot vector never shrinks.
    (5) total: a refine returning Ok performs at most 3 * (final slots) * (created + 1) elementary operations, and its
        final slots are all live (C18): quadratic in the size of the output. *)
From Coq Require Import ZArith List Bool Arith Floats.
Set Warnings "-inexact-float".
From G3 Require Import Model.Num Model.NumF Model.Base Model.Vec Model.Segment Model.Triangle Model.Loop Model.Polygon Model.Triangulation
  Proofs.Mesh_base Proofs.Mesh_conf Proofs.Mesh_witness Proofs.Mesh_refine_trace Proofs.Mesh_progress.
Import ListNotations.

(** (1) the steps *)
Theorem C09_progress_flip_diagonal : forall (K : Type) (NK : Num K) (i : nat) (e : Edge) (M M' : Mesh K),
  flip_diagonal i e M = (M', Ok tt) -> nvalid M' = nvalid M.
Proof. exact (fun K NK => @flip_count K NK). Qed.
Theorem C09_progress_restore_delaunay : forall (K : Type) (NK : Num K) (m : K) (M M' : Mesh K) (u : unit),
  restore_delaunay m M = (M', Ok u) -> nvalid M' = nvalid M.
Proof. exact (fun K NK => @restore_count K NK). Qed.
Theorem C09_progress_split_triangle : forall (K : Type) (NK : Num K) (i : nat) (p : V3 K) (M M' : Mesh K) (r : res unit),
  split_triangle i p M = (M', r) ->
  (exists s, r = Panic s) \/ (M' = M /\ forall u, r <> Ok u) \/ nvalid M' = nvalid M + 2.
Proof. exact (fun K NK => @split_triangle_count K NK). Qed.
Theorem C09_progress_split_edge : forall (K : Type) (NK : Num K) (i : nat) (e : Edge) (p : V3 K) (M M' : Mesh K) (r : res unit),
  split_edge i e p M = (M', r) ->
  (exists s, r = Panic s) \/
  (nvalid M <= nvalid M' /\
   forall u, r = Ok u -> exists t, nth_error (tris M) i = Some t /\
     nvalid M' = nvalid M + match tp_neighbour t e with Some _ => 2 | None => 1 end).
Proof. exact (fun K NK => @split_edge_count K NK). Qed.
Theorem C09_progress_split_edge_ok : forall (K : Type) (NK : Num K) (i : nat) (e : Edge) (p : V3 K) (M M' : Mesh K) (u : unit),
  split_edge i e p M = (M', Ok u) -> nvalid M < nvalid M' /\ nvalid M' <= nvalid M + 2.
Proof. exact (fun K NK => @split_edge_ok_count K NK). Qed.
Theorem C09_progress_add_point_to_triangle : forall (K : Type) (NK : Num K) (i : nat) (p : V3 K) (loc : PIT) (M M' : Mesh K) (r : res bool),
  add_point_to_triangle i p loc M = (M', r) ->
  (exists s, r = Panic s) \/
  (nvalid M <= nvalid M' /\ (r = Ok true -> nvalid M < nvalid M' /\ nvalid M' <= nvalid M + 2) /\ (r = Ok false -> M' = M)).
Proof. exact (fun K NK => @aptt_count K NK). Qed.
Theorem C09_progress_add_point : forall (K : Type) (NK : Num K) (p : V3 K) (M M' : Mesh K) (r : res bool),
  add_point p M = (M', r) ->
  (exists s, r = Panic s) \/
  (nvalid M <= nvalid M' /\ (r = Ok true -> nvalid M < nvalid M' /\ nvalid M' <= nvalid M + 2) /\ (r = Ok false -> M' = M)).
Proof. exact (fun K NK => @add_point_count K NK). Qed.

(** (2) one pass of refine: no pass reports a change without having created a triangle *)
Theorem C09_progress_pass : forall (K : Type) (NK : Num K) (a m : K) (M M' : Mesh K) (any_changes : bool),
  refine_pass a m (length (tris M)) 0 (tris M) false M = (M', Ok any_changes) ->
  nvalid M <= nvalid M' /\ (any_changes = true -> nvalid M < nvalid M') /\ (any_changes = false -> M' = M).
Proof. exact (fun K NK => @refine_pass_progress K NK). Qed.

(** (3) the recursion: passes <= created + 1 *)
Theorem C09_progress_refine : forall (K : Type) (NK : Num K) (a m : K) (fuel : nat) (M M' : Mesh K) (r : rres),
  refine fuel a m M = (M', Ok r) ->
  nvalid M <= nvalid M' /\
  nvalid M + refine_passes fuel a m M <= nvalid M' + match r with RDone => 1 | ROutOfFuel => 0 end /\
  (r = ROutOfFuel -> refine_passes fuel a m M = fuel).
Proof. exact (fun K NK => @refine_progress K NK). Qed.
Theorem C09_progress_recursion_depth : forall (K : Type) (NK : Num K) (a m : K) (fuel : nat) (M M' : Mesh K),
  refine fuel a m M = (M', Ok RDone) -> nvalid M <= nvalid M' /\ refine_passes fuel a m M <= nvalid M' - nvalid M + 1.
Proof. exact (fun K NK => @refine_done_passes K NK). Qed.
Theorem C09_progress_out_of_fuel : forall (K : Type) (NK : Num K) (a m : K) (fuel : nat) (M M' : Mesh K),
  refine fuel a m M = (M', Ok ROutOfFuel) -> nvalid M + fuel <= nvalid M'.
Proof. exact (fun K NK => @refine_out_of_fuel K NK). Qed.
Theorem C09_progress_fuel_adequate : forall (K : Type) (NK : Num K) (a m : K) (fuel B : nat) (M M' : Mesh K) (r : rres),
  refine fuel a m M = (M', Ok r) -> nvalid M' <= B -> B < nvalid M + fuel -> r = RDone.
Proof. exact (fun K NK => @refine_fuel_adequate K NK). Qed.
Theorem C09_progress_fuel_independent : forall (K : Type) (NK : Num K) (a m : K) (fuel k : nat) (M M' : Mesh K) (r : res rres),
  refine fuel a m M = (M', r) -> r <> Ok ROutOfFuel ->
  refine (fuel + k) a m M = (M', r) /\ refine_passes (fuel + k) a m M = refine_passes fuel a m M.
Proof. exact (fun K NK => @refine_fuel_mono K NK). Qed.

(** (4) cost of a pass *)
Theorem C09_progress_slots : forall (K : Type) (NK : Num K) (a m : K) (fuel : nat) (M M' : Mesh K) (r : res rres),
  refine fuel a m M = (M', r) -> length (tris M) <= length (tris M').
Proof. exact (fun K NK => @refine_slots K NK). Qed.
Theorem C09_progress_pass_cost : forall (K : Type) (NK : Num K) (a m : K) (cnt i : nat) (l : list (TriPiece K)) (M : Mesh K),
  length (refine_pass_trace a m cnt i l M) <= 3 * cnt /\
  length (filter is_restore (refine_pass_trace a m cnt i l M)) <= cnt.
Proof. exact (fun K NK => @refine_pass_cost K NK). Qed.

(** (5) total cost *)
Theorem C09_progress_trace_length : forall (K : Type) (NK : Num K) (a m : K) (fuel : nat) (M M' : Mesh K) (r : res rres),
  refine fuel a m M = (M', r) -> length (refine_trace fuel a m M) <= 3 * (refine_passes fuel a m M * length (tris M')).
Proof. exact (fun K NK => @refine_trace_length K NK). Qed.
Theorem C09_progress_cost : forall (K : Type) (NK : Num K) (a m : K) (fuel : nat) (M M' : Mesh K),
  refine fuel a m M = (M', Ok RDone) ->
  length (refine_trace fuel a m M) <= 3 * ((nvalid M' - nvalid M + 1) * length (tris M')) /\
  length (tris M') = count_valid (tris M').
Proof. exact (fun K NK => @refine_cost K NK). Qed.
Theorem C09_progress_final_slots : forall (K : Type) (NK : Num K) (a m : K) (fuel : nat) (M M' : Mesh K),
  refine fuel a m M = (M', Ok RDone) -> length (tris M') = count_valid (tris M') /\ (CNT M' -> length (tris M') = nvalid M').
Proof. exact (fun K NK => @refine_done_slots K NK). Qed.
Theorem C09_progress_mesh_polygon : forall (K : Type) (NK : Num K) (fuel : nat) (P : Poly K) (a m : K) (M0 M' : Mesh K) (r : rres),
  from_polygon P = Ok M0 -> mesh_polygon fuel P a m = Ok (M', r) ->
  refine fuel a m M0 = (M', Ok r) /\ nvalid M0 <= nvalid M' /\
  nvalid M0 + refine_passes fuel a m M0 <= nvalid M' + match r with RDone => 1 | ROutOfFuel => 0 end /\
  (nvalid M' < nvalid M0 + fuel -> r = RDone).
Proof. exact (fun K NK => @mesh_polygon_progress K NK). Qed.

(** non-vacuity (binary64, vm_compute): mesh_polygon of the unit square with max_area = 0.01, max_aspect_ratio = 1.5 and
    fuel 100 returns Ok RDone after 8 passes; 2 -> 152 live triangles in 152 slots, 176 trace events (the bounds
    say: at most 151 passes, at most 3 * 151 * 152 events).  With fuel 3 the model reports ROutOfFuel after 3 passes,
    having created 29 >= 3 triangles. *)
Example C09_progress_nonvacuous :
  exists M0 M' M3 : Mesh float,
    from_polygon w4_poly = Ok M0 /\ nvalid M0 = 2 /\
    mesh_polygon 100 w4_poly 0.01%float 1.5%float = Ok (M', RDone) /\
    refine_passes 100 0.01%float 1.5%float M0 = 8 /\ nvalid M' = 152 /\ length (tris M') = 152 /\
    length (refine_trace 100 0.01%float 1.5%float M0) = 176 /\
    mesh_polygon 3 w4_poly 0.01%float 1.5%float = Ok (M3, ROutOfFuel) /\ nvalid M3 = 31.
Proof. exact (run_check_sound w4_poly w4_run_checked). Qed.

Print Assumptions C09_progress_flip_diagonal.
Print Assumptions C09_progress_restore_delaunay.
Print Assumptions C09_progress_split_triangle.
Print Assumptions C09_progress_split_edge.
Print Assumptions C09_progress_split_edge_ok.
Print Assumptions C09_progress_add_point_to_triangle.
Print Assumptions C09_progress_add_point.
Print Assumptions C09_progress_pass.
Print Assumptions C09_progress_refine.
Print Assumptions C09_progress_recursion_depth.
Print Assumptions C09_progress_out_of_fuel.
Print Assumptions C09_progress_fuel_adequate.
Print Assumptions C09_progress_fuel_independent.
Print Assumptions C09_progress_slots.
Print Assumptions C09_progress_pass_cost.
Print Assumptions C09_progress_trace_length.
Print Assumptions C09_progress_cost.
Print Assumptions C09_progress_final_slots.
Print Assumptions C09_progress_mesh_polygon.
Print Assumptions C09_progress_nonvacuous.
