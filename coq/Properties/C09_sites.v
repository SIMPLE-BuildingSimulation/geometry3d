(** * C09 (panic-site part of from_polygon / mesh_polygon) -- triangulation is total.
    Statements only; proofs in Proofs/Mesh_fp_sites.v.  Every number instance (no property of the arithmetic is used).

    RESULT.  [from_polygon] can panic at ONE site only: 41, the push(..).unwrap() of Polygon3D::get_closed_loop
    (three textual occurrences, one site) -- or at 42 ([% 0] there) if the polygon RECORD carries an empty hole, or at
    21 (`ret_loop[min_ext_vertex_id]` in the attachment search of fix bcb072e) if its OUTLINE is empty, which no
    sequence of API calls produces ([C09_sites_api_*]: a closed Loop3D is never empty).  Everything downstream of
    get_closed_loop -- Loop3D::close, the [len() - 2] capacity, the capped ear-clipping loop with its periodic
    sanitize, is_diagonal, the ear test, push, constrain, remove, mark_neighbourhouds -- is panic free: sites 10, 21,
    22, 25, 60, 62, 63, 64, 92, 93, 95, 96 are UNREACHABLE from from_polygon (21 as the clipping loop's index site; the
    attachment search shares the number; fixes bff02e9, 32d90b8 removed 23, 24 from the crate).  A polygon without holes
    never panics in from_polygon.
    [mesh_polygon] adds the sites of [refine] only, and because the initial mesh is well formed ([WF], preserved by
    every step) the neighbour look-ups 67, 73 and the sweep cursors 85, 90 are unreachable: 25 data-dependent sites
    remain ([sites_refine_wf]).  61 (counter underflow) is among them: WF + CNT exclude it in split_triangle / flip_diagonal /
    restore_delaunay (Properties/C09_mesh.v), and in split_edge together with LNK, since the neighbour across the split edge
    must be live ([C08_split_edge_struct], Properties/C08_region.v); but LNK is not carried through a whole [refine] for
    every number instance (split_triangle keeps it only up to links to the split slot; its geometric form needs [SEP]:
    Properties/C08_links.v).
    FINDING.  Site 41 IS reachable from a valid polygon built through the API: [C09_sites_41_reachable] (the nearest
    outline/hole vertex pair is separated by an edge of the hole itself; the bridge crosses it; Loop3D::push refuses the
    rebuilt outline as self-intersecting; get_closed_loop unwraps).  Reproduced on the crate: /verif/notes/c09_sites_NOTES.md. *)
From Coq Require Import ZArith List Bool Floats.
Set Warnings "-inexact-float".
From G3 Require Import Model.Num Model.NumF Model.Base Model.Vec Model.Segment Model.Triangle Model.Loop Model.Polygon Model.Triangulation
  Proofs.C04_loop Proofs.Mesh_base Proofs.Mesh_wf Proofs.Mesh_conf Proofs.Mesh_witness Proofs.Mesh_fp_sites Properties.C09_mesh.
Import ListNotations.

Theorem C09_sites_sanitize_no_panic : forall (K : Type) (NK : Num K) (L : Loop K) (s : N), loop_sanitize L <> Panic s.
Proof. exact (fun K NK => @sanitize_no_panic K NK). Qed.
Theorem C09_sites_test_point_no_panic : forall (K : Type) (NK : Num K) (L : Loop K) (p : V3 K) (s : N), loop_test_point L p <> Panic s.
Proof. exact (fun K NK => @G3.Proofs.C11_cut_hole.np_loop_test_point K NK). Qed.
Theorem C09_sites_push_no_panic : forall (K : Type) (NK : Num K) (L : Loop K) (p : V3 K) (s : N), loop_push L p <> Panic s.
Proof. exact (fun K NK => @push_no_panic K NK). Qed.
Theorem C09_sites_close_no_panic : forall (K : Type) (NK : Num K) (L : Loop K) (s : N), snd (loop_close L) <> Panic s.
Proof. exact (fun K NK => @close_no_panic K NK). Qed.
(** is_diagonal: only the [% 0] of an EMPTY loop *)
Theorem C09_sites_is_diagonal : forall (K : Type) (NK : Num K) (L : Loop K) (sg : Seg K) (s : N),
  loop_is_diagonal L sg = Panic s -> s = 22%N /\ llen L = 0.
Proof. exact (fun K NK => @is_diagonal_panic K NK). Qed.

(** ** mark_neighbourhouds: sites 96, 62, 63, 64, 60 unreachable *)
Theorem C09_sites_mark_neighbourhouds_no_panic : forall (K : Type) (NK : Num K) (M M' : Mesh K) (s : N),
  mark_neighbourhouds M <> (M', Panic s).
Proof. exact (fun K NK => @mark_neighbourhouds_no_panic K NK). Qed.

(** ** the capped ear-clipping loop, entered with a non-empty loop that is open when it has a single vertex *)
Theorem C09_sites_fp_loop_no_panic : forall (K : Type) (NK : Num K) (P : Poly K) (fuel count anchor : nat) (L : Loop K) (t : Mesh K) (s : N),
  1 <= llen L /\ (llen L = 1 -> lclosed L = false) -> fp_loop P fuel count anchor L t <> Panic s.
Proof. exact (fun K NK => @fp_loop_no_panic K NK). Qed.

(** ** get_closed_loop: 41, or 42 with an empty hole, or 21 with an empty outline *)
Theorem C09_sites_get_closed_loop : forall (K : Type) (NK : Num K) (P : Poly K) (s : N),
  poly_get_closed_loop P = Panic s ->
  s = 41%N \/ (s = 42%N /\ exists h, In h (pinner P) /\ llen h = 0) \/ (s = 21%N /\ llen (pouter P) = 0).
Proof. exact (fun K NK => @closed_loop_panic K NK). Qed.

Theorem C09_sites_from_polygon_origin : forall (K : Type) (NK : Num K) (P : Poly K) (s : N),
  from_polygon P = Panic s -> poly_get_closed_loop P = Panic s.
Proof. exact (fun K NK => @from_polygon_panic_origin K NK). Qed.
Theorem C09_sites_from_polygon : forall (K : Type) (NK : Num K) (P : Poly K) (s : N),
  from_polygon P = Panic s ->
  s = 41%N \/ (s = 42%N /\ exists h, In h (pinner P) /\ llen h = 0) \/ (s = 21%N /\ llen (pouter P) = 0).
Proof. exact (fun K NK => @from_polygon_panic_sites K NK). Qed.
Theorem C09_sites_from_polygon_41 : forall (K : Type) (NK : Num K) (P : Poly K) (s : N),
  llen (pouter P) <> 0 -> (forall h, In h (pinner P) -> llen h <> 0) -> from_polygon P = Panic s -> s = 41%N.
Proof. exact (fun K NK => @from_polygon_panic_41 K NK). Qed.
Theorem C09_sites_from_polygon_no_holes : forall (K : Type) (NK : Num K) (P : Poly K),
  pinner P = [] -> forall s, from_polygon P <> Panic s.
Proof. exact (fun K NK => @from_polygon_no_holes_no_panic K NK). Qed.

Theorem C09_sites_refine_wf : forall (K : Type) (NK : Num K) (fuel : nat) (a m : K) (M M' : Mesh K) (s : N),
  WF M -> refine fuel a m M = (M', Panic s) -> in_sites sites_refine_wf s = true.
Proof. exact (fun K NK => @refine_wf_sites K NK). Qed.
(** the list is the one of [C09_panic_sites_refine] minus 67, 73, 85, 90 *)
Theorem C09_sites_refine_wf_list :
  forallb (fun s => inb sites_refine s) sites_refine_wf = true /\
  forallb (fun s => inb (67 :: 73 :: 85 :: 90 :: sites_refine_wf)%N s) sites_refine = true /\
  forallb (fun s => negb (in_sites sites_refine_wf s)) [67; 73; 85; 90; 41; 42; 10; 21; 22; 25; 60; 88; 89; 92; 93; 95; 96]%N = true.
Proof. repeat split; reflexivity. Qed.
Theorem C09_sites_mesh_polygon_origin : forall (K : Type) (NK : Num K) (fuel : nat) (P : Poly K) (a m : K) (s : N),
  mesh_polygon fuel P a m = Panic s ->
  from_polygon P = Panic s \/ exists t t', from_polygon P = Ok t /\ WF t /\ CNT t /\ refine fuel a m t = (t', Panic s).
Proof. exact (fun K NK => @mesh_polygon_panic_origin K NK). Qed.
Theorem C09_sites_mesh_polygon : forall (K : Type) (NK : Num K) (fuel : nat) (P : Poly K) (a m : K) (s : N),
  mesh_polygon fuel P a m = Panic s ->
  s = 41%N \/ (s = 42%N /\ exists h, In h (pinner P) /\ llen h = 0) \/ (s = 21%N /\ llen (pouter P) = 0) \/ in_sites sites_refine_wf s = true.
Proof. exact (fun K NK => @mesh_polygon_panic_sites K NK). Qed.
Theorem C09_sites_mesh_polygon_41 : forall (K : Type) (NK : Num K) (fuel : nat) (P : Poly K) (a m : K) (s : N),
  llen (pouter P) <> 0 -> (forall h, In h (pinner P) -> llen h <> 0) -> mesh_polygon fuel P a m = Panic s -> s = 41%N \/ in_sites sites_refine_wf s = true.
Proof. exact (fun K NK => @mesh_polygon_panic_41 K NK). Qed.
Theorem C09_sites_mesh_polygon_no_holes : forall (K : Type) (NK : Num K) (fuel : nat) (P : Poly K) (a m : K) (s : N),
  pinner P = [] -> mesh_polygon fuel P a m = Panic s -> in_sites sites_refine_wf s = true.
Proof. exact (fun K NK => @mesh_polygon_no_holes_sites K NK). Qed.

(** ** polygons built through the API: a closed Loop3D is never empty, hence neither the outline nor a hole is empty and
    42 and 21 are unreachable *)
Theorem C09_sites_api_closed_loop_nonempty : forall (K : Type) (NK : Num K) (ops : list (lop K)),
  let L := fst (loop_run loop_new ops) in lclosed L = true -> llen L <> 0.
Proof. intros K NK ops. exact (run_closed_nonempty ops loop_new new_closed_nonempty). Qed.
Theorem C09_sites_api_holes_nonempty : forall (K : Type) (NK : Num K) (outer : Loop K) (P : Poly K) (hs : list (Loop K)),
  poly_new outer = Ok P -> (forall h, In h hs -> exists ops, h = fst (loop_run loop_new ops)) ->
  forall h, In h (pinner (fst (poly_run P hs))) -> llen h <> 0.
Proof. exact (fun K NK => @api_holes_nonempty K NK). Qed.
Theorem C09_sites_api_outer_nonempty : forall (K : Type) (NK : Num K) (ops0 : list (lop K)) (P : Poly K) (hs : list (Loop K)),
  poly_new (fst (loop_run loop_new ops0)) = Ok P -> llen (pouter (fst (poly_run P hs))) <> 0.
Proof. exact (fun K NK => @api_outer_nonempty K NK). Qed.
Theorem C09_sites_api_from_polygon : forall (K : Type) (NK : Num K) (ops0 : list (lop K)) (P : Poly K) (hs : list (Loop K)) (s : N),
  poly_new (fst (loop_run loop_new ops0)) = Ok P -> (forall h, In h hs -> exists ops, h = fst (loop_run loop_new ops)) ->
  from_polygon (fst (poly_run P hs)) = Panic s -> s = 41%N.
Proof. exact (fun K NK => @api_from_polygon_panic_41 K NK). Qed.
Theorem C09_sites_api_mesh_polygon : forall (K : Type) (NK : Num K) (ops0 : list (lop K)) (P : Poly K) (hs : list (Loop K)) (fuel : nat) (a m : K) (s : N),
  poly_new (fst (loop_run loop_new ops0)) = Ok P -> (forall h, In h hs -> exists ops, h = fst (loop_run loop_new ops)) ->
  mesh_polygon fuel (fst (poly_run P hs)) a m = Panic s -> s = 41%N \/ in_sites sites_refine_wf s = true.
Proof. exact (fun K NK => @api_mesh_polygon_panic K NK). Qed.

(** ** FINDING: site 41 is reachable from a valid polygon built through the API (push, close, Polygon3D::new, cut_hole):
    outline = the square [-100,100]^2 with a notch whose tip is (0,0); hole = triangle (0,1.5) (-50,0.7) (50,0.7) *)
Theorem C09_sites_41_reachable :
  exists (outer hole : list (V3 float)) (P : Poly float),
    build_poly outer [hole] = Ok P /\ (forall h, In h (pinner P) -> llen h <> 0) /\ length (pinner P) = 1 /\
    from_polygon P = Panic 41%N /\ forall fuel a m, mesh_polygon fuel P a m = Panic 41%N.
Proof. exists w41_outer, w41_hole, w41_poly. exact w41_panics. Qed.
(** the side condition "no empty hole" is necessary (a record that the API cannot produce) *)
Theorem C09_sites_42_needs_empty_hole :
  exists P : Poly float, from_polygon P = Panic 42%N /\ exists h, In h (pinner P) /\ llen h = 0.
Proof. exists w42_poly. split; [exact w42_panics | eexists; split; [left; reflexivity | reflexivity]]. Qed.

(** ... and so is "the outline is not empty" (fix bcb072e; again a record that the API cannot produce) *)
Theorem C09_sites_21_needs_empty_outline :
  exists P : Poly float, from_polygon P = Panic 21%N /\ llen (pouter P) = 0 /\ (forall h, In h (pinner P) -> llen h <> 0) /\ length (pinner P) = 2.
Proof. exists w21_poly. exact w21_panics. Qed.

(** non-vacuity: a hole-free polygon and a polygon with one non-empty hole on which from_polygon returns Ok *)
Example C09_sites_nonvacuous :
  (pinner w4_poly = [] /\ exists M, from_polygon w4_poly = Ok M) /\
  (llen (pouter w5_poly) <> 0 /\ (forall h, In h (pinner w5_poly) -> llen h <> 0) /\ length (pinner w5_poly) = 1 /\ exists M, from_polygon w5_poly = Ok M).
Proof. exact w_sites_nonvacuous. Qed.
