(** * C08 (triangulation part) -- the LINK GEOMETRY as an invariant: clause (i) ("every interior edge is shared by exactly two
    live triangles that reference each other across that edge") in its geometric form, and what it closes.
    Statements only; proofs in Proofs/Mesh_links.v, Proofs/Mesh_links_steps.v (every number instance), Proofs/Mesh_links_region.v (reals).

    [LNKG M]: for every live slot i and edge e with neighbour index j: j <> i, slot j is live and has an edge e' whose two points
             are EXACTLY (Leibniz) the points of e in the opposite order, and slot j's neighbour across e' is i.
    [DIST M]: the three vertices of every live triangle are distinct.
    [SEP M] : on the vertices of the live triangles Point3D::compare (1e-5) decides equality: no two distinct vertices within the
             tolerance (and no NaN); [SEPp M p]: the same for the vertices together with an inserted point p.
    [GEO M] := LNKG M /\ DIST M /\ SEP M.
    PROVED (every number instance): split_triangle, split_edge, flip_diagonal returning Ok re-establish LNKG and DIST (the new
    vertex set is that of M plus p), hence GEO is kept by them under [SEPp M p] / [SEP M], by restore_delaunay and by add_point;
    on WF + CNT + GEO meshes flip_diagonal is Ok, or leaves the mesh unchanged, or Panic 64 -- Err 102 is excluded
    ([C08_flip_struct]).
    PROVED (reals): GEO implies [flip_shared] on every edge and the rotation / neighbour halves of the split_edge hypothesis, so
    the region theorems hold WITHOUT an invariant hypothesis: area and coverage along restore_delaunay ([C08_region_restore_delaunay])
    and along histories of split_edge / split_triangle / flip_diagonal / restore_delaunay / add_point steps returning Ok, from any
    mesh with GEO, with each inserted point separated from the current vertices and -- for edge splits -- exactly on (strictly
    inside) the split edge of the named triangle ([C08_region_history_area], [C08_region_history_cover]); and positive orientation
    (orthonormal frame, mesh and inserted points in its plane; restore_delaunay needs no hypothesis: its flips passed is_convex)
    ([C08_orientation_restore_delaunay], [C08_orientation_history]).
    ELSEWHERE: (1) LNKG of from_polygon's result: Properties/C08_init.v, under SEP + EM (its links are set by
    mark_neighbourhouds up to Segment3D::compare, and the REVERSED orientation of shared edges is the consistency of ear
    clipping); over R from stable_run + the Jordan hypothesis; (2) [refine] is covered through its trace of elementary steps:
    Properties/C08_refine.v; (3) float instance: nothing geometric (SEP needs Leibniz equality = compare). *)
From Coq Require Import ZArith Reals List Permutation Floats Lra.
Set Warnings "-inexact-float".
From G3 Require Import Model.Num Model.NumF Model.Base Model.Vec Model.Segment Model.Triangle Model.Loop Model.Polygon Model.Triangulation
  Theory.RInst Theory.Cyclic Theory.Winding
  Proofs.Mesh_base Proofs.Mesh_wf Proofs.Mesh_conf Proofs.Mesh_region Proofs.Mesh_atomic Proofs.Mesh_region_ex
  Proofs.Mesh_links Proofs.Mesh_links_steps Proofs.Mesh_links_region Proofs.Mesh_links_ex.
From G3 Require Proofs.C05_pointtest.
Import ListNotations.

(** ** the steps re-establish the link geometry (every number instance) *)
Theorem C08_links_flip_diagonal : forall (K : Type) (NK : Num K) (i : nat) (e : Edge) (M M' : Mesh K),
  LNKG M -> SEP M -> DIST M -> flip_diagonal i e M = (M', Ok tt) ->
  LNKG M' /\ DIST M' /\ (forall x, mesh_vert M' x -> mesh_vert M x).
Proof. exact (fun K NK => @flip_LNKG K NK). Qed.
Theorem C08_links_split_triangle : forall (K : Type) (NK : Num K) (i : nat) (p : V3 K) (M M' : Mesh K),
  LNKG M -> DIST M -> SEPp M p -> split_triangle i p M = (M', Ok tt) ->
  LNKG M' /\ DIST M' /\ (forall x, mesh_vert M' x -> mesh_vert M x \/ x = p).
Proof. exact (fun K NK => @split_triangle_LNKG K NK). Qed.
Theorem C08_links_split_edge : forall (K : Type) (NK : Num K) (i : nat) (e : Edge) (p : V3 K) (M M' : Mesh K),
  LNKG M -> DIST M -> SEPp M p -> split_edge i e p M = (M', Ok tt) ->
  LNKG M' /\ DIST M' /\ (forall x, mesh_vert M' x -> mesh_vert M x \/ x = p).
Proof. exact (fun K NK => @split_edge_LNKG K NK). Qed.
Theorem C08_links_give_live_links : forall (K : Type) (NK : Num K) (M : Mesh K), LNKG M -> LNK M.
Proof. exact (fun K NK => @LNKG_LNK K). Qed.

Theorem C08_geo_flip_diagonal : forall (K : Type) (NK : Num K) (i : nat) (e : Edge) (M M' : Mesh K),
  GEO M -> flip_diagonal i e M = (M', Ok tt) -> GEO M'.
Proof. exact (fun K NK => @flip_GEO K NK). Qed.
Theorem C08_geo_split_triangle : forall (K : Type) (NK : Num K) (i : nat) (p : V3 K) (M M' : Mesh K),
  LNKG M -> DIST M -> SEPp M p -> split_triangle i p M = (M', Ok tt) -> GEO M'.
Proof. exact (fun K NK => @split_triangle_GEO K NK). Qed.
Theorem C08_geo_split_edge : forall (K : Type) (NK : Num K) (i : nat) (e : Edge) (p : V3 K) (M M' : Mesh K),
  LNKG M -> DIST M -> SEPp M p -> split_edge i e p M = (M', Ok tt) -> GEO M'.
Proof. exact (fun K NK => @split_edge_GEO K NK). Qed.
Theorem C08_geo_restore_delaunay : forall (K : Type) (NK : Num K) (m : K) (M M' : Mesh K),
  GEO M -> restore_delaunay m M = (M', Ok tt) -> GEO M'.
Proof. exact (fun K NK => @restore_GEO K NK). Qed.
Theorem C08_geo_add_point : forall (K : Type) (NK : Num K) (p : V3 K) (M M' : Mesh K) (b : bool),
  LNKG M -> DIST M -> SEPp M p -> add_point p M = (M', Ok b) -> GEO M'.
Proof. exact (fun K NK => @add_point_GEO K NK). Qed.

(** with the link geometry Err 102 cannot occur *)
Theorem C08_flip_struct : forall (K : Type) (NK : Num K) (i : nat) (e : Edge) (M M' : Mesh K) (r : res unit),
  WF M -> CNT M -> GEO M -> flip_diagonal i e M = (M', r) ->
  (r = Ok tt /\ WF M' /\ CNT M' /\ LNK M') \/ M' = M \/ r = Panic 64%N.
Proof. exact (fun K NK => @flip_struct_geo K NK). Qed.

(** ** the geometric hypotheses of Properties/C08_region.v follow from GEO (reals) *)
Theorem C08_geo_gives_flip_shared : forall (M : Mesh R) (i : nat) (e : Edge), GEO M -> flip_shared M i e.
Proof. exact GEO_flip_shared. Qed.
Theorem C08_geo_gives_split_edge_hypothesis : forall (Q : V3 R -> V3 R -> V3 R -> Prop) (M : Mesh R) (i : nat) (e : Edge) (p : V3 R),
  (forall p a b, Q p a b -> Q p b a) -> GEO M -> edge_hyp Q M i e p -> split_edge_ok Q M i e p.
Proof. exact GEO_split_edge_ok. Qed.

(** ** region: GEO is the only hypothesis on the mesh *)
Theorem C08_region_flip_diagonal_geo : forall (o e1 e2 : V3 R) (i : nat) (e : Edge) (M M' : Mesh R),
  GEO M -> flip_diagonal i e M = (M', Ok tt) -> GEO M' /\ Same o e1 e2 M M'.
Proof. exact region_flip_geo. Qed.
Theorem C08_region_restore_delaunay : forall (o e1 e2 : V3 R) (m : R) (M M' : Mesh R),
  GEO M -> restore_delaunay m M = (M', Ok tt) -> GEO M' /\ Same o e1 e2 M M'.
Proof. exact region_restore_geo. Qed.
Theorem C08_region_split_edge_geo_area : forall (o e1 e2 : V3 R) (i : nat) (e : Edge) (p : V3 R) (M M' : Mesh R),
  GEO M -> SEPp M p -> edge_hyp on_line M i e p -> split_edge i e p M = (M', Ok tt) ->
  GEO M' /\ mesh_area2 o e1 e2 M' = mesh_area2 o e1 e2 M.
Proof. exact region_split_edge_geo_area. Qed.
Theorem C08_region_split_edge_geo_cover : forall (o e1 e2 : V3 R) (i : nat) (e : Edge) (p : V3 R) (M M' : Mesh R) (d q : P2),
  GEO M -> edge_hyp between M i e p -> hgt d q (C05_pointtest.plane2 o e1 e2 p) <> 0%R -> split_edge i e p M = (M', Ok tt) ->
  mesh_cover o e1 e2 d M' q = mesh_cover o e1 e2 d M q.
Proof. exact region_split_edge_geo_cover. Qed.
(** histories: every step returns Ok; each inserted point is separated from the vertices of the mesh it is inserted in and,
    for an edge split, lies on the line of (strictly inside) the named edge of the named triangle ([run_hyp]) *)
Theorem C08_region_history_area : forall (o e1 e2 : V3 R) (ops : list (mop R)) (M : Mesh R),
  GEO M -> run_hyp on_line (fun _ => True) M ops ->
  GEO (fst (mesh_run M ops)) /\ mesh_area2 o e1 e2 (fst (mesh_run M ops)) = mesh_area2 o e1 e2 M.
Proof. exact region_history_geo_area. Qed.
Theorem C08_region_history_cover : forall (o e1 e2 : V3 R) (d q : P2) (ops : list (mop R)) (M : Mesh R),
  GEO M -> run_hyp between (fun p => hgt d q (C05_pointtest.plane2 o e1 e2 p) <> 0%R) M ops ->
  mesh_cover o e1 e2 d (fst (mesh_run M ops)) q = mesh_cover o e1 e2 d M q.
Proof. exact region_history_geo_cover. Qed.

(** ** orientation: [POS M] := GEO M, every mesh vertex in the plane of the orthonormal frame, every live triangle positive *)
Theorem C08_orientation_restore_delaunay : forall (o e1 e2 : V3 R),
  vdot e1 e1 = 1%R -> vdot e2 e2 = 1%R -> vdot e1 e2 = 0%R ->
  forall (m : R) (M M' : Mesh R), POS o e1 e2 M -> restore_delaunay m M = (M', Ok tt) -> POS o e1 e2 M'.
Proof. exact restore_POS. Qed.
Theorem C08_orientation_history : forall (o e1 e2 : V3 R),
  vdot e1 e1 = 1%R -> vdot e2 e2 = 1%R -> vdot e1 e2 = 0%R ->
  forall (ops : list (mop R)) (M : Mesh R), POS o e1 e2 M -> run_pos o e1 e2 M ops -> POS o e1 e2 (fst (mesh_run M ops)).
Proof. exact history_POS. Qed.

(** ** non-vacuity *)
(** binary64: the hand-built unit-square mesh satisfies LNKG, DIST, SEP (and SEPp for an interior point) *)
Example C08_links_nonvacuous : GEO sqM /\ SEPp sqM (q2 0.6 0.2).
Proof. exact sqM_GEO. Qed.
(** a two-step history on it: flip the diagonal, split a triangle; both return Ok and GEO holds at every stage *)
Example C08_links_two_steps :
  exists M1 M2 : Mesh float, GEO sqM /\ flip_diagonal 0 Ca sqM = (M1, Ok tt) /\ GEO M1 /\ SEPp M1 (q2 0.6 0.2) /\
    split_triangle 0 (q2 0.6 0.2) M1 = (M2, Ok tt) /\ GEO M2 /\ length (live_tris M2) = 4%nat.
Proof. exact links_two_steps. Qed.
(** reals: the hypotheses of the history theorems are satisfiable *)
Example C08_history_hypotheses_nonvacuous :
  exists (M : Mesh R) (ops : list (mop R)) (o e1 e2 : V3 R) (d q : P2),
    GEO M /\ ops <> [] /\ run_hyp between (fun p => hgt d q (C05_pointtest.plane2 o e1 e2 p) <> 0%R) M ops.
Proof. exact history_hyp_nonvacuous. Qed.
