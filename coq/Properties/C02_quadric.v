(** * C02, part pquadric -- every reported ray / sphere and ray / cylinder hit is a true hit (exact tier, reals).
    Statements only, each closed by [exact].  Vocabulary (Proofs/Quadric_*.v):
    [on_sphere s q]: |q|^2 = r^2;  [on_cyl c q]: x^2 + y^2 = r^2;  [vzero]: the zero error box;
    [sphere_fixup]: the pole fix-up of the code (x := 1e-5 r when |x|,|y| < 1e-5 r);  [in_pole_band]: its guard;
    [phi_of p]: atan2(y, x) brought into [0, 2 pi);  [sph_solvable] / [cyl_solvable]: the ray direction is not
    zero (resp. not parallel to the axis) and the ray does not start ON the quadric tangentially (the one case in
    which the code computes 0/0; unreachable in floats, where the widened discriminant is then negative). *)
From Coq Require Import ZArith Reals List.
From G3 Require Import Model.Num Model.Base Model.Vec Model.BBox Model.RoundError Model.Transform Model.Hit Model.Sphere Model.Cylinder.
From G3 Require Import Proofs.C06_transform Proofs.Quadric_base Proofs.Quadric_sphere Proofs.Quadric_cylinder Proofs.Quadric_place.
Local Open Scope R_scope.

(** ** bridging: on the reals the outward-rounding steps are the identity and the interval operations on
    point intervals are the real operations *)
Theorem C02_interval_ops_exact_on_points : forall a b : R,
  nnext_up a = a /\ nnext_dn a = a /\
  af_from_value_and_error a 0 = pt a /\
  af_add (pt a) (pt b) = pt (a + b) /\ af_sub (pt a) (pt b) = pt (a - b) /\ af_mul (pt a) (pt b) = pt (a * b) /\
  af_div (pt a) (pt b) = pt (a / b) /\ af_mul_f (pt a) b = pt (a * b) /\ af_sub_f (pt a) b = pt (a - b) /\
  af_neg (pt a) = pt (- a) /\ af_sqrt (pt a) = pt (sqrt a) /\ af_as_float (pt a) = a.
Proof.
  exact (fun a b => conj (nnext_up_R a) (conj (nnext_dn_R a) (conj (af_from_ve_0 a) (conj (af_add_pt a b) (conj (af_sub_pt a b)
    (conj (af_mul_pt a b) (conj (af_div_pt a b) (conj (af_mul_f_pt a b) (conj (af_sub_f_pt a b) (conj (af_neg_pt a)
    (conj (af_sqrt_pt a) (af_as_float_pt a)))))))))))).
Qed.

(** ** sphere, zero-width error boxes: the reported point is the pole-fixed image of a point q that lies on the
    sphere and on the ray at a parameter t > 0; it passes the clips; outside the pole band it IS q, on the sphere *)
Theorem C02_sphere_hit_is_true_hit : forall (s : S) (ray : Ray R) (p : V) (phi : R),
  0 < sradius s -> sph_solvable s ray ->
  sphere_basic s ray vzero vzero = Some (p, phi) ->
  exists t, 0 < t /\ let q := ray_project ray t in
    on_sphere s q /\ p = sphere_fixup s q /\ phi = phi_of p /\
    ((- sradius s < szmin s -> szmin s <= vz p) /\ (szmax s < sradius s -> vz p <= szmax s) /\ phi <= sphi_max s) /\
    (~ in_pole_band s q -> p = q /\ on_sphere s p).
Proof. exact sphere_hit_sound. Qed.
(** with the stored limits inside [-r, r], as every constructor leaves them: zmin <= z <= zmax *)
Theorem C02_sphere_hit_within_z_range : forall (s : S) (ray : Ray R) (p : V) (phi : R),
  0 < sradius s -> sph_solvable s ray -> - sradius s <= szmin s -> szmax s <= sradius s ->
  sphere_basic s ray vzero vzero = Some (p, phi) -> szmin s <= vz p <= szmax s.
Proof. exact sphere_hit_z_range. Qed.
(** the pole fix-up, honestly: it keeps y and z, and leaves the sphere by at most (1e-5 r)^2 in squared distance
    (but moves the point off the ray by up to 1e-5 r: see the finding C02:quadric:sphere:pole-fixup) *)
Theorem C02_sphere_pole_fixup_bound : forall (s : S) (q : V), 0 < sradius s -> on_sphere s q ->
  vz (sphere_fixup s q) = vz q /\
  0 <= vlen2 (sphere_fixup s q) - sradius s * sradius s <= (/ 100000 * sradius s) * (/ 100000 * sradius s) /\
  ((~ in_pole_band s q /\ sphere_fixup s q = q) \/
   (in_pole_band s q /\ sphere_fixup s q = mkV3 (/ 100000 * sradius s) (vy q) (vz q))).
Proof. exact (fun s q Hr H => conj (fixup_z s q) (conj (fixup_near_sphere s q Hr H) (fixup_cases s q))). Qed.

(** any error boxes.  PARTIAL: proved = the reported point is the (pole-fixed) radial re-projection of the ray
    point at the midpoint of one of the solver's root intervals whose lower bound is positive, it is on the
    sphere (when that ray point is not the centre) and inside the clips.
    MISSING for the full statement "on the ray at a positive distance": a bound on the distance between the
    re-projected point and the ray in terms of the widths of the error boxes (needs C17's enclosure on R and
    the error bounds of C16 for the boxes produced by [inv_transform_ray]). *)
Theorem C02_sphere_hit_any_error_boxes_partial : forall (s : S) (ray : Ray R) (oe de p : V) (phi : R),
  sphere_basic s ray oe de = Some (p, phi) ->
  exists th : AF R, 0 < low th /\
    let q := ray_project ray (af_as_float th) in
    p = sphere_fixup s (sphere_reproject s q) /\ phi = phi_of p /\
    ((- sradius s < szmin s -> szmin s <= vz p) /\ (szmax s < sradius s -> vz p <= szmax s) /\ phi <= sphi_max s) /\
    (0 < vlen2 q -> on_sphere s (sphere_reproject s q)).
Proof. exact sphere_hit_any_boxes_partial. Qed.

(** ** cylinder, zero-width error boxes *)
Theorem C02_cylinder_hit_is_true_hit : forall (c : C) (ray : Ray R) (p : V) (phi : R),
  0 < cradius c -> cyl_solvable c ray ->
  cyl_basic c ray vzero vzero = Some (p, phi) ->
  exists t, 0 < t /\ p = ray_project ray t /\ on_cyl c p /\ phi = phi_of p /\
            czmin c <= vz p <= czmax c /\ phi <= cphi_max c.
Proof. exact cyl_hit_sound. Qed.
(** any error boxes (PARTIAL, same gap as for the sphere) *)
Theorem C02_cylinder_hit_any_error_boxes_partial : forall (c : C) (ray : Ray R) (oe de p : V) (phi : R),
  cyl_basic c ray oe de = Some (p, phi) ->
  exists th : AF R, 0 < low th /\
    let q := ray_project ray (af_as_float th) in
    p = cyl_reproject c q /\ phi = phi_of p /\ czmin c <= vz p <= czmax c /\ phi <= cphi_max c /\
    (0 < vx q * vx q + vy q * vy q -> on_cyl c p /\ vz p = vz q).
Proof. exact cyl_hit_any_boxes_partial. Qed.

(** [phi] is the polar angle about the z axis, in [0, 2 pi): so [phi <= phi_max] is the angular clip *)
Theorem C02_phi_is_polar_angle : forall p : V, 0 < vx p * vx p + vy p * vy p ->
  let rho := sqrt (vx p * vx p + vy p * vy p) in
  vx p = rho * cos (phi_of p) /\ vy p = rho * sin (phi_of p) /\ 0 <= phi_of p < 2 * PI.
Proof. exact (fun p _ => phi_of_spec p). Qed.

(** ** the generic wrapper, with C06's invariant [Inv t] on the attached transform: the world hit is the image
    of a hit of the local intersection (run on the inverse-transformed ray with the error boxes returned by
    [inv_transform_ray]) and the inverse transform takes it back: it lies on the transformed surface *)
Theorem C02_sphere_world_hit : forall (s : S) (ray : Ray R) (t : T), stransform s = Some t -> Inv t ->
  (forall i, sphere_intersect s ray = Some i ->
     exists lr oe de p phi, tr_inv_ray t ray = (lr, oe, de) /\ sphere_basic s lr oe de = Some (p, phi) /\
       ip i = tr_pt t p /\ tr_inv_pt t (ip i) = p) /\
  (forall P, sphere_simple_intersect s ray = Some P ->
     exists lr oe de p phi, tr_inv_ray t ray = (lr, oe, de) /\ sphere_basic s lr oe de = Some (p, phi) /\
       P = tr_pt t p /\ tr_inv_pt t P = p).
Proof. exact (fun s ray t Ht Hi => conj (fun i => sphere_intersect_world s ray i t Ht Hi) (fun P => sphere_simple_intersect_world s ray P t Ht Hi)). Qed.
Theorem C02_cylinder_world_hit : forall (c : C) (ray : Ray R) (t : T), ctransform c = Some t -> Inv t ->
  (forall i, cyl_intersect c ray = Some i ->
     exists lr oe de p phi, tr_inv_ray t ray = (lr, oe, de) /\ cyl_basic c lr oe de = Some (p, phi) /\
       ip i = tr_pt t p /\ tr_inv_pt t (ip i) = p) /\
  (forall P, cyl_simple_intersect c ray = Some P ->
     exists lr oe de p phi, tr_inv_ray t ray = (lr, oe, de) /\ cyl_basic c lr oe de = Some (p, phi) /\
       P = tr_pt t p /\ tr_inv_pt t P = p).
Proof. exact (fun c ray t Ht Hi => conj (fun i => cyl_intersect_world c ray i t Ht Hi) (fun P => cyl_simple_intersect_world c ray P t Ht Hi)). Qed.
(** ... and a point of the local ray at parameter u is carried to the world ray at parameter dt + u >= u, where
    dt >= 0 is the documented forward nudge of the local origin: local "ahead on the ray" is world "ahead on the ray" *)
Theorem C02_world_ray_parameter : forall (t : T) (ray : Ray R), Inv t ->
  exists dt, 0 <= dt /\ rdir (fst (fst (tr_inv_ray t ray))) = tr_inv_vec t (rdir ray) /\
    forall u, tr_pt t (ray_project (fst (fst (tr_inv_ray t ray))) u) = ray_project ray (dt + u).
Proof. exact inv_ray_world. Qed.
(** without a transform, [intersect] runs the local intersection with zero boxes: the exact statements apply *)
Theorem C02_untransformed_hit : forall (s : S) (c : C) (ray : Ray R),
  (stransform s = None -> forall i, sphere_intersect s ray = Some i -> exists phi, sphere_basic s ray vzero vzero = Some (ip i, phi)) /\
  (ctransform c = None -> forall i, cyl_intersect c ray = Some i -> exists phi, cyl_basic c ray vzero vzero = Some (ip i, phi)).
Proof. exact (fun s c ray => conj (fun H i => sphere_intersect_untransformed s ray i H) (fun H i => cyl_intersect_untransformed c ray i H)). Qed.

(** ** cylinder placement (finding F4).  For the REPAIRED composition order [translate . rotate_z . rotate_y]:
    the placement transform satisfies C06's invariant and maps the local axis point (0,0,s) to
    p0 + (s / |p1-p0|) (p1 - p0): the axis segment [0, |p1-p0|] goes onto [p0, p1], ends to ends *)
Theorem C02_cylinder_placement_maps_axis_onto_segment : forall (p0 p1 : V) (s : R), 0 < vlen2 (vsub p1 p0) ->
  Inv (cyl_placement p0 p1) /\
  tr_pt (cyl_placement p0 p1) (mkV3 0 0 s) = vadd p0 (vscale (vsub p1 p0) (s / vlen (vsub p1 p0))) /\
  tr_pt (cyl_placement p0 p1) (mkV3 0 0 0) = p0 /\ tr_pt (cyl_placement p0 p1) (mkV3 0 0 (vlen (vsub p1 p0))) = p1.
Proof.
  exact (fun p0 p1 s H => conj (Inv_cyl_placement p0 p1) (conj (cyl_placement_axis p0 p1 s H)
          (conj (proj1 (cyl_placement_ends p0 p1 H)) (proj2 (cyl_placement_ends p0 p1 H))))).
Qed.
Theorem C02_cylinder_new_partial_fields : forall (p0 p1 : V) (radius phi_max : R) (c : Cyl R),
  cyl_new_partial p0 p1 radius phi_max = Ok c ->
  cradius c = radius /\ czmin c = 0 /\ czmax c = vlen (vsub p1 p0) /\ ctransform c = Some (cyl_placement p0 p1).
Proof. exact cyl_new_partial_places. Qed.
(** the order of the pinned tree (before fix 2d11af8: [*= rotate_y] before [*= rotate_z]) misplaces the cylinder:
    from (0,0,0) to (0,2,0) the far end of the axis lands on (2,0,0) *)
Theorem C02_cylinder_placement_pinned_refuted :
  tr_pt (cyl_placement_pinned (mkV3 0 0 0) (mkV3 0 2 0)) (mkV3 0 0 2) = mkV3 2 0 0 /\
  exists p0 p1 : V, 0 < vlen2 (vsub p1 p0) /\ tr_pt (cyl_placement_pinned p0 p1) (mkV3 0 0 (vlen (vsub p1 p0))) <> p1.
Proof. exact (conj cyl_placement_pinned_witness cyl_placement_pinned_misplaces). Qed.

(** non-vacuity: the unit sphere / the unit cylinder of height 2 and the ray from (3, 0, 1/2) towards -x *)
Example C02_quadric_nonvacuous :
  let ray := mkRay (mkV3 3 0 (1/2)) (mkV3 (-1) 0 0) in
  let s := mkSphere 1 (-1) 1 (2 * PI) PI 0 None in
  let c := mkCyl 1 0 2 (2 * PI) None in
  0 < sradius s /\ sph_solvable s ray /\ 0 < cradius c /\ cyl_solvable c ray /\ 0 < vlen2 (vsub (mkV3 0 2 0) (mkV3 0 0 0)).
Proof. exact quadric_nonvacuous_proof. Qed.
