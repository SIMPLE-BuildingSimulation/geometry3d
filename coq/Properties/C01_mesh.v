(** * C01 (triangulation part) -- triangulation tiles the polygon exactly: the STRUCTURAL facts.
    Statements only; proofs in Proofs/Mesh_fp.v.  Every number instance.

    The geometric half of C01 (signed areas, winding numbers, "no overlap / nothing outside"): Properties/C01_tiling.v,
    Properties/C01_refined.v.  On every run the exact-rational oracle (lib/pmesh.py) checks it on the implementation's
    outputs: plane, orientation, area sum, coverage of sampled points by exact winding numbers.

    FALSE for the faithful model (and the crate), witnesses in Proofs/Mesh_witness.v:
    - "the number of triangles is |L| - 2" holds for sanitize-stable runs only: the periodic [sanitize] may drop a
      vertex that has become collinear without producing a triangle; the tiling is unaffected (the dropped vertex
      lies on the chord) but the mesh has a T-junction there;
    - (pinned tree, repaired by fix 4bb2ed8) "is_diagonal implies the ear is positively oriented": an ear was clipped
      at a REFLEX vertex when the chord v0-v2 happened to be an interior diagonal on the other side -- at the bridge
      vertex of a merged hole.  from_polygon tests convexity and emptiness of the corner; regression witness
      [C01_orientation_w1_now_ok]; every clipped ear is positively oriented: [C01_ears_positive] (Properties/C01_tiling.v). *)

From Coq Require Import ZArith List Floats.
Set Warnings "-inexact-float".
From G3 Require Import Model.Num Model.NumF Model.Base Model.Vec Model.Segment Model.Triangle Model.Loop Model.Polygon Model.Triangulation
  Proofs.Mesh_fp Proofs.Mesh_witness.
Import ListNotations.

(** on Ok: at most |L| - 2 triangles for the closed merged outline L (one per clipped vertex), and at most 1000 *)
Theorem C01_ntriangles_partial : forall (K : Type) (NK : Num K) (P : Poly K) (M : Mesh K),
  from_polygon P = Ok M ->
  exists Lm : Loop K, poly_get_closed_loop P = Ok Lm /\ snd (loop_close Lm) = Ok tt /\
    length (tris M) + 2 <= llen (fst (loop_close Lm)).
Proof.
  intros K NK P M H. destruct (from_polygon_structure P M H) as (Lm & H1 & H2 & H3 & _). exists Lm. repeat split; assumption.
Qed.

(** on Ok: every triangle's vertices are vertices of L (so they lie in the polygon's plane as far as L does) *)
Theorem C01_vertices_from_loop : forall (K : Type) (NK : Num K) (P : Poly K) (M : Mesh K),
  from_polygon P = Ok M ->
  exists Lm : Loop K, poly_get_closed_loop P = Ok Lm /\
    Forall (fun t => In (ta (tp_tri t)) (verts (fst (loop_close Lm))) /\ In (tb (tp_tri t)) (verts (fst (loop_close Lm))) /\
                     In (tc (tp_tri t)) (verts (fst (loop_close Lm)))) (tris M).
Proof.
  intros K NK P M H. destruct (from_polygon_structure P M H) as (Lm & H1 & H2 & H3 & H4 & _). exists Lm. split; assumption.
Qed.

(** the 8-vertex outline on which the pinned ear test gave 5 triangles (sanitize dropped a vertex that had become
    collinear) gives |L| - 2 = 6; the equality in general: [C01_ntriangles_stable] (Properties/C01_tiling.v) *)
Theorem C01_ntriangles_w2_now_exact :
  exists (P : Poly float) (M : Mesh float) (Lm : Loop float), from_polygon P = Ok M /\ poly_get_closed_loop P = Ok Lm /\
    snd (loop_close Lm) = Ok tt /\ llen (fst (loop_close Lm)) = 8 /\ length (tris M) = 6.
Proof. destruct w2_triangle_count as (M & Lm & H). exists w2_poly, M, Lm. exact H. Qed.

(** regression witness of fix 4bb2ed8: the unit square with a triangular hole, whose triangulation before the fix
    contained a triangle opposite to the polygon's normal (covering the hole), gives 7 = |L| - 2 triangles, none reversed *)
Theorem C01_orientation_w1_now_ok :
  exists (P : Poly float) (M : Mesh float), from_polygon P = Ok M /\ length (pinner P) = 1 /\ length (tris M) = 7 /\
    existsb (fun t => PrimFloat.ltb (vdot (tnormal (tp_tri t)) (pnormal P)) 0%float) (tris M) = false.
Proof. destruct w1_now_positive as (M & H1 & H2 & H3 & H4). exists w1_poly, M. repeat split; assumption. Qed.

(** non-vacuity: the unit square gives 2 = 4 - 2 triangles *)
Example C01_nonvacuous : exists M, from_polygon w4_poly = Ok M /\ length (tris M) = 2 /\ nvalid M = 2.
Proof. exact w_square_ok. Qed.
