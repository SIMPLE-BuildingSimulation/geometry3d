(** * C05, vertex part -- cast rays that pass EXACTLY through a vertex of the outline (exact tier, real numbers).
    Properties/C05.v proves the point test correct under [edge_generic], which excludes every cast segment that meets a
    vertex.  The property text says "wherever it lies relative to vertices, edge midpoints and the direction of the
    internal test ray"; the code has explicit vertex rules for those rays:
       crossing at the START of an edge (t_a < EPSILON): counted iff  d x (b - a)  has the direction of the loop normal,
       crossing at the END of an edge   (t_a = 1):       counted iff  d x (a - b)  has the direction of the loop normal,
       interior crossing:                                 counted.
    Here these rules are PROVED CORRECT in exact arithmetic: they are the classical half-open rule (an edge through a vertex
    counts iff its other end lies strictly to the left of the directed ray), whose count has the parity of the number of
    fan triangles containing the point = parity of the winding number, for every ray -- through vertices or not.
    The hypothesis is [edge_semigeneric n q d a b] (Proofs/C05_vertex.v), for every edge (a,b):
       a, b in the plane of q;  and EITHER  |(b - a) x d|^2 >= 1e-5  (not parallel within the library's tolerance) and the
       crossing parameter t_a is not in the open sliver (0, EPSILON)  -- t_a = 0 and t_a = 1 exactly ARE allowed --
       OR  (b - a) x d = 0 exactly and a is off the line of the cast segment (a parallel edge beside the ray).
    It is implied by [edge_generic] ([C05_vertex_semigeneric_weakens_generic]).
    What remains excluded, and why:
      - 0 < t_a < EPSILON = 2^-52: an INTERIOR crossing that close to the start vertex is handed to the start-vertex rule
        and dropped when the edge leaves to the right of the ray ([C05_vertex_sliver_crossing_dropped]): the exact-tier
        shadow of the recorded finding C05:vertex-grazing;
      - the cast segment running ALONG an edge, and edges nearly but not exactly parallel to it (finding family F11);
      - "no edge contains q" and exact planarity, as in Properties/C05.v.
    The winding number is counted along ANY generic ray d2 ([Winding.generic]: its line avoids the vertices): the code's
    own ray is not generic here, and [Winding.crd] gives no meaning to a vertex on the counting ray; a generic d2 always
    exists ([C05_vertex_generic_counting_ray_exists]) and all generic rays give the same number
    ([Winding.wn_ray_independent_strong]).
    Over the reals the half-open rule matches the three branches of the code in every sub-case (reflex
    vertices, both incident edges on one side, parallel edges). *)
From Coq Require Import ZArith Reals Bool List Arith Floats.
From G3 Require Import Model.Num Model.NumF Model.Base Model.Vec Model.Segment Model.Loop
  Theory.RInst Theory.LoopGeom Proofs.C05_pointtest Proofs.C05_examples Proofs.C05_winding Proofs.C05_vertex.
From G3 Require Theory.Cyclic Theory.Winding.
Import ListNotations.
Local Open Scope R_scope.

(** ** the hypothesis is weaker than the one of Properties/C05.v *)
Theorem C05_vertex_semigeneric_weakens_generic : forall n q d a b : V3 R,
  edge_generic n q d a b -> edge_semigeneric n q d a b.
Proof. exact edge_generic_semigeneric. Qed.

(** ** the side tests of the vertex rules: for A, d in the plane with normal n and |A x d|^2 >= 1e-5 the absolute tolerances
    of [is_same_direction] are inactive and the test is the sign of  - n . (A x d) *)
Theorem C05_vertex_side_test_is_a_sign : forall n d A : V3 R,
  vis_zero n = false -> vdot n d = 0 -> vdot n A = 0 -> / 100000 <= vlen2 (vcross A d) ->
  vis_same_direction (vcross d A) n = Rltb 0 (- vdot n (vcross A d)).
Proof. exact same_direction_cross. Qed.

(** ** one edge: the three branches of the code = the half-open indicator
    [halfb3 n q d a b]: exactly one of a, b strictly to the left of the directed line of the cast segment
    ([sideof] > 0), and q, q + d on opposite sides of (or on) the edge's line *)
Theorem C05_vertex_rules_are_half_open : forall (L : Loop R) (q d a b : V3 R),
  let n := lnormal L in
  0 < vdot n n -> vis_zero n = false -> vdot n d = 0 ->
  seg_contains_point (seg_new a b) q = Ok false ->
  edge_semigeneric n q d a b ->
  edge_cross_count L q d (seg_new q (vadd q d)) a b = Ok (false, if halfb3 n q d a b then 1%nat else 0%nat).
Proof. exact edge_cross_count_semigeneric. Qed.

(** ** the whole loop: parity of the half-open crossings of the RAY (the live cast segment passes every vertex) *)
Theorem C05_vertex_test_point_counts_half_open_crossings : forall (L : Loop R) (q : V3 R),
  lclosed L = true -> (2 <= llen L)%nat ->
  let n := lnormal L in let d := test_ray L q in
  vis_zero n = false -> 0 < vdot n n ->
  (forall a b, In (a, b) (cyc_edges (verts L)) -> seg_contains_point (seg_new a b) q = Ok false /\ edge_semigeneric n q d a b) ->
  loop_test_point L q = Ok (Nat.odd (countb (halfray3 n q d) (cyc_edges (verts L)))).
Proof. exact test_point_counts_half_ray_crossings. Qed.

Theorem C05_vertex_plane_coordinates : forall o e1 e2 q d a b : V3 R,
  halfray3 (vcross e1 e2) q d a b = half_cross2 (plane2 o e1 e2 q) (planev e1 e2 d) (plane2 o e1 e2 a) (plane2 o e1 e2 b).
Proof. exact halfray3_plane. Qed.

(** ** planar: the half-open crossing parity of ANY ray (its line may pass through vertices) = parity of the number of fan
    triangles containing q; compared with [C05_ray_parity_is_fan_parity] nothing is asked of [hgt2 q d v] *)
Theorem C05_vertex_half_open_parity_is_fan_parity : forall (q d o : P2) (vs : list P2),
  hgt2 q d o <> 0 ->
  (forall v, In v vs -> orient2 o v q <> 0) ->
  (forall a b, In (a, b) (cyc_edges2 vs) -> orient2 a b q <> 0) ->
  xpar (half_cross2 q d) (cyc_edges2 vs) = xpar (in_tri2 q o) (cyc_edges2 vs).
Proof. exact half_parity_fan. Qed.
(** on a generic edge the half-open rule is the proper-crossing rule, and along a ray through vertices it has the parity of
    the proper crossings of any generic ray *)
Theorem C05_vertex_half_open_is_proper_on_generic_edges : forall q d a b : P2,
  hgt2 q d a <> 0 -> hgt2 q d b <> 0 -> half_cross2 q d a b = ray_cross2 q d a b.
Proof. exact half_cross2_generic. Qed.
Theorem C05_vertex_half_open_parity_is_generic_parity : forall (q d d2 o : P2) (vs : list P2),
  hgt2 q d o <> 0 -> hgt2 q d2 o <> 0 ->
  (forall v, In v vs -> hgt2 q d2 v <> 0 /\ orient2 o v q <> 0) ->
  (forall a b, In (a, b) (cyc_edges2 vs) -> orient2 a b q <> 0) ->
  xpar (half_cross2 q d) (cyc_edges2 vs) = xpar (ray_cross2 q d2) (cyc_edges2 vs).
Proof. exact half_parity_is_generic_parity. Qed.

(** ** assembled: the statements of [C05_test_point_fan_parity_partial], [C05_test_point_is_winding_parity_partial],
    [C05_test_point_is_membership_partial] with [edge_semigeneric] in place of [edge_generic] *)
Theorem C05_vertex_test_point_fan_parity : forall (L : Loop R) (q o e1 e2 : V3 R) (apex : P2),
  lclosed L = true -> (2 <= llen L)%nat ->
  let n := lnormal L in let d := test_ray L q in
  let pr := plane2 o e1 e2 in let q' := pr q in let d' := planev e1 e2 d in
  vis_zero n = false -> 0 < vdot n n -> n = vcross e1 e2 ->
  (forall a b, In (a, b) (cyc_edges (verts L)) -> seg_contains_point (seg_new a b) q = Ok false /\ edge_semigeneric n q d a b) ->
  hgt2 q' d' apex <> 0 ->
  (forall v, In v (verts L) -> orient2 apex (pr v) q' <> 0) ->
  (forall a b, In (a, b) (cyc_edges (verts L)) -> orient2 (pr a) (pr b) q' <> 0) ->
  loop_test_point L q = Ok (xpar (in_tri2 q' apex) (cyc_edges2 (map pr (verts L)))).
Proof. exact test_point_vertex_fan_parity. Qed.

Theorem C05_vertex_test_point_is_winding_parity : forall (L : Loop R) (q o e1 e2 : V3 R) (d2 : P2),
  lclosed L = true -> (2 <= llen L)%nat ->
  let n := lnormal L in let d := test_ray L q in
  let pr := plane2 o e1 e2 in let q' := pr q in
  vis_zero n = false -> 0 < vdot n n -> n = vcross e1 e2 ->
  (forall a b, In (a, b) (cyc_edges (verts L)) -> seg_contains_point (seg_new a b) q = Ok false /\ edge_semigeneric n q d a b) ->
  (forall a b, In (a, b) (cyc_edges (verts L)) -> orient2 (pr a) (pr b) q' <> 0) ->
  Winding.generic d2 q' (map pr (verts L)) ->
  loop_test_point L q = Ok (Z.odd (Winding.wn d2 (map pr (verts L)) q')).
Proof. exact test_point_vertex_wn_parity. Qed.

Theorem C05_vertex_test_point_is_membership : forall (L : Loop R) (q o e1 e2 : V3 R) (d2 : P2),
  lclosed L = true -> (2 <= llen L)%nat ->
  let n := lnormal L in let d := test_ray L q in
  let pr := plane2 o e1 e2 in let q' := pr q in
  vis_zero n = false -> 0 < vdot n n -> n = vcross e1 e2 ->
  (forall a b, In (a, b) (cyc_edges (verts L)) -> seg_contains_point (seg_new a b) q = Ok false /\ edge_semigeneric n q d a b) ->
  (forall a b, In (a, b) (cyc_edges (verts L)) -> orient2 (pr a) (pr b) q' <> 0) ->
  Winding.generic d2 q' (map pr (verts L)) ->
  (0 <= Winding.wn d2 (map pr (verts L)) q' <= 1)%Z ->
  (loop_test_point L q = Ok true <-> Winding.wn d2 (map pr (verts L)) q' = 1%Z).
Proof. exact test_point_vertex_is_membership. Qed.

(** a generic counting ray exists under the same hypotheses (so the two statements above are not vacuous in d2) *)
Theorem C05_vertex_generic_counting_ray_exists : forall (L : Loop R) (q o e1 e2 : V3 R),
  lclosed L = true -> (2 <= llen L)%nat ->
  let n := lnormal L in let d := test_ray L q in
  let pr := plane2 o e1 e2 in let q' := pr q in
  vis_zero n = false -> 0 < vdot n n -> n = vcross e1 e2 ->
  (forall a b, In (a, b) (cyc_edges (verts L)) -> seg_contains_point (seg_new a b) q = Ok false /\ edge_semigeneric n q d a b) ->
  (forall a b, In (a, b) (cyc_edges (verts L)) -> orient2 (pr a) (pr b) q' <> 0) ->
  exists d2, Winding.generic d2 q' (map pr (verts L)) /\ loop_test_point L q = Ok (Z.odd (Winding.wn d2 (map pr (verts L)) q')).
Proof. exact test_point_vertex_wn_parity_exists. Qed.

(** ** the sliver that [edge_semigeneric] excludes is really miscounted by the code (over the reals): a proper interior
    crossing ([crossb3] = true) with 0 < t_a < EPSILON, a strictly left and b strictly right of the ray, contributes 0 *)
Theorem C05_vertex_sliver_crossing_dropped : forall (L : Loop R) (q d a b : V3 R),
  let n := lnormal L in
  0 < vdot n n -> vis_zero n = false -> vdot n d = 0 ->
  seg_contains_point (seg_new a b) q = Ok false ->
  vdot n (vsub b a) = 0 -> vdot n (vsub a q) = 0 -> / 100000 <= vlen2 (vcross (vsub b a) d) ->
  0 < edge_param n q d a b < neps -> 0 < vdot n (vcross (vsub b a) d) ->
  crossb3 n q d a b = true ->
  edge_cross_count L q d (seg_new q (vadd q d)) a b = Ok (false, 0%nat).
Proof. exact sliver_edge_dropped. Qed.

(** ** non-vacuity (rational data): the rectangle [vrect] = (0,0,0) (6,0,0) (6,4,0) (0,4,0), normal (0,0,1), and
    [vq] = (9/2, 2, 0).  The cast segment is d = (600, 800, 0); it passes EXACTLY through the vertex (6,4,0) = vq + d / 400
    (end rule on the edge (6,0)-(6,4): not counted; start rule on the edge (6,4)-(0,4): counted).  Every hypothesis of the
    theorems above holds (plane coordinates (x,y), counting ray (1,0)), the hypothesis [edge_generic] of Properties/C05.v
    does NOT hold, the winding number is 1 and the answer is [true]. *)
Example C05_vertex_rectangle_hypotheses :
  lclosed vrect = true /\ (2 <= llen vrect)%nat /\ vis_zero (lnormal vrect) = false /\ 0 < vdot (lnormal vrect) (lnormal vrect) /\
  lnormal vrect = vcross ve1 ve2 /\
  (forall a b, In (a, b) (cyc_edges (verts vrect)) ->
     seg_contains_point (seg_new a b) vq = Ok false /\ edge_semigeneric (lnormal vrect) vq (test_ray vrect vq) a b) /\
  (forall a b, In (a, b) (cyc_edges (verts vrect)) -> orient2 (plane2 vo ve1 ve2 a) (plane2 vo ve1 ve2 b) (plane2 vo ve1 ve2 vq) <> 0) /\
  Winding.generic (1, 0) (plane2 vo ve1 ve2 vq) (map (plane2 vo ve1 ve2) (verts vrect)) /\
  test_ray vrect vq = mkV3 600 800 0 /\
  vadd vq (vscale (test_ray vrect vq) (/ 400)) = mkV3 6 4 0 /\
  ~ edge_generic (lnormal vrect) vq (test_ray vrect vq) (mkV3 6 0 0) (mkV3 6 4 0) /\
  Winding.wn (1, 0) (map (plane2 vo ve1 ve2) (verts vrect)) (plane2 vo ve1 ve2 vq) = 1%Z /\
  loop_test_point vrect vq = Ok true.
Proof.
  destruct vrect_gates as [G1 [G2 [G3 G4]]]. destruct vrect_planar as [P1 [P2 [P3 P4]]].
  split; [exact G1|]. split; [exact G2|]. split; [exact G3|]. split; [exact G4|]. split; [exact P1|].
  split; [exact vrect_edges|]. split; [exact P2|]. split; [exact P3|]. split; [exact test_ray_vrect|].
  split; [exact vrect_ray_through_vertex|]. split; [exact vrect_not_generic|]. split; [exact P4|].
  (* the answer through the winding-number theorem *)
  rewrite (C05_vertex_test_point_is_winding_parity vrect vq vo ve1 ve2 (1, 0) G1 G2 G3 G4 P1 vrect_edges P2 P3). rewrite P4. reflexivity.
Qed.

(** ** the same input on the binary64 instance of the model (the instance executed against the crate): the cast segment is
    (600, 800, 0) bit for bit, the intersection parameters of the two edges at (6,4,0) are exactly 1 and 0, the vertex rules
    fire, and the answer is [true] (reproduced on the real crate: g3harness replay C05, notes/c05_vertex_NOTES.md) *)
Local Open Scope float_scope.
Theorem C05_vertex_ray_through_vertex_binary64 :
  @loop_test_point float NumF fvrect (mkV3 4.5 2 0) = Ok true /\
  @loop_ray float NumF fvrect (mkV3 4.5 2 0) = mkV3 600 800 0.
Proof. exact fvrect_vertex_ray. Qed.
