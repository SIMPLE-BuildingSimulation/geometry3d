(** * C14 on the f32 build -- the float-tier theorems of Properties/C14.v at binary32, restated for what is EXECUTED.
    The f32 build is tied to [NumF32] (executed as [NumF32fast], proved equal): primitive binary64 floats holding binary32
    values, every operation rounded to binary32.  [C14_prim32_run_is_flocq_run]: on binary32-valued inputs ([is32B b],
    [is32R r], [is32V i]: every coordinate [x] satisfies [r32 x = x]) the executed run returns, answer AND path tag, what
    the Flocq binary32 run returns on the [to_b32]-images ([tB tR tV]); equivalently, on embedded binary32 inputs
    ([oB oR oV] = [of_b32] mapped) it is the Flocq run ([C14_prim32_embedded_run_is_flocq_run]).  This rests on
    [Theory/F32Bridge.v]: double rounding through binary64 is innocuous (Properties/C07_prim32.v).
    Thm 2 (the recorded classes of lost rays) and Thm 3 (completeness with the margin [1 + 2u], [u = 2^-24]; the
    counterpart of [C14_float_complete_binary32]) follow for the executed instance.  Statements only. *)
From Coq Require Import ZArith Reals Bool Floats.
From Flocq Require Import Core BinarySingleNaN.
From G3 Require Import Model.Num Model.NumF Model.NumF32 Model.Base Model.Vec Model.BBox Run.FastNum32.
From G3 Require Import Theory.PrimBridge Theory.F32Bridge Proofs.Bridge32_model.
From G3 Require Import Proofs.C14_real Proofs.C14_special Proofs.C14_float Proofs.C14_margin Proofs.Bridge_C14 Proofs.Bridge32_C14.
Local Open Scope R_scope.

(** ** the bridge *)
Theorem C14_prim32_run_is_flocq_run : forall (b : BBox prim) (r : Ray prim) (i : V3 prim),
  is32B b -> is32R r -> is32V i ->
  @bbox_intersect_tag _ NumF32 b r i = @bbox_intersect_tag _ NumB32 (tB b) (tR r) (tV i) /\
  @bbox_intersect _ NumF32 b r i = @bbox_intersect _ NumB32 (tB b) (tR r) (tV i).
Proof. exact (fun b r i Hb Hr Hi => conj (f32_bbox_intersect_tag_is32 b r i Hb Hr Hi) (f32_bbox_intersect_is32 b r i Hb Hr Hi)). Qed.

Theorem C14_prim32_embedded_run_is_flocq_run : forall (b : BBox b32) (r : Ray b32) (i : V3 b32),
  @bbox_intersect_tag _ NumF32 (oB b) (oR r) (oV i) = @bbox_intersect_tag _ NumB32 b r i /\
  @bbox_intersect _ NumF32 (oB b) (oR r) (oV i) = @bbox_intersect _ NumB32 b r i /\
  @bbox_intersect_tag _ NumF32fast (oB b) (oR r) (oV i) = @bbox_intersect_tag _ NumB32 b r i.
Proof.
  exact (fun b r i => conj (f32_bbox_intersect_tag b r i) (conj (f32_bbox_intersect b r i)
    (eq_ind_r (fun N => @bbox_intersect_tag _ N (oB b) (oR r) (oV i) = @bbox_intersect_tag _ NumB32 b r i)
       (f32_bbox_intersect_tag b r i) FastNum32Proof.NumF32fast_eq))).
Qed.

(** the corner normalisation of [BBox3D::new] and the caller's reciprocal direction [1.0 / d] commute as well *)
Theorem C14_prim32_box_and_reciprocal : forall (a c d : V3 b32),
  @bbox_new _ NumF32 (oV a) (oV c) = oB (@bbox_new _ NumB32 a c) /\
  @inv_dirN _ NumF32 (oV d) = oV (inv_dirB 24 128 Hprec24 Hmax128 d).
Proof. exact (fun a c d => conj (Bridge_model.hom_bbox_new of_b32 a c) (f32_inv_dir d)). Qed.

(** ** Thm 2 on the executed f32 instance: the two recorded classes of lost rays *)
Theorem C14_prim32_known_class_is_lost : forall (b : BBox prim) (r : Ray prim), is32B b -> is32R r ->
  fin3 24 128 (bmin (tB b)) -> fin3 24 128 (bmax (tB b)) -> fin3 24 128 (rorigin (tR r)) ->
  @known_x_slab_nanN _ NumF32 b r = true ->
  @bbox_intersect _ NumF32 b r (@inv_dirN _ NumF32 (rdir r)) = false.
Proof.
  exact (fun b r Hb Hr F1 F2 Fo Hk => eq_trans (f32_run_recip b r Hb Hr)
    (known_x_slab_nan_lost 24 128 Hprec24 Hmax128 (tB b) (tR r) format_ok_32 F1 F2 Fo (eq_trans (eq_sym (f32_known_x_slab_nanN_is32 b r Hb Hr)) Hk))).
Qed.

Theorem C14_prim32_neg_zero_face_loses_the_ray : forall (b : BBox prim) (r : Ray prim), is32B b -> is32R r ->
  fin3 24 128 (bmin (tB b)) -> fin3 24 128 (bmax (tB b)) -> fin3 24 128 (rorigin (tR r)) ->
  B2R (vy (bmin (tB b))) <= B2R (vy (bmax (tB b))) -> B2R (vz (bmin (tB b))) <= B2R (vz (bmax (tB b))) ->
  known_neg_zero_face 24 128 Hprec24 Hmax128 (tB b) (tR r) = true ->
  @bbox_intersect _ NumF32 b r (@inv_dirN _ NumF32 (rdir r)) = false.
Proof.
  exact (fun b r Hb Hr F1 F2 Fo Wy Wz Hk => eq_trans (f32_run_recip b r Hb Hr)
    (known_neg_zero_face_lost 24 128 Hprec24 Hmax128 (tB b) (tR r) format_ok_32 F1 F2 Fo Wy Wz Hk)).
Qed.

(** ** Thm 3 on the executed f32 instance: completeness with the relative margin [1 + 2u], [u = 2^-24], on the EXACT
    slab parameters of the real box and ray.  The format conditions are those of binary32 and are discharged. *)
Theorem C14_prim32_float_complete_margin : forall (b : BBox prim) (r : Ray prim) (i : V3 prim),
  is32B b -> is32R r -> is32V i ->
  side 24 128 Hprec24 Hmax128 (tB b) (tR r) (tV i) -> clear_by 24 2 (boxR 24 128 (tB b)) (rayR 24 128 (tR r)) ->
  @bbox_intersect _ NumF32 b r i = true.
Proof.
  exact (fun b r i Hb Hr Hi S C => eq_trans (f32_bbox_intersect_is32 b r i Hb Hr Hi)
    (float_complete_margin 24 128 Hprec24 Hmax128 (tB b) (tR r) (tV i) margin_format_32 S C)).
Qed.

Theorem C14_prim32_margin_side_conditions_checked : forall (b : BBox prim) (r : Ray prim), is32R r ->
  margin_okb 24 128 Hprec24 Hmax128 (tB b) (tR r) = true ->
  side 24 128 Hprec24 Hmax128 (tB b) (tR r) (tV (@inv_dirN _ NumF32 (rdir r))).
Proof.
  exact (fun b r Hr Hk => eq_ind_r (side 24 128 Hprec24 Hmax128 (tB b) (tR r)) (margin_okb_side 24 128 Hprec24 Hmax128 (tB b) (tR r) Hk) (f32_inv_dir_is32 (rdir r) (proj2 Hr))).
Qed.

(** [C14_float_complete_binary32] for what the f32 runner executes *)
Theorem C14_prim32_float_complete_binary32 : forall (b : BBox prim) (r : Ray prim), is32B b -> is32R r ->
  margin_okb 24 128 Hprec24 Hmax128 (tB b) (tR r) = true -> clear_by 24 2 (boxR 24 128 (tB b)) (rayR 24 128 (tR r)) ->
  @bbox_intersect _ NumF32 b r (@inv_dirN _ NumF32 (rdir r)) = true.
Proof.
  exact (fun b r Hb Hr Hk C => eq_trans (f32_run_recip b r Hb Hr) (float_complete_okb 24 128 Hprec24 Hmax128 (tB b) (tR r) margin_format_32 Hk C)).
Qed.

Theorem C14_prim32_float_complete_binary32_fast : forall (b : BBox prim) (r : Ray prim), is32B b -> is32R r ->
  margin_okb 24 128 Hprec24 Hmax128 (tB b) (tR r) = true -> clear_by 24 2 (boxR 24 128 (tB b)) (rayR 24 128 (tR r)) ->
  @bbox_intersect _ NumF32fast b r (@inv_dirN _ NumF32fast (rdir r)) = true.
Proof.
  exact (fun b r Hb Hr Hk C => eq_trans (f32fast_run_recip b r) (C14_prim32_float_complete_binary32 b r Hb Hr Hk C)).
Qed.

(** non-vacuity: unit cube, origin (-1, 1/4, 1/2), direction (3, 1/2, -1/4) as primitive floats (binary32-valued): the
    side conditions hold by evaluation, the exact parameters have the margin, and the executed run answers [true] *)
Example C14_prim32_margin_nonvacuous :
  (is32B m32_box /\ is32R m32_ray) /\
  margin_okb 24 128 Hprec24 Hmax128 (tB m32_box) (tR m32_ray) = true /\
  clear_by 24 2 (boxR 24 128 (tB m32_box)) (rayR 24 128 (tR m32_ray)) /\
  @bbox_intersect _ NumF32 m32_box m32_ray (@inv_dirN _ NumF32 (rdir m32_ray)) = true /\
  @bbox_intersect _ NumF32fast m32_box m32_ray (@inv_dirN _ NumF32fast (rdir m32_ray)) = true.
Proof. exact f32_margin_nonvacuous. Qed.
