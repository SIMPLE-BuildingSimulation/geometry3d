(** * C02, part pflat -- every reported ray hit is a true hit: triangle, plane, disk / annulus / sector
    (with the attached transform), distant source.  Exact tier (the model on the reals).  Statements only. *)
From Coq Require Import ZArith Reals List.
From G3 Require Import Model.Num Model.Base Model.Vec Model.BBox Model.Transform Model.Hit Model.Segment Model.Triangle
  Model.Plane Model.Disk Model.Distant Model.PinnedFlat
  Proofs.C06_transform Proofs.Flat_base Proofs.Flat_polar Proofs.Flat_triangle Proofs.Flat_disk Proofs.Flat_distant Proofs.Flat_examples.
Local Open Scope R_scope.

(** ** triangle (Moller-Trumbore, after fix 59c6847): the reported point is on the ray at a parameter t > 100 eps,
    it is the point v0 + u e1 + v e2 of the triangle's plane, and (u, v) is in the closed triangle *)
Theorem C02_flat_triangle_hit_is_true : forall (ray : Ray R) (v0 v1 v2 p : V) (u v : R),
  intersect_triangle ray v0 v1 v2 = Some (p, u, v) ->
  exists t, ctiny < t /\ p = ray_project ray t /\ p = tri_point v0 v1 v2 u v /\ 0 <= u /\ 0 <= v /\ u + v <= 1.
Proof. exact intersect_triangle_sound. Qed.
(** Triangle3D::intersect and ::simple_intersect (the latter through the identity transform's origin nudge) *)
Theorem C02_flat_triangle3d_intersect : forall (t : Tri R) (ray : Ray R) (i : Info R),
  tri_intersect t ray = Some i -> (exists tt, ctiny < tt /\ ip i = ray_project ray tt) /\ in_triangle t (ip i).
Proof. exact tri_intersect_sound. Qed.
Theorem C02_flat_triangle3d_simple_intersect : forall (t : Tri R) (ray : Ray R) (p : V),
  tri_simple_intersect t ray = Some p -> (exists tt, ctiny < tt /\ p = ray_project ray tt) /\ in_triangle t p.
Proof. exact tri_simple_intersect_sound. Qed.
(** the pinned code (before 59c6847) accepted the whole parallelogram: unit right triangle, ray through (0.9, 0.9) *)
Theorem C02_flat_triangle_pinned_refuted :
  exists (ray : Ray R) (v0 v1 v2 p : V) (u v : R), intersect_triangle_pinned ray v0 v1 v2 = Some (p, u, v) /\ 1 < u + v.
Proof. exact intersect_triangle_pinned_unsound. Qed.

(** ** plane: distance t > 0 (since fix fb7e7b9 the code rejects [t <= 0]; on the pinned tree the boundary t = 0 -- origin on the plane -- was reported,
    whereas the property text says "positive distance"), and the point is on the plane n.x = D *)
Theorem C02_flat_plane_hit_is_true : forall (pl : Plane R) (ray : Ray R) (t : R),
  plane_intersect pl ray = Some t ->
  0 < t /\ vdot (pl_normal pl) (ray_project ray t) = pl_d pl /\ neps <= Rabs (plane_den pl ray) /\ t = plane_t pl ray.
Proof. exact plane_intersect_sound. Qed.
(** Plane3D::new: unit normal; n.x = D is the plane through [point] perpendicular to [normal] *)
Theorem C02_flat_plane_new : forall point normal : V, vlen2 normal <> 0 ->
  let pl := plane_new point normal in
  vlen2 (pl_normal pl) = 1 /\ forall x : V, vdot (pl_normal pl) x = pl_d pl <-> vdot normal (vsub x point) = 0.
Proof. exact plane_new_spec. Qed.

(** ** disk / annulus / sector, local frame: on the ray at t > 0, in the disk's plane, r_in^2 <= |p-c|^2 <= r^2, and
    p = c + rho (cos phi . phi_zero + sin phi . (n x phi_zero)) with r_in <= rho <= r and 0 <= phi <= phi_max, phi < 2 pi *)
Theorem C02_flat_disk_hit_is_true : forall (d : Disk R) (ray : Ray R) (p : V) (phi : R), disk_wf d ->
  disk_basic_intersection d ray = Some (p, phi) ->
  (exists t, 0 < t /\ p = ray_project ray t) /\
  vdot (dk_normal d) (vsub p (dk_centre d)) = 0 /\
  dk_inner d * dk_inner d <= vlen2 (vsub p (dk_centre d)) <= dk_radius d * dk_radius d /\
  exists rho, dk_inner d <= rho <= dk_radius d /\ 0 <= phi <= dk_phi_max d /\ phi < 2 * PI /\ p = disk_point d rho phi.
Proof. exact disk_basic_sound_geo. Qed.
(** what the constructor arguments define: [disk_wf] (unit normal, unit phi_zero = the projection of the argument onto
    the plane, 0 <= inner < radius), phi_max in [0, 2 pi] *)
Theorem C02_flat_disk_constructor : forall (centre normal : V) (radius inner : R) (phi_zero : V) (phi_max : R) (tr : option T) (d : Disk R),
  vlen2 normal <> 0 -> vis_zero phi_zero = false ->
  disk_new_detailed centre normal radius inner phi_zero phi_max tr = Ok d ->
  disk_wf d /\ dk_centre d = centre /\ dk_normal d = vnormalize normal /\ dk_radius d = radius /\ dk_inner d = inner /\
  dk_transform d = tr /\ 0 <= dk_phi_max d <= 2 * PI /\
  exists s, 0 < s /\ dk_phi_zero d = vscale (vsub phi_zero (vscale (vnormalize normal) (vdot (vnormalize normal) phi_zero))) s.
Proof. exact disk_new_detailed_wf. Qed.
(** ** the wrapper intersect = transform o local o inv_transform_ray, with C06's invariant [Inv] on the attached transform:
    the world hit is the image T(p_local) of a point of the local disk -- i.e. it lies on the transformed surface --
    and on the world ray at a positive parameter (the local origin is the image of the world origin nudged forward) *)
Theorem C02_flat_disk_simple_intersect : forall (d : Disk R) (ray : Ray R) (pw : V), disk_wf d -> disk_tr_ok d ->
  disk_simple_intersect d ray = Some pw ->
  exists pl, pw = disk_to_world d pl /\ on_disk d pl /\ exists s, 0 < s /\ pw = ray_project ray s.
Proof. exact disk_simple_intersect_sound. Qed.
Theorem C02_flat_disk_intersect_transformed : forall (d : Disk R) (t : T) (ray : Ray R) (i : Info R),
  disk_wf d -> dk_transform d = Some t -> Inv t -> disk_intersect d ray = Some i ->
  exists pl, ip i = tr_pt t pl /\ on_disk d pl /\ exists s, 0 < s /\ ip i = ray_project ray s.
Proof. exact disk_intersect_tr_sound. Qed.
(** [on_disk] read geometrically *)
Theorem C02_flat_on_disk_polar : forall (d : Disk R) (p : V), disk_wf d -> on_disk d p ->
  exists rho, dk_inner d <= rho <= dk_radius d /\ 0 <= disk_phi d p < 2 * PI /\ disk_phi d p <= dk_phi_max d /\
    p = disk_point d rho (disk_phi d p).
Proof. exact on_disk_polar. Qed.

(** ** distant source: reported <=> cos(angle(d, direction)) >= cos(alpha/2), as the code implements it; the reported
    point is the point of the ray at parameter Float::MAX *)
Theorem C02_flat_distant_cone : forall (s : Distant R) (ray : Ray R) (p : V),
  distant_simple_intersect_local_ray s ray = Some p <->
  ds_cos_half_alpha s <= vdot (vnormalize (rdir ray)) (ds_direction s) /\ p = ray_project ray nmaxf.
Proof. exact distant_simple_local_iff. Qed.
Theorem C02_flat_distant_new_cone : forall (direction : V) (angle : R) (ray : Ray R),
  let s := distant_new direction angle in
  (exists p, distant_simple_intersect_local_ray s ray = Some p) <->
  cos (angle / 2) <= vdot (rdir ray) direction / (vlen (rdir ray) * vlen direction).
Proof. exact distant_new_cone. Qed.
Theorem C02_flat_distant_simple_intersect : forall (s : Distant R) (ray : Ray R) (p : V),
  distant_simple_intersect s ray = Some p ->
  ds_cos_half_alpha s <= vdot (vnormalize (rdir ray)) (ds_direction s) /\ exists t, nmaxf <= t /\ p = ray_project ray t.
Proof. exact distant_simple_spec. Qed.

(** ** non-vacuity *)
Example C02_flat_triangle_nonvacuous : exists p u v, intersect_triangle ex_ray_down (ta ex_tri) (tb ex_tri) (tc ex_tri) = Some (p, u, v).
Proof. exact ex_tri_nonvacuous. Qed.
Example C02_flat_triangle_simple_nonvacuous : exists (t : Tri R) (ray : Ray R) (p : V), tri_simple_intersect t ray = Some p.
Proof. exact ex_tri_simple_nonvacuous. Qed.
Example C02_flat_plane_nonvacuous : exists t, plane_intersect (plane_new (mkV3 0 0 0) (mkV3 0 0 2)) ex_ray_down = Some t.
Proof. exact ex_plane. Qed.
Example C02_flat_disk_nonvacuous : disk_wf ex_disk /\ exists p phi, disk_basic_intersection ex_disk ex_ray_down = Some (p, phi).
Proof. exact ex_disk_nonvacuous. Qed.
Example C02_flat_disk_transformed_nonvacuous : exists (d : Disk R) (t : T) (ray : Ray R) (pw : V),
  disk_wf d /\ dk_transform d = Some t /\ Inv t /\ rigid t /\ disk_simple_intersect d ray = Some pw /\ exists i, disk_intersect d ray = Some i.
Proof. exact ex_disk_tr_nonvacuous. Qed.
