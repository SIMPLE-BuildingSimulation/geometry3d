(** * C13, part pquadric -- surface data at a sphere / cylinder hit is coherent (exact tier, reals).
    Statements only, each closed by [exact].
    Forced hypothesis of the sphere statements = finding F8: [sphere_sin_theta s p <> 0], i.e. the hit is not at a
    pole; there the code divides by sin(theta) = 0.  [radial p] = (x, y, 0), half the gradient of x^2 + y^2. *)
From Coq Require Import ZArith Reals List Floats.
From G3 Require Import Model.Num Model.NumF Model.Base Model.Vec Model.BBox Model.RoundError Model.Transform Model.Hit Model.Sphere Model.Cylinder.
From G3 Require Import Proofs.C06_transform Proofs.Quadric_base Proofs.Quadric_sphere Proofs.Quadric_cylinder Proofs.Quadric_place Proofs.Quadric_hit.
Local Open Scope R_scope.

(** [get_side]: Front keeps the normal, Back negates it; the reported normal always faces the ray *)
Theorem C13_get_side_faces_the_ray : forall n d : V,
  (vdot n d < 0 -> get_side n d = (n, Front)) /\
  (0 < vdot n d -> get_side n d = (vscale n (- 1), Back)) /\
  (vdot n d <> 0 -> vdot (fst (get_side n d)) d < 0).
Proof. exact (fun n d => conj (Flat_base.get_side_front n d) (conj (get_side_back n d) (Flat_base.get_side_faces n d))). Qed.
(** the same surface point approached from the two sides: sides Front / Back, normals opposite *)
Theorem C13_get_side_flips : forall n d d' : V, vdot n d < 0 -> 0 < vdot n d' ->
  snd (get_side n d) = Front /\ snd (get_side n d') = Back /\ fst (get_side n d') = vscale (fst (get_side n d)) (- 1).
Proof. exact get_side_flips. Qed.

(** sphere: for a hit point p on the sphere, away from the poles, of a sphere with r, phi_max, delta_theta > 0:
    both tangents are orthogonal to the gradient (2p); coming from outside (p.d < 0) the side is Front and the
    normal is the outward unit normal p/r, from inside Back and -p/r; the reported normal faces the ray, has
    length 1 and is orthogonal to both tangents *)
Theorem C13_sphere_hit_data : forall (s : S) (p : V) (ray : Ray R) (phi : R),
  0 < sradius s -> on_sphere s p -> sphere_sin_theta s p <> 0 -> 0 < sphi_max s -> 0 < sdelta_theta s ->
  let i := sphere_info s ray p phi in
  let d := rdir ray in
  ip i = p /\ vdot (idpdu i) p = 0 /\ vdot (idpdv i) p = 0 /\
  (vdot p d < 0 -> iside i = Front /\ inormal i = vscale p (1 / sradius s)) /\
  (0 < vdot p d -> iside i = Back /\ inormal i = vscale (vscale p (1 / sradius s)) (- 1)) /\
  (vdot p d <> 0 -> vdot (inormal i) d < 0 /\ vlen2 (inormal i) = 1 /\
                     vdot (inormal i) (idpdu i) = 0 /\ vdot (inormal i) (idpdv i) = 0).
Proof. exact (fun s p ray phi H1 H2 H3 H4 H5 => sphere_info_data s p H1 H2 H3 H4 H5 ray phi). Qed.
(** the normal before [get_side] is the outward unit normal *)
Theorem C13_sphere_normal_is_outward : forall (s : S) (p : V),
  0 < sradius s -> on_sphere s p -> sphere_sin_theta s p <> 0 -> 0 < sphi_max s -> 0 < sdelta_theta s ->
  vnormalize (vcross (sphere_dpdv s p) (sphere_dpdu s p)) = vscale p (1 / sradius s).
Proof. exact sphere_normal_outward. Qed.
(** the excluded set is exactly the two poles: sin(theta), as the code computes it, vanishes iff x = y = 0 *)
Theorem C13_sphere_pole_is_where_sin_theta_vanishes : forall (s : S) (p : V), 0 < sradius s -> on_sphere s p ->
  (sphere_sin_theta s p = 0 <-> vx p = 0 /\ vy p = 0).
Proof. exact sph_sin_theta_zero_iff. Qed.

(** cylinder: tangents orthogonal to the gradient; the normal before [get_side] is radial and points INWARDS,
    -(x,y,0)/r: Front is reported for a ray travelling outwards (origin inside), Back for a ray from outside
    (the property lists the Front convention for spheres, disks and triangles only) *)
Theorem C13_cylinder_hit_data : forall (c : C) (p : V) (ray : Ray R) (phi : R),
  0 < cradius c -> on_cyl c p -> 0 < cphi_max c -> czmin c < czmax c ->
  let i := cyl_info c ray p phi in
  let d := rdir ray in
  ip i = p /\ vdot (idpdu i) (radial p) = 0 /\ vdot (idpdv i) (radial p) = 0 /\
  (0 < vdot (radial p) d -> iside i = Front /\ inormal i = vscale (radial p) (- (1 / cradius c))) /\
  (vdot (radial p) d < 0 -> iside i = Back /\ inormal i = vscale (radial p) (1 / cradius c)) /\
  (vdot (radial p) d <> 0 -> vdot (inormal i) d < 0 /\ vlen2 (inormal i) = 1 /\
                              vdot (inormal i) (idpdu i) = 0 /\ vdot (inormal i) (idpdv i) = 0).
Proof. exact (fun c p ray phi H1 H2 H3 H4 => cyl_info_data c p H1 H2 H3 H4 ray phi). Qed.
Theorem C13_cylinder_normal_is_inward_radial : forall (c : C) (p : V),
  0 < cradius c -> on_cyl c p -> 0 < cphi_max c -> czmin c < czmax c ->
  vnormalize (vcross (cyl_dpdv c p) (cyl_dpdu c p)) = vscale (radial p) (- (1 / cradius c)).
Proof. exact cyl_normal_inward. Qed.

(** hit data carried to world space by [IntersectionInfo::transform], with C06's [Inv t]: the world normal against the
    world ray direction equals the local normal against the local direction (so it still faces the ray), it stays
    perpendicular to the world tangents, the world tangents stay tangent to the transformed surface (whose gradient
    is the inverse-transpose image of the local gradient g), the side is kept, and for a rigid transform lengths are kept *)
Theorem C13_transformed_hit_data : forall (t : T) (i : Info R) (ray : Ray R) (g : V), Inv t ->
  let i' := info_transform i t in
  let dl := rdir (fst (fst (tr_inv_ray t ray))) in
  vdot (inormal i') (rdir ray) = vdot (inormal i) dl /\
  vdot (inormal i') (idpdu i') = vdot (inormal i) (idpdu i) /\
  vdot (inormal i') (idpdv i') = vdot (inormal i) (idpdv i) /\
  vdot (tr_normal t g) (idpdu i') = vdot g (idpdu i) /\ vdot (tr_normal t g) (idpdv i') = vdot g (idpdv i) /\
  iside i' = iside i /\ tr_inv_pt t (ip i') = ip i /\
  (rigid t -> vlen2 (inormal i') = vlen2 (inormal i)).
Proof. exact info_transform_coherent. Qed.
(** translations, rotations and their compositions are rigid *)
Theorem C13_rigid_transforms : forall (x y z deg : R) (a b : T),
  rigid (tr_translate x y z) /\ rigid (tr_rotate_x deg) /\ rigid (tr_rotate_y deg) /\ rigid (tr_rotate_z deg) /\
  (Inv a -> Inv b -> rigid a -> rigid b -> rigid (tr_mul_assign a b)).
Proof.
  exact (fun x y z deg a b => conj (Flat_base.rigid_translate x y z) (conj (Flat_base.rigid_rotate_x deg) (conj (Flat_base.rigid_rotate_y deg)
          (conj (Flat_base.rigid_rotate_z deg) (Flat_base.rigid_mul_assign a b))))).
Qed.

(** F8 on the executable (binary64) instance of the same model: the unit sphere and the ray down the z axis.
    The hit is (1e-5, 0, 1) (the pole fix-up moved x), sin(theta) = 0, [dpdv] = (inf, NaN, -0), the normalised cross
    product is NaN so [get_side] answers the zero vector and NonApplicable, and the [debug_assert!] of [get_side]
    fails (debug builds panic). *)
Theorem C13_sphere_pole_refuted :
  let s : Sphere float := mkSphere 1%float (-1)%float 1%float (2 * Fpi)%float Fpi 0%float None in
  let ray : Ray float := mkRay (mkV3 0 0 3)%float (mkV3 0 0 (-1))%float in
  match sphere_intersect s ray with
  | Some i => iside i = NonApplicable /\ PrimFloat.eqb (vlen (inormal i)) 0 = true /\
              PrimFloat.is_nan (vy (idpdv i)) = true /\ sphere_info_debug_ok s (ip i) = false
  | None => False
  end.
Proof. exact sphere_pole_witness. Qed.

(** non-vacuity: the unit sphere at (1,0,0), the unit cylinder at (1,0,1), a ray along -x *)
Example C13_quadric_nonvacuous :
  let s := mkSphere 1 (-1) 1 (2 * PI) PI 0 None in
  let c := mkCyl 1 0 2 (2 * PI) None in
  0 < sradius s /\ on_sphere s (mkV3 1 0 0) /\ sphere_sin_theta s (mkV3 1 0 0) <> 0 /\ 0 < sphi_max s /\ 0 < sdelta_theta s /\
  0 < cradius c /\ on_cyl c (mkV3 1 0 1) /\ 0 < cphi_max c /\ czmin c < czmax c.
Proof. exact hit_nonvacuous_proof. Qed.
