(** * C12, the region theorems -- merging the holes into one outline preserves the region
    (Polygon3D::get_closed_loop; proofs in Proofs/C12_region.v).

    For ANY number of holes, any vertex counts, either stored winding and any start vertex, over the reals, under
    the two decidable side conditions
    - [closed_loop_clean false P = true]  (general position: every push of the merge appended; Model/PolyAux.v),
    - [closed_loop_wf P = true]  (every stage of the merge attached a NEW hole at a position of the current outline -- the
      position is [attach_index] since fix bcb072e: the visit of the nearest outline vertex whose interior angle contains the
      bridge, [C12_region_attach_index_spec] / [C12_region_in_cone_orient]; the region identities hold for ANY position;
      implied by [closed_loop_hits P = true]: every stage's nearest-pair scan found a pair at squared distance below the
      value it starts from -- Float::MAX since fix f0d596d, so over the reals it holds for every polygon with non-empty loops
      and coordinates below 2^500 ([C12_region_bounded_coords_wf]); with the start value 9e14 of the pinned tree it did not:
      [C12_region_far_holes_pinned_refuted]),
    the merged outline [m] satisfies, with every hole taken "oriented like the outer outline"
    ([oriented n h] = the stored list when the stored normals have the same direction, its reverse otherwise):

        wn m q        = wn outer q        - sum_holes wn (oriented hole) q       (any ray, any query point, any plane frame)
        area2 m       = area2 outer       - sum_holes area2 (oriented hole)      (any plane frame)
        newell m      = newell outer      - sum_holes newell (oriented hole)     (the model's Newell vector)
        n . newell m / 2 = area outer - sum_holes area hole = polygon area       (loops in one plane, unit normal n)
        close(m) reports that area and the polygon's normal                      (when close keeps the vertex list)

    and every vertex of the outer loop and of every hole occurs in [m]. *)
From Coq Require Import ZArith Reals List Floats.
From G3 Require Import Model.Num Model.NumF Model.Base Model.Vec Model.Segment Model.Loop Model.Polygon Model.Json Model.PolyAux
  Theory.RInst Theory.LoopGeom Proofs.C12_merge Proofs.C12_region.
From G3 Require Theory.Winding Theory.Shoelace Proofs.C05_pointtest.
Import ListNotations.
Set Warnings "-inexact-float".

(** ** the fold: the merged outline is the replay of one splice per hole, each at a position of the CURRENT outline *)
Theorem C12_region_merged_is_trace : forall (K : Type) (NK : Num K) (P : Poly K),
  closed_loop_clean false P = true ->
  exists L tr, poly_get_closed_loop P = Ok L /\ closed_loop_trace P = Some tr /\
    verts L = apply_steps (lnormal (pouter P)) (verts (pouter P)) tr /\ length tr = length (pinner P) /\
    Forall (fun s => nth_error (pinner P) (ms_ml s) = Some (ms_hole s)) tr.
Proof. exact (fun K NK => @merged_is_trace K NK). Qed.

(** any functional of vertex lists that is additive over one splice and odd under reversal is additive over the whole merge *)
Theorem C12_region_fold : forall (K : Type) (NK : Num K) (G : Type) (gadd : G -> G -> G) (gopp : G -> G) (g0 : G),
  (forall x y, gadd x y = gadd y x) -> (forall x y z, gadd (gadd x y) z = gadd x (gadd y z)) -> (forall x, gadd x g0 = x) ->
  (forall x, gopp (gopp x) = x) -> (forall x y, gopp (gadd x y) = gadd (gopp x) (gopp y)) -> gopp g0 = g0 ->
  forall F : list (V3 K) -> G,
  (forall (evs hvs : list (V3 K)) (me id : nat) (sd : bool), me < length evs -> id < length hvs ->
     F (splice evs 0 me (walk_list false sd hvs id)) = gadd (F evs) (if sd then gopp (F hvs) else F hvs)) ->
  (forall l, F (rev l) = gopp (F l)) ->
  forall P : Poly K, closed_loop_clean false P = true -> closed_loop_wf P = true ->
  exists L, poly_get_closed_loop P = Ok L /\
    F (verts L) = gadd (F (verts (pouter P))) (gopp (gsum G gadd g0 (map (fun h => F (oriented (lnormal (pouter P)) h)) (pinner P)))).
Proof. exact (fun K NK => @F_merged K NK). Qed.

(** ** 1. winding number.  [pr] is ANY map of the vertices to the plane, in particular the coordinates
    [plane2 o e1 e2] in a frame of the polygon's plane (Proofs/C05_pointtest.v); [d] any ray direction, [q] any point
    (no genericity hypothesis is needed: the identity holds edge by edge, the two bridge edges cancel). *)
(** one hole: the hole is walked reversed exactly when the stored normals have the same direction *)
Theorem C12_region_winding_one_hole : forall (pr : V3 R -> Winding.P2) (d q : Winding.P2) (on : V3 R) (evs : list (V3 R)) (hole : Loop R) (me id : nat),
  me < length evs -> id < llen hole ->
  let sd := vis_same_direction on (lnormal hole) in
  Winding.wn d (map pr (splice evs 0 me (walk_list false sd (verts hole) id))) q =
  (Winding.wn d (map pr evs) q + Winding.wn d (map pr (if sd then rev (verts hole) else verts hole)) q)%Z /\
  Winding.wn d (map pr (splice evs 0 me (walk_list false sd (verts hole) id))) q =
  (Winding.wn d (map pr evs) q - Winding.wn d (map pr (oriented on hole)) q)%Z.
Proof. exact wn_one_hole. Qed.
(** all holes *)
Theorem C12_region_winding : forall (pr : V3 R -> Winding.P2) (P : Poly R) (d q : Winding.P2),
  closed_loop_clean false P = true -> closed_loop_wf P = true ->
  exists L, poly_get_closed_loop P = Ok L /\
    Winding.wn d (map pr (verts L)) q =
    (Winding.wn d (map pr (verts (pouter P))) q -
     zsum (map (fun h => Winding.wn d (map pr (oriented (lnormal (pouter P)) h)) q) (pinner P)))%Z.
Proof. exact wn_merged. Qed.

(** region membership: a point in no hole keeps the outline's winding number, a point in exactly one hole loses 1 *)
Theorem C12_region_winding_outside_holes : forall (pr : V3 R -> Winding.P2) (P : Poly R) (d q : Winding.P2),
  closed_loop_clean false P = true -> closed_loop_wf P = true ->
  (forall h, In h (pinner P) -> Winding.wn d (map pr (oriented (lnormal (pouter P)) h)) q = 0%Z) ->
  exists L, poly_get_closed_loop P = Ok L /\ Winding.wn d (map pr (verts L)) q = Winding.wn d (map pr (verts (pouter P))) q.
Proof. exact wn_merged_outside_holes. Qed.
Theorem C12_region_winding_inside_one_hole : forall (pr : V3 R -> Winding.P2) (P : Poly R) (d q : Winding.P2) (l1 l2 : list (Loop R)) (h : Loop R),
  closed_loop_clean false P = true -> closed_loop_wf P = true -> pinner P = l1 ++ h :: l2 ->
  Winding.wn d (map pr (oriented (lnormal (pouter P)) h)) q = 1%Z ->
  (forall h', In h' (l1 ++ l2) -> Winding.wn d (map pr (oriented (lnormal (pouter P)) h')) q = 0%Z) ->
  exists L, poly_get_closed_loop P = Ok L /\ Winding.wn d (map pr (verts L)) q = (Winding.wn d (map pr (verts (pouter P))) q - 1)%Z.
Proof. exact wn_merged_inside_one_hole. Qed.

(** ** 2. net area.  Planar shoelace area in any plane frame ... *)
Theorem C12_region_planar_area : forall (pr : V3 R -> Winding.P2) (P : Poly R),
  closed_loop_clean false P = true -> closed_loop_wf P = true ->
  exists L, poly_get_closed_loop P = Ok L /\
    Shoelace.area2 (map pr (verts L)) =
    (Shoelace.area2 (map pr (verts (pouter P))) - rsum (map (fun h => Shoelace.area2 (map pr (oriented (lnormal (pouter P)) h))) (pinner P)))%R.
Proof. exact area2_merged. Qed.
(** ... and the Newell vector the model computes in Loop3D::set_area *)
Theorem C12_region_newell_one_hole : forall (on : V3 R) (evs : list (V3 R)) (hole : Loop R) (me id : nat),
  me < length evs -> id < llen hole ->
  LoopGeom.newell (splice evs 0 me (walk_list false (vis_same_direction on (lnormal hole)) (verts hole) id)) =
  vadd (LoopGeom.newell evs) (vneg (LoopGeom.newell (oriented on hole))).
Proof. exact newell_one_hole. Qed.
Theorem C12_region_newell : forall P : Poly R,
  closed_loop_clean false P = true -> closed_loop_wf P = true ->
  exists L, poly_get_closed_loop P = Ok L /\
    LoopGeom.newell (verts L) =
    vadd (LoopGeom.newell (verts (pouter P))) (vneg (vsum (map (fun h => LoopGeom.newell (oriented (lnormal (pouter P)) h)) (pinner P)))).
Proof. exact newell_merged. Qed.

(** the loops in one plane with unit normal n ([planar_normals]: every hole's stored normal is n or -n), every loop's
    stored area being n_loop . S_loop / 2 ([signed_areas]; true of every loop closed by Loop3D::close, next theorem):
    the merged outline encloses  outer area - sum of the hole areas *)
Theorem C12_region_net_area : forall P : Poly R,
  let n := lnormal (pouter P) in
  closed_loop_clean false P = true -> closed_loop_wf P = true ->
  vdot n n = 1%R -> planar_normals P -> signed_areas P ->
  exists L, poly_get_closed_loop P = Ok L /\
    (vdot n (LoopGeom.newell (verts L)) / 2 = larea (pouter P) - rsum (map larea (pinner P)))%R.
Proof. exact net_area_merged. Qed.
Theorem C12_region_closed_loops_have_signed_area : forall L0 : Loop R, snd (loop_close L0) = Ok tt ->
  let L := fst (loop_close L0) in
  (larea L = vdot (lnormal L) (LoopGeom.newell (verts L)) / 2 /\ 0 <= vdot (lnormal L) (LoopGeom.newell (verts L)))%R.
Proof. exact closed_signed_area. Qed.
Theorem C12_region_same_direction_decisive : forall n : V3 R, vdot n n = 1%R ->
  vis_same_direction n n = true /\ vis_same_direction n (vneg n) = false.
Proof. exact same_dir_unit. Qed.
(** the polygon's own accounting (cut_hole: area' = area - hole.area) is that number *)
Theorem C12_region_polygon_accounting : forall (L : Loop R) (P0 : Poly R) (cands : list (Loop R)), poly_new L = Ok P0 ->
  let P := fst (poly_run P0 cands) in
  (parea P = larea (pouter P) - rsum (map larea (pinner P)))%R /\ pouter P = L /\ pnormal P = lnormal L.
Proof. exact built_polygon_accounts. Qed.
(** the closed merged loop reports the polygon's area and the polygon's normal.  Stated hypotheses on [close]: it
    succeeds, keeps the vertex list, and the merged loop's own normal (set by push from its first corner) is n or -n *)
Theorem C12_region_closed_area_normal : forall P : Poly R,
  let n := lnormal (pouter P) in
  closed_loop_clean false P = true -> closed_loop_wf P = true ->
  vdot n n = 1%R -> planar_normals P -> signed_areas P ->
  (parea P = larea (pouter P) - rsum (map larea (pinner P)))%R ->
  exists L, poly_get_closed_loop P = Ok L /\
    (snd (loop_close L) = Ok tt -> verts (fst (loop_close L)) = verts L -> (lnormal L = n \/ lnormal L = vneg n) ->
     (0 <= parea P)%R ->
     larea (fst (loop_close L)) = parea P /\ ((0 < parea P)%R -> lnormal (fst (loop_close L)) = n)).
Proof. exact merged_closed_area_normal. Qed.

(** the merged loop's own normal: for a polygon whose vertices all lie in the plane through o with unit normal n, a merged
    outline that can be closed has normal n or -n (it is the unit normal of its first corner) ... *)
Theorem C12_region_merged_normal_planar : forall (P : Poly R) (o : V3 R) (L : Loop R),
  let n := lnormal (pouter P) in
  closed_loop_clean false P = true -> vdot n n = 1%R -> (forall v, In v (poly_verts P) -> vdot n (vsub v o) = 0%R) ->
  poly_get_closed_loop P = Ok L -> snd (loop_close L) = Ok tt -> lnormal L = n \/ lnormal L = vneg n.
Proof. exact merged_normal_planar. Qed.
(** ... so that, for a planar polygon, the only hypotheses left on [close] are that it succeeds and keeps the vertex list *)
Theorem C12_region_closed_region : forall (P : Poly R) (o : V3 R),
  let n := lnormal (pouter P) in
  closed_loop_clean false P = true -> closed_loop_wf P = true ->
  vdot n n = 1%R -> (forall v, In v (poly_verts P) -> vdot n (vsub v o) = 0%R) -> planar_normals P -> signed_areas P ->
  (parea P = larea (pouter P) - rsum (map larea (pinner P)))%R ->
  exists L, poly_get_closed_loop P = Ok L /\
    (snd (loop_close L) = Ok tt -> verts (fst (loop_close L)) = verts L -> (0 <= parea P)%R ->
     larea (fst (loop_close L)) = parea P /\ ((0 < parea P)%R -> lnormal (fst (loop_close L)) = n)).
Proof. exact merged_closed_region. Qed.

(** ** 3. every vertex of the outer loop and of every hole occurs; no holes: nothing changes *)
Theorem C12_region_every_vertex : forall (K : Type) (NK : Num K) (P : Poly K),
  closed_loop_clean false P = true -> closed_loop_wf P = true ->
  exists L, poly_get_closed_loop P = Ok L /\
    (forall v, In v (verts (pouter P)) -> In v (verts L)) /\
    (forall h v, In h (pinner P) -> In v (verts h) -> In v (verts L)).
Proof. exact (fun K NK => @merged_has_every_vertex K NK). Qed.
(** ... and nothing else does: every vertex of the merged outline is a vertex of the outer loop or of a hole *)
Theorem C12_region_no_new_vertex : forall (K : Type) (NK : Num K) (P : Poly K),
  closed_loop_clean false P = true ->
  exists L, poly_get_closed_loop P = Ok L /\ forall v, In v (verts L) -> In v (poly_verts P).
Proof. exact (fun K NK => @merged_no_new_vertex K NK). Qed.
Theorem C12_region_no_holes : forall (pr : V3 R -> Winding.P2) (P : Poly R) (d q : Winding.P2), pinner P = [] ->
  exists L, poly_get_closed_loop P = Ok L /\ verts L = verts (pouter P) /\
    Winding.wn d (map pr (verts L)) q = Winding.wn d (map pr (verts (pouter P))) q /\
    Shoelace.area2 (map pr (verts L)) = Shoelace.area2 (map pr (verts (pouter P))) /\
    LoopGeom.newell (verts L) = LoopGeom.newell (verts (pouter P)).
Proof. exact no_holes_region_R. Qed.

(** ** the side condition [closed_loop_wf]: what the code's scan guarantees, and when it holds *)
(** a scan either changes nothing (no pair below the current minimum) or ends on an attachment position of the
    outline, an unprocessed hole of the polygon and a vertex position of that hole *)
Theorem C12_region_scan_cases : forall (K : Type) (NK : Num K) (hs : list (Loop K)) (processed : list nat) (evs : list (V3 K)) (j : nat) (st : Sst),
  scan_ext evs j hs processed st = st \/
  exists d j' k' l' h, scan_ext evs j hs processed st = (d, j', k', k', l') /\ j <= j' < j + length evs /\
    nth_error hs k' = Some h /\ l' < llen h /\ existsb (Nat.eqb k') processed = false.
Proof. exact (fun K NK => @scan_ext_cases K NK). Qed.
(** ** the attachment position (fix bcb072e).  It is the scan's position [me0], or a position of the outline that holds the same
    vertex (up to Point3D::compare, 1e-5 per coordinate) -- so the bridge still joins the nearest pair -- at which the cone test
    succeeds (only for polygons with several holes); it is a position of the outline whenever the scan's is *)
Theorem C12_region_attach_same_vertex : forall (K : Type) (NK : Num K) (P : Poly K) (vs : list (V3 K)) (me0 : nat) (hole : Loop K) (iv me : nat),
  attach_index false P vs me0 hole iv = Ok me -> vcompare (vnth vs me) (vnth vs me0) = true \/ me = me0.
Proof. exact (fun K NK => @attach_same_vertex K NK). Qed.
Theorem C12_region_attach_index_spec : forall (K : Type) (NK : Num K) (P : Poly K) (vs : list (V3 K)) (me0 : nat) (hole : Loop K) (iv me : nat),
  attach_index false P vs me0 hole iv = Ok me ->
  me = me0 \/
  (me < length vs /\ me0 < length vs /\ iv < llen hole /\ 1 < length (pinner P) /\
   vcompare (vnth vs me) (vnth vs me0) = true /\
   in_cone (lnormal (pouter P)) (vnth vs me0) (vnth vs (Nat.modulo (me + length vs - 1) (length vs)))
           (vnth vs (Nat.modulo (me + 1) (length vs))) (vnth (verts hole) iv) = true).
Proof. exact (fun K NK => @attach_index_cases K NK). Qed.
Theorem C12_region_attach_in_range : forall (K : Type) (NK : Num K) (P : Poly K) (vs : list (V3 K)) (me0 : nat) (hole : Loop K) (iv me : nat),
  attach_index false P vs me0 hole iv = Ok me -> me0 < length vs -> me < length vs.
Proof. exact (fun K NK => @attach_index_lt K NK). Qed.
(** the cone test in the 2-D coordinates of the plane (n = e1 x e2, p' = plane2 o e1 e2 p): the corner (prev, e, next) is convex or
    straight for n and the bridge direction e -> h is STRICTLY inside its interior angle (strictly left of e -> next, strictly right
    of e -> prev), or the corner is reflex and h is not in the closed exterior angle *)
Theorem C12_region_in_cone_orient : forall (o e1 e2 e prev next h : V3 R),
  let O := fun a b => Winding.orient (C05_pointtest.plane2 o e1 e2 e) (C05_pointtest.plane2 o e1 e2 a) (C05_pointtest.plane2 o e1 e2 b) in
  in_cone (vcross e1 e2) e prev next h = true <->
  ((0 <= O next prev /\ 0 < O next h /\ 0 < O h prev) \/ (O next prev < 0 /\ ~ (0 <= O prev h /\ 0 <= O h next)))%R.
Proof. exact in_cone_orient. Qed.

(** if every stage finds a pair at squared distance below the value the scan starts from (Float::MAX) the trace is well formed *)
Theorem C12_region_hits_wf : forall P : Poly R, closed_loop_hits P = true -> closed_loop_wf P = true.
Proof. exact hits_wf_R. Qed.
Theorem C12_region_hits_wf_any_instance : forall (K : Type) (NK : Num K), nltb (nmaxf : K) nmaxf = false ->
  forall P : Poly K, closed_loop_hits P = true -> closed_loop_wf P = true.
Proof. exact (fun K NK => @hits_wf K NK). Qed.
(** a sufficient condition: the outline and every hole have a vertex, and any two vertices of the polygon are at squared
    distance below Float::MAX (= 2^1024 on the real instance) ... *)
Theorem C12_region_within_reach_wf : forall P : Poly R,
  (verts (pouter P) <> [] /\ (forall h, In h (pinner P) -> verts h <> []) /\
   forall a b, In a (poly_verts P) -> In b (poly_verts P) -> (psqdist a b < IZR (2 ^ 1024))%R) ->
  closed_loop_hits P = true /\ closed_loop_wf P = true.
Proof. exact within_reach_wf. Qed.
(** ... in particular: every coordinate of every vertex at most 2^500 in absolute value *)
Theorem C12_region_bounded_coords_wf : forall P : Poly R,
  verts (pouter P) <> [] -> (forall h, In h (pinner P) -> verts h <> []) ->
  (forall v, In v (poly_verts P) -> (Rabs (vx v) <= IZR (2 ^ 500) /\ Rabs (vy v) <= IZR (2 ^ 500) /\ Rabs (vz v) <= IZR (2 ^ 500))%R) ->
  closed_loop_hits P = true /\ closed_loop_wf P = true.
Proof. exact bounded_coords_wf. Qed.

(** ** the defect repaired by fix f0d596d (binary64): the PINNED merge started its scans from 9e14, so a hole farther than 3e7
    from every vertex of the current outline was never chosen.  Square of side 1e8, hole 0 near the corner (1e8,1e8), hole 1 at the
    centre, both wound against the outline (forward walk: the wrapped index cast of the pinned tree is not exercised): a clean run,
    hole 0 merged twice, no vertex of hole 1 in the result, closed area off by more than 3e11 *)
Theorem C12_region_far_holes_pinned_refuted : exists (P : Poly float) (L : Loop float),
  far_witness = Ok P /\ pinner P = [far_hole0; far_hole1] /\
  map (fun h => vis_same_direction (lnormal (pouter P)) (lnormal h)) (pinner P) = [false; false] /\
  closed_loop_clean true P = true /\
  poly_get_closed_loop_gen true P = Ok L /\ llen L = 14 /\
  forallb (occurs_in (verts L)) (verts far_hole0) = true /\
  forallb (fun v => negb (occurs_in (verts L) v)) (verts far_hole1) = true /\
  snd (loop_close L) = Ok tt /\
  PrimFloat.ltb (larea (fst (loop_close L))) (parea P - 3e11)%float = true.
Proof. exact far_holes_pinned_refuted. Qed.
(** regression: the LIVE model on the same polygon -- both side conditions hold, the two stages merge holes 0 and 1, every
    vertex of both holes occurs, and the closed merged loop reports the polygon's area *)
Theorem C12_region_far_holes_now_merged : exists (P : Poly float) (L : Loop float),
  far_witness = Ok P /\
  closed_loop_clean false P = true /\ closed_loop_hits P = true /\ closed_loop_wf P = true /\
  option_map (map ms_ml) (closed_loop_trace P) = Some [0; 1] /\
  poly_get_closed_loop P = Ok L /\ llen L = 14 /\
  forallb (occurs_in (verts L)) (verts far_hole0) = true /\ forallb (occurs_in (verts L)) (verts far_hole1) = true /\
  snd (loop_close L) = Ok tt /\
  PrimFloat.leb (PrimFloat.abs (larea (fst (loop_close L)) - parea P)) (1e-12 * parea P)%float = true.
Proof. exact far_holes_now_merged. Qed.

(** ** non-vacuity (binary64): the unit square with two triangular holes, one wound like the outline, one against it.
    Both side conditions hold; the second hole is attached at position 4 of the CURRENT outline (a vertex that came
    from the first merge); here the visit chosen by [attach_index] is the scan's own position at both stages
    (entries (scan position, attachment position, hole, start)); the merged outline has 4 + (3+2) + (3+2) = 14 vertices and
    closes to the net area *)
Definition rg_mk (pts : list (V3 float)) : Loop float := fst (loop_run loop_new (map (fun p => LPush p) pts ++ [LClose])).
Definition rg_square := rg_mk [mkV3 0 0 0; mkV3 1 0 0; mkV3 1 1 0; mkV3 0 1 0]%float.
Definition rg_tri1 := rg_mk [mkV3 0.3 0.3 0; mkV3 0.6 0.3 0; mkV3 0.45 0.6 0]%float.
Definition rg_tri2 := rg_mk [mkV3 0.7 0.7 0; mkV3 0.7 0.9 0; mkV3 0.9 0.8 0]%float.
Definition rg_poly : res (Poly float) := do P0 <- poly_new rg_square; do P1 <- poly_cut_hole P0 rg_tri1; poly_cut_hole P1 rg_tri2.
Example C12_region_nonvacuous :
  match rg_poly with
  | Ok P => closed_loop_clean false P = true /\ closed_loop_hits P = true /\ closed_loop_wf P = true /\
            map (fun h => vis_same_direction (lnormal (pouter P)) (lnormal h)) (pinner P) = [true; false] /\
            option_map (map (fun s => (ms_me0 s, ms_me s, ms_ml s, ms_id s))) (closed_loop_trace P) = Some [(2, 2, 1, 2); (4, 4, 0, 2)] /\
            match poly_get_closed_loop P with
            | Ok L => llen L = 14 /\ snd (loop_close L) = Ok tt /\
                      PrimFloat.ltb (PrimFloat.abs (larea (fst (loop_close L)) - parea P)) 1e-12 = true
            | _ => False end
  | _ => False
  end.
Proof. vm_compute. repeat split; reflexivity. Qed.

(** ... and a polygon on which the chosen visit DIFFERS from the scan's position (binary64): square of side 10, two small
    triangular holes both nearest to the corner (0,0), hole 0 in direction ~80 degrees at distance 2, hole 1 in direction ~10 degrees
    at distance 2.4.  Stage 1 attaches hole 0 at position 0; the outline is then (0,0) h h h h (0,0) (10,0) (10,10) (0,10) and visits
    (0,0) at positions 0 and 5.  Stage 2: the scan returns position 0, whose interior angle is (80, 90) degrees; the bridge to hole 1
    (10 degrees) lies in the angle (0, 80) of the visit at position 5, which [attach_index] chooses.  Side conditions hold, 14
    vertices, closes to the net area. *)
Definition rg_square10 := rg_mk [mkV3 0 0 0; mkV3 10 0 0; mkV3 10 10 0; mkV3 0 10 0]%float.
Definition rg_tri80 := rg_mk [mkV3 0.35 1.97 0; mkV3 0.6 2.15 0; mkV3 0.3 2.3 0]%float.
Definition rg_tri10 := rg_mk [mkV3 2.36 0.42 0; mkV3 2.6 0.4 0; mkV3 2.5 0.65 0]%float.
Definition rg_poly2 : res (Poly float) := do P0 <- poly_new rg_square10; do P1 <- poly_cut_hole P0 rg_tri80; poly_cut_hole P1 rg_tri10.
Example C12_region_visit_differs :
  match rg_poly2 with
  | Ok P => closed_loop_clean false P = true /\ closed_loop_hits P = true /\ closed_loop_wf P = true /\
            option_map (map (fun s => (ms_me0 s, ms_me s, ms_ml s, ms_id s))) (closed_loop_trace P) = Some [(0, 0, 0, 0); (0, 5, 1, 0)] /\
            match poly_get_closed_loop P with
            | Ok L => llen L = 14 /\ snd (loop_close L) = Ok tt /\
                      PrimFloat.ltb (PrimFloat.abs (larea (fst (loop_close L)) - parea P)) 1e-12 = true
            | _ => False end
  | _ => False
  end.
Proof. vm_compute. repeat split; reflexivity. Qed.
