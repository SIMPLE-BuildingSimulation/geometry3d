(** * C16 on the f32 build -- (S) and (M) of Properties/C16.v at binary32, restated for what is EXECUTED.
    [NumF32] (= [NumF32fast]): primitive binary64 floats holding binary32 values, every operation rounded to binary32.
    [C16_prim32_run_is_flocq_run]: on binary32-valued inputs ([is32M m]: [of_b32 (to_b32 x) = x] for the 16 entries;
    [is32V v]) the four [*_with_error] / [*_propagate_error] functions return, value AND reported error, what the Flocq
    binary32 run returns on the [to_b32]-images ([tM tV]); on embedded binary32 inputs the executed result IS the embedded
    Flocq result ([C16_prim32_embedded_run_is_flocq_run], [C16_prim32_blocks_are_flocq_blocks],
    [C16_prim32_rays_are_flocq_rays]).  Rests on Theory/F32Bridge.v (double rounding innocuous, Properties/C07_prim32.v).
    (S) / (M) below are [C16_S_*] / [C16_M_*] at (24,128) ([u = 2^-24], [Hp8] discharged) read through it.  Statements only. *)
From Coq Require Import ZArith Reals Bool Floats.
From Flocq Require Import Core BinarySingleNaN.
From G3 Require Import Model.Num Model.NumF Model.NumF32 Model.Base Model.Vec Model.BBox Model.Transform Run.FastNum32.
From G3 Require Import Theory.PrimBridge Theory.F32Bridge Proofs.Bridge_model Proofs.Bridge32_model.
From G3 Require Import Proofs.C06_transform Proofs.C16_errbound Proofs.C16_ray Proofs.Bridge32_C16.
Local Open Scope R_scope.

(** ** the bridge *)
Theorem C16_prim32_run_is_flocq_run : forall (m : M4 prim) (p e : V3 prim), is32M m -> is32V p -> is32V e ->
  mapP tV tV (@pt_with_error _ NumF32 m p) = @pt_with_error _ NumB32 (tM m) (tV p) /\
  mapP tV tV (@vec_with_error _ NumF32 m p) = @vec_with_error _ NumB32 (tM m) (tV p) /\
  mapP tV tV (@pt_propagate_error _ NumF32 m p e) = @pt_propagate_error _ NumB32 (tM m) (tV p) (tV e) /\
  mapP tV tV (@vec_propagate_error _ NumF32 m p e) = @vec_propagate_error _ NumB32 (tM m) (tV p) (tV e).
Proof.
  exact (fun m p e Hm Hp He => conj (f32_pt_with_error_is32 m p Hm Hp) (conj (f32_vec_with_error_is32 m p Hm Hp)
    (conj (f32_pt_propagate_error_is32 m p e Hm Hp He) (f32_vec_propagate_error_is32 m p e Hm Hp He)))).
Qed.

Theorem C16_prim32_embedded_run_is_flocq_run : forall (m : M4 b32) (p e : V3 b32),
  @pt_with_error _ NumF32 (oM m) (oV p) = mapP oV oV (@pt_with_error _ NumB32 m p) /\
  @vec_with_error _ NumF32 (oM m) (oV p) = mapP oV oV (@vec_with_error _ NumB32 m p) /\
  @pt_propagate_error _ NumF32 (oM m) (oV p) (oV e) = mapP oV oV (@pt_propagate_error _ NumB32 m p e) /\
  @vec_propagate_error _ NumF32 (oM m) (oV p) (oV e) = mapP oV oV (@vec_propagate_error _ NumB32 m p e).
Proof.
  exact (fun m p e => conj (hom_pt_with_error of_b32 m p) (conj (hom_vec_with_error of_b32 m p)
         (conj (hom_pt_propagate_error of_b32 m p e) (hom_vec_propagate_error of_b32 m p e)))).
Qed.

Theorem C16_prim32_blocks_are_flocq_blocks : forall (m a : M4 b32) (p : V3 b32) (x y z : b32) (b : BBox b32),
  @mul4x4point _ NumF32 (oM m) (oV p) = oV (@mul4x4point _ NumB32 m p) /\
  @mul4x4vec _ NumF32 (oM m) (oV p) = oV (@mul4x4vec _ NumB32 m p) /\
  @mul4x4_abs _ NumF32 (oM m) (of_b32 x) (of_b32 y) (of_b32 z) = oV (@mul4x4_abs _ NumB32 m x y z) /\
  @mul3x3_abs _ NumF32 (oM m) (of_b32 x) (of_b32 y) (of_b32 z) = oV (@mul3x3_abs _ NumB32 m x y z) /\
  @mul4x4 _ NumF32 (oM m) (oM a) = oM (@mul4x4 _ NumB32 m a) /\
  @bbox_by _ NumF32 (oM m) (oB b) = oB (@bbox_by _ NumB32 m b).
Proof.
  exact (fun m a p x y z b => conj (hom_mul4x4point of_b32 m p) (conj (hom_mul4x4vec of_b32 m p)
         (conj (hom_mul4x4_abs of_b32 m x y z) (conj (hom_mul3x3_abs of_b32 m x y z)
         (conj (hom_mul4x4 of_b32 m a) (hom_bbox_by of_b32 m b)))))).
Qed.

Theorem C16_prim32_rays_are_flocq_rays : forall (m : M4 b32) (r : Ray b32) (oe de : V3 b32),
  @ray_by _ NumF32 (oM m) (oR r) = mapRayRes of_b32 (@ray_by _ NumB32 m r) /\
  @ray_propagate_by _ NumF32 (oM m) (oR r) (oV oe) (oV de) = mapRayRes of_b32 (@ray_propagate_by _ NumB32 m r oe de) /\
  @nudge _ NumF32 (oV (rorigin r)) (oV (rdir r)) (oV oe) = oV (@nudge _ NumB32 (rorigin r) (rdir r) oe).
Proof.
  exact (fun m r oe de => conj (hom_ray_by of_b32 m r) (conj (hom_ray_propagate_by of_b32 m r oe de)
         (hom_nudge of_b32 (rorigin r) (rdir r) oe))).
Qed.

(** ** (S) on the executed f32 instance *)
Theorem C16_prim32_S_vec : forall (m : M4 prim) (v : V3 prim), is32M m -> is32V v ->
  let re := @vec_with_error _ NumF32 m v in
  fin3 24 128 (tV (snd re)) -> safe_prods 24 128 (B2M 24 128 (tM m)) (B2V 24 128 (tV v)) ->
  fin3 24 128 (tV (fst re)) /\
  within 1 (B2V 24 128 (tV (fst re))) (img_vec (B2M 24 128 (tM m)) (B2V 24 128 (tV v))) (B2V 24 128 (tV (snd re))).
Proof. exact (fun m v Hm Hv => Bridge_C16.read_S_vec 24 128 Hprec24 Hmax128 Hp8_24 to_b32 m v (f32_vec_with_error_is32 m v Hm Hv)). Qed.

Theorem C16_prim32_S_point : forall (m : M4 prim) (p : V3 prim), is32M m -> is32V p ->
  let re := @pt_with_error _ NumF32 m p in
  affine_last 24 128 (tM m) -> fin3 24 128 (tV (snd re)) -> safe_prods 24 128 (B2M 24 128 (tM m)) (B2V 24 128 (tV p)) ->
  fin3 24 128 (tV (fst re)) /\
  within 1 (B2V 24 128 (tV (fst re))) (img_pt (B2M 24 128 (tM m)) (B2V 24 128 (tV p))) (B2V 24 128 (tV (snd re))).
Proof. exact (fun m p Hm Hp => Bridge_C16.read_S_pt 24 128 Hprec24 Hmax128 Hp8_24 to_b32 m p (f32_pt_with_error_is32 m p Hm Hp)). Qed.

Theorem C16_prim32_S_vec_box_partial : forall (m : M4 prim) (v e : V3 prim), is32M m -> is32V v -> is32V e ->
  let re := @vec_propagate_error _ NumF32 m v e in
  fin3 24 128 (tV (snd re)) -> safe_prods 24 128 (B2M 24 128 (tM m)) (B2V 24 128 (tV v)) ->
  safe_prods 24 128 (B2M 24 128 (tM m)) (B2V 24 128 (tV e)) ->
  fin3 24 128 (tV (fst re)) /\
  forall x' : V3 R, inbox (B2V 24 128 (tV v)) (B2V 24 128 (tV e)) x' ->
    within (1 + 4 * uro 24) (B2V 24 128 (tV (fst re))) (img_vec (B2M 24 128 (tM m)) x') (B2V 24 128 (tV (snd re))).
Proof. exact (fun m v e Hm Hv He => Bridge_C16.read_S_vec_box 24 128 Hprec24 Hmax128 Hp8_24 to_b32 m v e (f32_vec_propagate_error_is32 m v e Hm Hv He)). Qed.

Theorem C16_prim32_S_point_box_partial : forall (m : M4 prim) (p e : V3 prim), is32M m -> is32V p -> is32V e ->
  let re := @pt_propagate_error _ NumF32 m p e in
  affine_last 24 128 (tM m) -> fin3 24 128 (tV (snd re)) ->
  safe_prods 24 128 (B2M 24 128 (tM m)) (B2V 24 128 (tV p)) -> safe_prods 24 128 (B2M 24 128 (tM m)) (B2V 24 128 (tV e)) ->
  fin3 24 128 (tV (fst re)) /\
  forall x' : V3 R, inbox (B2V 24 128 (tV p)) (B2V 24 128 (tV e)) x' ->
    within (1 + 4 * uro 24) (B2V 24 128 (tV (fst re))) (img_pt (B2M 24 128 (tM m)) x') (B2V 24 128 (tV (snd re))).
Proof. exact (fun m p e Hm Hp He => Bridge_C16.read_S_pt_box 24 128 Hprec24 Hmax128 Hp8_24 to_b32 m p e (f32_pt_propagate_error_is32 m p e Hm Hp He)). Qed.

(** ** (M) on the executed f32 instance *)
Theorem C16_prim32_M_with_error : forall (m : M4 prim) (p : V3 prim), is32M m -> is32V p ->
  safe_prods 24 128 (B2M 24 128 (tM m)) (B2V 24 128 (tV p)) -> safe_trans 24 128 (B2M 24 128 (tM m)) ->
  fin3 24 128 (tV (snd (@pt_with_error _ NumF32 m p))) ->
  vle (B2V 24 128 (tV (snd (@pt_with_error _ NumF32 m p))))
      (vscaleR 2 (first_order (gamma3 24) (B2M 24 128 (tM m)) (B2V 24 128 (tV p)) V0)).
Proof. exact (fun m p Hm Hp => Bridge_C16.read_M_with_error 24 128 Hprec24 Hmax128 Hp8_24 to_b32 m p (f32_pt_with_error_is32 m p Hm Hp)). Qed.

Theorem C16_prim32_M_vec_with_error : forall (m : M4 prim) (v : V3 prim), is32M m -> is32V v ->
  safe_prods 24 128 (B2M 24 128 (tM m)) (B2V 24 128 (tV v)) -> fin3 24 128 (tV (snd (@vec_with_error _ NumF32 m v))) ->
  vle (B2V 24 128 (tV (snd (@vec_with_error _ NumF32 m v))))
      (vscaleR 2 (vscaleR (gamma3 24) (abs_img (B2M 24 128 (tM m)) (B2V 24 128 (tV v))))).
Proof. exact (fun m v Hm Hv => Bridge_C16.read_M_vec_with_error 24 128 Hprec24 Hmax128 Hp8_24 to_b32 m v (f32_vec_with_error_is32 m v Hm Hv)). Qed.

Theorem C16_prim32_M_propagate : forall (m : M4 prim) (p e : V3 prim), is32M m -> is32V p -> is32V e ->
  safe_prods 24 128 (B2M 24 128 (tM m)) (B2V 24 128 (tV p)) -> safe_prods 24 128 (B2M 24 128 (tM m)) (B2V 24 128 (tV e)) ->
  safe_trans 24 128 (B2M 24 128 (tM m)) ->
  fin3 24 128 (tV (snd (@pt_propagate_error _ NumF32 m p e))) ->
  vle (B2V 24 128 (tV (snd (@pt_propagate_error _ NumF32 m p e))))
      (vscaleR 2 (first_order (gamma3 24) (B2M 24 128 (tM m)) (B2V 24 128 (tV p)) (B2V 24 128 (tV e)))).
Proof. exact (fun m p e Hm Hp He => Bridge_C16.read_M_propagate 24 128 Hprec24 Hmax128 Hp8_24 to_b32 m p e (f32_pt_propagate_error_is32 m p e Hm Hp He)). Qed.

Theorem C16_prim32_M_vec_propagate : forall (m : M4 prim) (v e : V3 prim), is32M m -> is32V v -> is32V e ->
  safe_prods 24 128 (B2M 24 128 (tM m)) (B2V 24 128 (tV v)) -> safe_prods 24 128 (B2M 24 128 (tM m)) (B2V 24 128 (tV e)) ->
  fin3 24 128 (tV (snd (@vec_propagate_error _ NumF32 m v e))) ->
  vle (B2V 24 128 (tV (snd (@vec_propagate_error _ NumF32 m v e))))
      (vscaleR 2 (first_order_vec (gamma3 24) (B2M 24 128 (tM m)) (B2V 24 128 (tV v)) (B2V 24 128 (tV e)))).
Proof. exact (fun m v e Hm Hv He => Bridge_C16.read_M_vec_propagate 24 128 Hprec24 Hmax128 Hp8_24 to_b32 m v e (f32_vec_propagate_error_is32 m v e Hm Hv He)). Qed.

(** non-vacuity of the guards on the executed instance: scale (2,3,1) then translate (1,-2,4), point (1,2,3), box 1/2:
    inputs binary32-valued, all four reported errors finite; the fast instance returns the same *)
Example C16_prim32_nonvacuous :
  is32M w32_m /\ is32V w32_p /\ is32V w32_e /\
  fin3 24 128 (tV (snd (@pt_with_error _ NumF32 w32_m w32_p))) /\ fin3 24 128 (tV (snd (@vec_with_error _ NumF32 w32_m w32_p))) /\
  fin3 24 128 (tV (snd (@pt_propagate_error _ NumF32 w32_m w32_p w32_e))) /\
  fin3 24 128 (tV (snd (@vec_propagate_error _ NumF32 w32_m w32_p w32_e))) /\
  @pt_with_error _ NumF32fast w32_m w32_p = @pt_with_error _ NumF32 w32_m w32_p.
Proof. exact f32_C16_nonvacuous. Qed.
