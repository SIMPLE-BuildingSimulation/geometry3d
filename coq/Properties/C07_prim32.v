(** * C07 (and every float-tier property) on the f32 build: the EXECUTED binary32 instance IS IEEE binary32.
    The f32 build of the crate (`--features float`) is tied to the model instance [NumF32] (Model/NumF32.v; executed as
    [NumF32fast], proved equal in Run/FastNum32Proof.v): primitive binary64 floats that hold binary32 values, every
    arithmetic operation being the binary64 operation followed by the rounding [r32] to binary32.  The float-tier
    theorems are about Flocq's [NumB32 = NumB 24 128].  This file states the link, PROVED in Theory/F32Bridge.v:
    - double rounding through binary64 is innocuous for + - * / sqrt on binary32 values, special values included
      (NaN, infinities, signed zeros, overflow to infinity, binary32 subnormals, x/0, sqrt of negatives):
      [C07_prim32_double_rounding_innocuous] (bit level), [C07_prim32_double_rounding_real] (the real-number content,
      Flocq.Prop.Double_rounding at (24,-149) inside (53,-1074): 53 >= 2*24+2);
    - [of_b32 : b32 -> float] is a TOTAL homomorphism [NumB32 -> NumF32] for every non-libm member of [Num]
      ([C07_prim32_of_b32_is_a_homomorphism]; also into [NumF32fast]), with left inverse [to_b32], image = the
      binary32-valued floats [is32], closed under every operation ([C07_prim32_closure]);
    - [to_b32] commutes with every non-libm member on binary32-valued floats ([C07_prim32_members]);
    - the interval operators of [ApproxFloat] on the f32 instance are the Flocq binary32 run ([C07_prim32_run_is_flocq_run]),
      so each theorem [C07_op] of Properties/C07.v (instance (24,128)) applies to the executed f32 intervals.
    Axioms: the primitive float / integer specifications, the classical reals.  Statements only. *)
From Coq Require Import ZArith Reals Floats.
From Flocq Require Import Core BinarySingleNaN.
From G3 Require Import Model.Num Model.NumF Model.NumF32 Model.Base Model.RoundError Run.FastNum32.
From G3 Require Import Theory.PrimBridge Theory.F32Bridge Proofs.Bridge_interval Proofs.Bridge32_model.

(** double rounding through binary64 is innocuous for + - * / sqrt (what the header of Model/NumF32.v relies on) *)
Theorem C07_prim32_double_rounding_innocuous : forall x y : prim, is32 x -> is32 y ->
  to_b32 (r32 (x + y)%float) = @nadd _ NumB32 (to_b32 x) (to_b32 y) /\
  to_b32 (r32 (x - y)%float) = @nsub _ NumB32 (to_b32 x) (to_b32 y) /\
  to_b32 (r32 (x * y)%float) = @nmul _ NumB32 (to_b32 x) (to_b32 y) /\
  to_b32 (r32 (x / y)%float) = @ndiv _ NumB32 (to_b32 x) (to_b32 y) /\
  to_b32 (r32 (PrimFloat.sqrt x)) = @nsqrt _ NumB32 (to_b32 x).
Proof. exact double_rounding_innocuous. Qed.

Theorem C07_prim32_double_rounding_real : forall a b : b32,
  let r32R := round radix2 (FLT_exp (-149) 24) ZnearestE in let r64R := round radix2 (FLT_exp (-1074) 53) ZnearestE in
  r32R (r64R (B2R a + B2R b)) = r32R (B2R a + B2R b) /\
  r32R (r64R (B2R a - B2R b)) = r32R (B2R a - B2R b) /\
  r32R (r64R (B2R a * B2R b)) = r32R (B2R a * B2R b) /\
  (B2R b <> 0%R -> r32R (r64R (B2R a / B2R b)) = r32R (B2R a / B2R b)) /\
  r32R (r64R (R_sqrt.sqrt (B2R a))) = r32R (R_sqrt.sqrt (B2R a)).
Proof. exact double_rounding_real. Qed.

(** the embedding of binary32 into the executed instance commutes with everything (no side condition) *)
Theorem C07_prim32_of_b32_is_a_homomorphism :
  NumHom NumB32 NumF32 of_b32 /\ NumHom NumB32 NumF32fast of_b32 /\ NumF32fast = NumF32 /\
  (forall b : b32, to_b32 (of_b32 b) = b) /\ (forall x : prim, is32 x <-> exists b : b32, x = of_b32 b).
Proof. exact (conj of_b32_hom (conj of_b32_hom_fast (conj FastNum32Proof.NumF32fast_eq (conj to_b32_of_b32 is32_iff)))). Qed.

(** every operation of the executed instance returns a binary32-valued float *)
Theorem C07_prim32_closure : forall x y : prim,
  is32 (@nadd _ NumF32 x y) /\ is32 (@nsub _ NumF32 x y) /\ is32 (@nmul _ NumF32 x y) /\ is32 (@ndiv _ NumF32 x y) /\
  is32 (@nsqrt _ NumF32 x) /\ (is32 x -> is32 (@nneg _ NumF32 x)) /\ (is32 x -> is32 (@nabs _ NumF32 x)) /\
  is32 (@nnext_up _ NumF32 x) /\ is32 (@nnext_dn _ NumF32 x) /\ (forall z, is32 (@nofZ _ NumF32 z)) /\
  is32 (@neps _ NumF32) /\ is32 (@nmaxf _ NumF32) /\ is32 (@ninf _ NumF32) /\
  is32 (@nsin _ NumF32 x) /\ is32 (@ncos _ NumF32 x) /\ is32 (@ntan _ NumF32 x) /\ is32 (@nacos _ NumF32 x) /\
  is32 (@natan2 _ NumF32 y x) /\ is32 (@npi _ NumF32).
Proof.
  exact (fun x y => conj (is32_nadd x y) (conj (is32_nsub x y) (conj (is32_nmul x y) (conj (is32_ndiv x y) (conj (is32_nsqrt x)
    (conj (is32_nneg x) (conj (is32_nabs x) (conj (is32_nnext_up x) (conj (is32_nnext_dn x) (conj is32_nofZ (conj is32_neps
    (conj is32_nmaxf (conj is32_ninf (conj (is32_nsin x) (conj (is32_ncos x) (conj (is32_ntan x) (conj (is32_nacos x)
    (conj (is32_natan2 y x) is32_npi)))))))))))))))))).
Qed.

(** [to_b32] on the remaining members: exact operations, comparisons, next_up/down, literals, constants *)
Theorem C07_prim32_members : forall x y : prim, is32 x -> is32 y ->
  (to_b32 (@nneg _ NumF32 x) = @nneg _ NumB32 (to_b32 x) /\ to_b32 (@nabs _ NumF32 x) = @nabs _ NumB32 (to_b32 x)) /\
  (@nltb _ NumF32 x y = @nltb _ NumB32 (to_b32 x) (to_b32 y) /\ @nleb _ NumF32 x y = @nleb _ NumB32 (to_b32 x) (to_b32 y) /\
   @neqb _ NumF32 x y = @neqb _ NumB32 (to_b32 x) (to_b32 y) /\ @nis_nan _ NumF32 x = @nis_nan _ NumB32 (to_b32 x)) /\
  (to_b32 (@nnext_up _ NumF32 x) = @nnext_up _ NumB32 (to_b32 x) /\ to_b32 (@nnext_dn _ NumF32 x) = @nnext_dn _ NumB32 (to_b32 x)) /\
  (forall z, (Z.abs z < 2 ^ 53)%Z -> to_b32 (@nofZ _ NumF32 z) = @nofZ _ NumB32 z) /\
  (forall p q, (Z.abs p < 2 ^ 53)%Z -> (Z.abs q < 2 ^ 53)%Z -> to_b32 (@nofQ _ NumF32 p q) = @nofQ _ NumB32 p q) /\
  (forall k, (Z.abs k < 2 ^ 53)%Z -> to_b32 (@ngamma _ NumF32 k) = @ngamma _ NumB32 k) /\
  (to_b32 (@neps _ NumF32) = @neps _ NumB32 /\ to_b32 (@nmaxf _ NumF32) = @nmaxf _ NumB32 /\
   to_b32 (@ninf _ NumF32) = @ninf _ NumB32 /\ to_b32 (@ctiny _ NumF32) = @ctiny _ NumB32).
Proof.
  exact (fun x y Hx Hy =>
    conj (conj (to_b32_nneg x Hx) (to_b32_nabs x Hx))
   (conj (conj (to_b32_nltb x y Hx Hy) (conj (to_b32_nleb x y Hx Hy) (conj (to_b32_neqb x y Hx Hy) (to_b32_nis_nan x Hx))))
   (conj (conj (to_b32_nnext_up x) (to_b32_nnext_dn x))
   (conj to_b32_nofZ (conj to_b32_nofQ (conj to_b32_ngamma
   (conj to_b32_neps (conj to_b32_nmaxf (conj to_b32_ninf to_b32_ctiny))))))))).
Qed.

(** the interval arithmetic on the executed f32 instance is the Flocq binary32 run *)
Theorem C07_prim32_run_is_flocq_run : forall (I J : AF b32) (f e : b32),
  (@af_neg _ NumF32 (oI I) = oI (@af_neg _ NumB32 I) /\ @af_sqrt _ NumF32 (oI I) = oI (@af_sqrt _ NumB32 I)) /\
  (@af_add _ NumF32 (oI I) (oI J) = oI (@af_add _ NumB32 I J) /\ @af_sub _ NumF32 (oI I) (oI J) = oI (@af_sub _ NumB32 I J) /\
   @af_mul _ NumF32 (oI I) (oI J) = oI (@af_mul _ NumB32 I J) /\ @af_div _ NumF32 (oI I) (oI J) = oI (@af_div _ NumB32 I J)) /\
  (@af_add_f _ NumF32 (oI I) (of_b32 f) = oI (@af_add_f _ NumB32 I f) /\ @af_sub_f _ NumF32 (oI I) (of_b32 f) = oI (@af_sub_f _ NumB32 I f) /\
   @af_mul_f _ NumF32 (oI I) (of_b32 f) = oI (@af_mul_f _ NumB32 I f) /\ @af_div_f _ NumF32 (oI I) (of_b32 f) = oI (@af_div_f _ NumB32 I f)) /\
  (@af_from _ NumF32 (of_b32 f) = oI (@af_from _ NumB32 f) /\
   @af_from_value_and_error _ NumF32 (of_b32 f) (of_b32 e) = oI (@af_from_value_and_error _ NumB32 f e) /\
   @af_midpoint _ NumF32 (oI I) = of_b32 (@af_midpoint _ NumB32 I) /\
   @af_absolute_error _ NumF32 (oI I) = of_b32 (@af_absolute_error _ NumB32 I)).
Proof.
  exact (fun I J f e =>
    conj (conj (hom_af_neg of_b32 I) (hom_af_sqrt of_b32 I)) (
    conj (conj (hom_af_add of_b32 I J) (conj (hom_af_sub of_b32 I J) (conj (hom_af_mul of_b32 I J) (hom_af_div of_b32 I J)))) (
    conj (conj (hom_af_add_f of_b32 I f) (conj (hom_af_sub_f of_b32 I f)
      (conj (hom_af_mul_f of_b32 I f) (hom_af_div_f of_b32 I f)))) (
    (conj (hom_af_from of_b32 f) (conj (hom_af_from_value_and_error of_b32 f e)
      (conj (hom_af_midpoint of_b32 I) (hom_af_absolute_error of_b32 I)))))))).
Qed.

Theorem C07_prim32_solve_quadratic_is_flocq_run : forall a b c : AF b32,
  @af_solve_quadratic _ NumF32 (oI a) (oI b) (oI c) = mapOpt (mapP oI oI) (@af_solve_quadratic _ NumB32 a b c).
Proof. exact (hom_af_solve_quadratic of_b32). Qed.

(** non-vacuity / sanity on the executed instance: 16777216 + 1 = 16777216 in binary32 (ties to even), 0.1f * 3 and
    1/3 are the binary32 results; all operands are binary32-valued *)
Example C07_prim32_example :
  is32 16777216%float /\ is32 1%float /\ is32 3%float /\
  @nadd _ NumF32fast 16777216%float 1%float = 16777216%float /\
  to_b32 (@ndiv _ NumF32fast 1%float 3%float) = @ndiv _ NumB32 (@nofZ _ NumB32 1) (@nofZ _ NumB32 3).
Proof.
  assert (H1 : is32 1%float) by (apply is32_by_bits; vm_compute; reflexivity).
  assert (H3 : is32 3%float) by (apply is32_by_bits; vm_compute; reflexivity).
  split; [apply is32_by_bits; vm_compute; reflexivity|].
  split; [exact H1|]. split; [exact H3|].
  split; [apply Prim2SF_inj; vm_compute; reflexivity|].
  apply B2SF_inj. vm_compute. reflexivity.
Qed.
